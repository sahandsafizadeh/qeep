(* AccP.v — metrics/accuracy.go (C19): one Accumulate call adds the number of rows to the total
   and the truncated sum of the equality indicators to the matched count; a rejected call changes
   nothing; over a history of calls the counters are the sums over the accepted calls, and the
   rejected calls can be deleted.  Arbitrary [Scalar A], no laws: exact expressions. *)
From Coq Require Import List Arith ZArith Bool Lia.
From Qeep Require Import Model.Scalar Model.Nd Model.Fill Model.Data Model.Valid Model.Api Model.Grad Model.Components.
From Qeep Require Import Proofs.NdP Proofs.ElemP Proofs.TrackP Spec.ValidSpec Proofs.ValidP Proofs.CompP.
Import ListNotations.

Section AccP.
Context {A : Type} {SA : Scalar A}.
Notation T := (tensor A).
Notation heap := (@heap A).
Notation accuracy := (@accuracy A).

(* every tensor of the heap is well formed *)
Definition vals_wf (h : heap) : Prop := forall i v, valOf h i = Some v -> wf v.

(* sum of the equality indicators of two element sequences *)
Definition matchedL (pv tv : T) : A :=
  fold_left sadd (map2 seqt (flat (data pv)) (flat (data tv))) s0.

(* row-major view of v_same *)
Lemma v_same_flat (b : binary) (t u r : T) : wf t -> wf u -> v_same b t u = Ok r ->
  dims t = dims u /\ dims r = dims t /\ wf r /\
  flat (data r) = map2 (binaryF b) (flat (data t)) (flat (data u)).
Proof.
  intros Ht Hu E. destruct (v_same_spec b t u Ht Hu) as [H1 H2].
  destruct (list_eq_dec Nat.eq_dec (dims t) (dims u)) as [Ed|Nd]; [|rewrite (H2 Nd) in E; discriminate].
  destruct (H1 Ed) as (r' & Er & Hd & Hw & Hg). assert (r' = r) by congruence. subst r'.
  split; [exact Ed|]. split; [exact Hd|]. split; [exact Hw|].
  apply (pw2_flat (binaryF b) t u r Ht Hu Ed). split; [exact Hd|]. split; [exact Hw|exact Hg].
Qed.

(* ---------- one call ---------- *)
Theorem acc_accumulate_spec (h : heap) (a : accuracy) (yp yt : targ) : vals_wf h ->
  match lossArgs1 h yp yt with
  | Some (p, t) =>
      exists pv tv n, yp = Some p /\ yt = Some t /\ valOf h p = Some pv /\ valOf h t = Some tv /\
        dims pv = [n] /\ dims tv = [n] /\ length (flat (data pv)) = n /\ length (flat (data tv)) = n /\
        acc_accumulate h a yp yt =
          (mkAcc (acc_total a + n) (sadd (acc_correct a) (strunc (matchedL pv tv))), Ok tt)
  | None => acc_accumulate h a yp yt = (a, Err)
  end.
Proof.
  intros W. unfold acc_accumulate. destruct (lossArgs1 h yp yt) as [[p t]|] eqn:E; [|reflexivity].
  apply lossArgs1_spec in E as (-> & -> & pv & tv & n & Hp & Ht & Hdp & Hdt).
  pose proof (W _ _ Hp) as Wp. pose proof (W _ _ Ht) as Wt.
  exists pv, tv, n. rewrite Hp, Ht.
  do 6 (split; [first [reflexivity|assumption]|]).
  split; [apply rank1_flat_length; assumption|]. split; [apply rank1_flat_length; assumption|].
  destruct (v_same_spec BiEq pv tv Wp Wt) as [H _].
  destruct (H ltac:(congruence)) as (eq & Eeq & Hd & Hw & Hg). rewrite Eeq.
  destruct (v_same_flat BiEq pv tv eq Wp Wt Eeq) as (_ & _ & _ & Hfl).
  unfold r_sum. rewrite reduceBy_spec by apply Hw. rewrite Hfl, Hd, Hdp. reflexivity.
Qed.

(* which calls are rejected *)
Lemma lossArgs1_none_iff (h : heap) (yp yt : targ) :
  lossArgs1 h yp yt = None <-> forall p t, ~ lossArgs1Pre h yp yt p t.
Proof.
  split.
  - intros E p t H. apply lossArgs1_spec in H. congruence.
  - intros H. destruct (lossArgs1 h yp yt) as [[p t]|] eqn:E; [|reflexivity].
    apply lossArgs1_spec in E. exfalso. apply (H p t E).
Qed.

Corollary acc_accumulate_rejected (h : heap) (a : accuracy) (yp yt : targ) :
  (forall p t, ~ lossArgs1Pre h yp yt p t) -> acc_accumulate h a yp yt = (a, Err).
Proof. intros H. apply lossArgs1_none_iff in H. unfold acc_accumulate. rewrite H. reflexivity. Qed.

(* whatever the arguments and the heap: a call that does not succeed leaves the counts alone *)
Theorem acc_accumulate_unchanged (h : heap) (a : accuracy) (yp yt : targ) :
  snd (acc_accumulate h a yp yt) <> Ok tt -> fst (acc_accumulate h a yp yt) = a.
Proof.
  unfold acc_accumulate. destruct (lossArgs1 h yp yt) as [[p t]|]; [|reflexivity].
  destruct (valOf h p) as [pv|]; [destruct (valOf h t) as [tv|]|]; try reflexivity.
  destruct (v_same BiEq pv tv) as [eq| |]; try reflexivity.
  destruct (r_sum eq); [|reflexivity]. cbn. intros H. exfalso. apply H. reflexivity.
Qed.

Theorem acc_accumulate_never_panics (h : heap) (a : accuracy) (yp yt : targ) : vals_wf h ->
  snd (acc_accumulate h a yp yt) <> Panic.
Proof.
  intros W. pose proof (acc_accumulate_spec h a yp yt W) as H.
  destruct (lossArgs1 h yp yt) as [[p t]|].
  - destruct H as (pv & tv & n & _ & _ & _ & _ & _ & _ & _ & _ & ->). discriminate.
  - rewrite H. discriminate.
Qed.

Lemma acc_result_eq (a : accuracy) :
  acc_result a = if acc_total a =? 0 then sconst 0 0 else sdiv (acc_correct a) (sofnat (acc_total a)).
Proof. reflexivity. Qed.

(* ---------- a history of calls ---------- *)
Definition acc_run (h : heap) (calls : list (targ * targ)) (a : accuracy) : accuracy :=
  fold_left (fun a c => fst (acc_accumulate h a (fst c) (snd c))) calls a.

Definition accepted (h : heap) (c : targ * targ) : bool :=
  match lossArgs1 h (fst c) (snd c) with Some _ => true | None => false end.
(* number of rows of an accepted call *)
Definition call_len (h : heap) (c : targ * targ) : nat :=
  match lossArgs1 h (fst c) (snd c) with Some (p, _) => dim0Of h p | None => 0 end.
(* matched rows of an accepted call: float64(int(sum of indicators)) *)
Definition call_matched (h : heap) (c : targ * targ) : A :=
  match lossArgs1 h (fst c) (snd c) with
  | Some (p, t) =>
      match valOf h p, valOf h t with Some pv, Some tv => strunc (matchedL pv tv) | _, _ => s0 end
  | None => s0
  end.

Lemma accepted_iff (h : heap) (c : targ * targ) :
  accepted h c = true <-> exists p t, lossArgs1Pre h (fst c) (snd c) p t.
Proof.
  unfold accepted. destruct (lossArgs1 h (fst c) (snd c)) as [[p t]|] eqn:E.
  - split; [|reflexivity]. intros _. exists p, t. apply lossArgs1_spec, E.
  - split; [discriminate|]. intros (p & t & H). apply lossArgs1_spec in H. congruence.
Qed.

Lemma acc_step (h : heap) (a : accuracy) (c : targ * targ) : vals_wf h ->
  fst (acc_accumulate h a (fst c) (snd c)) =
  if accepted h c then mkAcc (acc_total a + call_len h c) (sadd (acc_correct a) (call_matched h c)) else a.
Proof.
  intros W. pose proof (acc_accumulate_spec h a (fst c) (snd c) W) as H.
  unfold accepted, call_len, call_matched. destruct (lossArgs1 h (fst c) (snd c)) as [[p t]|].
  - destruct H as (pv & tv & n & _ & _ & Hp & Ht & Hdp & _ & _ & _ & ->). cbn [fst].
    unfold dim0Of. rewrite Hp, Ht, Hdp. reflexivity.
  - rewrite H. reflexivity.
Qed.

(* rejected calls can be deleted *)
Theorem acc_run_filter (h : heap) (calls : list (targ * targ)) : vals_wf h ->
  forall a, acc_run h calls a = acc_run h (filter (accepted h) calls) a.
Proof.
  intros W. unfold acc_run. induction calls as [|c calls IH]; intros a; cbn [fold_left filter]; [reflexivity|].
  rewrite acc_step by exact W. destruct (accepted h c) eqn:E; cbn [fold_left].
  - rewrite acc_step by exact W. rewrite E. apply IH.
  - apply IH.
Qed.

Corollary acc_run_delete (h : heap) (l1 l2 : list (targ * targ)) (c : targ * targ) (a : accuracy) :
  vals_wf h -> accepted h c = false -> acc_run h (l1 ++ c :: l2) a = acc_run h (l1 ++ l2) a.
Proof.
  intros W E. rewrite (acc_run_filter h (l1 ++ c :: l2) W), (acc_run_filter h (l1 ++ l2) W).
  rewrite !filter_app. cbn [filter]. rewrite E. reflexivity.
Qed.

(* the counters after a history: sums over the accepted calls, in order *)
Theorem acc_history (h : heap) (calls : list (targ * targ)) : vals_wf h ->
  forall a, acc_run h calls a =
    mkAcc (acc_total a + list_sum (map (call_len h) (filter (accepted h) calls)))
          (fold_left sadd (map (call_matched h) (filter (accepted h) calls)) (acc_correct a)).
Proof.
  intros W. induction calls as [|c calls IH]; intros a.
  - cbn. rewrite Nat.add_0_r. destruct a; reflexivity.
  - unfold acc_run in *. cbn [fold_left filter]. rewrite acc_step by exact W.
    destruct (accepted h c) eqn:E.
    + rewrite IH. cbn [acc_total acc_correct map list_sum fold_left]. f_equal. unfold list_sum. cbn [fold_right]. lia.
    + apply IH.
Qed.

Corollary acc_history_new (h : heap) (calls : list (targ * targ)) : vals_wf h ->
  let acc := filter (accepted h) calls in
  let total := list_sum (map (call_len h) acc) in
  let matched := fold_left sadd (map (call_matched h) acc) (sconst 0 0) in
  acc_total (acc_run h calls acc_new) = total /\
  acc_correct (acc_run h calls acc_new) = matched /\
  acc_result (acc_run h calls acc_new) = if total =? 0 then sconst 0 0 else sdiv matched (sofnat total).
Proof.
  intros W. cbv zeta. rewrite (acc_history h calls W acc_new). cbn [acc_total acc_correct acc_new Nat.add].
  split; [reflexivity|]. split; reflexivity.
Qed.

End AccP.

(* ---------- non-vacuity ---------- *)
Module AccExamples.
Import CompExamples.
Open Scope Z_scope.

Definition v4 (a b c d : Z) : tensor Z := mkT [4%nat] (Vec [Sc a; Sc b; Sc c; Sc d]).
Definition v3 (a b c : Z) : tensor Z := mkT [3%nat] (Vec [Sc a; Sc b; Sc c]).
(* 0: predictions, 1: targets (2 of 4 match), 2: targets (all match), 3: wrong length, 4: rank 2 *)
Definition hA : @heap Z :=
  [mkNode (v4 1 2 3 4) false false None [] None; mkNode (v4 1 0 3 9) false false None [] None;
   mkNode (v4 1 2 3 4) false false None [] None; mkNode (v3 1 2 3) false false None [] None;
   mkNode CompExamples.tw false false None [] None].

Lemma hA_wf : vals_wf hA.
Proof.
  intros i v H. do 5 (destruct i as [|i]; [inversion H; subst; split; [apply wfndb_spec; reflexivity|repeat constructor]|]).
  destruct i; discriminate.
Qed.

Definition calls : list (targ * targ) :=
  [(Some 0, Some 1); (Some 0, Some 3); (None, Some 1); (Some 0, Some 2); (Some 4, Some 4); (Some 0, None)]%nat.

Example acc_ex : acc_run hA calls acc_new = mkAcc 8 6.
Proof. vm_compute. reflexivity. Qed.
Example acc_filter_ex : filter (accepted hA) calls = [(Some 0, Some 1); (Some 0, Some 2)]%nat.
Proof. vm_compute. reflexivity. Qed.
Example acc_rej_ex :
  acc_accumulate hA (mkAcc 8 6) (Some 0%nat) (Some 3%nat) = (mkAcc 8 6, Err) /\
  acc_accumulate hA (mkAcc 8 6) None (Some 3%nat) = (mkAcc 8 6, Err) /\
  acc_accumulate hA (mkAcc 8 6) (Some 0%nat) (Some 1%nat) = (mkAcc 12 8, Ok tt).
Proof. vm_compute. auto. Qed.
Example acc_history_inst :
  acc_total (acc_run hA calls acc_new) = 8%nat /\ acc_correct (acc_run hA calls acc_new) = 6.
Proof.
  destruct (acc_history_new hA calls hA_wf) as (H1 & H2 & _). rewrite H1, H2. vm_compute. auto.
Qed.
Example acc_result_ex : acc_result (@acc_new Z _) = 0 /\ acc_result (mkAcc 8 16) = 2.
Proof. vm_compute. auto. Qed.

End AccExamples.

Print Assumptions acc_accumulate_spec.
Print Assumptions acc_accumulate_rejected.
Print Assumptions acc_accumulate_unchanged.
Print Assumptions acc_accumulate_never_panics.
Print Assumptions acc_run_filter.
Print Assumptions acc_run_delete.
Print Assumptions acc_history.
Print Assumptions acc_history_new.
