(* AccRP.v — metrics/accuracy.go over the reals (C19).
   Labels are arbitrary reals that are pairwise either identical or further apart than the library's
   equality threshold ([sep] of CmpRP.v).  Then the truncated sum of the equality indicators of one
   accepted call is the NUMBER OF EQUAL POSITIONS ([matches]), and after any history of calls
   (valid or not) Result() is
        (Σ matches over the accepted calls) / (Σ lengths over the accepted calls)      (0 if nothing was counted),
   a number in [0,1] that ignores the rejected calls and depends only on the concatenated
   prediction / target sequences, not on how they were cut into batches. *)
From Coq Require Import List Arith ZArith Bool Lia Reals Lra.
From Qeep Require Import Model.Scalar Model.Nd Model.Fill Model.Data Model.Valid Model.Api Model.Grad
  Model.Components Model.Consts Spec.RScalar Spec.ValidSpec.
From Qeep Require Import Proofs.NdP Proofs.ElemP Proofs.ValidP Proofs.CompP Proofs.AccP Proofs.CmpRP.
Import ListNotations.
Open Scope R_scope.

(* ---- number of equal positions ---- *)
Definition matches (xs ys : list R) : nat :=
  length (filter (fun p => if Req_EM_T (fst p) (snd p) then true else false) (combine xs ys)).

Lemma matches_nil_l ys : matches [] ys = 0%nat.
Proof. reflexivity. Qed.

Lemma matches_cons x xs y ys :
  matches (x :: xs) (y :: ys) = ((if Req_EM_T x y then 1 else 0) + matches xs ys)%nat.
Proof.
  unfold matches. cbn [combine filter fst snd]. destruct (Req_EM_T x y); reflexivity.
Qed.

Lemma filter_len_le {X} (f : X -> bool) l : (length (filter f l) <= length l)%nat.
Proof. induction l as [|x l IH]; cbn [filter length]; [lia|]. destruct (f x); cbn [length]; lia. Qed.

Lemma matches_le xs ys : (matches xs ys <= length xs)%nat /\ (matches xs ys <= length ys)%nat.
Proof.
  unfold matches.
  pose proof (filter_len_le (fun p : R * R => if Req_EM_T (fst p) (snd p) then true else false) (combine xs ys)) as H.
  rewrite combine_length in H. lia.
Qed.

Theorem matches_app xs1 xs2 ys1 ys2 : length xs1 = length ys1 ->
  matches (xs1 ++ xs2) (ys1 ++ ys2) = (matches xs1 ys1 + matches xs2 ys2)%nat.
Proof.
  intros Hl. unfold matches. rewrite (combine_app_eq xs1 xs2 ys1 ys2 Hl), filter_app, app_length. reflexivity.
Qed.

(* all positions match exactly when the sequences are equal *)
Theorem matches_all_iff xs ys : length xs = length ys -> (matches xs ys = length xs <-> xs = ys).
Proof.
  revert ys. induction xs as [|x xs IH]; intros [|y ys] Hl; cbn in Hl; try discriminate.
  - split; reflexivity.
  - rewrite matches_cons. cbn [length]. pose proof (matches_le xs ys) as [Hm _].
    destruct (Req_EM_T x y) as [E|N].
    + subst y. split.
      * intros H. f_equal. apply IH; lia.
      * intros H. inversion H; subst ys. assert (E : matches xs xs = length xs) by (apply IH; reflexivity). lia.
    + split; [intros H; lia|intros H; inversion H; contradiction].
Qed.

(* ---- batches: what an accepted call contributes ---- *)
Definition total_of (bs : list (list R * list R)) : nat := list_sum (map (fun b => length (fst b)) bs).
Definition matched_of (bs : list (list R * list R)) : nat := list_sum (map (fun b => matches (fst b) (snd b)) bs).
Definition acc_of (bs : list (list R * list R)) : R :=
  if total_of bs =? 0 then 0 else INR (matched_of bs) / INR (total_of bs).
(* predictions and targets of a batch have the same length *)
Definition wfb (bs : list (list R * list R)) : Prop := Forall (fun b => length (fst b) = length (snd b)) bs.

Lemma matched_le_total bs : (matched_of bs <= total_of bs)%nat.
Proof.
  unfold matched_of, total_of. induction bs as [|b bs IH]; cbn [map list_sum fold_right]; [lia|].
  pose proof (matches_le (fst b) (snd b)) as [H _]. unfold list_sum in IH. lia.
Qed.

Theorem accuracy_range bs : 0 <= acc_of bs <= 1.
Proof.
  unfold acc_of. destruct (total_of bs =? 0) eqn:E; [lra|]. apply Nat.eqb_neq in E.
  pose proof (matched_le_total bs) as Hle. apply le_INR in Hle.
  assert (Ht : 0 < INR (total_of bs)) by (apply lt_0_INR; lia).
  pose proof (pos_INR (matched_of bs)) as Hm.
  assert (Hi : 0 < / INR (total_of bs)) by (apply Rinv_0_lt_compat, Ht).
  unfold Rdiv. split.
  - apply Rmult_le_pos; lra.
  - rewrite <- (Rinv_r (INR (total_of bs))) by lra. apply Rmult_le_compat_r; lra.
Qed.

Lemma total_of_concat bs : total_of bs = length (concat (map fst bs)).
Proof.
  unfold total_of. induction bs as [|b bs IH]; cbn [map list_sum fold_right concat]; [reflexivity|].
  rewrite app_length. unfold list_sum in IH. rewrite IH. reflexivity.
Qed.

Lemma concat_lengths bs : wfb bs -> length (concat (map fst bs)) = length (concat (map snd bs)).
Proof.
  induction 1 as [|b bs Hb _ IH]; cbn [map concat]; [reflexivity|]. rewrite !app_length. lia.
Qed.

Lemma matched_of_concat bs : wfb bs -> matched_of bs = matches (concat (map fst bs)) (concat (map snd bs)).
Proof.
  unfold matched_of. induction 1 as [|b bs Hb _ IH]; cbn [map list_sum fold_right concat]; [reflexivity|].
  rewrite (matches_app _ _ _ _ Hb). unfold list_sum in IH. rewrite IH. reflexivity.
Qed.

(* the value is a function of the concatenated sequences only *)
Theorem acc_of_flat bs : wfb bs ->
  let P := concat (map fst bs) in let Tg := concat (map snd bs) in
  acc_of bs = if length P =? 0 then 0 else INR (matches P Tg) / INR (length P).
Proof.
  intros W. cbv zeta. unfold acc_of. rewrite (matched_of_concat bs W), total_of_concat. reflexivity.
Qed.

Theorem partition_invariant bs1 bs2 : wfb bs1 -> wfb bs2 ->
  concat (map fst bs1) = concat (map fst bs2) -> concat (map snd bs1) = concat (map snd bs2) ->
  acc_of bs1 = acc_of bs2.
Proof.
  intros W1 W2 E1 E2. rewrite (acc_of_flat bs1 W1), (acc_of_flat bs2 W2). cbv zeta. rewrite E1, E2. reflexivity.
Qed.

(* in particular: one big batch, or one call per row *)
Corollary one_batch bs : wfb bs -> acc_of bs = acc_of [(concat (map fst bs), concat (map snd bs))].
Proof.
  intros W. apply partition_invariant; [exact W| |cbn; rewrite app_nil_r; reflexivity|cbn; rewrite app_nil_r; reflexivity].
  constructor; [|constructor]. cbn [fst snd]. apply concat_lengths, W.
Qed.

(* ---- the model's Accuracy on the real instance ---- *)
Section R.
Variable thr : R.
Variable draw : bool -> nat -> R.
Hypothesis thr_nonneg : 0 <= thr.
Local Instance RS : Scalar R := R_scalar thr draw.
Notation T := (tensor R).
Notation heap := (@heap R).
Notation sepP := (fun p : R * R => sep thr (fst p) (snd p)).

Lemma seqt_same x : seqt x x = 1.
Proof.
  cbn [seqt RS R_scalar]. replace (x - x) with 0 by ring. rewrite Rabs_R0.
  destruct (Rle_dec 0 thr); [reflexivity|contradiction].
Qed.

Lemma seqt_far x y : thr < Rabs (x - y) -> seqt x y = 0.
Proof. intros H. cbn [seqt RS R_scalar]. destruct (Rle_dec (Rabs (x - y)) thr); [lra|reflexivity]. Qed.

Lemma sep_neq x y : sep thr x y -> x <> y -> thr < Rabs (x - y).
Proof. intros [E|H] N; [contradiction|exact H]. Qed.

Lemma sconst0_R : sconst 0 0 = 0.
Proof. cbn [sconst RS R_scalar]. unfold dec2R. cbn [powerRZ]. ring. Qed.

(* the indicator of a separated pair is the indicator of equality *)
Lemma seqt_sep x y : sep thr x y -> seqt x y = if Req_EM_T x y then 1 else 0.
Proof.
  intros H. destruct (Req_EM_T x y) as [E|N]; [subst; apply seqt_same|apply seqt_far, sep_neq; assumption].
Qed.

Lemma matched_fold (l : list (R * R)) : forall a, Forall sepP l ->
  fold_left Rplus (map (fun p => seqt (fst p) (snd p)) l) a =
  a + INR (length (filter (fun p => if Req_EM_T (fst p) (snd p) then true else false) l)).
Proof.
  induction l as [|[x y] l IH]; intros a H; cbn [map fold_left filter fst snd].
  - cbn. ring.
  - inversion H as [|? ? Hp Hl]; subst. cbn [fst snd] in Hp. rewrite (IH _ Hl), (seqt_sep x y Hp).
    destruct (Req_EM_T x y); cbn [length]; [rewrite S_INR|]; ring.
Qed.

(* the sum of the indicators is the number of equal positions ... *)
Theorem matchedL_counts (xs ys : list R) : Forall sepP (combine xs ys) ->
  fold_left sadd (map2 seqt xs ys) s0 = INR (matches xs ys).
Proof.
  intros H. unfold map2, matches. change (@sadd R RS) with Rplus. change (@s0 R RS) with 0.
  rewrite (matched_fold _ 0 H). ring.
Qed.

(* ... and float64(int(.)) of a count is the count *)
Theorem trunc_INR (k : nat) : strunc (INR k) = INR k.
Proof.
  cbn [strunc RS R_scalar]. unfold Rtrunc. destruct (Rle_dec 0 (INR k)) as [_|N]; [|contradiction N; apply pos_INR].
  rewrite Int_part_INR. symmetry. apply INR_IZR_INZ.
Qed.

Corollary matchedL_trunc (pv tv : T) : Forall sepP (combine (flat (data pv)) (flat (data tv))) ->
  strunc (matchedL pv tv) = INR (matches (flat (data pv)) (flat (data tv))).
Proof. intros H. unfold matchedL. rewrite (matchedL_counts _ _ H). apply trunc_INR. Qed.

(* ---- one call: its prediction and target sequences ---- *)
Definition call_preds (h : heap) (c : targ * targ) : list R :=
  match lossArgs1 h (fst c) (snd c) with
  | Some (p, _) => match valOf h p with Some pv => flat (data pv) | None => [] end
  | None => []
  end.
Definition call_targs (h : heap) (c : targ * targ) : list R :=
  match lossArgs1 h (fst c) (snd c) with
  | Some (_, t) => match valOf h t with Some tv => flat (data tv) | None => [] end
  | None => []
  end.
(* the labels of the call are pairwise identical or separated *)
Definition call_sep (h : heap) (c : targ * targ) : Prop :=
  Forall sepP (combine (call_preds h c) (call_targs h c)).

Theorem call_facts (h : heap) (c : targ * targ) : vals_wf h -> accepted h c = true ->
  length (call_preds h c) = call_len h c /\ length (call_targs h c) = call_len h c /\
  (call_sep h c -> call_matched h c = INR (matches (call_preds h c) (call_targs h c))).
Proof.
  intros W Ha. pose proof (acc_accumulate_spec h acc_new (fst c) (snd c) W) as H.
  unfold accepted in Ha. unfold call_sep, call_preds, call_targs, call_len, call_matched.
  destruct (lossArgs1 h (fst c) (snd c)) as [[p t]|]; [|discriminate].
  destruct H as (pv & tv & n & _ & _ & Hp & Ht & Hdp & _ & Hlp & Hlt & _).
  unfold dim0Of. rewrite Hp, Ht, Hdp. cbn [nth].
  split; [exact Hlp|]. split; [exact Hlt|]. apply matchedL_trunc.
Qed.

(* the batches of a history: the (predictions, targets) of its accepted calls, in order *)
Definition batches (h : heap) (calls : list (targ * targ)) : list (list R * list R) :=
  map (fun c => (call_preds h c, call_targs h c)) (filter (accepted h) calls).

Theorem batches_wfb (h : heap) calls : vals_wf h -> wfb (batches h calls).
Proof.
  intros W. unfold wfb, batches. apply Forall_forall. intros b Hb.
  apply in_map_iff in Hb as (c & <- & Hc). apply filter_In in Hc as [_ Ha]. cbn [fst snd].
  destruct (call_facts h c W Ha) as (H1 & H2 & _). congruence.
Qed.

Lemma sum_counts (h : heap) (g : targ * targ -> nat) (l : list (targ * targ)) : forall a,
  (forall c, In c l -> call_matched h c = INR (g c)) ->
  fold_left Rplus (map (call_matched h) l) a = a + INR (list_sum (map g l)).
Proof.
  induction l as [|c l IH]; intros a H; cbn [map fold_left list_sum fold_right].
  - cbn. ring.
  - rewrite IH by (intros c' Hc'; apply H; right; exact Hc'). rewrite (H c (or_introl eq_refl)).
    unfold list_sum. rewrite plus_INR. ring.
Qed.

(* Result() after ANY list of calls *)
Theorem accuracy_result (h : heap) (calls : list (targ * targ)) : vals_wf h ->
  (forall c, In c calls -> accepted h c = true -> call_sep h c) ->
  let acc := filter (accepted h) calls in
  let total := list_sum (map (fun c => length (call_preds h c)) acc) in
  let matched := list_sum (map (fun c => matches (call_preds h c) (call_targs h c)) acc) in
  acc_total (acc_run h calls acc_new) = total /\
  acc_correct (acc_run h calls acc_new) = INR matched /\
  acc_result (acc_run h calls acc_new) = (if total =? 0 then 0 else INR matched / INR total) /\
  acc_result (acc_run h calls acc_new) = acc_of (batches h calls).
Proof.
  intros W Hsep. cbv zeta. destruct (acc_history_new h calls W) as (Ht & Hc & Hr). cbv zeta in Ht, Hc, Hr.
  set (acc := filter (accepted h) calls) in *.
  assert (Hin : forall c, In c acc -> accepted h c = true /\ call_sep h c).
  { intros c Hc'. apply filter_In in Hc' as [Hc0 Ha]. split; [exact Ha|apply Hsep; assumption]. }
  assert (E1 : map (call_len h) acc = map (fun c => length (call_preds h c)) acc).
  { apply map_ext_in. intros c Hc'. destruct (Hin c Hc') as [Ha _]. symmetry. apply (call_facts h c W Ha). }
  assert (E2 : fold_left sadd (map (call_matched h) acc) (sconst 0 0) =
               INR (list_sum (map (fun c => matches (call_preds h c) (call_targs h c)) acc))).
  { change (@sadd R RS) with Rplus.
    rewrite (sum_counts h (fun c => matches (call_preds h c) (call_targs h c))), sconst0_R; [ring|].
    intros c Hc'. destruct (Hin c Hc') as [Ha Hs]. apply (call_facts h c W Ha), Hs. }
  rewrite E1 in Ht, Hr. rewrite E2 in Hc, Hr. rewrite sconst0_R in Hr.
  split; [exact Ht|]. split; [exact Hc|]. split; [exact Hr|].
  rewrite Hr. unfold acc_of, total_of, matched_of, batches. fold acc. rewrite !map_map. reflexivity.
Qed.

Corollary accuracy_result_range (h : heap) (calls : list (targ * targ)) : vals_wf h ->
  (forall c, In c calls -> accepted h c = true -> call_sep h c) ->
  0 <= acc_result (acc_run h calls acc_new) <= 1.
Proof.
  intros W Hsep. destruct (accuracy_result h calls W Hsep) as (_ & _ & _ & E). rewrite E. apply accuracy_range.
Qed.

(* rejected calls (nil arguments, wrong rank, different lengths, ...) leave no trace *)
Theorem rejected_calls_do_not_count (h : heap) (calls : list (targ * targ)) (a : accuracy) : vals_wf h ->
  acc_run h calls a = acc_run h (filter (accepted h) calls) a /\
  acc_result (acc_run h calls a) = acc_result (acc_run h (filter (accepted h) calls) a).
Proof. intros W. rewrite <- (acc_run_filter h calls W a). split; reflexivity. Qed.

Corollary rejected_call_anywhere (h : heap) (l1 l2 : list (targ * targ)) (c : targ * targ) (a : accuracy) :
  vals_wf h -> accepted h c = false ->
  acc_result (acc_run h (l1 ++ c :: l2) a) = acc_result (acc_run h (l1 ++ l2) a).
Proof. intros W E. rewrite (acc_run_delete h l1 l2 c a W E). reflexivity. Qed.

(* two histories (possibly on different heaps, with different batch boundaries and different rejected
   calls in between) that feed the same prediction sequence and the same target sequence agree *)
Theorem accuracy_partition_invariant (h1 h2 : heap) (calls1 calls2 : list (targ * targ)) :
  vals_wf h1 -> vals_wf h2 ->
  (forall c, In c calls1 -> accepted h1 c = true -> call_sep h1 c) ->
  (forall c, In c calls2 -> accepted h2 c = true -> call_sep h2 c) ->
  concat (map fst (batches h1 calls1)) = concat (map fst (batches h2 calls2)) ->
  concat (map snd (batches h1 calls1)) = concat (map snd (batches h2 calls2)) ->
  acc_result (acc_run h1 calls1 acc_new) = acc_result (acc_run h2 calls2 acc_new).
Proof.
  intros W1 W2 S1 S2 E1 E2.
  destruct (accuracy_result h1 calls1 W1 S1) as (_ & _ & _ & ->).
  destruct (accuracy_result h2 calls2 W2 S2) as (_ & _ & _ & ->).
  apply partition_invariant; [apply batches_wfb, W1|apply batches_wfb, W2|exact E1|exact E2].
Qed.

(* the result in terms of the two concatenated sequences *)
Corollary accuracy_result_flat (h : heap) (calls : list (targ * targ)) : vals_wf h ->
  (forall c, In c calls -> accepted h c = true -> call_sep h c) ->
  let P := concat (map fst (batches h calls)) in let Tg := concat (map snd (batches h calls)) in
  length P = length Tg /\
  acc_result (acc_run h calls acc_new) = if length P =? 0 then 0 else INR (matches P Tg) / INR (length P).
Proof.
  intros W Hsep. cbv zeta. split; [apply concat_lengths, batches_wfb, W|].
  destruct (accuracy_result h calls W Hsep) as (_ & _ & _ & ->). apply (acc_of_flat _ (batches_wfb h calls W)).
Qed.

End R.

(* ---- non-vacuity, with the library's threshold ---- *)
Module AccRExamples.

Definition thrR : R := dec2R (fst c_eq_threshold) (snd c_eq_threshold).

Lemma thrR_small : 0 <= thrR < 1.
Proof.
  split; [apply eq_threshold_nonneg|].
  unfold thrR, dec2R, c_eq_threshold; cbn [fst snd]. rewrite Rmult_1_l.
  change (powerRZ 10 (-240)) with (/ 10 ^ 240). rewrite <- Rinv_1. apply Rinv_lt_contravar.
  - rewrite Rmult_1_l. apply pow_lt. lra.
  - apply Rlt_pow_R1; [lra|lia].
Qed.

Section Ex.
Variable draw : bool -> nat -> R.
Local Hint Extern 0 (Scalar R) => exact (RS thrR draw) : typeclass_instances.

Example matches_ex : matches [1; 2; 3; 4] [1; 0; 3; 9] = 2%nat /\ matches [1; 2; 3; 4] [1; 2; 3; 4] = 4%nat.
Proof.
  rewrite !matches_cons, !matches_nil_l.
  repeat match goal with |- context [Req_EM_T ?a ?b] => destruct (Req_EM_T a b); try lra end. split; reflexivity.
Qed.

Definition v4 (a b c d : R) : tensor R := mkT [4%nat] (Vec [Sc a; Sc b; Sc c; Sc d]).
Definition v3 (a b c : R) : tensor R := mkT [3%nat] (Vec [Sc a; Sc b; Sc c]).
Definition m22 : tensor R := mkT [2; 2]%nat (Vec [Vec [Sc 1; Sc 2]; Vec [Sc 3; Sc 4]]).
(* 0: predictions, 1: targets (2 of 4 match), 2: targets (all match), 3: wrong length, 4: rank 2 *)
Definition hA : @heap R :=
  [mkNode (v4 1 2 3 4) false false None [] None; mkNode (v4 1 0 3 9) false false None [] None;
   mkNode (v4 1 2 3 4) false false None [] None; mkNode (v3 1 2 3) false false None [] None;
   mkNode m22 false false None [] None].

Lemma hA_wf : vals_wf hA.
Proof.
  intros i v H. do 5 (destruct i as [|i]; [inversion H; subst; split; [apply wfndb_spec; reflexivity|repeat constructor]|]).
  destruct i; discriminate.
Qed.

Definition calls : list (targ * targ) :=
  [(Some 0, Some 1); (Some 0, Some 3); (None, Some 1); (Some 0, Some 2); (Some 4, Some 4); (Some 0, None)]%nat.

Lemma batches_ex : batches hA calls = [([1; 2; 3; 4], [1; 0; 3; 9]); ([1; 2; 3; 4], [1; 2; 3; 4])].
Proof. reflexivity. Qed.

Lemma sep_far x y : 1 <= Rabs (x - y) -> sep thrR x y.
Proof. intros H. right. pose proof thrR_small. lra. Qed.

Lemma calls_sep : forall c, In c calls -> accepted hA c = true -> call_sep thrR hA c.
Proof.
  intros c Hc Ha. unfold calls in Hc. cbn [In] in Hc.
  destruct Hc as [<-|[<-|[<-|[<-|[<-|[<-|[]]]]]]]; try discriminate Ha.
  - unfold call_sep. change (combine _ _) with [(1, 1); (2, 0); (3, 3); (4, 9)].
    apply Forall_cons; [left; reflexivity|]. apply Forall_cons.
    { apply sep_far. cbn [fst snd]. replace (2 - 0) with 2 by ring. rewrite Rabs_right; lra. }
    apply Forall_cons; [left; reflexivity|]. apply Forall_cons; [|apply Forall_nil].
    apply sep_far. cbn [fst snd]. rewrite Rabs_left; lra.
  - unfold call_sep. change (combine _ _) with [(1, 1); (2, 2); (3, 3); (4, 4)].
    repeat (apply Forall_cons; [left; reflexivity|]). apply Forall_nil.
Qed.

(* six calls, four of them rejected: 2 + 4 matches out of 4 + 4 rows *)
Example accuracy_ex : acc_result (acc_run hA calls acc_new) = 6 / 8.
Proof.
  destruct thrR_small as [H0 _].
  destruct (accuracy_result thrR draw H0 hA calls hA_wf calls_sep) as (_ & _ & _ & ->).
  rewrite batches_ex. unfold acc_of, total_of, matched_of. cbn [map fst snd list_sum fold_right length].
  destruct matches_ex as [-> ->]. cbn [Nat.add Nat.eqb INR]. lra.
Qed.

(* the same rows cut differently (here: one call of 8 rows) would give the same value *)
Example partition_ex :
  acc_of [([1; 2; 3; 4], [1; 0; 3; 9]); ([1; 2; 3; 4], [1; 2; 3; 4])] =
  acc_of [([1; 2; 3; 4; 1; 2; 3; 4], [1; 0; 3; 9; 1; 2; 3; 4])].
Proof. apply partition_invariant; repeat constructor. Qed.

Example trunc_ex : strunc (INR 6) = 6.
Proof. rewrite trunc_INR. cbn [INR]. lra. Qed.

End Ex.
End AccRExamples.

Print Assumptions matches_app.
Print Assumptions matches_all_iff.
Print Assumptions accuracy_range.
Print Assumptions acc_of_flat.
Print Assumptions partition_invariant.
Print Assumptions matchedL_counts.
Print Assumptions trunc_INR.
Print Assumptions call_facts.
Print Assumptions accuracy_result.
Print Assumptions accuracy_result_range.
Print Assumptions rejected_calls_do_not_count.
Print Assumptions rejected_call_anywhere.
Print Assumptions accuracy_partition_invariant.
Print Assumptions accuracy_result_flat.
Print Assumptions AccRExamples.accuracy_ex.
