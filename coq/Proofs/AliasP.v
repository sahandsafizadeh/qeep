(* AliasP.v — C10, second half: index slices supplied by the caller are decoupled from the
   library when the library copies them ([Copied]); the statement is false of an implementation
   whose back-edge closures retain the caller's slice ([Retained], defect D9). *)
From Coq Require Import List Arith ZArith Bool Lia.
From Qeep Require Import Model.Scalar Model.Nd Model.Fill Model.Data Model.Valid Model.Api Model.Grad
     Model.Backprop Model.Components Model.Scenario Model.Alias.
From Qeep Require Import Proofs.NdP Proofs.TrackP Proofs.StepP Proofs.HistoryP.
Import ListNotations.

Lemma nth_of_nth_error {X} (l : list X) k d : nth k l d = match nth_error l k with Some x => x | None => d end.
Proof. revert k. induction l as [|a l IH]; intros [|k]; cbn; auto. Qed.

Lemma setSlice_length sl sid new : length (setSlice sl sid new) = length sl.
Proof. unfold setSlice. apply mapi_length. Qed.

Lemma setSlice_nth sl sid new k :
  nth k (setSlice sl sid new) [] = if (k =? sid) && (k <? length sl) then new else nth k sl [].
Proof.
  rewrite !nth_of_nth_error. unfold setSlice. rewrite mapi_nth. cbn [fst snd].
  destruct (nth_error sl k) as [x|] eqn:E; cbn [option_map].
  - assert (Hk : k <? length sl = true) by (apply Nat.ltb_lt; apply nth_error_Some; congruence).
    rewrite Hk, andb_true_r. reflexivity.
  - assert (Hk : k <? length sl = false) by (apply Nat.ltb_ge; apply nth_error_None; exact E).
    rewrite Hk, andb_false_r. reflexivity.
Qed.

Section AliasP.
Context {A : Type} {SA : Scalar A}.
Notation T := (tensor A).
Notation state := (@state A).
Notation cmd := (@cmd A).
Notation acmd := (@acmd A).

Variable rd : bred.
Variable sealv : nat -> T -> T.
Variable sealg : nat -> option nat -> T -> T.
Variables (c_eps c_one_m_eps : A) (c_leaky c_sgd_lr dFull dUniL dUniU dNorM dNorS : dec) (c_softmax_dim : Z).
Notation step := (step rd sealv sealg c_eps c_one_m_eps c_leaky c_sgd_lr dFull dUniL dUniU dNorM dNorS c_softmax_dim).
Notation run_from := (run_from rd sealv sealg c_eps c_one_m_eps c_leaky c_sgd_lr dFull dUniL dUniU dNorM dNorS c_softmax_dim).
Notation exec := (exec rd sealv sealg c_eps c_one_m_eps c_leaky c_sgd_lr dFull dUniL dUniU dNorM dNorS c_softmax_dim).
Notation astep := (astep rd sealv sealg c_eps c_one_m_eps c_leaky c_sgd_lr dFull dUniL dUniU dNorM dNorS c_softmax_dim).
Notation arun := (arun rd sealv sealg c_eps c_one_m_eps c_leaky c_sgd_lr dFull dUniL dUniU dNorM dNorS c_softmax_dim).
Notation aexec := (aexec rd sealv sealg c_eps c_one_m_eps c_leaky c_sgd_lr dFull dUniL dUniU dNorM dNorS c_softmax_dim).

(* the observables of EVERY program (all tensors, all later back-propagations) are those of the
   core program in which each Slice/Patch carries the content its slice had AT CALL TIME and
   each caller-side mutation is a no-op *)
Theorem decoupled (s : state) (sl : store) recs (p : list acmd) :
  arun Copied (s, sl, recs) p = run_from s (compile sl p).
Proof.
  revert s sl recs. induction p as [|c p IH]; intros s sl recs; [reflexivity|].
  destruct c; cbn [Alias.arun Alias.astep Alias.compile Scenario.run_from Alias.record];
    destruct (step s _) as [s' o]; rewrite IH; reflexivity.
Qed.

(* the same for the final state: the heap (values, gradients, flags, edges) is the one of the core run *)
Theorem decoupled_state (s : state) (sl : store) recs (p : list acmd) :
  aexec Copied (s, sl, recs) p = (exec s (compile sl p), store_after sl p, recs).
Proof.
  revert s sl recs. induction p as [|c p IH]; intros s sl recs; [reflexivity|].
  destruct c; cbn [Alias.aexec Alias.astep Alias.compile StepP.exec Alias.record Alias.store_after];
    destruct (step s _) as [s' o]; apply IH.
Qed.

Lemma compile_app (sl : store) (p q : list acmd) :
  compile sl (p ++ q) = compile sl p ++ compile (store_after sl p) q.
Proof.
  revert sl. induction p as [|c p IH]; intros sl; [reflexivity|].
  destruct c; cbn [app Alias.compile Alias.store_after]; rewrite IH; reflexivity.
Qed.

(* the compiled program depends on the store only through the entries the program passes *)
Lemma compile_agree (p : list acmd) : forall (sl sl' : store), length sl = length sl' ->
  (forall k, uses k p = true -> nth k sl [] = nth k sl' []) -> compile sl p = compile sl' p.
Proof.
  induction p as [|c p IH]; intros sl sl' Hl H; [reflexivity|].
  destruct c as [t sid|t sid u|sid new|c]; cbn [Alias.compile Alias.uses] in *.
  - rewrite (H sid) by (rewrite Nat.eqb_refl; reflexivity). f_equal. apply IH; [exact Hl|].
    intros k Hk. apply H. rewrite Hk. apply orb_true_r.
  - rewrite (H sid) by (rewrite Nat.eqb_refl; reflexivity). f_equal. apply IH; [exact Hl|].
    intros k Hk. apply H. rewrite Hk. apply orb_true_r.
  - f_equal. apply IH; [rewrite !setSlice_length; exact Hl|].
    intros k Hk. rewrite !setSlice_nth, Hl, (H k Hk). reflexivity.
  - f_equal. apply IH; assumption.
Qed.

(* mutations after the call change nothing: overwriting a slice that is not passed to the
   library again is indistinguishable from doing nothing, whatever happened before and whatever
   follows (further operations on the sliced tensors, back-propagations through them, ...) *)
Theorem mutation_invisible (s : state) (sl : store) recs (pre post : list acmd) sid new :
  uses sid post = false ->
  arun Copied (s, sl, recs) (pre ++ AMutate sid new :: post) =
  arun Copied (s, sl, recs) (pre ++ ACore CNop :: post).
Proof.
  intros Hu. rewrite !decoupled, !compile_app. cbn [Alias.compile]. do 3 f_equal.
  apply compile_agree; [apply setSlice_length|].
  intros k Hk. rewrite setSlice_nth.
  destruct (k =? sid) eqn:E; [|reflexivity]. apply Nat.eqb_eq in E. subst k. congruence.
Qed.

(* sanity of the Retained model: without caller-side mutation the two modes agree *)
Notation heap := (@heap A).

(* the rules of these back edges capture the index [idx] *)
Definition carries (idx : list zrange) (es : list (nat * @rule A)) : Prop :=
  map (fun e : nat * @rule A => (fst e, refresh_rule idx (snd e))) es = es.

(* every recorded capture still carries the content of its slice *)
Definition fixed (sl : store) (recs : list (nat * nat)) (h : heap) : Prop :=
  forall id sid, In (id, sid) recs -> exists n, nth_error h id = Some n /\ carries (nth sid sl []) (nedges n).

Lemma updNode_id (h : heap) i f : (forall n, nth_error h i = Some n -> f n = n) -> updNode h i f = h.
Proof.
  intros Hf. apply nth_error_ext_len; [apply updNode_length|]. intros j _. rewrite updNode_nth.
  destruct (nth_error h j) as [n|] eqn:E; [|reflexivity]. cbn. destruct (j =? i) eqn:Ej; [|reflexivity].
  apply Nat.eqb_eq in Ej. subst j. rewrite (Hf n E). reflexivity.
Qed.

Lemma refresh_fixed (sl : store) recs (h : heap) : fixed sl recs h -> refresh sl recs h = h.
Proof.
  unfold refresh. induction recs as [|[id sid] recs IH]; intros Hf; [reflexivity|]. cbn [fold_left].
  assert (E : refresh1 sl h (id, sid) = h).
  { unfold refresh1. cbn [fst snd]. apply updNode_id. intros n Hn.
    destruct (Hf id sid (or_introl eq_refl)) as (n' & Hn' & He). assert (n' = n) by congruence. subst n'.
    destruct n; cbn in *. rewrite He. reflexivity. }
  rewrite E. apply IH. intros id' sid' Hin. apply Hf. right. exact Hin.
Qed.

(* no command changes the back edges of an existing node, except that ResetGradContext drops them *)
Lemma fixed_step (sl : store) recs (s : state) (c : cmd) :
  fixed sl recs (st_heap s) -> fixed sl recs (st_heap (fst (step s c))).
Proof.
  intros Hf id sid Hin. destruct (Hf id sid Hin) as (n & Hn & He).
  destruct (step_node rd sealv sealg c_eps c_one_m_eps c_leaky c_sgd_lr dFull dUniL dUniU dNorM dNorS c_softmax_dim s c id n Hn)
    as (n' & Hn' & [->|t b _ _ ->|t x log _ _ _ _ _ V _]); eexists; (split; [exact Hn'|]);
    [exact He|reflexivity|rewrite V; exact He].
Qed.

(* a sealed result whose back edges, if it has any, are [es] *)
Lemma fin_carries (s : state) (r : heap * res nat) idx id es : created s (fst (fin sealv s r)) = Some id ->
  (forall h', r = (h', Ok id) -> exists n, nth_error h' id = Some n /\
     (ntracked n = false -> nedges n = []) /\ (ntracked n = true -> nedges n = es)) ->
  carries idx es -> exists n, nth_error (st_heap (fst (fin sealv s r))) id = Some n /\ carries idx (nedges n).
Proof.
  intros Hc Hr He. destruct (fin_created sealv _ _ _ Hc) as (h' & Er & ->). destruct (Hr h' Er) as (n & Hn & H0 & H1).
  destruct (sealNode_node sealv h' id (length (st_env s)) n Hn) as (n' & Hn' & _ & _ & _ & G4 & _).
  exists n'. split; [exact Hn'|]. rewrite G4. destruct (ntracked n); [rewrite H1|rewrite H0]; auto. reflexivity.
Qed.

(* the tensor a Slice or Patch creates has no back edge, or those that capture the index passed *)
Lemma capture_created (s : state) (c : cmd) idx id :
  (exists t, c = CSlice t idx) \/ (exists t u, c = CPatch t idx u) -> created s (fst (step s c)) = Some id ->
  exists n, nth_error (st_heap (fst (step s c))) id = Some n /\ carries idx (nedges n).
Proof.
  intros [(t & ->)|(t & u & ->)]; unfold Scenario.step.
  - destruct (lookupT s t) as [x|]; [|rewrite bad_created; discriminate]. intros Hc.
    apply (fin_carries _ _ idx id [(x, RSliceX id x idx)] Hc); [|reflexivity].
    intros h' Er. apply h_slice_track in Er. destruct Er as (n & Hn & (_ & _ & Hne & _) & _ & _ & Hed & _). eauto.
  - destruct (lookupT s t) as [x|]; [|rewrite bad_created; discriminate].
    destruct (lookupArg s u) as [[p|]|]; [|rewrite plain_created; discriminate|rewrite bad_created; discriminate]. intros Hc.
    apply (fin_carries _ _ idx id [(x, RPatchX id p idx); (p, RPatchP id p idx)] Hc); [|reflexivity].
    intros h' Er. apply h_patch_track in Er. destruct Er as (n & Hn & (_ & _ & Hne & _) & _ & _ & Hed & _). eauto.
Qed.

Lemma record_fixed (sl : store) recs (s : state) (c : cmd) sid : fixed sl recs (st_heap s) ->
  (exists t, c = CSlice t (nth sid sl [])) \/ (exists t u, c = CPatch t (nth sid sl []) u) ->
  fixed sl (record Retained s (fst (step s c)) sid recs) (st_heap (fst (step s c))).
Proof.
  intros Hf Hc. pose proof (fixed_step sl recs s c Hf) as Hf'. unfold record.
  destruct (newTensor s (fst (step s c))) as [id|] eqn:Ec; [|exact Hf'].
  intros id' sid' [[= <- <-]|Hin]; [exact (capture_created s c _ id Hc Ec)|apply Hf', Hin].
Qed.

Fixpoint no_mutation (p : list acmd) : bool :=
  match p with [] => true | AMutate _ _ :: _ => false | _ :: q => no_mutation q end.

Lemma retained_agrees_aux (p : list acmd) : forall (s : state) (sl : store) recs, no_mutation p = true ->
  fixed sl recs (st_heap s) -> arun Retained (s, sl, recs) p = arun Copied (s, sl, []) p.
Proof.
  induction p as [|c p IH]; intros s sl recs Hm Hf; [reflexivity|].
  destruct c as [t sid|t sid u|sid new|c]; cbn [no_mutation] in Hm; try discriminate;
    cbn [Alias.arun Alias.astep].
  - pose proof (record_fixed sl recs s _ sid Hf (or_introl (ex_intro _ t eq_refl))) as Hf'.
    destruct (step s (CSlice t (nth sid sl []))) as [s' o]. f_equal. apply IH; assumption.
  - pose proof (record_fixed sl recs s _ sid Hf (or_intror (ex_intro _ t (ex_intro _ u eq_refl)))) as Hf'.
    destruct (step s (CPatch t (nth sid sl []) u)) as [s' o]. f_equal. apply IH; assumption.
  - assert (E : (if is_backprop c then {| st_heap := refresh sl recs (st_heap s); st_env := st_env s; st_rng := st_rng s |} else s) = s).
    { destruct (is_backprop c); [|reflexivity]. rewrite (refresh_fixed sl recs _ Hf). destruct s; reflexivity. }
    rewrite E. pose proof (fixed_step sl recs s c Hf) as Hf'.
    destruct (step s c) as [s' o]. cbn [fst] in *. f_equal. apply IH; assumption.
Qed.

(* the defect needs the mutation: programs in which the caller never overwrites a slice behave
   identically in both modes *)
Theorem retained_agrees_without_mutation (s : state) (sl : store) (p : list acmd) :
  no_mutation p = true -> arun Retained (s, sl, []) p = arun Copied (s, sl, []) p.
Proof. intros Hm. apply retained_agrees_aux; [exact Hm|]. intros id sid []. Qed.

End AliasP.

(* decoupled_refuted: mode Retained (defect D9) *)
Module AliasEx.
Import TrackEx StepEx.
#[local] Existing Instance Z_scalar.
Local Open Scope Z_scope.

Notation arunZ := (arun RedSum idv idg 0 1 d0 d0 d0 d0 d0 d0 d0 0).

(* leaf [1;2;3;4] tracked (name 0); s = leaf.Slice(idx) with idx = [{0,2}] (name 1);
   the caller overwrites idx[0] = {2,4} (name 2); BackPropagate(s) (name 3) *)
Definition d9 : list (@acmd Z) :=
  [ACore (CLeaf [4%nat] [1; 2; 3; 4] true); ASlice 0 0; AMutate 0 [(2, 4)]; ACore (CBackprop (Some 1%nat))].
Definition st0 : @astate Z := (init_state, [[(0, 2)]], []).

Example d9_copied : arunZ Copied st0 d9 =
  [ObTensor [4%nat] [1; 2; 3; 4]; ObTensor [2%nat] [1; 2]; ObOk;
   ObGrads 2 [(0%nat, Some ([4%nat], [1; 1; 0; 0])); (1%nat, Some ([2%nat], [1; 1]))]].
Proof. vm_compute. reflexivity. Qed.

Example d9_retained : arunZ Retained st0 d9 =
  [ObTensor [4%nat] [1; 2; 3; 4]; ObTensor [2%nat] [1; 2]; ObOk;
   ObGrads 2 [(0%nat, Some ([4%nat], [0; 0; 1; 1])); (1%nat, Some ([2%nat], [1; 1]))]].
Proof. vm_compute. reflexivity. Qed.

(* in mode Retained the gradient observable of the back-propagation differs from the Copied run,
   and differs from the run of the same program without the mutation: the library is NOT
   decoupled from the caller's slice *)
Theorem decoupled_refuted :
  exists (p p' : list (@acmd Z)) (st : @astate Z),
    p' = [ACore (CLeaf [4%nat] [1; 2; 3; 4] true); ASlice 0 0; ACore CNop; ACore (CBackprop (Some 1%nat))] /\
    p = [ACore (CLeaf [4%nat] [1; 2; 3; 4] true); ASlice 0 0; AMutate 0 [(2, 4)]; ACore (CBackprop (Some 1%nat))] /\
    nth 3 (arunZ Retained st p) ObBad <> nth 3 (arunZ Copied st p) ObBad /\
    nth 3 (arunZ Retained st p) ObBad <> nth 3 (arunZ Retained st p') ObBad /\
    arunZ Copied st p = arunZ Copied st p' /\
    arunZ Retained st p <> run_from RedSum idv idg 0 1 d0 d0 d0 d0 d0 d0 d0 0 (fst (fst st)) (compile (snd (fst st)) p).
Proof.
  exists d9, [ACore (CLeaf [4%nat] [1; 2; 3; 4] true); ASlice 0 0; ACore CNop; ACore (CBackprop (Some 1%nat))], st0.
  split; [reflexivity|]. split; [reflexivity|].
  split; [vm_compute; discriminate|]. split; [vm_compute; discriminate|].
  split; [vm_compute; reflexivity|vm_compute; discriminate].
Qed.

(* the positive theorems on the same program *)
Example d9_decoupled : arunZ Copied st0 d9 =
  runZ init_state [CLeaf [4%nat] [1; 2; 3; 4] true; CSlice 0 [(0, 2)]; CNop; CBackprop (Some 1%nat)].
Proof. exact (decoupled RedSum idv idg 0 1 d0 d0 d0 d0 d0 d0 d0 0 init_state [[(0, 2)]] [] d9). Qed.

Example d9_mutation_invisible : arunZ Copied st0 d9 =
  arunZ Copied st0 [ACore (CLeaf [4%nat] [1; 2; 3; 4] true); ASlice 0 0; ACore CNop; ACore (CBackprop (Some 1%nat))].
Proof.
  apply (mutation_invisible RedSum idv idg 0 1 d0 d0 d0 d0 d0 d0 d0 0 init_state [[(0, 2)]] []
           [ACore (CLeaf [4%nat] [1; 2; 3; 4] true); ASlice 0 0] [ACore (CBackprop (Some 1%nat))] 0 [(2, 4)]).
  reflexivity.
Qed.
End AliasEx.

Print Assumptions decoupled.
Print Assumptions decoupled_state.
Print Assumptions mutation_invisible.
Print Assumptions retained_agrees_without_mutation.
Print Assumptions AliasEx.decoupled_refuted.
