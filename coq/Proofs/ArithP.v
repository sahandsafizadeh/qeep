(* ArithP.v — Add / Sub / Mul / Div (cputensor.go: broadcastForBinaryOp, then
   applyBinaryFuncOnTensorsElemWise) with implicit NumPy-style broadcasting (property C03).
   Arbitrary element type, no Scalar laws: the element formulas are exact expressions. *)
From Coq Require Import List Arith ZArith Bool Lia.
From Qeep Require Import Model.Scalar Model.Nd Model.Fill Model.Data Model.Valid Model.Api.
From Qeep Require Import Proofs.NdP Proofs.FillP Proofs.OdometerP Proofs.ReshapeP Proofs.ElemP Proofs.BroadcastP.
Import ListNotations.

(* ---------- shape facts ---------- *)

Lemma compat2R_dec r1 : forall r2, {compat2R r1 r2} + {~ compat2R r1 r2}.
Proof.
  induction r1 as [|a r1 IH]; intros [|b r2]; cbn [compat2R]; try (left; exact I).
  destruct (IH r2) as [H|H].
  - destruct (Nat.eq_dec a b) as [E|E]; [left; auto|].
    destruct (Nat.eq_dec a 1) as [E1|E1]; [left; auto|].
    destruct (Nat.eq_dec b 1) as [E2|E2]; [left; auto|].
    right. intros [[X|[X|X]] _]; contradiction.
  - right. intros [_ H']. contradiction.
Qed.

Lemma bcompat2_dec d1 d2 : {bcompat2 d1 d2} + {~ bcompat2 d1 d2}.
Proof. apply compat2R_dec. Qed.

Lemma compat2R_refl r : compat2R r r.
Proof. induction r as [|a r IH]; cbn; auto. Qed.

Lemma bcompat2_refl ds : bcompat2 ds ds.
Proof. apply compat2R_refl. Qed.

Lemma bcompat_refl ds : bcompat ds ds.
Proof. apply bcompat_compatR, compatR_refl. Qed.

Lemma tbdRev_id r : tbdRev r r = r.
Proof. induction r as [|a r IH]; cbn [tbdRev]; [reflexivity|]. rewrite IH, Nat.max_id. reflexivity. Qed.

Lemma targetBroadcastDims_id ds : targetBroadcastDims ds ds = ds.
Proof. unfold targetBroadcastDims. rewrite tbdRev_id. apply rev_involutive. Qed.

(* no expansion: the projection of an index onto an identical shape is the index itself *)
Lemma bproj_id ds idx : validIdx ds idx -> bproj ds ds idx = idx.
Proof.
  intros Hv. unfold bproj. rewrite Nat.sub_diag. cbn [skipn]. unfold validIdx in Hv.
  induction Hv as [|i d idx ds Hi _ IH]; cbn [combine map fst snd]; [reflexivity|].
  rewrite IH. f_equal. destruct (Nat.eqb_spec d 1) as [E|E]; lia.
Qed.

Section ArithP.
Context {A : Type} {SA : Scalar A}.
Notation T := (tensor A).

(* ---------- broadcasting to one's own shape is the identity ---------- *)

Lemma broadcast_id (t : T) : wf t -> broadcast t (dims t) = Some t.
Proof.
  intros Ht.
  destruct (broadcast_spec A t (dims t) Ht (proj2 Ht) (bcompat_refl _)) as (r & Er & Hd & [Hwr _] & Hg).
  rewrite Er. f_equal. apply tensor_ext; [exact Hd|exact Hwr|exact (proj1 Ht)|]. rewrite Hd. intros idx Hv.
  rewrite (Hg idx Hv), bproj_id by exact Hv. reflexivity.
Qed.

Lemma v_broadcast_id (t : T) : wf t -> v_broadcast t (map Z.of_nat (dims t)) = Ok t.
Proof.
  intros Ht. unfold v_broadcast, guard.
  rewrite (proj2 (validateInputDims_iff _) (of_nat_pos _ (proj2 Ht))).
  unfold zdims. rewrite (proj2 (validateBroadcast_iff _ _) (bcompat_refl (dims t))).
  rewrite natsOf_of_nat, broadcast_id by exact Ht. reflexivity.
Qed.

(* an Ok result of the public Broadcast is the broadcast of its argument *)
Lemma v_broadcast_ok_inv (t r : T) shape : wf t -> v_broadcast t shape = Ok r -> broadcasted A t r (natsOf shape).
Proof.
  intros Ht E. destruct (v_broadcast_spec A t shape Ht) as [H1 H2].
  destruct (validateInputDims shape && validateBroadcast (zdims t) shape).
  - destruct (H1 eq_refl) as (r' & Er' & Hb). rewrite Er' in E. inversion E; subst r'. exact Hb.
  - rewrite (H2 eq_refl) in E. discriminate.
Qed.

(* ---------- 1. the main theorem ---------- *)

Theorem v_arith_spec (b : binary) (t u : T) : wf t -> wf u ->
  let target := targetBroadcastDims (dims t) (dims u) in
  (bcompat2 (dims t) (dims u) ->
     exists r, v_arith b t u = Ok r /\ dims r = target /\ wf r /\
       forall idx, validIdx target idx ->
         get (data r) idx =
         match get (data t) (bproj (dims t) target idx), get (data u) (bproj (dims u) target idx) with
         | Some x, Some y => Some (binaryF b x y)
         | _, _ => None
         end) /\
  (~ bcompat2 (dims t) (dims u) -> v_arith b t u = Err).
Proof.
  intros Ht Hu. cbv zeta. pose proof (v_bcast2_spec t u Ht Hu) as H. cbv zeta in H. destruct H as [H1 H2]. split.
  - intros Hc. destruct (H1 Hc) as (t1 & u1 & E & (Hd1 & Hw1 & Hg1) & (Hd2 & Hw2 & Hg2)).
    unfold v_arith. rewrite E. cbn [res_bind fst snd].
    assert (Hdd : dims t1 = dims u1) by congruence.
    destruct (apply2_spec (binaryF b) t1 u1 Hw1 Hw2 Hdd) as (r & Er & Hdr & Hwr & Hgr).
    rewrite Er. cbn [of_opt]. exists r. split; [reflexivity|]. split; [congruence|]. split; [exact Hwr|].
    intros idx Hv. rewrite Hd1 in Hgr. rewrite (Hgr idx Hv), (Hg1 idx Hv), (Hg2 idx Hv). reflexivity.
  - intros Hn. unfold v_arith. rewrite (H2 Hn). reflexivity.
Qed.

(* the elements read always exist: the formula with the two source elements named *)
Corollary v_arith_get (b : binary) (t u : T) : wf t -> wf u -> bcompat2 (dims t) (dims u) ->
  let target := targetBroadcastDims (dims t) (dims u) in
  exists r, v_arith b t u = Ok r /\ dims r = target /\ wf r /\
    forall idx, validIdx target idx ->
      exists x y, get (data t) (bproj (dims t) target idx) = Some x /\
                  get (data u) (bproj (dims u) target idx) = Some y /\
                  get (data r) idx = Some (binaryF b x y).
Proof.
  intros Ht Hu Hc. cbv zeta. pose proof (v_arith_spec b t u Ht Hu) as H. cbv zeta in H. destruct H as [H _].
  destruct (H Hc) as (r & Er & Hd & Hw & Hg). exists r. repeat (split; [assumption|]). intros idx Hv.
  apply (targetBroadcastDims_compat _ _ (proj2 Ht) (proj2 Hu)) in Hc as [Hc1 Hc2].
  destruct (get_wf A _ _ _ (proj1 Ht) (bproj_valid _ _ _ Hc1 Hv)) as (x & Ex).
  destruct (get_wf A _ _ _ (proj1 Hu) (bproj_valid _ _ _ Hc2 Hv)) as (y & Ey).
  exists x, y. rewrite (Hg idx Hv), Ex, Ey. auto.
Qed.

Corollary v_arith_ok_iff (b : binary) (t u : T) : wf t -> wf u ->
  ((exists r, v_arith b t u = Ok r) <-> bcompat2 (dims t) (dims u)) /\ v_arith b t u <> Panic.
Proof.
  intros Ht Hu. pose proof (v_arith_spec b t u Ht Hu) as [H1 H2].
  eapply ok_iff_of_spec; [destruct (bcompat2_dec (dims t) (dims u)); auto|exact H1|exact H2].
Qed.

(* ---------- 2. implicit = explicit broadcasting ---------- *)

Theorem v_arith_eq_explicit (b : binary) (t u t1 u1 : T) : wf t -> wf u ->
  let target := map Z.of_nat (targetBroadcastDims (dims t) (dims u)) in
  v_broadcast t target = Ok t1 -> v_broadcast u target = Ok u1 ->
  v_arith b t u = of_opt (apply2 (binaryF b) t1 u1) /\
  v_arith b t u = v_same b t1 u1 /\
  v_arith b t u = v_arith b t1 u1.
Proof.
  intros Ht Hu. cbv zeta. intros E1 E2.
  assert (E0 : v_arith b t u = of_opt (apply2 (binaryF b) t1 u1)).
  { unfold v_arith, v_bcast2. rewrite E1. cbn [res_bind]. rewrite E2. reflexivity. }
  pose proof (v_broadcast_ok_inv t t1 _ Ht E1) as (Hd1 & Hw1 & _).
  pose proof (v_broadcast_ok_inv u u1 _ Hu E2) as (Hd2 & Hw2 & _).
  rewrite natsOf_of_nat in Hd1, Hd2.
  assert (Hdd : dims t1 = dims u1) by congruence.
  split; [exact E0|]. split.
  - rewrite E0. unfold v_same, guard.
    rewrite (proj2 (validateBinaryFuncDimsMatch_spec t1 u1) Hdd). reflexivity.
  - rewrite E0. unfold v_arith, v_bcast2. rewrite <- Hdd, targetBroadcastDims_id.
    rewrite (v_broadcast_id t1 Hw1). cbn [res_bind]. rewrite Hdd, (v_broadcast_id u1 Hw2). reflexivity.
Qed.

(* ---------- 3. equal shapes: no expansion ---------- *)

Theorem v_arith_same_dims (b : binary) (t u : T) : wf t -> wf u -> dims t = dims u ->
  v_arith b t u = of_opt (apply2 (binaryF b) t u) /\
  v_arith b t u = v_same b t u /\
  exists r, v_arith b t u = Ok r /\ dims r = dims t /\ wf r /\
    forall idx, validIdx (dims t) idx ->
      exists x y, get (data t) idx = Some x /\ get (data u) idx = Some y /\
                  get (data r) idx = Some (binaryF b x y).
Proof.
  intros Ht Hu E.
  assert (Et : v_broadcast t (map Z.of_nat (targetBroadcastDims (dims t) (dims u))) = Ok t)
    by (rewrite <- E, targetBroadcastDims_id; apply v_broadcast_id, Ht).
  assert (Eu : v_broadcast u (map Z.of_nat (targetBroadcastDims (dims t) (dims u))) = Ok u)
    by (rewrite E, targetBroadcastDims_id; apply v_broadcast_id, Hu).
  pose proof (v_arith_eq_explicit b t u t u Ht Hu) as H. cbv zeta in H.
  destruct (H Et Eu) as (E0 & E1 & _). split; [exact E0|]. split; [exact E1|].
  destruct (apply2_spec (binaryF b) t u Ht Hu E) as (r & Er & Hd & Hw & Hg).
  exists r. rewrite E0, Er. split; [reflexivity|]. split; [exact Hd|]. split; [exact Hw|].
  intros idx Hv.
  destruct (get_wf A _ _ _ (proj1 Ht) Hv) as (x & Ex).
  pose proof Hv as Hv'. rewrite E in Hv'.
  destruct (get_wf A _ _ _ (proj1 Hu) Hv') as (y & Ey).
  exists x, y. rewrite (Hg idx Hv), Ex, Ey. auto.
Qed.

End ArithP.

(* ---------- examples: the hypotheses are satisfiable, the conclusions non-trivial ---------- *)
Module ArithExamples.

Definition b2n (b : bool) : nat := if b then 1 else 0.
#[local] Instance nat_scalar : Scalar nat := {|
  s0 := 0; s1 := 1;
  sadd := Nat.add; ssub := Nat.sub; smul := Nat.mul; sdiv := Nat.div; spow := Nat.pow;
  sexp := fun a => 2 ^ a; slog := Nat.log2; ssin := fun a => a; scos := fun a => a; stan := fun a => a;
  ssinh := fun a => a; scosh := fun a => a; stanh := fun a => a; ssqrt := Nat.sqrt;
  smax := Nat.max; smin := Nat.min;
  sselgt := fun a b => if b <? a then a else b; ssellt := fun a b => if a <? b then a else b;
  seqt := fun a b => b2n (a =? b); snet := fun a b => b2n (negb (a =? b));
  sgt := fun a b => b2n (b <? a); sge := fun a b => b2n (b <=? a);
  slt := fun a b => b2n (a <? b); sle := fun a b => b2n (a <=? b);
  sgeb := fun a b => b2n (b <=? a); strunc := fun a => a; sofnat := fun n => n;
  sconst := fun m e => Z.to_nat m; sneginf := 0; sposinf := 1000; srnd := fun _ k => k
|}.

Definition a21 : tensor nat := mkT [2; 1] (Vec [Vec [Sc 10]; Vec [Sc 20]]).
Definition a13 : tensor nat := mkT [1; 3] (Vec [Vec [Sc 1; Sc 2; Sc 3]]).
Definition a3 : tensor nat := mkT [3] (Vec [Sc 1; Sc 2; Sc 3]).
Definition a2 : tensor nat := mkT [2] (Vec [Sc 1; Sc 2]).
Definition a0 : tensor nat := mkT [] (Sc 7).

Lemma wf_a21 : wf a21. Proof. split; cbn; repeat constructor. Qed.
Lemma wf_a13 : wf a13. Proof. split; cbn; repeat constructor. Qed.
Lemma wf_a3 : wf a3. Proof. split; cbn; repeat constructor. Qed.
Lemma wf_a2 : wf a2. Proof. split; cbn; repeat constructor. Qed.

Example hyp_ok : bcompat2 (dims a21) (dims a13) /\ targetBroadcastDims (dims a21) (dims a13) = [2; 3].
Proof. split; [cbn; auto|reflexivity]. Qed.

Example v_arith_ex :
  v_arith BiAdd a21 a13 = Ok (mkT [2; 3] (Vec [Vec [Sc 11; Sc 12; Sc 13]; Vec [Sc 21; Sc 22; Sc 23]])) /\
  v_arith BiSub a21 a3 = Ok (mkT [2; 3] (Vec [Vec [Sc 9; Sc 8; Sc 7]; Vec [Sc 19; Sc 18; Sc 17]])) /\
  v_arith BiMul a0 a3 = Ok (mkT [3] (Vec [Sc 7; Sc 14; Sc 21])) /\
  v_arith BiDiv a21 a21 = Ok (mkT [2; 1] (Vec [Vec [Sc 1]; Vec [Sc 1]])).
Proof. vm_compute. auto. Qed.

Example v_arith_err_hyp : ~ bcompat2 (dims a3) (dims a2).
Proof. cbn. intros [[H|[H|H]] _]; discriminate. Qed.
Example v_arith_err : v_arith BiAdd a3 a2 = Err.
Proof. apply (v_arith_spec BiAdd a3 a2 wf_a3 wf_a2), v_arith_err_hyp. Qed.

(* through the theorem: element [1;2] of a21 - a13 is 20 - 3 *)
Example v_arith_spec_ex : exists r, v_arith BiSub a21 a13 = Ok r /\ dims r = [2; 3] /\ get (data r) [1; 2] = Some 17.
Proof.
  pose proof (v_arith_spec BiSub a21 a13 wf_a21 wf_a13) as H. cbv zeta in H. destruct H as [H _].
  destruct (H (proj1 hyp_ok)) as (r & Er & Hd & _ & Hg). exists r. split; [exact Er|]. split; [exact Hd|].
  rewrite Hg by (repeat constructor). reflexivity.
Qed.

Example v_arith_eq_explicit_ex :
  exists t1 u1, v_broadcast a21 [2%Z; 3%Z] = Ok t1 /\ v_broadcast a13 [2%Z; 3%Z] = Ok u1 /\
                v_arith BiAdd a21 a13 = v_same BiAdd t1 u1.
Proof. eexists _, _. vm_compute. auto. Qed.

End ArithExamples.

Print Assumptions v_arith_spec.
Print Assumptions v_arith_get.
Print Assumptions v_arith_ok_iff.
Print Assumptions broadcast_id.
Print Assumptions v_arith_eq_explicit.
Print Assumptions v_arith_same_dims.
