(* BackpropP.v — C01, algorithmic half: [bp_topo] solves the adjoint equations.
   Every back edge of the graph reachable from the root is evaluated exactly once, with the
   FINAL gradient of its consumer, and the gradient left on a node is the accumulation
   (in processing order, starting from the previous gradient) of the seed (root only) and of
   the contributions of all its consumers.  The number of rule evaluations is the number of
   tracked back edges of the processed nodes (linear), whereas the pinned [walk] re-enters a
   node once per path (exponential; refutation witnesses at the end). *)
From Coq Require Import List Arith ZArith Bool Lia.
From Qeep Require Import Model.Scalar Model.Nd Model.Fill Model.Data Model.Valid Model.Api
                         Model.Grad Model.Backprop.
From Qeep Require Import Proofs.TrackP Proofs.DfsP Proofs.BpFlagsP.
Import ListNotations.

Lemma flat_map_ext_in' {X Y} (f g : X -> list Y) l :
  (forall a, In a l -> f a = g a) -> flat_map f l = flat_map g l.
Proof.
  induction l as [|a l IH]; intros H; cbn [flat_map]; [reflexivity|].
  rewrite (H a (or_introl eq_refl)), IH; [reflexivity|]. intros b Hb. apply H. right. exact Hb.
Qed.

Lemma flat_map_nil' {X Y} (f : X -> list Y) l :
  (forall a, In a l -> f a = []) -> flat_map f l = [].
Proof.
  induction l as [|a l IH]; intros H; cbn [flat_map]; [reflexivity|].
  rewrite (H a (or_introl eq_refl)), IH; [reflexivity|]. intros b Hb. apply H. right. exact Hb.
Qed.

Lemma memb_in n l : memb n l = true <-> In n l.
Proof. apply TrackP.memb_in. Qed.

Lemma flat_map_length_incl {X Y} (f : X -> list Y) l :
  NoDup l -> forall l', incl l l' -> length (flat_map f l) <= length (flat_map f l').
Proof.
  induction l as [|a l IH]; intros Hnd l' Hi; cbn [flat_map]; [cbn; lia|].
  apply NoDup_cons_iff in Hnd. destruct Hnd as [Hna Hnd].
  assert (Ha : In a l') by (apply Hi; left; reflexivity).
  apply in_split in Ha. destruct Ha as (l1 & l2 & ->).
  assert (Hi' : incl l (l1 ++ l2)).
  { intros x Hx. assert (Hx' : In x (l1 ++ a :: l2)) by (apply Hi; right; exact Hx).
    apply in_app_or in Hx'. apply in_or_app. destruct Hx' as [Hx'|[Hx'|Hx']]; [left; exact Hx'| |right; exact Hx'].
    subst x. contradiction. }
  specialize (IH Hnd _ Hi'). rewrite flat_map_app in IH |- *. cbn [flat_map].
  rewrite !app_length in IH. rewrite !app_length. lia.
Qed.

Lemma filter_length_le {X} (f : X -> bool) l : length (filter f l) <= length l.
Proof. induction l as [|a l IH]; cbn [filter length]; [lia|]. destruct (f a); cbn [length]; lia. Qed.

(* a state that every step leaves alone is left alone by the fold *)
Lemma fold_left_fix {S X} (f : S -> X -> S) (s : S) : (forall x, f s x = s) -> forall l, fold_left f l s = s.
Proof. intros H. induction l as [|x l IH]; cbn [fold_left]; [reflexivity|]. rewrite H. exact IH. Qed.

Lemma filter_all {X} (f : X -> bool) l : (forall x, In x l -> f x = true) -> filter f l = l.
Proof.
  induction l as [|a l IH]; intros H; cbn [filter]; [reflexivity|].
  rewrite (H a (or_introl eq_refl)). f_equal. apply IH. intros x Hx. apply H. right. exact Hx.
Qed.

Section BackpropP.
Context {A : Type} {SA : Scalar A}.
Notation T := (tensor A).
Notation heap := (@heap A).
Notation rule := (@rule A).
Notation node := (@node A).

(* the node whose gradient the rule reads (first argument of every constructor) *)
Definition rule_y (r : rule) : nat :=
  match r with
  | RConcat y _ => y | RSliceX y _ _ => y | RPatchX y _ _ => y | RPatchP y _ _ => y
  | RTranspose y => y | RReshape y _ => y | RBroadcast y _ => y
  | RSumAlong y _ _ => y | RExtAlong y _ _ => y | RAvgAlong y _ _ => y
  | RVarAlong y _ _ => y | RStdAlong y _ _ => y
  | RScale y _ => y | RPow y _ _ _ => y | RExp y => y | RLog y _ => y
  | RSin y _ => y | RCos y _ => y | RTan y _ => y
  | RSinh y _ => y | RCosh y _ => y | RTanh y _ => y
  | RElSel y _ _ => y | RId y => y | RNeg y => y | RMul y _ => y
  | RDivA y _ => y | RDivB y _ _ => y | RDot y _ => y
  | RMatMulA y _ => y | RMatMulB y _ => y
  end.

Lemma eval_rule_ext rd (h1 h2 : heap) (r : rule) :
  (forall i, valOf h1 i = valOf h2 i) ->
  gradOf h1 (rule_y r) = gradOf h2 (rule_y r) ->
  eval_rule rd h1 r = eval_rule rd h2 r.
Proof.
  intros Hv Hg. destruct r; cbn [rule_y] in Hg; unfold eval_rule, gy_of, val_of;
    rewrite ?Hv, ?Hg; reflexivity.
Qed.

(* a rule whose consumer has no gradient cannot be evaluated *)
Lemma eval_rule_nograd rd (h : heap) (r : rule) :
  gradOf h (rule_y r) = None -> eval_rule rd h r = Panic.
Proof.
  intros Hg. destruct r; cbn [rule_y] in Hg; unfold eval_rule, gy_of; rewrite Hg; reflexivity.
Qed.

Lemma nth_error_updNode (h : heap) i f j :
  nth_error (updNode h i f) j =
  match nth_error h j with Some n => Some (if j =? i then f n else n) | None => None end.
Proof. rewrite updNode_nth. destruct (nth_error h j); reflexivity. Qed.

Lemma nth_error_markDirty (h : heap) l j :
  nth_error (markDirty h l) j =
  match nth_error h j with
  | Some n => Some (if memb j l then mkNode (nval n) (ntracked n) true (ngrad n) (nedges n) (nname n) else n)
  | None => None end.
Proof. rewrite markDirty_nth. destruct (nth_error h j); reflexivity. Qed.

Lemma length_markDirty (h : heap) l : length (markDirty h l) = length h.
Proof. apply markDirty_length. Qed.

Lemma length_setGrad (h : heap) i g : length (setGrad h i g) = length h.
Proof. apply setGrad_length. Qed.

Lemma nth_error_setGrad (h : heap) i g j :
  nth_error (setGrad h i g) j =
  match nth_error h j with
  | Some n => Some (if j =? i then mkNode (nval n) (ntracked n) (ndirty n) g (nedges n) (nname n) else n)
  | None => None end.
Proof. apply nth_error_updNode. Qed.

(* setGrad and markDirty change one field each: the other accessors do not see them *)
Lemma valOf_setGrad (h : heap) i g j : valOf (setGrad h i g) j = valOf h j.
Proof. apply (getN_updNode_inv (fun n => Some (nval n))). reflexivity. Qed.
Lemma trackedOf_setGrad (h : heap) i g j : trackedOf (setGrad h i g) j = trackedOf h j.
Proof. apply (getN_updNode_inv (@ntracked A)). reflexivity. Qed.
Lemma edgesOf_setGrad (h : heap) i g j : edgesOf (setGrad h i g) j = edgesOf h j.
Proof. apply (getN_updNode_inv (@nedges A)). reflexivity. Qed.
Lemma dirtyOf_setGrad (h : heap) i g j : dirtyOf (setGrad h i g) j = dirtyOf h j.
Proof. apply (getN_updNode_inv (@ndirty A)). reflexivity. Qed.
Lemma gradOf_setGrad (h : heap) i g j :
  gradOf (setGrad h i g) j = if j =? i then (if i <? length h then g else None) else gradOf h j.
Proof.
  destruct (j =? i) eqn:E.
  - apply Nat.eqb_eq in E. subst j. destruct (i <? length h) eqn:Hl.
    + apply gradOf_setGrad_same. apply Nat.ltb_lt. exact Hl.
    + apply Nat.ltb_ge in Hl. unfold gradOf. rewrite (proj2 (nth_error_None _ _)); [reflexivity|].
      rewrite setGrad_length. exact Hl.
  - apply gradOf_setGrad_other. apply Nat.eqb_neq. exact E.
Qed.

Lemma valOf_markDirty (h : heap) l j : valOf (markDirty h l) j = valOf h j.
Proof. apply (getN_markDirty_inv (fun n => Some (nval n))). reflexivity. Qed.
Lemma trackedOf_markDirty (h : heap) l j : trackedOf (markDirty h l) j = trackedOf h j.
Proof. apply (getN_markDirty_inv (@ntracked A)). reflexivity. Qed.
Lemma edgesOf_markDirty (h : heap) l j : edgesOf (markDirty h l) j = edgesOf h j.
Proof. apply (getN_markDirty_inv (@nedges A)). reflexivity. Qed.
Lemma gradOf_markDirty (h : heap) l j : gradOf (markDirty h l) j = gradOf h j.
Proof. apply (getN_markDirty_inv (@ngrad A)). reflexivity. Qed.
Lemma dirtyOf_markDirty (h : heap) l j :
  dirtyOf (markDirty h l) j = if j <? length h then memb j l || dirtyOf h j else false.
Proof.
  unfold dirtyOf. rewrite markDirty_nth. destruct (nth_error h j) as [n|] eqn:En.
  - assert (Hl : j < length h) by (apply nth_error_Some; congruence).
    apply Nat.ltb_lt in Hl. rewrite Hl. cbn [option_map]. destruct (memb j l); reflexivity.
  - apply nth_error_None in En. apply Nat.ltb_ge in En. rewrite En. reflexivity.
Qed.

Lemma valOf_updNode (h : heap) i f j :
  (forall n, nval (f n) = nval n) -> valOf (updNode h i f) j = valOf h j.
Proof. intros Hf. apply (getN_updNode_inv (fun n => Some (nval n))). intros n. rewrite Hf. reflexivity. Qed.
Lemma trackedOf_updNode_other (h : heap) i f j : j <> i -> trackedOf (updNode h i f) j = trackedOf h j.
Proof. apply (getN_updNode_other (@ntracked A)). Qed.
Lemma edgesOf_updNode_other (h : heap) i f j : j <> i -> edgesOf (updNode h i f) j = edgesOf h j.
Proof. apply (getN_updNode_other (@nedges A)). Qed.
Lemma gradOf_updNode_other (h : heap) i f j : j <> i -> gradOf (updNode h i f) j = gradOf h j.
Proof. apply (getN_updNode_other (@ngrad A)). Qed.

Lemma tracked_lt (h : heap) i : trackedOf h i = true -> i < length h.
Proof. apply trackedOf_true_lt. Qed.

(* each back edge of node c reads the gradient of c itself *)
Definition rules_own (h : heap) : Prop :=
  forall c n e, nth_error h c = Some n -> In e (nedges n) -> rule_y (snd e) = c.
(* result ids are larger than operand ids *)
Definition wf_heap (h : heap) : Prop :=
  forall c n e, nth_error h c = Some n -> In e (nedges n) -> fst e < c.

Lemma rules_own_edgesOf (h : heap) : rules_own h -> forall c e, In e (edgesOf h c) -> rule_y (snd e) = c.
Proof. apply (edges_all_edgesOf (fun c e => rule_y (snd e) = c)). Qed.
Lemma wf_heap_edgesOf (h : heap) : wf_heap h -> forall c e, In e (edgesOf h c) -> fst e < c.
Proof. apply (edges_all_edgesOf (fun c e => fst e < c)). Qed.

(* the same invariant in the Forall form of Proofs/TrackP.v *)
Lemma wf_heap_Forall (h : heap) :
  wf_heap h <-> forall i n, nth_error h i = Some n -> Forall (fun e : nat * rule => fst e < i) (nedges n).
Proof. symmetry. apply wf_heap_all. Qed.

Fixpoint ordered (h : heap) (p : list nat) : Prop :=
  match p with
  | [] => True
  | n :: r => (forall e, In e (edgesOf h n) -> trackedOf h (fst e) = true -> In (fst e) r) /\ ordered h r
  end.

(* same immutable structure: values, tracking flags, edges, size *)
Definition sameS (h1 h2 : heap) : Prop :=
  length h1 = length h2 /\
  forall i, valOf h1 i = valOf h2 i /\ trackedOf h1 i = trackedOf h2 i /\ edgesOf h1 i = edgesOf h2 i.

Lemma sameS_refl h : sameS h h.
Proof. split; [reflexivity|]. intros i. repeat split. Qed.
Lemma sameS_trans h1 h2 h3 : sameS h1 h2 -> sameS h2 h3 -> sameS h1 h3.
Proof.
  intros [L1 H1] [L2 H2]. split; [congruence|]. intros i.
  destruct (H1 i) as (a1 & b1 & c1). destruct (H2 i) as (a2 & b2 & c2). repeat split; congruence.
Qed.
Lemma sameS_sym h1 h2 : sameS h1 h2 -> sameS h2 h1.
Proof.
  intros [L1 H1]. split; [congruence|]. intros i. destruct (H1 i) as (a1 & b1 & c1). repeat split; congruence.
Qed.
Lemma sameS_setGrad h i g : sameS h (setGrad h i g).
Proof.
  split; [symmetry; apply length_setGrad|]. intros j.
  rewrite valOf_setGrad, trackedOf_setGrad, edgesOf_setGrad. repeat split.
Qed.
Lemma sameS_markDirty h l : sameS h (markDirty h l).
Proof.
  split; [symmetry; apply length_markDirty|]. intros j.
  rewrite valOf_markDirty, trackedOf_markDirty, edgesOf_markDirty. repeat split.
Qed.
Lemma sameS_val h1 h2 : sameS h1 h2 -> forall i, valOf h1 i = valOf h2 i.
Proof. intros [_ H] i. apply H. Qed.
Lemma sameS_trk h1 h2 : sameS h1 h2 -> forall i, trackedOf h1 i = trackedOf h2 i.
Proof. intros [_ H] i. apply H. Qed.
Lemma sameS_edges h1 h2 : sameS h1 h2 -> forall i, edgesOf h1 i = edgesOf h2 i.
Proof. intros [_ H] i. apply H. Qed.

Lemma ordered_in h l : ordered h l -> forall c e, In c l -> In e (edgesOf h c) ->
  trackedOf h (fst e) = true -> In (fst e) l.
Proof. intros Ho c e. exact (ordered_closed h l c e Ho). Qed.

(* accumulateGrad as a pure function:  None + g = g,  Some g0 + g = g0.Add(g)  *)
Definition acc1 (o : option T) (g : T) : option (option T) :=
  match o with
  | None => Some (Some g)
  | Some g0 => match v_arith BiAdd g0 g with Ok s => Some (Some s) | _ => None end
  end.
Fixpoint accAll (o : option T) (l : list T) : option (option T) :=
  match l with
  | [] => Some o
  | g :: r => match acc1 o g with Some o' => accAll o' r | None => None end
  end.

Lemma accAll_app o l1 l2 :
  accAll o (l1 ++ l2) = match accAll o l1 with Some o' => accAll o' l2 | None => None end.
Proof.
  revert o. induction l1 as [|g l1 IH]; intros o; cbn [app accAll]; [reflexivity|].
  destruct (acc1 o g) as [o'|]; [apply IH|reflexivity].
Qed.

Lemma acc1_some o g o' : acc1 o g = Some o' -> o' <> None.
Proof.
  unfold acc1. destruct o as [g0|].
  - destruct (v_arith BiAdd g0 g); intros E; inversion E; discriminate.
  - intros E; inversion E; discriminate.
Qed.
Lemma accAll_nonempty o l o' : accAll o l = Some o' -> l <> [] -> o' <> None.
Proof.
  revert o. induction l as [|g l IH]; intros o E Hl; [congruence|]. cbn [accAll] in E.
  destruct (acc1 o g) as [o1|] eqn:E1; [|discriminate].
  destruct l as [|g2 l]; [cbn in E; inversion E; subst; eapply acc1_some; eauto|].
  eapply IH; [exact E|discriminate].
Qed.

Lemma accumulate_ok (h : heap) i g h' r :
  accumulate h i g = (h', r) -> r = Ok tt ->
  exists o', acc1 (gradOf h i) g = Some o' /\ h' = setGrad h i o'.
Proof.
  unfold accumulate, acc1. intros E Hr. subst r. destruct (gradOf h i) as [g0|].
  - destruct (v_arith BiAdd g0 g) as [s| |]; inversion E. eexists; split; reflexivity.
  - inversion E. eexists; split; reflexivity.
Qed.

Section Run.
Variable rd : bred.
Notation idseal := (fun (_ : option nat) (g : T) => g).

Lemma pe_sticky c es : forall (h : heap) r, r <> Ok tt ->
  fold_left (process_edge rd c) es (h, r) = (h, r).
Proof. intros h r Hr. apply fold_left_fix. intros e. destruct r as [[]| |]; [congruence|reflexivity|reflexivity]. Qed.

Lemma pe_fold_cons c e es (h h' : heap) :
  fold_left (process_edge rd c) (e :: es) (h, Ok tt) = (h', Ok tt) ->
  exists h1, process_edge rd c (h, Ok tt) e = (h1, Ok tt) /\
             fold_left (process_edge rd c) es (h1, Ok tt) = (h', Ok tt).
Proof.
  cbn [fold_left]. destruct (process_edge rd c (h, Ok tt) e) as [h1 r1] eqn:E1. intros E.
  destruct r1 as [[]| |].
  - exists h1. split; [reflexivity|exact E].
  - rewrite pe_sticky in E by discriminate. inversion E.
  - rewrite pe_sticky in E by discriminate. inversion E.
Qed.

Lemma process_edge_ok c (h : heap) e h' :
  process_edge rd c (h, Ok tt) e = (h', Ok tt) ->
  (trackedOf h (fst e) = false /\ h' = h) \/
  (trackedOf h (fst e) = true /\ exists g o', eval_rule rd h (snd e) = Ok g /\
       acc1 (gradOf h (fst e)) g = Some o' /\ h' = setGrad h (fst e) o').
Proof.
  cbn [process_edge]. destruct (trackedOf h (fst e)) eqn:Et.
  - destruct (eval_rule rd h (snd e)) as [g| |] eqn:Ee; intros E; [|inversion E|inversion E].
    right. split; [reflexivity|]. destruct (accumulate_ok _ _ _ _ _ E eq_refl) as (o' & Ho & Hh).
    exists g, o'. auto.
  - intros E. inversion E. left. auto.
Qed.

Lemma pn_sticky l : forall (h : heap) log r, r <> Ok tt ->
  fold_left (process_node rd idseal) l (h, log, r) = (h, log, r).
Proof. intros h log r Hr. apply fold_left_fix. intros c. destruct r as [[]| |]; [congruence|reflexivity|reflexivity]. Qed.

(* contribution of one back edge to node n, evaluated in heap hf *)
Definition contrib_e (hf : heap) (n : nat) (e : nat * rule) : list T :=
  if fst e =? n then match eval_rule rd hf (snd e) with Ok g => [g] | _ => [] end else [].

(* contributions to n of the back edges (read in hs) of the nodes of order, evaluated in hf *)
Definition contributions (hf hs : heap) (order : list nat) (n : nat) : list T :=
  flat_map (fun c => flat_map (contrib_e hf n) (edgesOf hs c)) order.

Lemma contrib_e_ext (h1 h2 : heap) n e :
  (forall i, valOf h1 i = valOf h2 i) -> gradOf h1 (rule_y (snd e)) = gradOf h2 (rule_y (snd e)) ->
  contrib_e h1 n e = contrib_e h2 n e.
Proof. intros Hv Hg. unfold contrib_e. rewrite (eval_rule_ext rd h1 h2 (snd e) Hv Hg). reflexivity. Qed.

Lemma process_edges_spec c es : forall (h h' : heap),
  (forall e, In e es -> fst e <> c) ->
  (forall e, In e es -> rule_y (snd e) = c) ->
  fold_left (process_edge rd c) es (h, Ok tt) = (h', Ok tt) ->
  sameS h h' /\ gradOf h' c = gradOf h c /\
  (forall n, trackedOf h n = true -> accAll (gradOf h n) (flat_map (contrib_e h n) es) = Some (gradOf h' n)) /\
  (forall n, trackedOf h n = false -> gradOf h' n = gradOf h n) /\
  (forall e, In e es -> trackedOf h (fst e) = true -> exists g, eval_rule rd h (snd e) = Ok g).
Proof.
  induction es as [|e es IH]; intros h h' Hne Hown E.
  - cbn [fold_left] in E. inversion E; subst h'. split; [apply sameS_refl|]. split; [reflexivity|].
    split; [intros n _; reflexivity|]. split; [intros n _; reflexivity|]. intros e [].
  - destruct (pe_fold_cons _ _ _ _ _ E) as (h1 & E1 & E2).
    assert (Hne' : forall e0, In e0 es -> fst e0 <> c) by (intros e0 H0; apply Hne; right; exact H0).
    assert (Hown' : forall e0, In e0 es -> rule_y (snd e0) = c) by (intros e0 H0; apply Hown; right; exact H0).
    destruct (IH h1 h' Hne' Hown' E2) as (IS & Ic & Iacc & Iun & Iok). clear IH.
    destruct (process_edge_ok _ _ _ _ E1) as [[Et Hh]|[Et (g & o' & Hev & Hacc & Hh)]].
    + subst h1. split; [exact IS|]. split; [exact Ic|]. split; [|split].
      * intros n Hn. cbn [flat_map]. unfold contrib_e at 1.
        destruct (fst e =? n) eqn:Een; [apply Nat.eqb_eq in Een; congruence|]. cbn [app]. apply Iacc. exact Hn.
      * exact Iun.
      * intros e0 [->|H0] Ht0; [congruence|]. apply Iok; assumption.
    + assert (HS1 : sameS h h1) by (subst h1; apply sameS_setGrad).
      assert (Hlt : fst e < length h) by (apply tracked_lt; exact Et).
      assert (Hc1 : gradOf h1 c = gradOf h c).
      { subst h1. rewrite gradOf_setGrad. assert (X : c <> fst e) by (intro X; symmetry in X; revert X; apply Hne; left; reflexivity).
        apply Nat.eqb_neq in X. rewrite X. reflexivity. }
      assert (Hext : forall n e0, In e0 es -> contrib_e h1 n e0 = contrib_e h n e0).
      { intros n e0 H0. apply contrib_e_ext; [intros i; symmetry; apply (sameS_val _ _ HS1)|].
        rewrite (Hown' e0 H0). exact Hc1. }
      split; [eapply sameS_trans; eauto|]. split; [congruence|]. split; [|split].
      * intros n Hn. cbn [flat_map]. rewrite accAll_app.
        rewrite (sameS_trk _ _ HS1) in Hn. specialize (Iacc n Hn).
        rewrite (flat_map_ext_in' _ _ _ (Hext n)) in Iacc.
        unfold contrib_e at 1. destruct (fst e =? n) eqn:Een.
        -- apply Nat.eqb_eq in Een. subst n. rewrite Hev. cbn [accAll]. rewrite Hacc.
           subst h1. rewrite gradOf_setGrad, Nat.eqb_refl in Iacc. apply Nat.ltb_lt in Hlt. rewrite Hlt in Iacc. exact Iacc.
        -- cbn [accAll]. subst h1. rewrite gradOf_setGrad in Iacc. rewrite Nat.eqb_sym in Een. rewrite Een in Iacc. exact Iacc.
      * intros n Hn. rewrite (sameS_trk _ _ HS1) in Hn. rewrite (Iun n Hn). subst h1. rewrite gradOf_setGrad.
        destruct (n =? fst e) eqn:Een; [|reflexivity]. apply Nat.eqb_eq in Een. subst n.
        rewrite <- (sameS_trk _ _ HS1) in Hn. congruence.
      * intros e0 [->|H0] Ht0; [eauto|]. rewrite (sameS_trk _ _ HS1) in Ht0.
        destruct (Iok e0 H0 Ht0) as (g0 & Hg0). exists g0. rewrite <- Hg0.
        apply eval_rule_ext; [apply (sameS_val _ _ HS1)|]. rewrite (Hown' e0 H0). congruence.
Qed.

Lemma process_node_spec (h : heap) log c h2 log2 :
  rules_own h -> wf_heap h ->
  process_node rd idseal (h, log, Ok tt) c = (h2, log2, Ok tt) ->
  sameS h h2 /\ gradOf h2 c = gradOf h c /\
  (forall n, trackedOf h n = true ->
             accAll (gradOf h n) (flat_map (contrib_e h n) (edgesOf h c)) = Some (gradOf h2 n)) /\
  (forall n, trackedOf h n = false -> gradOf h2 n = gradOf h n) /\
  log2 = (match gradOf h c with Some g => [(c, g)] | None => [] end) ++ log /\
  (gradOf h c <> None -> forall e, In e (edgesOf h c) -> trackedOf h (fst e) = true ->
                         exists g, eval_rule rd h (snd e) = Ok g).
Proof.
  intros Hown Hwf. cbn [process_node]. destruct (nth_error h c) as [nd|] eqn:En; [|intros E; inversion E].
  assert (Hed : edgesOf h c = nedges nd) by (unfold edgesOf; rewrite En; reflexivity).
  assert (Hgr : gradOf h c = ngrad nd) by (unfold gradOf; rewrite En; reflexivity).
  assert (Hlt : c < length h) by (apply nth_error_Some; congruence).
  destruct (ngrad nd) as [g|] eqn:Eg.
  - set (h1 := setGrad h c (Some g)).
    destruct (fold_left (process_edge rd c) (nedges nd) (h1, Ok tt)) as [hh r] eqn:Ef.
    intros E. inversion E; subst hh log2 r. clear E.
    assert (HS1 : sameS h h1) by apply sameS_setGrad.
    assert (Hg1 : forall j, gradOf h1 j = gradOf h j).
    { intros j. unfold h1. rewrite gradOf_setGrad. destruct (j =? c) eqn:Ej; [|reflexivity].
      apply Nat.eqb_eq in Ej. subst j. apply Nat.ltb_lt in Hlt. rewrite Hlt. congruence. }
    assert (Hne : forall e, In e (nedges nd) -> fst e <> c).
    { intros e He. rewrite <- Hed in He. apply (wf_heap_edgesOf _ Hwf) in He. lia. }
    assert (Hy : forall e, In e (nedges nd) -> rule_y (snd e) = c).
    { intros e He. rewrite <- Hed in He. apply (rules_own_edgesOf _ Hown) in He. exact He. }
    destruct (process_edges_spec _ _ _ _ Hne Hy Ef) as (PS & Pc & Pacc & Pun & Pok).
    assert (Hext : forall n e0, contrib_e h1 n e0 = contrib_e h n e0).
    { intros n e0. apply contrib_e_ext; [intros i; symmetry; apply (sameS_val _ _ HS1)|apply Hg1]. }
    split; [eapply sameS_trans; eauto|]. split; [rewrite Pc; apply Hg1|]. split; [|split; [|split]].
    + intros n Hn. rewrite (sameS_trk _ _ HS1) in Hn. specialize (Pacc n Hn). rewrite Hg1 in Pacc.
      rewrite Hed. rewrite <- Pacc. f_equal. apply flat_map_ext_in'. intros e0 _. symmetry. apply Hext.
    + intros n Hn. rewrite (sameS_trk _ _ HS1) in Hn. rewrite (Pun n Hn). apply Hg1.
    + rewrite Hgr. reflexivity.
    + intros _ e He Ht. rewrite Hed in He. rewrite (sameS_trk _ _ HS1) in Ht.
      destruct (Pok e He Ht) as (g0 & Hg0). exists g0. rewrite <- Hg0.
      apply eval_rule_ext; [apply (sameS_val _ _ HS1)|symmetry; apply Hg1].
  - intros E. inversion E; subst h2 log2. clear E.
    split; [apply sameS_refl|]. split; [reflexivity|]. split; [|split; [|split]].
    + intros n Hn. rewrite flat_map_nil'; [reflexivity|]. intros e He. unfold contrib_e.
      destruct (fst e =? n); [|reflexivity]. rewrite eval_rule_nograd; [reflexivity|].
      rewrite (rules_own_edgesOf _ Hown _ _ He). exact Hgr.
    + intros n _. reflexivity.
    + rewrite Hgr. reflexivity.
    + intros X. congruence.
Qed.

Lemma rules_own_sameS (h1 h2 : heap) : sameS h1 h2 -> rules_own h1 -> rules_own h2.
Proof.
  intros HS H c n e En He. apply (rules_own_edgesOf _ H). rewrite (sameS_edges _ _ HS).
  unfold edgesOf. rewrite En. exact He.
Qed.
Lemma wf_heap_sameS (h1 h2 : heap) : sameS h1 h2 -> wf_heap h1 -> wf_heap h2.
Proof.
  intros HS H c n e En He. apply (wf_heap_edgesOf _ H). rewrite (sameS_edges _ _ HS).
  unfold edgesOf. rewrite En. exact He.
Qed.

(* the finalised gradients, in processing order *)
Definition logOf (hf : heap) (l : list nat) : list (nat * T) :=
  flat_map (fun c => match gradOf hf c with Some g => [(c, g)] | None => [] end) l.

Lemma pn_fold_cons c l (h : heap) log h' log' :
  fold_left (process_node rd idseal) (c :: l) (h, log, Ok tt) = (h', log', Ok tt) ->
  exists h1 log1, process_node rd idseal (h, log, Ok tt) c = (h1, log1, Ok tt) /\
                  fold_left (process_node rd idseal) l (h1, log1, Ok tt) = (h', log', Ok tt).
Proof.
  cbn [fold_left]. destruct (process_node rd idseal (h, log, Ok tt) c) as [[h1 log1] r1] eqn:E1. intros E.
  destruct r1 as [[]| |].
  - exists h1, log1. split; [reflexivity|exact E].
  - rewrite pn_sticky in E by discriminate. inversion E.
  - rewrite pn_sticky in E by discriminate. inversion E.
Qed.

Lemma contributions_sameS (hf hs hs' : heap) l n :
  sameS hs hs' -> contributions hf hs l n = contributions hf hs' l n.
Proof.
  intros HS. unfold contributions. apply flat_map_ext_in'. intros c _. rewrite (sameS_edges _ _ HS). reflexivity.
Qed.

(* an ordered list is closed under tracked edge targets: a tracked node outside receives nothing *)
Lemma contributions_nil (hf h : heap) l n :
  ordered h l -> trackedOf h n = true -> ~ In n l -> contributions hf h l n = [].
Proof.
  intros Hord Ht Hn. apply flat_map_nil'. intros c Hc. apply flat_map_nil'. intros e He. unfold contrib_e.
  destruct (fst e =? n) eqn:Ee; [|reflexivity]. apply Nat.eqb_eq in Ee. exfalso. apply Hn.
  rewrite <- Ee. apply (ordered_in h l Hord c e Hc He). rewrite Ee. exact Ht.
Qed.

Lemma bp_fold_spec (hs : heap) l : forall (h : heap) log h' log',
  sameS hs h -> rules_own hs -> wf_heap hs -> NoDup l -> ordered hs l -> (forall c, In c l -> trackedOf hs c = true) ->
  fold_left (process_node rd idseal) l (h, log, Ok tt) = (h', log', Ok tt) ->
  sameS hs h' /\
  (forall n, trackedOf hs n = true -> accAll (gradOf h n) (contributions h' hs l n) = Some (gradOf h' n)) /\
  log' = rev (logOf h' l) ++ log /\
  (forall c e, In c l -> gradOf h' c <> None -> In e (edgesOf hs c) -> trackedOf hs (fst e) = true ->
               exists g, eval_rule rd h' (snd e) = Ok g).
Proof.
  induction l as [|c l IH]; intros h log h' log' HS Hown Hwf Hnd Hord Htr E.
  - cbn [fold_left] in E. inversion E; subst h' log'. split; [exact HS|].
    split; [intros n _; reflexivity|]. split; [reflexivity|]. intros c e [].
  - destruct (pn_fold_cons _ _ _ _ _ _ E) as (h1 & log1 & E1 & E2).
    pose proof (rules_own_sameS _ _ HS Hown) as Hownh.
    destruct (process_node_spec _ _ _ _ _ Hownh (wf_heap_sameS _ _ HS Hwf) E1) as (NS & Nc & Nacc & _ & Nlog & Nok).
    apply NoDup_cons_iff in Hnd. destruct Hnd as [Hnc Hnd']. destruct Hord as [Hc Hord].
    assert (HS1 : sameS hs h1) by (eapply sameS_trans; eauto).
    destruct (IH h1 log1 h' log' HS1 Hown Hwf Hnd' Hord (fun c0 H0 => Htr c0 (or_intror H0)) E2) as (IS & Iacc & Ilog & Iok).
    clear IH. assert (Hct : trackedOf hs c = true) by (apply Htr; left; reflexivity).
    (* the gradient of c is final once c has been processed *)
    assert (Hfin : gradOf h' c = gradOf h c).
    { rewrite <- Nc. specialize (Iacc c Hct). rewrite (contributions_nil _ _ _ _ Hord Hct Hnc) in Iacc.
      cbn [accAll] in Iacc. congruence. }
    assert (Hv : forall i, valOf h' i = valOf h i).
    { intros i. rewrite <- (sameS_val _ _ IS). apply (sameS_val _ _ HS). }
    split; [exact IS|]. split; [|split].
    + intros n Hn. unfold contributions. cbn [flat_map]. fold (contributions h' hs l n). rewrite (sameS_edges _ _ HS c).
      rewrite accAll_app, (flat_map_ext_in' (contrib_e h' n) (contrib_e h n)), (Nacc n); [apply Iacc; exact Hn| |].
      * rewrite <- (sameS_trk _ _ HS). exact Hn.
      * intros e He. apply contrib_e_ext; [exact Hv|]. rewrite (rules_own_edgesOf _ Hownh _ _ He). exact Hfin.
    + rewrite Ilog, Nlog. unfold logOf. cbn [flat_map]. rewrite rev_app_distr, <- app_assoc. f_equal.
      rewrite Hfin. destruct (gradOf h c); reflexivity.
    + intros c0 e [<-|H0] Hg He Ht; [|apply (Iok c0 e H0 Hg He Ht)].
      rewrite Hfin in Hg. rewrite (sameS_edges _ _ HS) in He. rewrite (sameS_trk _ _ HS) in Ht.
      destruct (Nok Hg e He Ht) as (g & Hgv). exists g. rewrite <- Hgv.
      apply eval_rule_ext; [exact Hv|]. rewrite (rules_own_edgesOf _ Hownh _ _ He). exact Hfin.
Qed.

(* [order] is the processing order of bp_topo. *)
Theorem bp_topo_adjoint (h : heap) root h' log :
  rules_own h -> wf_heap h -> trackedOf h root = true ->
  let order := topoOrder h root in
  NoDup order -> (forall c, In c order -> trackedOf h c = true) -> ordered h order -> In root order ->
  bp_topo rd idseal h root = (h', log, Ok tt) ->
  exists rv ones, valOf h root = Some rv /\ toOnes rv = Ok ones /\
  (* structure *)
  length h' = length h /\
  (forall i, valOf h' i = valOf h i /\ trackedOf h' i = trackedOf h i /\ edgesOf h' i = edgesOf h i) /\
  (* nodes outside the order keep their gradient *)
  (forall n, ~ In n order -> gradOf h' n = gradOf h n) /\
  (* nodes of the order: previous gradient + seed (root) + every consumer edge, once, at the final gradient *)
  (forall n, In n order ->
     accAll (gradOf h n) ((if n =? root then [ones] else []) ++ contributions h' h order n) = Some (gradOf h' n)) /\
  (* every evaluated rule succeeded, also when re-evaluated in the final heap *)
  (forall c e, In c order -> gradOf h' c <> None -> In e (edgesOf h c) -> trackedOf h (fst e) = true ->
               exists g, eval_rule rd h' (snd e) = Ok g) /\
  (* the log lists the final gradients in processing order (newest first) *)
  log = rev (logOf h' order).
Proof.
  intros Hown Hwf Hroot order Hnd Htr Hord Hin E.
  destruct (bp_topo_frame rd idseal h root h' log (Ok tt) (proj1 (wf_heap_Forall h) Hwf) Hroot E)
    as (Fl & _ & Fv & Ft & Fe & _ & Fg).
  revert E. unfold bp_topo. rewrite Hroot. cbn [negb]. fold order.
  set (h1 := markDirty h order).
  assert (HS1 : sameS h h1) by apply sameS_markDirty.
  assert (Hg1 : forall j, gradOf h1 j = gradOf h j) by (intros j; apply gradOf_markDirty).
  destruct (valOf h1 root) as [rv|] eqn:Ev; [|intros E; inversion E].
  destruct (toOnes rv) as [ones| |] eqn:Eo; [|intros E; inversion E|intros E; inversion E].
  destruct (accumulate h1 root ones) as [h2 r] eqn:Ea.
  destruct r as [[]| |]; [|intros E; inversion E|intros E; inversion E].
  intros E. destruct (accumulate_ok _ _ _ _ _ Ea eq_refl) as (o' & Hacc & Hh2).
  assert (HS2 : sameS h h2) by (eapply sameS_trans; [exact HS1|subst h2; apply sameS_setGrad]).
  assert (Hrl : root < length h1) by (rewrite <- (proj1 HS1); apply tracked_lt; exact Hroot).
  assert (Hg2 : forall j, gradOf h2 j = if j =? root then o' else gradOf h j).
  { intros j. subst h2. rewrite gradOf_setGrad. destruct (j =? root); [|apply Hg1].
    apply Nat.ltb_lt in Hrl. rewrite Hrl. reflexivity. }
  destruct (bp_fold_spec h _ _ _ _ _ HS2 Hown Hwf Hnd Hord Htr E) as (_ & Facc & Flog & Fok).
  exists rv, ones. split; [rewrite (sameS_val _ _ HS1); exact Ev|]. split; [exact Eo|].
  split; [exact Fl|]. split; [intros i; auto|]. split; [exact Fg|]. split; [|split].
  - intros n Hn. specialize (Facc n (Htr n Hn)). rewrite Hg2 in Facc. destruct (n =? root) eqn:Enr.
    + apply Nat.eqb_eq in Enr. subst n. cbn [app accAll]. rewrite <- (Hg1 root), Hacc. exact Facc.
    + cbn [app]. exact Facc.
  - exact Fok.
  - rewrite Flog. apply app_nil_r.
Qed.

(* process_edge / process_node / bp_topo instrumented with a counter of eval_rule calls *)
Definition process_edge_cnt (c : nat) (st : heap * res unit * nat) (e : nat * rule) : heap * res unit * nat :=
  match st with
  | (h, Ok _, k) =>
      if trackedOf h (fst e) then
        match eval_rule rd h (snd e) with
        | Ok g => (accumulate h (fst e) g, S k)
        | Err => (h, Err, S k)
        | Panic => (h, Panic, S k)
        end
      else (h, Ok tt, k)
  | _ => st
  end.

Definition process_node_cnt (st : heap * list (nat * T) * res unit * nat) (c : nat)
  : heap * list (nat * T) * res unit * nat :=
  match st with
  | (h, log, Ok _, k) =>
      match nth_error h c with
      | Some n =>
          match ngrad n with
          | Some g =>
              let h1 := setGrad h c (Some g) in
              let '(h2, r, k2) := fold_left (process_edge_cnt c) (nedges n) (h1, Ok tt, k) in
              (h2, (c, g) :: log, r, k2)
          | None => (h, log, Ok tt, k)
          end
      | None => (h, log, Panic, k)
      end
  | _ => st
  end.

Definition bp_topo_cnt (h : heap) (root : nat) : heap * list (nat * T) * res unit * nat :=
  if negb (trackedOf h root) then (h, [], Ok tt, 0) else
  let order := topoOrder h root in
  let h1 := markDirty h order in
  match valOf h1 root with
  | None => (h, [], Panic, 0)
  | Some rv =>
      match toOnes rv with
      | Ok ones =>
          match accumulate h1 root ones with
          | (h2, Ok _) => fold_left process_node_cnt order (h2, [], Ok tt, 0)
          | (h2, Err) => (h2, [], Err, 0)
          | (h2, Panic) => (h2, [], Panic, 0)
          end
      | Err => (h1, [], Err, 0)
      | Panic => (h1, [], Panic, 0)
      end
  end.

Definition graded (hh : heap) (c : nat) : bool := match gradOf hh c with Some _ => true | None => false end.

Lemma pe_cnt_step c st k e : fst (process_edge_cnt c (st, k) e) = process_edge rd c st e.
Proof.
  destruct st as [h [[]| |]]; cbn [process_edge_cnt process_edge]; [|reflexivity|reflexivity].
  destruct (trackedOf h (fst e)); [|reflexivity]. destruct (eval_rule rd h (snd e)); reflexivity.
Qed.

Lemma pe_cnt_fst c es : forall st k,
  fst (fold_left (process_edge_cnt c) es (st, k)) = fold_left (process_edge rd c) es st.
Proof.
  induction es as [|e es IH]; intros st k; cbn [fold_left]; [reflexivity|].
  rewrite <- (pe_cnt_step c st k e). destruct (process_edge_cnt c (st, k) e) as [st1 k1]. apply IH.
Qed.

Lemma pe_cnt_sticky c es : forall (h : heap) r k, r <> Ok tt ->
  fold_left (process_edge_cnt c) es (h, r, k) = (h, r, k).
Proof. intros h r k Hr. apply fold_left_fix. intros e. destruct r as [[]| |]; [congruence|reflexivity|reflexivity]. Qed.

Lemma pe_cnt_count c es : forall (h : heap) k st' k',
  fold_left (process_edge_cnt c) es (h, Ok tt, k) = (st', k') -> snd st' = Ok tt ->
  k' = k + length (filter (fun e => trackedOf h (fst e)) es).
Proof.
  induction es as [|e es IH]; intros h k st' k' E Hok; cbn [fold_left] in E.
  - inversion E. cbn. lia.
  - cbn [process_edge_cnt filter] in E |- *. destruct (trackedOf h (fst e)) eqn:Et.
    + destruct (eval_rule rd h (snd e)) as [g| |].
      * destruct (accumulate h (fst e) g) as [h1 r1] eqn:Ea. destruct r1 as [[]| |].
        -- destruct (accumulate_ok _ _ _ _ _ Ea eq_refl) as (o' & _ & Hh1).
           rewrite (IH h1 (S k) st' k' E Hok). cbn [length].
           rewrite (filter_ext (fun e0 => trackedOf h1 (fst e0)) (fun e0 => trackedOf h (fst e0))); [lia|].
           intros e0. subst h1. apply trackedOf_setGrad.
        -- rewrite pe_cnt_sticky in E by discriminate. inversion E; subst st'. discriminate.
        -- rewrite pe_cnt_sticky in E by discriminate. inversion E; subst st'. discriminate.
      * rewrite pe_cnt_sticky in E by discriminate. inversion E; subst st'. discriminate.
      * rewrite pe_cnt_sticky in E by discriminate. inversion E; subst st'. discriminate.
    + apply (IH h k st' k' E Hok).
Qed.

Lemma pn_cnt_step st k c : fst (process_node_cnt (st, k) c) = process_node rd idseal st c.
Proof.
  destruct st as [[h log] [[]| |]]; cbn [process_node_cnt process_node]; [|reflexivity|reflexivity].
  destruct (nth_error h c) as [n|]; [|reflexivity]. destruct (ngrad n) as [g|]; [|reflexivity].
  rewrite <- (pe_cnt_fst c (nedges n) (setGrad h c (Some g), Ok tt) k).
  destruct (fold_left (process_edge_cnt c) (nedges n) (setGrad h c (Some g), Ok tt, k)) as [[h2 r] k2].
  reflexivity.
Qed.

Lemma pn_cnt_fst l : forall st k,
  fst (fold_left process_node_cnt l (st, k)) = fold_left (process_node rd idseal) l st.
Proof.
  induction l as [|c l IH]; intros st k; cbn [fold_left]; [reflexivity|].
  rewrite <- (pn_cnt_step st k c). destruct (process_node_cnt (st, k) c) as [st1 k1]. apply IH.
Qed.

Lemma pn_cnt_count (h : heap) log k c st' k' :
  process_node_cnt (h, log, Ok tt, k) c = (st', k') -> snd st' = Ok tt ->
  k' = k + (if graded h c then length (filter (fun e => trackedOf h (fst e)) (edgesOf h c)) else 0).
Proof.
  cbn [process_node_cnt]. unfold graded, gradOf, edgesOf. destruct (nth_error h c) as [n|]; [|intros E; inversion E; subst st'; discriminate].
  cbn [obind]. destruct (ngrad n) as [g|]; [|intros E _; inversion E; lia].
  destruct (fold_left (process_edge_cnt c) (nedges n) (setGrad h c (Some g), Ok tt, k)) as [[h2 r] k2] eqn:Ef.
  intros E Hok. inversion E; subst st' k'. cbn [snd] in Hok. subst r.
  rewrite (pe_cnt_count _ _ _ _ _ _ Ef eq_refl). f_equal. f_equal. apply filter_ext. intros e0. apply trackedOf_setGrad.
Qed.

Lemma bp_fold_untouched (hs : heap) l (h : heap) log h' log' c :
  sameS hs h -> rules_own hs -> wf_heap hs -> NoDup (c :: l) -> ordered hs (c :: l) ->
  (forall c0, In c0 (c :: l) -> trackedOf hs c0 = true) ->
  fold_left (process_node rd idseal) l (h, log, Ok tt) = (h', log', Ok tt) ->
  gradOf h' c = gradOf h c.
Proof.
  intros HS Hown Hwf Hnd Hord Htr E. apply NoDup_cons_iff in Hnd. destruct Hnd as [Hnc Hnd]. destruct Hord as [Hc Hord].
  destruct (bp_fold_spec hs _ _ _ _ _ HS Hown Hwf Hnd Hord (fun c0 H0 => Htr c0 (or_intror H0)) E) as (_ & Iacc & _).
  assert (Hct : trackedOf hs c = true) by (apply Htr; left; reflexivity).
  specialize (Iacc c Hct). rewrite (contributions_nil _ _ _ _ Hord Hct Hnc) in Iacc. cbn [accAll] in Iacc. congruence.
Qed.

Definition tracked_edges (h : heap) (l : list nat) : list (nat * rule) :=
  flat_map (fun c => filter (fun e => trackedOf h (fst e)) (edgesOf h c)) l.

Lemma bp_fold_cnt (hs : heap) l : forall (h : heap) log k h' log' r' k',
  sameS hs h -> rules_own hs -> wf_heap hs -> NoDup l -> ordered hs l -> (forall c, In c l -> trackedOf hs c = true) ->
  fold_left process_node_cnt l (h, log, Ok tt, k) = (h', log', r', k') -> r' = Ok tt ->
  k' = k + length (tracked_edges hs (filter (graded h') l)).
Proof.
  induction l as [|c l IH]; intros h log k h' log' r' k' HS Hown Hwf Hnd Hord Htr E Hok.
  - cbn [fold_left] in E. inversion E. cbn. lia.
  - subst r'. pose proof (pn_cnt_fst (c :: l) (h, log, Ok tt) k) as Hf. rewrite E in Hf. cbn [fst] in Hf. symmetry in Hf.
    destruct (pn_fold_cons _ _ _ _ _ _ Hf) as (h1 & log1 & E1 & E2).
    cbn [fold_left] in E. pose proof (pn_cnt_step (h, log, Ok tt) k c) as Hs. rewrite E1 in Hs.
    destruct (process_node_cnt (h, log, Ok tt, k) c) as [st1 k1] eqn:Ec. cbn [fst] in Hs. subst st1.
    pose proof (pn_cnt_count _ _ _ _ _ _ Ec eq_refl) as Hk1.
    destruct (process_node_spec _ _ _ _ _ (rules_own_sameS _ _ HS Hown) (wf_heap_sameS _ _ HS Hwf) E1) as (NS & Nc & _).
    assert (HS1 : sameS hs h1) by (eapply sameS_trans; eauto).
    pose proof (bp_fold_untouched hs _ _ _ _ _ _ HS1 Hown Hwf Hnd Hord Htr E2) as Hfin.
    apply NoDup_cons_iff in Hnd.
    rewrite (IH h1 log1 k1 h' log' (Ok tt) k' HS1 Hown Hwf (proj2 Hnd) (proj2 Hord) (fun c0 H0 => Htr c0 (or_intror H0)) E eq_refl).
    rewrite Hk1. cbn [filter]. assert (Hg : graded h' c = graded h c) by (unfold graded; rewrite Hfin, Nc; reflexivity).
    rewrite Hg. destruct (graded h c); [|lia].
    unfold tracked_edges at 2. cbn [flat_map]. rewrite app_length. fold (tracked_edges hs (filter (graded h') l)).
    rewrite (sameS_edges _ _ HS c), (filter_ext (fun e => trackedOf hs (fst e)) (fun e => trackedOf h (fst e))); [lia|].
    intros e. apply (sameS_trk _ _ HS).
Qed.

Lemma bp_topo_cnt_fst (h : heap) root : fst (bp_topo_cnt h root) = bp_topo rd idseal h root.
Proof.
  unfold bp_topo_cnt, bp_topo. destruct (negb (trackedOf h root)); [reflexivity|].
  destruct (valOf (markDirty h (topoOrder h root)) root) as [rv|]; [|reflexivity].
  destruct (toOnes rv) as [ones| |]; [|reflexivity|reflexivity].
  destruct (accumulate (markDirty h (topoOrder h root)) root ones) as [h2 [[]| |]]; [|reflexivity|reflexivity].
  apply pn_cnt_fst.
Qed.

Lemma flat_map_edgesOf_seq : forall (h pre : heap),
  flat_map (edgesOf (pre ++ h)) (seq (length pre) (length h)) = flat_map (@nedges A) h.
Proof.
  induction h as [|x h IH]; intros pre; cbn [length seq flat_map]; [reflexivity|]. f_equal.
  - unfold edgesOf. rewrite nth_error_app2 by lia. rewrite Nat.sub_diag. reflexivity.
  - specialize (IH (pre ++ [x])). rewrite <- app_assoc in IH. cbn [app] in IH.
    rewrite app_length in IH. cbn [length] in IH. rewrite Nat.add_1_r in IH. exact IH.
Qed.

Lemma tracked_edges_le (h : heap) l :
  NoDup l -> (forall c, In c l -> c < length h) ->
  length (tracked_edges h l) <= length (flat_map (@nedges A) h).
Proof.
  intros Hnd Hlt. rewrite <- (flat_map_edgesOf_seq h []). cbn [app length].
  apply Nat.le_trans with (length (flat_map (edgesOf h) l)).
  - unfold tracked_edges. clear. induction l as [|c l IH]; cbn [flat_map]; [lia|].
    rewrite !app_length. pose proof (filter_length_le (fun e => trackedOf h (fst e)) (edgesOf h c)). lia.
  - apply flat_map_length_incl; [exact Hnd|]. intros c Hc. apply in_seq. specialize (Hlt c Hc). lia.
Qed.

(* The instrumented run is the run, and it evaluates each tracked back edge of each
   member of the order that carries a gradient exactly once *)
Theorem bp_topo_rule_count (h : heap) root h' log k :
  rules_own h -> wf_heap h -> trackedOf h root = true ->
  let order := topoOrder h root in
  NoDup order -> (forall c, In c order -> trackedOf h c = true) -> ordered h order ->
  bp_topo_cnt h root = (h', log, Ok tt, k) ->
  bp_topo rd idseal h root = (h', log, Ok tt) /\
  k = length (tracked_edges h (filter (graded h') order)) /\
  k <= length (flat_map (@nedges A) h).
Proof.
  intros Hown Hwf Hroot order Hnd Htr Hord E.
  assert (E0 : bp_topo rd idseal h root = (h', log, Ok tt)) by (rewrite <- bp_topo_cnt_fst, E; reflexivity).
  split; [exact E0|].
  assert (Hk : k = length (tracked_edges h (filter (graded h') order))).
  { unfold bp_topo_cnt in E. rewrite Hroot in E. cbn [negb] in E. fold order in E.
    set (h1 := markDirty h order) in *.
    destruct (valOf h1 root) as [rv|]; [|inversion E].
    destruct (toOnes rv) as [ones| |]; [|inversion E|inversion E].
    destruct (accumulate h1 root ones) as [h2 r] eqn:Ea.
    destruct r as [[]| |]; [|inversion E|inversion E].
    destruct (accumulate_ok _ _ _ _ _ Ea eq_refl) as (o' & _ & Hh2).
    assert (HS2 : sameS h h2) by (eapply sameS_trans; [apply sameS_markDirty|subst h2; apply sameS_setGrad]).
    rewrite (bp_fold_cnt h _ _ _ _ _ _ _ _ HS2 Hown Hwf Hnd Hord Htr E eq_refl). reflexivity. }
  split; [exact Hk|]. rewrite Hk. apply tracked_edges_le.
  - apply NoDup_filter. exact Hnd.
  - intros c Hc. apply filter_In in Hc. apply tracked_lt. apply Htr. apply Hc.
Qed.

(* when every member of the order other than the root is an edge target of a member (as in a DFS order),
   every member ends with a gradient: all its tracked back edges were evaluated, successfully *)
Theorem bp_topo_graded (h : heap) root h' log :
  rules_own h -> wf_heap h -> trackedOf h root = true ->
  let order := topoOrder h root in
  NoDup order -> (forall c, In c order -> trackedOf h c = true) -> ordered h order -> In root order ->
  (forall c, In c order -> c = root \/ exists p e, In p order /\ In e (edgesOf h p) /\ fst e = c) ->
  bp_topo rd idseal h root = (h', log, Ok tt) ->
  (forall c, In c order -> gradOf h' c <> None) /\
  (forall c e, In c order -> In e (edgesOf h c) -> trackedOf h (fst e) = true -> exists g, eval_rule rd h' (snd e) = Ok g) /\
  filter (graded h') order = order.
Proof.
  intros Hown Hwf Hroot order Hnd Htr Hord Hin Hreach E.
  destruct (bp_topo_adjoint h root h' log Hown Hwf Hroot Hnd Htr Hord Hin E)
    as (rv & ones & _ & _ & _ & _ & _ & _ & Hok & _).
  destruct (bp_topo_flags rd idseal h root h' log (Ok tt) (proj1 (wf_heap_Forall h) Hwf) Hroot E) as (_ & _ & Hall).
  specialize (Hall eq_refl).
  split; [exact Hall|]. split.
  - intros c e Hc He Ht. apply (Hok c e Hc (Hall c Hc) He Ht).
  - apply filter_all. intros c Hc. unfold graded.
    specialize (Hall c Hc). destruct (gradOf h' c); [reflexivity|congruence].
Qed.

End Run.

(* rules_own and wf_heap hold for every heap built through the API *)

Definition edges_ok (P : nat -> nat * rule -> Prop) (h : heap) : Prop :=
  forall c n e, nth_error h c = Some n -> In e (nedges n) -> P c e.
Definition Pown : nat -> nat * rule -> Prop := fun c e => rule_y (snd e) = c.
Definition Pwf : nat -> nat * rule -> Prop := fun c e => fst e < c.

Lemma rules_own_edges_ok h : rules_own h <-> edges_ok Pown h.
Proof. split; intros H; exact H. Qed.
Lemma wf_heap_edges_ok h : wf_heap h <-> edges_ok Pwf h.
Proof. split; intros H; exact H. Qed.

(* [edges_ok] is [edges_all] of Proofs/TrackP.v, where it is shown to be preserved method by method *)
Lemma edges_ok_alloc P (h : heap) v tr di es name :
  edges_ok P h -> (forall e, In e es -> P (length h) e) ->
  edges_ok P (fst (alloc h v (tr, di, es) name)).
Proof. apply (edges_all_snoc P h (mkNode v tr di None es name)). Qed.

Lemma edges_ok_updNode P (h : heap) i f :
  (forall n e, In e (nedges (f n)) -> In e (nedges n)) -> edges_ok P h -> edges_ok P (updNode h i f).
Proof. apply edges_all_updNode. Qed.

Lemma edges_ok_reset P (h : heap) x tracked : edges_ok P h -> edges_ok P (h_reset h x tracked).
Proof. apply edges_all_updNode. intros n e []. Qed.

Lemma rules_own_nil : rules_own [].
Proof. apply edges_all_nil. Qed.
Lemma wf_heap_nil : wf_heap [].
Proof. apply edges_all_nil. Qed.

Lemma rules_own_leaf h v tracked name : rules_own h -> rules_own (fst (leaf h v tracked name)).
Proof. apply edges_all_leaf. Qed.
Lemma wf_heap_leaf h v tracked name : wf_heap h -> wf_heap (fst (leaf h v tracked name)).
Proof. apply edges_all_leaf. Qed.

Lemma rules_own_op1 h x f mkrule name :
  (forall y, rule_y (mkrule y) = y) -> rules_own h -> rules_own (fst (h_op1 h x f mkrule name)).
Proof. intros Hm H. apply (edges_all_op1 Pown); [exact H|]. intros _. apply Hm. Qed.
Lemma wf_heap_op1 h x f mkrule name : wf_heap h -> wf_heap (fst (h_op1 h x f mkrule name)).
Proof. intros H. apply (edges_all_op1 Pwf); [exact H|]. intros Hx. exact Hx. Qed.

Lemma rules_own_slice h x index name : rules_own h -> rules_own (fst (h_slice h x index name)).
Proof. apply rules_own_op1. reflexivity. Qed.
Lemma rules_own_transpose h x name : rules_own h -> rules_own (fst (h_transpose h x name)).
Proof. apply rules_own_op1. reflexivity. Qed.
Lemma rules_own_reshape h x shape name : rules_own h -> rules_own (fst (h_reshape h x shape name)).
Proof. apply rules_own_op1. reflexivity. Qed.
Lemma rules_own_unsqueeze h x dim name : rules_own h -> rules_own (fst (h_unsqueeze h x dim name)).
Proof. apply rules_own_op1. reflexivity. Qed.
Lemma rules_own_squeeze h x dim name : rules_own h -> rules_own (fst (h_squeeze h x dim name)).
Proof. apply rules_own_op1. reflexivity. Qed.
Lemma rules_own_flatten h x dim name : rules_own h -> rules_own (fst (h_flatten h x dim name)).
Proof. apply rules_own_op1. reflexivity. Qed.
Lemma rules_own_broadcast h x shape name : rules_own h -> rules_own (fst (h_broadcast h x shape name)).
Proof. apply rules_own_op1. reflexivity. Qed.
Lemma rules_own_reduceAlong h r x dim name : rules_own h -> rules_own (fst (h_reduceAlong h r x dim name)).
Proof. apply rules_own_op1. intros y. destruct r; reflexivity. Qed.
Lemma rules_own_scale h x a name : rules_own h -> rules_own (fst (h_scale h x a name)).
Proof. apply rules_own_op1. reflexivity. Qed.
Lemma rules_own_pow h x a az name : rules_own h -> rules_own (fst (h_pow h x a az name)).
Proof. apply rules_own_op1. reflexivity. Qed.
Lemma rules_own_math h f x name : rules_own h -> rules_own (fst (h_math h f x name)).
Proof. apply rules_own_op1. intros y. destruct f; reflexivity. Qed.

Lemma rules_own_cmp h b x u name : rules_own h -> rules_own (fst (h_cmp h b x u name)).
Proof. apply edges_all_cmp. Qed.
Lemma wf_heap_cmp h b x u name : wf_heap h -> wf_heap (fst (h_cmp h b x u name)).
Proof. apply edges_all_cmp. Qed.

Lemma rules_own_elsel h b x u name : rules_own h -> rules_own (fst (h_elsel h b x u name)).
Proof. intros H. apply (edges_all_elsel Pown); [exact H|]. intros _ _. split; reflexivity. Qed.
Lemma wf_heap_elsel h b x u name : wf_heap h -> wf_heap (fst (h_elsel h b x u name)).
Proof. intros H. apply (edges_all_elsel Pwf); [exact H|]. intros Hx Hu. split; assumption. Qed.

Lemma rules_own_patch h x index p name : rules_own h -> rules_own (fst (h_patch h x index p name)).
Proof. intros H. apply (edges_all_patch Pown); [exact H|]. intros _ _. split; reflexivity. Qed.
Lemma wf_heap_patch h x index p name : wf_heap h -> wf_heap (fst (h_patch h x index p name)).
Proof. intros H. apply (edges_all_patch Pwf); [exact H|]. intros Hx Hp. split; assumption. Qed.

Lemma rules_own_binop h x u s1 s2 f edges name :
  (forall y a1 a2 e, In e (edges y a1 a2) -> rule_y (snd e) = y) ->
  rules_own h -> rules_own (fst (h_binop h x u s1 s2 f edges name)).
Proof.
  intros He H. apply (edges_all_binop Pown); [intros y a _; reflexivity| |exact H].
  intros y a1 a2 e _ _ Hi. eapply He; eauto.
Qed.
Lemma wf_heap_binop h x u s1 s2 f edges name :
  (forall y a1 a2 e, In e (edges y a1 a2) -> fst e = a1 \/ fst e = a2) ->
  wf_heap h -> wf_heap (fst (h_binop h x u s1 s2 f edges name)).
Proof.
  intros He H. apply (edges_all_binop Pwf); [intros y a Ha; exact Ha| |exact H].
  intros y a1 a2 e H1 H2 Hi. unfold Pwf. destruct (He _ _ _ _ Hi) as [-> | ->]; assumption.
Qed.

Lemma arithEdges_in b y a1 a2 e : In e (arithEdges b y a1 a2) ->
  rule_y (snd e) = y /\ (fst e = a1 \/ fst e = a2).
Proof. destruct b; cbn [arithEdges]; intros Hi; repeat (destruct Hi as [<-|Hi]; [cbn; auto|]); destruct Hi. Qed.

Lemma rules_own_arith h b x u name : rules_own h -> rules_own (fst (h_arith h b x u name)).
Proof.
  intros H. unfold h_arith. destruct (valOf h x); [|exact H]. destruct (valOf h u); [|exact H].
  apply rules_own_binop; [|exact H]. intros y a1 a2 e Hi. apply (arithEdges_in _ _ _ _ _ Hi).
Qed.
Lemma wf_heap_arith h b x u name : wf_heap h -> wf_heap (fst (h_arith h b x u name)).
Proof.
  intros H. unfold h_arith. destruct (valOf h x); [|exact H]. destruct (valOf h u); [|exact H].
  apply wf_heap_binop; [|exact H]. intros y a1 a2 e Hi. apply (arithEdges_in _ _ _ _ _ Hi).
Qed.
Lemma rules_own_dot h x u name : rules_own h -> rules_own (fst (h_dot h x u name)).
Proof.
  intros H. unfold h_dot. destruct (valOf h x) as [xv|]; [|exact H]. destruct (valOf h u) as [uv|]; [|exact H].
  destruct (validateDotProductDims (zdims xv) (zdims uv)); [|exact H].
  apply rules_own_binop; [|exact H]. intros y a1 a2 e [<-|[<-|[]]]; reflexivity.
Qed.
Lemma wf_heap_dot h x u name : wf_heap h -> wf_heap (fst (h_dot h x u name)).
Proof.
  intros H. unfold h_dot. destruct (valOf h x) as [xv|]; [|exact H]. destruct (valOf h u) as [uv|]; [|exact H].
  destruct (validateDotProductDims (zdims xv) (zdims uv)); [|exact H].
  apply wf_heap_binop; [|exact H]. intros y a1 a2 e [<-|[<-|[]]]; cbn; auto.
Qed.
Lemma rules_own_matmul h x u name : rules_own h -> rules_own (fst (h_matmul h x u name)).
Proof.
  intros H. unfold h_matmul. destruct (valOf h x) as [xv|]; [|exact H]. destruct (valOf h u) as [uv|]; [|exact H].
  destruct (validateMatMulDims (zdims xv) (zdims uv)); [|exact H].
  apply rules_own_binop; [|exact H]. intros y a1 a2 e [<-|[<-|[]]]; reflexivity.
Qed.
Lemma wf_heap_matmul h x u name : wf_heap h -> wf_heap (fst (h_matmul h x u name)).
Proof.
  intros H. unfold h_matmul. destruct (valOf h x) as [xv|]; [|exact H]. destruct (valOf h u) as [uv|]; [|exact H].
  destruct (validateMatMulDims (zdims xv) (zdims uv)); [|exact H].
  apply wf_heap_binop; [|exact H]. intros y a1 a2 e [<-|[<-|[]]]; cbn; auto.
Qed.

Lemma rules_own_concat h xs dim name : rules_own h -> rules_own (fst (h_concat h xs dim name)).
Proof. apply (edges_all_concat Pown). intros y a index _. reflexivity. Qed.
Lemma wf_heap_concat h xs dim name : wf_heap h -> wf_heap (fst (h_concat h xs dim name)).
Proof. apply (edges_all_concat Pwf). intros y a index Ha. exact Ha. Qed.

Lemma rules_own_reset h x tracked : rules_own h -> rules_own (h_reset h x tracked).
Proof. apply edges_ok_reset. Qed.
Lemma wf_heap_reset h x tracked : wf_heap h -> wf_heap (h_reset h x tracked).
Proof. apply edges_ok_reset. Qed.
Lemma rules_own_setGrad h i g : rules_own h -> rules_own (setGrad h i g).
Proof. apply edges_all_updNode. intros n e He. exact He. Qed.
Lemma wf_heap_setGrad h i g : wf_heap h -> wf_heap (setGrad h i g).
Proof. apply edges_all_updNode. intros n e He. exact He. Qed.
Lemma rules_own_markDirty h l : rules_own h -> rules_own (markDirty h l).
Proof. apply edges_all_markDirty. Qed.
Lemma wf_heap_markDirty h l : wf_heap h -> wf_heap (markDirty h l).
Proof. apply edges_all_markDirty. Qed.

(* the order computed by dfs satisfies the hypotheses of the theorems above *)

(* invariant: post ⊆ visited; post is ordered, duplicate-free and all tracked; every open node (visited, not in post) is > bound *)
Definition dinv (h : heap) (b : nat) (st : list nat * list nat) : Prop :=
  incl (snd st) (fst st) /\ ordered h (snd st) /\ NoDup (snd st) /\
  (forall o, In o (fst st) -> ~ In o (snd st) -> b < o) /\ (forall x, In x (snd st) -> trackedOf h x = true).

(* [dinv] has the body of [DfsP.inv]; [DfsP.dfs_spec] also says that the new elements are reachable *)
Lemma dfs_spec (h : heap) (W : wf_heap h) fuel : forall n st, n < fuel -> dinv h n st ->
  let st' := dfs fuel h n st in
  dinv h n st' /\ (exists new, snd st' = new ++ snd st /\ forall x, In x new -> ~ In x (fst st)) /\
  incl (fst st) (fst st') /\
  (forall o, In o (fst st') -> ~ In o (snd st') -> In o (fst st) /\ ~ In o (snd st)) /\
  (trackedOf h n = true -> In n (snd st')).
Proof.
  intros n st Hn Hinv.
  destruct (DfsP.dfs_spec h (proj1 (wf_heap_Forall h) W) fuel n st Hn Hinv) as (J & (new & Jn & Jf) & Jr).
  split; [exact J|]. split; [|exact Jr]. exists new. split; [exact Jn|]. intros x Hx. apply (Jf x Hx).
Qed.

(* the new elements are bounded by the start node and, except for it, are edge targets of new elements *)
Lemma dfs_new (h : heap) (W : wf_heap h) fuel : forall n st,
  exists new, snd (dfs fuel h n st) = new ++ snd st /\
    forall x, In x new -> x <= n /\ (x = n \/ exists p e, In p new /\ In e (edgesOf h p) /\ fst e = x).
Proof.
  induction fuel as [|f IH]; intros n st; cbn [dfs].
  - exists []. split; [reflexivity|intros x []].
  - destruct (negb (trackedOf h n) || memb n (fst st)); [exists []; split; [reflexivity|intros x []]|].
    assert (Hfold : forall (es : list (nat * rule)) s,
       exists new, snd (fold_left (fun s e => dfs f h (fst e) s) es s) = new ++ snd s /\
         forall x, In x new -> (exists e, In e es /\ x <= fst e) /\
                               ((exists e, In e es /\ fst e = x) \/ exists p e, In p new /\ In e (edgesOf h p) /\ fst e = x)).
    { induction es as [|e es IHes]; intros s; cbn [fold_left].
      - exists []. split; [reflexivity|intros x []].
      - destruct (IH (fst e) s) as (new1 & E1 & H1). destruct (IHes (dfs f h (fst e) s)) as (new2 & E2 & H2).
        exists (new2 ++ new1). split; [rewrite E2, E1, app_assoc; reflexivity|].
        intros x Hx. apply in_app_or in Hx. destruct Hx as [Hx|Hx].
        + destruct (H2 x Hx) as [(e0 & He0 & Hle) Hr]. split; [exists e0; split; [right; exact He0|exact Hle]|].
          destruct Hr as [(e1 & He1 & Hf1)|(p & e1 & Hp & He1 & Hf1)].
          * left. exists e1. split; [right; exact He1|exact Hf1].
          * right. exists p, e1. split; [apply in_or_app; left; exact Hp|split; assumption].
        + destruct (H1 x Hx) as [Hle Hr]. split; [exists e; split; [left; reflexivity|exact Hle]|].
          destruct Hr as [->|(p & e1 & Hp & He1 & Hf1)].
          * left. exists e. split; [left; reflexivity|reflexivity].
          * right. exists p, e1. split; [apply in_or_app; right; exact Hp|split; assumption]. }
    destruct (Hfold (edgesOf h n) (n :: fst st, snd st)) as (new & En & Hnew). cbn [fst snd] in *.
    exists (n :: new). split; [rewrite En; reflexivity|].
    intros x [<-|Hx]; [split; [lia|left; reflexivity]|].
    destruct (Hnew x Hx) as [(e0 & He0 & Hle) Hr]. pose proof (wf_heap_edgesOf _ W _ _ He0) as Hlt.
    split; [lia|]. right. destruct Hr as [(e1 & He1 & Hf1)|(p & e1 & Hp & He1 & Hf1)].
    + exists n, e1. split; [left; reflexivity|split; assumption].
    + exists p, e1. split; [right; exact Hp|split; assumption].
Qed.

Theorem topoOrder_facts (h : heap) root :
  wf_heap h -> trackedOf h root = true ->
  let order := topoOrder h root in
  NoDup order /\ (forall c, In c order -> trackedOf h c = true) /\ ordered h order /\
  hd_error order = Some root /\ In root order /\
  (forall c, In c order -> c <= root) /\
  (forall c, In c order -> c = root \/ exists p e, In p order /\ In e (edgesOf h p) /\ fst e = c) /\
  length order <= S root.
Proof.
  intros W0 Ht order. pose proof (proj1 (wf_heap_Forall h) W0) as W.
  destruct (topoOrder_spec h root W) as (Hnd & Ho & _). fold order in Hnd, Ho.
  assert (Hle : forall c, In c order -> c <= root) by (intros c Hc; eapply topoOrder_le; eauto).
  split; [exact Hnd|]. split; [intros c Hc; eapply topoOrder_tracked; eauto|]. split; [exact Ho|].
  split; [destruct (topoOrder_head h root Ht) as [l E]; unfold order; rewrite E; reflexivity|].
  split; [apply topoOrder_root; assumption|]. split; [exact Hle|]. split.
  - intros c Hc. destruct (Nat.eq_dec c root) as [->|Hne]; [left; reflexivity|right].
    destruct (topoOrder_pred h root c W Hc Hne) as (p & e & Hp & He & Hf & _). eauto.
  - apply Nat.le_trans with (length (seq 0 (S root))); [|rewrite seq_length; lia].
    apply NoDup_incl_length; [exact Hnd|]. intros c Hc. apply in_seq. specialize (Hle c Hc). lia.
Qed.

(* closed statements (no hypothesis left on the order) *)

Theorem bp_topo_correct rd (h : heap) root h' log :
  rules_own h -> wf_heap h -> trackedOf h root = true ->
  bp_topo rd (fun _ g => g) h root = (h', log, Ok tt) ->
  let order := topoOrder h root in
  exists rv ones, valOf h root = Some rv /\ toOnes rv = Ok ones /\
  length h' = length h /\
  (forall i, valOf h' i = valOf h i /\ trackedOf h' i = trackedOf h i /\ edgesOf h' i = edgesOf h i) /\
  (forall n, ~ In n order -> gradOf h' n = gradOf h n) /\
  (forall n, In n order ->
     accAll (gradOf h n) ((if n =? root then [ones] else []) ++ contributions rd h' h order n) = Some (gradOf h' n)) /\
  (forall c, In c order -> gradOf h' c <> None) /\
  (forall c e, In c order -> In e (edgesOf h c) -> trackedOf h (fst e) = true ->
               exists g, eval_rule rd h' (snd e) = Ok g) /\
  log = rev (logOf h' order).
Proof.
  intros Hown Hwf Hroot E order.
  destruct (topoOrder_facts h root Hwf Hroot) as (F1 & F2 & F3 & _ & F5 & _ & F7 & _). fold order in F1, F2, F3, F5, F7.
  destruct (bp_topo_adjoint rd h root h' log Hown Hwf Hroot F1 F2 F3 F5 E)
    as (rv & ones & C1 & C2 & C3 & C4 & C5 & C6 & _ & C8).
  destruct (bp_topo_graded rd h root h' log Hown Hwf Hroot F1 F2 F3 F5 F7 E) as (G1 & G2 & _).
  exists rv, ones. repeat (split; [assumption|]). assumption.
Qed.

Theorem bp_topo_rule_count_closed rd (h : heap) root h' log k :
  rules_own h -> wf_heap h -> trackedOf h root = true ->
  bp_topo_cnt rd h root = (h', log, Ok tt, k) ->
  bp_topo rd (fun _ g => g) h root = (h', log, Ok tt) /\
  k = length (tracked_edges h (topoOrder h root)) /\
  k <= length (flat_map (@nedges A) h) /\
  length (topoOrder h root) <= S root.
Proof.
  intros Hown Hwf Hroot E.
  destruct (topoOrder_facts h root Hwf Hroot) as (F1 & F2 & F3 & _ & F5 & _ & F7 & F8).
  destruct (bp_topo_rule_count rd h root h' log k Hown Hwf Hroot F1 F2 F3 E) as (R1 & R2 & R3).
  destruct (bp_topo_graded rd h root h' log Hown Hwf Hroot F1 F2 F3 F5 F7 R1) as (_ & _ & G3).
  rewrite G3 in R2. repeat (split; [assumption|]). assumption.
Qed.

Lemma bp_topo_untracked rd sealg (h : heap) root :
  trackedOf h root = false -> bp_topo rd sealg h root = (h, [], Ok tt).
Proof. apply bp_untracked_root. Qed.

End BackpropP.

(* refutation witnesses for the pinned algorithm [walk] *)
Module Witness.
Local Open Scope Z_scope.

#[local] Instance Z_scalar : Scalar Z := {|
  s0 := 0; s1 := 1;
  sadd := Z.add; ssub := Z.sub; smul := Z.mul; sdiv := Z.div; spow := fun _ _ => 1;
  sexp := fun a => a; slog := fun a => a; ssin := fun a => a; scos := fun a => a; stan := fun a => a;
  ssinh := fun a => a; scosh := fun a => a; stanh := fun a => a; ssqrt := fun a => a;
  smax := Z.max; smin := Z.min; sselgt := Z.max; ssellt := Z.min;
  seqt := fun a b => if a =? b then 1 else 0; snet := fun a b => if a =? b then 0 else 1;
  sgt := fun a b => if a >? b then 1 else 0; sge := fun a b => if a >=? b then 1 else 0;
  slt := fun a b => if a <? b then 1 else 0; sle := fun a b => if a <=? b then 1 else 0;
  sgeb := fun a b => if a >=? b then 1 else 0; strunc := fun a => a;
  sofnat := Z.of_nat; sconst := fun m e => m * 10 ^ e;
  sneginf := -1000000; sposinf := 1000000; srnd := fun _ k => Z.of_nat k
|}.

Definition vec2 (a b : Z) : tensor Z := mkT [2%nat] (Vec [Sc a; Sc b]).
Definition ids : option nat -> tensor Z -> tensor Z := fun _ g => g.

(* x (tracked leaf, [3;5]);  m = x.Scale(2);  y = m.Add(m) *)
Definition diamond : @heap Z * nat :=
  let '(h0, x) := leaf [] (vec2 3 5) true None in
  match h_scale h0 x 2 None with
  | (h1, Ok m) => match h_arith h1 BiAdd m m None with (h2, Ok y) => (h2, y) | _ => ([], 0%nat) end
  | _ => ([], 0%nat)
  end.

Definition dh : @heap Z := fst diamond.
Definition dy : nat := snd diamond.

Example diamond_shape : length dh = 5%nat /\ dy = 4%nat /\ topoOrder dh dy = [4; 3; 2; 1; 0]%nat.
Proof. vm_compute. repeat split. Qed.

(* the pinned walk leaves dy/dx = 6 on x (m's partial gradient is pushed to x twice: 1*2 + 2*2),
   the repaired algorithm leaves the correct 4 *)
Lemma walk_refuted :
  let w := bp_walk RedSum 50 dh dy in
  let t := bp_topo RedSum ids dh dy in
  snd w = Ok tt /\ gradOf (fst (fst w)) 0 = Some (vec2 6 6) /\
  snd t = Ok tt /\ gradOf (fst (fst t)) 0 = Some (vec2 4 4).
Proof. vm_compute. repeat split. Qed.

(* the doubling chain  x_{i+1} = x_i + x_i  of depth d *)
Fixpoint chain (d : nat) (st : @heap Z * nat) : @heap Z * nat :=
  match d with
  | O => st
  | S d' => match h_arith (fst st) BiAdd (snd st) (snd st) None with
            | (h', Ok y) => chain d' (h', y)
            | _ => ([], 0%nat)
            end
  end.
Definition chainH (d : nat) : @heap Z * nat := chain d (leaf [] (mkT [1%nat] (Vec [Sc 1])) true None).

Definition walk_count (d : nat) : nat := let '(h, y) := chainH d in snd (fst (bp_walk RedSum 100 h y)).
Definition topo_count (d : nat) : nat := let '(h, y) := chainH d in snd (bp_topo_cnt RedSum h y).
Definition edge_count (d : nat) : nat := length (flat_map (@nedges Z) (fst (chainH d))).

Definition depths : list nat := [1; 2; 3; 4; 5; 6]%nat.

(* exponential for the pinned walk (2^(d+2) - 3 accumulations), linear for bp_topo (4 d rule evaluations
   = all the back edges of the heap: each Add is two Broadcast nodes and one Add node) *)
Example walk_rule_counts :
  map walk_count depths = [5; 13; 29; 61; 125; 253]%nat /\
  map walk_count depths = map (fun d => 2 ^ (d + 2) - 3)%nat depths /\
  map topo_count depths = [4; 8; 12; 16; 20; 24]%nat /\
  map topo_count depths = map edge_count depths /\
  map (fun d => let '(h, y) := chainH d in (length h, length (topoOrder h y))) depths
    = [(4, 4); (7, 7); (10, 10); (13, 13); (16, 16); (19, 19)]%nat /\
  map (fun d => let '(h, y) := chainH d in (snd (bp_walk RedSum 100 h y), snd (fst (bp_topo_cnt RedSum h y)))) depths
    = map (fun _ => (Ok tt, Ok tt)) depths.
Proof. vm_compute. repeat split. Qed.

(* the hypotheses of the theorems are satisfiable and the conclusion is not trivial: the diamond *)
Lemma dh_eq :
  dh = fst (h_arith (fst (h_scale (fst (leaf [] (vec2 3 5) true None)) 0%nat 2 None)) BiAdd 1%nat 1%nat None).
Proof. vm_compute. reflexivity. Qed.

Lemma dh_rules_own : rules_own dh.
Proof. rewrite dh_eq. apply rules_own_arith, rules_own_scale, rules_own_leaf, rules_own_nil. Qed.
Lemma dh_wf_heap : wf_heap dh.
Proof. rewrite dh_eq. apply wf_heap_arith. unfold h_scale. apply wf_heap_op1, wf_heap_leaf, wf_heap_nil. Qed.

Example diamond_adjoint :
  exists h' log,
    bp_topo RedSum ids dh dy = (h', log, Ok tt) /\
    trackedOf dh dy = true /\ topoOrder dh dy = [4; 3; 2; 1; 0]%nat /\
    (* m (node 1) receives one contribution from each of its two consumers (the two Broadcast nodes) *)
    contributions RedSum h' dh (topoOrder dh dy) 1 = [vec2 1 1; vec2 1 1] /\
    gradOf h' 1 = Some (vec2 2 2) /\
    (* x (node 0) receives a single contribution, computed from the final gradient [2;2] of m *)
    contributions RedSum h' dh (topoOrder dh dy) 0 = [vec2 4 4] /\
    gradOf h' 0 = Some (vec2 4 4) /\
    map fst log = [0; 1; 2; 3; 4]%nat /\
    snd (bp_topo_cnt RedSum dh dy) = 5%nat.
Proof.
  eexists. eexists. split; [vm_compute; reflexivity|]. vm_compute. repeat split.
Qed.

(* bp_topo_correct instantiated on the diamond *)
Example diamond_correct :
  let r := bp_topo RedSum ids dh dy in
  forall n, In n [4; 3; 2; 1; 0]%nat ->
    accAll (gradOf dh n) ((if (n =? dy)%nat then [vec2 1 1] else []) ++
                          contributions RedSum (fst (fst r)) dh (topoOrder dh dy) n)
    = Some (gradOf (fst (fst r)) n).
Proof.
  intros r n Hn.
  assert (E : bp_topo RedSum ids dh dy = (fst (fst r), snd (fst r), Ok tt)) by (vm_compute; reflexivity).
  destruct (bp_topo_correct RedSum dh dy _ _ dh_rules_own dh_wf_heap eq_refl E)
    as (rv & ones & C1 & C2 & _ & _ & _ & C6 & _).
  assert (Hones : ones = vec2 1 1).
  { vm_compute in C1. inversion C1; subst rv. vm_compute in C2. inversion C2. reflexivity. }
  subst ones. apply C6. change (topoOrder dh dy) with [4; 3; 2; 1; 0]%nat. exact Hn.
Qed.

End Witness.

Print Assumptions eval_rule_ext.
Print Assumptions bp_topo_adjoint.
Print Assumptions bp_topo_graded.
Print Assumptions bp_topo_rule_count.
Print Assumptions topoOrder_facts.
Print Assumptions bp_topo_correct.
Print Assumptions bp_topo_rule_count_closed.
Print Assumptions rules_own_arith.
Print Assumptions rules_own_concat.
Print Assumptions Witness.walk_refuted.
Print Assumptions Witness.walk_rule_counts.
Print Assumptions Witness.diamond_correct.
