(* BpFlagsP.v — what back-propagation does to the bookkeeping of the heap
   (which gradients become non-nil, which tensors become spent, and the frame), and
   that spent tensors isolate everything computed from them. *)
From Coq Require Import List Arith ZArith Bool Lia.
From Qeep Require Import Model.Scalar Model.Nd Model.Fill Model.Data Model.Valid Model.Api Model.Grad Model.Backprop.
From Qeep Require Import Proofs.NdP Proofs.TrackP Proofs.DfsP.
Import ListNotations.

Section BpFlagsP.
Context {A : Type} {SA : Scalar A}.
Notation T := (tensor A).
Notation heap := (@heap A).
Notation node := (@node A).
Notation rule := (@rule A).

Variable rd : bred.
Variable sealg : option nat -> T -> T.

(* everything of a node except its gradient *)
Definition skel (n : node) := (nval n, ntracked n, ndirty n, nedges n, nname n).
Definition same_skel (h h' : heap) : Prop := map skel h = map skel h'.

Lemma same_skel_refl h : same_skel h h.
Proof. reflexivity. Qed.
Lemma same_skel_sym h h' : same_skel h h' -> same_skel h' h.
Proof. unfold same_skel. intros E. symmetry. exact E. Qed.
Lemma same_skel_trans h1 h2 h3 : same_skel h1 h2 -> same_skel h2 h3 -> same_skel h1 h3.
Proof. unfold same_skel. intros E1 E2. rewrite E1. exact E2. Qed.

Lemma same_skel_length h h' : same_skel h h' -> length h = length h'.
Proof. intros E. rewrite <- (map_length skel h), <- (map_length skel h'). rewrite E. reflexivity. Qed.

Lemma same_skel_nth h h' : same_skel h h' ->
  forall i, option_map skel (nth_error h i) = option_map skel (nth_error h' i).
Proof. intros E i. rewrite <- !nth_error_map. unfold same_skel in E. rewrite E. reflexivity. Qed.

Lemma same_skel_node h h' i n : same_skel h h' -> nth_error h i = Some n ->
  exists n', nth_error h' i = Some n' /\ skel n' = skel n.
Proof.
  intros E Hn. pose proof (same_skel_nth h h' E i) as X. rewrite Hn in X. cbn in X.
  destruct (nth_error h' i) as [n'|]; [|discriminate]. cbn in X. exists n'. split; [reflexivity|]. congruence.
Qed.

(* a field that is part of the skeleton reads the same in both heaps *)
Lemma same_skel_getN {X} (f : node -> X) d h h' : same_skel h h' ->
  (forall n n', skel n = skel n' -> f n = f n') -> forall i, getN f d h i = getN f d h' i.
Proof.
  intros E Hf i. pose proof (same_skel_nth h h' E i) as X0. unfold getN.
  destruct (nth_error h i) as [n|], (nth_error h' i) as [n'|]; cbn in X0; try discriminate; [|reflexivity].
  apply Hf. congruence.
Qed.

Lemma same_skel_tracked h h' : same_skel h h' -> forall i, trackedOf h i = trackedOf h' i.
Proof. intros E. apply (same_skel_getN (@ntracked A) false _ _ E). unfold skel. congruence. Qed.

Lemma same_skel_dirty h h' : same_skel h h' -> forall i, dirtyOf h i = dirtyOf h' i.
Proof. intros E. apply (same_skel_getN (@ndirty A) false _ _ E). unfold skel. congruence. Qed.

Lemma same_skel_edges h h' : same_skel h h' -> forall i, edgesOf h i = edgesOf h' i.
Proof. intros E. apply (same_skel_getN (@nedges A) [] _ _ E). unfold skel. congruence. Qed.

Lemma same_skel_val h h' : same_skel h h' -> forall i, valOf h i = valOf h' i.
Proof. intros E. apply (same_skel_getN (fun n => Some (nval n)) None _ _ E). unfold skel. congruence. Qed.

Lemma same_skel_erase h h' : same_skel h h' -> erase h = erase h'.
Proof.
  intros E. apply NdP.nth_error_ext_len; [rewrite !erase_length; apply same_skel_length, E|].
  intros i _. rewrite <- !valOf_erase. apply same_skel_val, E.
Qed.

Lemma setGrad_skel (h : heap) i g : same_skel h (setGrad h i g).
Proof.
  unfold same_skel. apply NdP.nth_error_ext_len.
  - rewrite !map_length, setGrad_length. reflexivity.
  - intros j _. rewrite !nth_error_map, setGrad_nth. destruct (nth_error h j) as [n|]; [|reflexivity].
    cbn. destruct (j =? i); reflexivity.
Qed.

Lemma gradOf_lt (h : heap) i : gradOf h i <> None -> i < length h.
Proof. apply (getN_lt (@ngrad A) None h i _ eq_refl). Qed.

Lemma gradOf_setGrad_other (h : heap) i g j : j <> i -> gradOf (setGrad h i g) j = gradOf h j.
Proof. apply (getN_updNode_other (@ngrad A)). Qed.

Lemma gradOf_setGrad_same (h : heap) i g : i < length h -> gradOf (setGrad h i g) i = g.
Proof.
  intros H. destruct (lt_nth_some h i H) as [n Hn]. unfold gradOf. rewrite setGrad_nth, Hn, Nat.eqb_refl. reflexivity.
Qed.

(* one step of the gradient pass: only gradients inside S change, and none is lost *)
Definition step_ok (S : nat -> Prop) (h h' : heap) : Prop :=
  same_skel h h' /\ (forall j, ~ S j -> gradOf h' j = gradOf h j) /\ (forall j, gradOf h j <> None -> gradOf h' j <> None).

Lemma step_ok_refl S h : step_ok S h h.
Proof. split; [apply same_skel_refl|]. split; auto. Qed.

Lemma step_ok_trans S h1 h2 h3 : step_ok S h1 h2 -> step_ok S h2 h3 -> step_ok S h1 h3.
Proof.
  intros (E1 & F1 & M1) (E2 & F2 & M2). split; [eapply same_skel_trans; eauto|]. split.
  - intros j Hj. rewrite F2, F1; auto.
  - intros j Hj. apply M2, M1, Hj.
Qed.

Lemma step_ok_weaken (S S' : nat -> Prop) h h' : (forall j, S j -> S' j) -> step_ok S h h' -> step_ok S' h h'.
Proof. intros HS (E & F & M). split; [exact E|]. split; [|exact M]. intros j Hj. apply F. intro X. apply Hj, HS, X. Qed.

Lemma setGrad_step (h : heap) i g : step_ok (fun j => j = i) h (setGrad h i (Some g)).
Proof.
  split; [apply setGrad_skel|]. split.
  - intros j Hj. apply gradOf_setGrad_other. exact Hj.
  - intros j Hj. destruct (Nat.eq_dec j i) as [->|Hne].
    + rewrite gradOf_setGrad_same by (apply gradOf_lt; exact Hj). discriminate.
    + rewrite gradOf_setGrad_other by exact Hne. exact Hj.
Qed.

Lemma accumulate_ok (h : heap) i g h' r : accumulate h i g = (h', r) ->
  step_ok (fun j => j = i) h h' /\ (r = Ok tt -> i < length h -> gradOf h' i <> None).
Proof.
  unfold accumulate. destruct (gradOf h i) as [g0|] eqn:Eg.
  - destruct (v_arith BiAdd g0 g) as [s| |].
    + intros E. inversion E; subst. split; [apply setGrad_step|]. intros _ Hi. rewrite gradOf_setGrad_same by exact Hi. discriminate.
    + intros E. inversion E; subst. split; [apply step_ok_refl|]. intros X; discriminate.
    + intros E. inversion E; subst. split; [apply step_ok_refl|]. intros X; discriminate.
  - intros E. inversion E; subst. split; [apply setGrad_step|]. intros _ Hi. rewrite gradOf_setGrad_same by exact Hi. discriminate.
Qed.

Lemma process_edge_ok c (h : heap) r e h' r' : process_edge rd c (h, r) e = (h', r') ->
  step_ok (fun j => j = fst e /\ trackedOf h j = true) h h' /\
  (r' = Ok tt -> r = Ok tt /\ (trackedOf h (fst e) = true -> gradOf h' (fst e) <> None)) /\
  ((forall u, r <> Ok u) -> r' = r).
Proof.
  unfold process_edge. destruct r as [u| |].
  - destruct u. destruct (trackedOf h (fst e)) eqn:Et.
    + destruct (eval_rule rd h (snd e)) as [g| |].
      * intros E. apply accumulate_ok in E. destruct E as [Hs Hg]. split.
        { eapply step_ok_weaken; [|exact Hs]. intros j ->. split; [reflexivity|exact Et]. }
        split; [|intros X; exfalso; apply (X tt); reflexivity].
        intros Hr. split; [reflexivity|]. intros _. apply Hg; [exact Hr|]. apply trackedOf_true_lt. exact Et.
      * intros E. inversion E; subst. split; [apply step_ok_refl|]. split; [discriminate|].
        intros X; exfalso; apply (X tt); reflexivity.
      * intros E. inversion E; subst. split; [apply step_ok_refl|]. split; [discriminate|].
        intros X; exfalso; apply (X tt); reflexivity.
    + intros E. inversion E; subst. split; [apply step_ok_refl|]. split.
      * intros _. split; [reflexivity|]. discriminate.
      * intros X; exfalso; apply (X tt); reflexivity.
  - intros E. inversion E; subst. split; [apply step_ok_refl|]. split; [discriminate|reflexivity].
  - intros E. inversion E; subst. split; [apply step_ok_refl|]. split; [discriminate|reflexivity].
Qed.

Lemma fold_edges_ok c : forall es (h : heap) r h' r', fold_left (process_edge rd c) es (h, r) = (h', r') ->
  step_ok (fun j => exists e, In e es /\ fst e = j /\ trackedOf h j = true) h h' /\
  (r' = Ok tt -> r = Ok tt /\ forall e, In e es -> trackedOf h (fst e) = true -> gradOf h' (fst e) <> None) /\
  ((forall u, r <> Ok u) -> r' = r).
Proof.
  induction es as [|e es IH]; intros h r h' r' E; cbn [fold_left] in E.
  - inversion E; subst. split; [apply step_ok_refl|]. split; [|reflexivity].
    intros Hr. split; [exact Hr|]. intros e [].
  - destruct (process_edge rd c (h, r) e) as [h1 r1] eqn:E1.
    apply process_edge_ok in E1. destruct E1 as (S1 & O1 & N1).
    apply IH in E. destruct E as (S2 & O2 & N2).
    assert (Tk : forall j, trackedOf h1 j = trackedOf h j).
    { intros j. symmetry. apply same_skel_tracked. apply S1. }
    split.
    { eapply step_ok_trans.
      - eapply step_ok_weaken; [|exact S1]. intros j [-> Hj]. exists e. split; [left; reflexivity|]. split; [reflexivity|exact Hj].
      - eapply step_ok_weaken; [|exact S2]. intros j (e' & He' & Hf & Hj). exists e'. split; [right; exact He'|].
        split; [exact Hf|]. rewrite <- Tk. exact Hj. }
    split.
    + intros Hr. destruct (O2 Hr) as [Hr1 G2]. destruct (O1 Hr1) as [Hr0 G1]. split; [exact Hr0|].
      intros e' [<-|He'] Ht.
      * destruct S2 as (_ & _ & M2). apply M2. apply G1. exact Ht.
      * apply G2; [exact He'|]. rewrite Tk. exact Ht.
    + intros X. rewrite <- (N1 X). apply N2. rewrite (N1 X). exact X.
Qed.

Lemma process_node_ok (h : heap) log r c h' log' r' : process_node rd sealg (h, log, r) c = (h', log', r') ->
  step_ok (fun j => j = c \/ exists e, In e (edgesOf h c) /\ fst e = j /\ trackedOf h j = true) h h' /\
  (r' = Ok tt -> r = Ok tt /\
     (gradOf h c <> None -> forall e, In e (edgesOf h c) -> trackedOf h (fst e) = true -> gradOf h' (fst e) <> None)) /\
  ((forall u, r <> Ok u) -> r' = r).
Proof.
  unfold process_node. destruct r as [u| |].
  - destruct u. destruct (nth_error h c) as [n|] eqn:En.
    + assert (Ee : edgesOf h c = nedges n) by (unfold edgesOf; rewrite En; reflexivity).
      destruct (ngrad n) as [g|] eqn:Eg.
      * destruct (fold_left (process_edge rd c) (nedges n) (setGrad h c (Some (sealg (nname n) g)), Ok tt)) as [h2 r2] eqn:Ef.
        intros E. inversion E; subst. apply fold_edges_ok in Ef. destruct Ef as (S2 & O2 & _).
        pose proof (setGrad_step h c (sealg (nname n) g)) as S1.
        assert (Tk : forall j, trackedOf (setGrad h c (Some (sealg (nname n) g))) j = trackedOf h j).
        { intros j. symmetry. apply same_skel_tracked. apply S1. }
        split.
        { eapply step_ok_trans.
          - eapply step_ok_weaken; [|exact S1]. intros j ->. left; reflexivity.
          - eapply step_ok_weaken; [|exact S2]. intros j (e & He & Hf & Hj). right. exists e.
            rewrite Ee. split; [exact He|]. split; [exact Hf|]. rewrite <- Tk. exact Hj. }
        split; [|intros X; exfalso; apply (X tt); reflexivity].
        intros Hr. split; [reflexivity|]. intros _ e He Ht. destruct (O2 Hr) as [_ G2].
        apply G2; [rewrite <- Ee; exact He|]. rewrite Tk. exact Ht.
      * intros E. inversion E; subst. split; [apply step_ok_refl|].
        split; [|intros X; exfalso; apply (X tt); reflexivity].
        intros _. split; [reflexivity|]. intros Hg. exfalso. apply Hg. unfold gradOf. rewrite En. exact Eg.
    + intros E. inversion E; subst. split; [apply step_ok_refl|]. split; [discriminate|].
      intros X; exfalso; apply (X tt); reflexivity.
  - intros E. inversion E; subst. split; [apply step_ok_refl|]. split; [discriminate|reflexivity].
  - intros E. inversion E; subst. split; [apply step_ok_refl|]. split; [discriminate|reflexivity].
Qed.

(* the whole pass only touches gradients inside a set closed under tracked edge targets *)
Lemma fold_nodes_frame (S : nat -> Prop) (h0 : heap) :
  (forall n e, S n -> In e (edgesOf h0 n) -> trackedOf h0 (fst e) = true -> S (fst e)) ->
  forall l (h : heap) log r h' log' r', same_skel h h0 -> (forall c, In c l -> S c) ->
  fold_left (process_node rd sealg) l (h, log, r) = (h', log', r') ->
  step_ok S h h' /\ ((forall u, r <> Ok u) -> r' = r).
Proof.
  intros Hcl. induction l as [|c l IH]; intros h log r h' log' r' Hsk Hl E; cbn [fold_left] in E.
  - inversion E; subst. split; [apply step_ok_refl|reflexivity].
  - destruct (process_node rd sealg (h, log, r) c) as [[h1 log1] r1] eqn:E1.
    apply process_node_ok in E1. destruct E1 as (S1 & _ & N1).
    assert (Hsk1 : same_skel h1 h0).
    { eapply same_skel_trans; [|exact Hsk]. apply same_skel_sym. apply S1. }
    apply IH in E; [|exact Hsk1|intros c' Hc'; apply Hl; right; exact Hc'].
    destruct E as (S2 & N2). split.
    + eapply step_ok_trans; [|exact S2]. eapply step_ok_weaken; [|exact S1].
      intros j [->|(e & He & Hf & Hj)]; [apply Hl; left; reflexivity|].
      subst j. apply (Hcl c e); [apply Hl; left; reflexivity| |].
      * rewrite <- (same_skel_edges _ _ Hsk). exact He.
      * rewrite <- (same_skel_tracked _ _ Hsk). exact Hj.
    + intros X. rewrite <- (N1 X). apply N2. rewrite (N1 X). exact X.
Qed.

(* along an ordered duplicate-free list every member ends with a gradient, provided each member
   either has one already or is an edge target of another member *)
Lemma fold_nodes_nonnil (h0 : heap) : forall l (h : heap) log h' log',
  same_skel h h0 -> NoDup l -> ordered h0 l -> (forall c, In c l -> trackedOf h0 c = true) ->
  (forall c, In c l -> gradOf h c <> None \/ exists p e, In p l /\ p <> c /\ In e (edgesOf h0 p) /\ fst e = c) ->
  fold_left (process_node rd sealg) l (h, log, Ok tt) = (h', log', Ok tt) ->
  forall c, In c l -> gradOf h' c <> None.
Proof.
  induction l as [|p0 l IH]; intros h log h' log' Hsk Hnd Hord Htr Hcov E c Hc; [contradiction|].
  cbn [fold_left] in E.
  destruct (process_node rd sealg (h, log, Ok tt) p0) as [[h1 log1] r1] eqn:E1.
  assert (Htriv : forall (n : nat) (e : nat * rule), True -> In e (edgesOf h0 n) -> trackedOf h0 (fst e) = true -> True) by auto.
  apply process_node_ok in E1. destruct E1 as (S1 & O1 & _).
  assert (Hsk1 : same_skel h1 h0).
  { eapply same_skel_trans; [|exact Hsk]. apply same_skel_sym. apply S1. }
  destruct (fold_nodes_frame (fun _ => True) h0 Htriv l h1 log1 r1 h' log' (Ok tt) Hsk1 (fun _ _ => I) E) as (S2 & N2).
  assert (Hr1 : r1 = Ok tt).
  { destruct r1 as [[]| |]; [reflexivity| |]; symmetry; apply N2; intros u; discriminate. }
  subst r1. destruct (O1 eq_refl) as [_ G1].
  inversion Hnd as [|? ? Hp0 Hnd']; subst. cbn [ordered] in Hord. destruct Hord as [Hp0succ Hord'].
  assert (HG0 : gradOf h p0 <> None).
  { destruct (Hcov p0 (or_introl eq_refl)) as [Hg|(p & e & Hp & Hne & He & Hf)]; [exact Hg|].
    exfalso. destruct Hp as [Hp|Hp]; [congruence|]. apply Hp0. rewrite <- Hf.
    apply (ordered_closed h0 l p e Hord' Hp He). rewrite Hf. apply Htr. left; reflexivity. }
  assert (Hcov1 : forall c', In c' l ->
     gradOf h1 c' <> None \/ exists p e, In p l /\ p <> c' /\ In e (edgesOf h0 p) /\ fst e = c').
  { intros c' Hc'. destruct (Hcov c' (or_intror Hc')) as [Hg|(p & e & Hp & Hne & He & Hf)].
    - left. destruct S1 as (_ & _ & M1). apply M1. exact Hg.
    - destruct Hp as [<-|Hp].
      + left. rewrite <- Hf. apply G1; [exact HG0| |].
        * rewrite (same_skel_edges _ _ Hsk). exact He.
        * rewrite (same_skel_tracked _ _ Hsk), Hf. apply Htr. right; exact Hc'.
      + right. exists p, e. auto. }
  destruct Hc as [<-|Hc].
  - destruct S1 as (_ & _ & M1). destruct S2 as (_ & _ & M2). apply M2, M1, HG0.
  - apply (IH h1 log1 h' log' Hsk1 Hnd' Hord' (fun c' Hc' => Htr c' (or_intror Hc')) Hcov1 E c Hc).
Qed.

Lemma markDirty_node (h : heap) l i n : nth_error h i = Some n ->
  exists n', nth_error (markDirty h l) i = Some n' /\
    nval n' = nval n /\ ntracked n' = ntracked n /\ nedges n' = nedges n /\ nname n' = nname n /\
    ngrad n' = ngrad n /\ ndirty n' = ndirty n || memb i l.
Proof.
  intros Hn. rewrite markDirty_nth, Hn. cbn [option_map]. eexists. split; [reflexivity|].
  destruct (memb i l); cbn; repeat split; auto using orb_true_r, orb_false_r.
Qed.

Lemma markDirty_tracked (h : heap) l i : trackedOf (markDirty h l) i = trackedOf h i.
Proof. apply (getN_markDirty_inv (@ntracked A)). reflexivity. Qed.

Lemma markDirty_edges (h : heap) l i : edgesOf (markDirty h l) i = edgesOf h i.
Proof. apply (getN_markDirty_inv (@nedges A)). reflexivity. Qed.

Lemma markDirty_val (h : heap) l i : valOf (markDirty h l) i = valOf h i.
Proof. apply (getN_markDirty_inv (fun n => Some (nval n))). reflexivity. Qed.

Lemma markDirty_grad (h : heap) l i : gradOf (markDirty h l) i = gradOf h i.
Proof. apply (getN_markDirty_inv (@ngrad A)). reflexivity. Qed.

Lemma markDirty_dirty (h : heap) l i :
  dirtyOf (markDirty h l) i = dirtyOf h i || (memb i l && (i <? length h)).
Proof.
  unfold dirtyOf. rewrite markDirty_nth. destruct (nth_error h i) as [n|] eqn:En; cbn [option_map].
  - assert (Hl : i <? length h = true) by (apply Nat.ltb_lt, nth_error_Some; congruence).
    rewrite Hl, andb_true_r. destruct (memb i l); cbn; [rewrite orb_true_r|rewrite orb_false_r]; reflexivity.
  - apply nth_error_None, Nat.ltb_ge in En. rewrite En, andb_false_r. reflexivity.
Qed.

Lemma markDirty_erase (h : heap) l : erase (markDirty h l) = erase h.
Proof.
  apply NdP.nth_error_ext_len; [rewrite !erase_length; apply markDirty_length|].
  intros i _. rewrite <- !valOf_erase. apply markDirty_val.
Qed.

Lemma bp_topo_steps (h : heap) root h' log r : wf_heap h -> trackedOf h root = true ->
  bp_topo rd sealg h root = (h', log, r) ->
  step_ok (fun j => In j (topoOrder h root)) (markDirty h (topoOrder h root)) h' /\
  (r = Ok tt -> forall i, In i (topoOrder h root) -> gradOf h' i <> None).
Proof.
  intros W Ht. unfold bp_topo. rewrite Ht. cbn [negb].
  set (order := topoOrder h root). set (h1 := markDirty h order).
  assert (Hroot : In root order) by (apply topoOrder_root; assumption).
  assert (Hlt : root < length h1).
  { unfold h1. rewrite markDirty_length. apply trackedOf_true_lt. exact Ht. }
  assert (Hcl : forall n e, In n order -> In e (edgesOf h1 n) -> trackedOf h1 (fst e) = true -> In (fst e) order).
  { intros n e Hn He Hte. unfold h1 in He, Hte. rewrite markDirty_edges in He. rewrite markDirty_tracked in Hte.
    eapply topoOrder_closed; eauto. }
  destruct (valOf h1 root) as [rv|] eqn:Ev.
  2:{ exfalso. unfold h1 in Ev. rewrite markDirty_val in Ev. unfold valOf in Ev.
      destruct (lt_nth_some h root (trackedOf_true_lt h root Ht)) as [n Hn]. rewrite Hn in Ev. discriminate. }
  destruct (toOnes rv) as [ones| |].
  - destruct (accumulate h1 root ones) as [h2 r2] eqn:Ea. apply accumulate_ok in Ea. destruct Ea as [Sa Ga].
    assert (Sa' : step_ok (fun j => In j order) h1 h2).
    { eapply step_ok_weaken; [|exact Sa]. intros j ->. exact Hroot. }
    destruct r2 as [u| |].
    + destruct u. intros E.
      assert (Hsk2 : same_skel h2 h1) by (apply same_skel_sym; apply Sa).
      destruct (fold_nodes_frame (fun j => In j order) h1 Hcl order h2 [] (Ok tt) h' log r Hsk2 (fun c Hc => Hc) E) as (Sf & _).
      split; [eapply step_ok_trans; eauto|].
      intros ->. apply (fold_nodes_nonnil h1 order h2 [] h' log Hsk2); [| | | |exact E].
      * apply topoOrder_NoDup. exact W.
      * eapply ordered_ext; [| |apply topoOrder_ordered; exact W].
        -- intros i. unfold h1. symmetry. apply markDirty_tracked.
        -- intros i. unfold h1. symmetry. apply markDirty_edges.
      * intros c Hc. unfold h1. rewrite markDirty_tracked. eapply topoOrder_tracked; eauto.
      * intros c Hc. destruct (Nat.eq_dec c root) as [->|Hne].
        -- left. apply Ga; [reflexivity|exact Hlt].
        -- right. destruct (topoOrder_pred h root c W Hc Hne) as (p & e & Hp & He & Hf & Hcp).
           exists p, e. split; [exact Hp|]. split; [lia|]. split; [|exact Hf].
           unfold h1. rewrite markDirty_edges. exact He.
    + intros E. inversion E; subst. split; [exact Sa'|discriminate].
    + intros E. inversion E; subst. split; [exact Sa'|discriminate].
  - intros E. inversion E; subst. split; [apply step_ok_refl|discriminate].
  - intros E. inversion E; subst. split; [apply step_ok_refl|discriminate].
Qed.

Theorem bp_topo_flags (h : heap) root h' log r : wf_heap h -> trackedOf h root = true ->
  bp_topo rd sealg h root = (h', log, r) ->
  length h' = length h /\
  (forall i n, nth_error h i = Some n ->
     exists n', nth_error h' i = Some n' /\
       nval n' = nval n /\ ntracked n' = ntracked n /\ nedges n' = nedges n /\ nname n' = nname n /\
       ndirty n' = ndirty n || memb i (topoOrder h root) /\
       (~ In i (topoOrder h root) -> ngrad n' = ngrad n)) /\
  (r = Ok tt -> forall i, In i (topoOrder h root) -> gradOf h' i <> None).
Proof.
  intros W Ht E. destruct (bp_topo_steps h root h' log r W Ht E) as ((Sk & Fr & _) & Hnn).
  split; [rewrite <- (same_skel_length _ _ Sk); apply markDirty_length|]. split; [|exact Hnn].
  intros i n Hn. destruct (markDirty_node h (topoOrder h root) i n Hn) as (m & Hm & M1 & M2 & M3 & M4 & M5 & M6).
  destruct (same_skel_node _ _ i m Sk Hm) as (n' & Hn' & Hs). unfold skel in Hs. inversion Hs as [[V1 V2 V3 V4 V5]].
  exists n'. split; [exact Hn'|]. repeat split; try congruence.
  intros Hni. specialize (Fr i Hni). rewrite markDirty_grad in Fr. unfold gradOf in Fr. rewrite Hn', Hn in Fr. exact Fr.
Qed.

Corollary bp_topo_frame (h : heap) root h' log r : wf_heap h -> trackedOf h root = true ->
  bp_topo rd sealg h root = (h', log, r) ->
  length h' = length h /\ erase h' = erase h /\
  (forall i, valOf h' i = valOf h i) /\ (forall i, trackedOf h' i = trackedOf h i) /\
  (forall i, edgesOf h' i = edgesOf h i) /\
  (forall i, dirtyOf h' i = dirtyOf h i || (memb i (topoOrder h root) && (i <? length h))) /\
  (forall i, ~ In i (topoOrder h root) -> gradOf h' i = gradOf h i).
Proof.
  intros W Ht E. destruct (bp_topo_steps h root h' log r W Ht E) as ((Sk & Fr & _) & _).
  split; [rewrite <- (same_skel_length _ _ Sk); apply markDirty_length|].
  split; [rewrite <- (same_skel_erase _ _ Sk); apply markDirty_erase|].
  split; [intros i; rewrite <- (same_skel_val _ _ Sk); apply markDirty_val|].
  split; [intros i; rewrite <- (same_skel_tracked _ _ Sk); apply markDirty_tracked|].
  split; [intros i; rewrite <- (same_skel_edges _ _ Sk); apply markDirty_edges|].
  split; [intros i; rewrite <- (same_skel_dirty _ _ Sk); apply markDirty_dirty|].
  intros i Hi. rewrite (Fr i Hi). apply markDirty_grad.
Qed.

Theorem bp_topo_wf (h : heap) root : wf_heap h -> wf_heap (fst (fst (bp_topo rd sealg h root))).
Proof.
  intros W. destruct (trackedOf h root) eqn:Ht.
  - destruct (bp_topo rd sealg h root) as [[h' log] r] eqn:E. cbn [fst].
    destruct (bp_topo_flags h root h' log r W Ht E) as (Hl & Hn & _).
    intros i n' Hi. assert (Hlt : i < length h) by (rewrite <- Hl; apply nth_error_Some; congruence).
    destruct (lt_nth_some h i Hlt) as [n En]. destruct (Hn i n En) as (n'' & Hn'' & _ & _ & V & _).
    assert (n'' = n') by congruence. subst n''. rewrite V. eapply W; eauto.
  - rewrite bp_untracked_root by exact Ht. exact W.
Qed.

(* the reached tensors become spent, whatever the outcome (the flag of every other tensor stays: bp_topo_frame) *)
Corollary bp_topo_spent (h : heap) root h' log r x : wf_heap h ->
  bp_topo rd sealg h root = (h', log, r) -> In x (topoOrder h root) -> dirtyOf h' x = true.
Proof.
  intros W E Hx. destruct (trackedOf h root) eqn:Ht.
  - destruct (bp_topo_frame h root h' log r W Ht E) as (_ & _ & _ & _ & _ & Hd & _). rewrite Hd.
    assert (Hm : memb x (topoOrder h root) = true) by (apply memb_in; exact Hx).
    assert (Hl : x <? length h = true).
    { apply Nat.ltb_lt. apply trackedOf_true_lt. eapply topoOrder_tracked; eauto. }
    rewrite Hm, Hl. apply orb_true_r.
  - rewrite topoOrder_untracked in Hx by exact Ht. contradiction.
Qed.

Definition isolated (h : heap) (id : nat) : Prop :=
  exists n, nth_error h id = Some n /\ ntracked n = false /\ ndirty n = true /\ nedges n = [].

Lemma isolated_flags (h : heap) id : isolated h id ->
  trackedOf h id = false /\ dirtyOf h id = true /\ edgesOf h id = [].
Proof. intros (n & Hn & H1 & H2 & H3). unfold trackedOf, dirtyOf, edgesOf. rewrite Hn. auto. Qed.

Lemma isolated_of_rule (h : heap) ops h' id n x :
  nth_error h' id = Some n -> ctx_rule h ops n -> In x ops -> dirtyOf h x = true -> isolated h' id.
Proof. intros Hn Hr Hx Hd. exists n. split; [exact Hn|]. exact (ctx_rule_dirty h ops n x Hr Hx Hd). Qed.

Theorem spent_op1 (h : heap) x f mk name h' id :
  dirtyOf h x = true -> h_op1 h x f mk name = (h', Ok id) -> isolated h' id.
Proof.
  intros Hd E. apply h_op1_track in E as (n & Hn & Hr & _).
  apply (isolated_of_rule h [x] h' id n x); cbn; auto.
Qed.

Theorem spent_elsel (h : heap) b x u name h' id :
  dirtyOf h x = true \/ dirtyOf h u = true -> h_elsel h b x u name = (h', Ok id) -> isolated h' id.
Proof.
  intros Hd E. apply h_elsel_track in E as (n & Hn & Hr & _).
  destruct Hd as [Hd|Hd]; [apply (isolated_of_rule h [x; u] h' id n x)|apply (isolated_of_rule h [x; u] h' id n u)]; cbn; auto.
Qed.

Theorem spent_patch (h : heap) x index p name h' id :
  dirtyOf h x = true \/ dirtyOf h p = true -> h_patch h x index p name = (h', Ok id) -> isolated h' id.
Proof.
  intros Hd E. apply h_patch_track in E as (n & Hn & Hr & _).
  destruct Hd as [Hd|Hd]; [apply (isolated_of_rule h [x; p] h' id n x)|apply (isolated_of_rule h [x; p] h' id n p)]; cbn; auto.
Qed.

Theorem spent_concat (h : heap) xs dim name h' id x :
  In x xs -> dirtyOf h x = true -> h_concat h xs dim name = (h', Ok id) -> isolated h' id.
Proof.
  intros Hx Hd E. apply h_concat_track in E as (n & Hn & Hr & _). exact (isolated_of_rule h xs h' id n x Hn Hr Hx Hd).
Qed.

Theorem spent_arith (h : heap) b x u name h' id :
  dirtyOf h x = true \/ dirtyOf h u = true -> h_arith h b x u name = (h', Ok id) -> isolated h' id.
Proof.
  intros Hd E. apply h_arith_track in E as (n & Hn & Hr & _).
  destruct Hd as [Hd|Hd]; [apply (isolated_of_rule h [x; u] h' id n x)|apply (isolated_of_rule h [x; u] h' id n u)]; cbn; auto.
Qed.

Theorem spent_dot (h : heap) x u name h' id :
  dirtyOf h x = true \/ dirtyOf h u = true -> h_dot h x u name = (h', Ok id) -> isolated h' id.
Proof.
  intros Hd E. apply h_dot_track in E as (n & Hn & Hr & _).
  destruct Hd as [Hd|Hd]; [apply (isolated_of_rule h [x; u] h' id n x)|apply (isolated_of_rule h [x; u] h' id n u)]; cbn; auto.
Qed.

Theorem spent_matmul (h : heap) x u name h' id :
  dirtyOf h x = true \/ dirtyOf h u = true -> h_matmul h x u name = (h', Ok id) -> isolated h' id.
Proof.
  intros Hd E. apply h_matmul_track in E as (n & Hn & Hr & _).
  destruct Hd as [Hd|Hd]; [apply (isolated_of_rule h [x; u] h' id n x)|apply (isolated_of_rule h [x; u] h' id n u)]; cbn; auto.
Qed.

(* after a back-propagation, the result of a tracking method with an operand from the reached set is
   untracked, spent itself (so the property propagates), and has no back edge; comparisons are not
   listed: their result is never spent (h_cmp_track) *)
Theorem spent_isolated (h : heap) root hb log r x : wf_heap h ->
  bp_topo rd sealg h root = (hb, log, r) -> In x (topoOrder h root) ->
  dirtyOf hb x = true /\
  (forall f mk name h' id, h_op1 hb x f mk name = (h', Ok id) -> isolated h' id) /\
  (forall b u name h' id, h_elsel hb b x u name = (h', Ok id) -> isolated h' id) /\
  (forall b u name h' id, h_elsel hb b u x name = (h', Ok id) -> isolated h' id) /\
  (forall b u name h' id, h_arith hb b x u name = (h', Ok id) -> isolated h' id) /\
  (forall b u name h' id, h_arith hb b u x name = (h', Ok id) -> isolated h' id) /\
  (forall u name h' id, h_dot hb x u name = (h', Ok id) -> isolated h' id) /\
  (forall u name h' id, h_dot hb u x name = (h', Ok id) -> isolated h' id) /\
  (forall u name h' id, h_matmul hb x u name = (h', Ok id) -> isolated h' id) /\
  (forall u name h' id, h_matmul hb u x name = (h', Ok id) -> isolated h' id) /\
  (forall index p name h' id, h_patch hb x index p name = (h', Ok id) -> isolated h' id) /\
  (forall index u name h' id, h_patch hb u index x name = (h', Ok id) -> isolated h' id) /\
  (forall xs dim name h' id, In x xs -> h_concat hb xs dim name = (h', Ok id) -> isolated h' id).
Proof.
  intros W E Hx. pose proof (bp_topo_spent h root hb log r x W E Hx) as Hd.
  split; [exact Hd|].
  split; [intros f mk name h' id H; eapply spent_op1; [exact Hd|exact H]|].
  split; [intros b u name h' id H; eapply spent_elsel; [left; exact Hd|exact H]|].
  split; [intros b u name h' id H; eapply spent_elsel; [right; exact Hd|exact H]|].
  split; [intros b u name h' id H; eapply spent_arith; [left; exact Hd|exact H]|].
  split; [intros b u name h' id H; eapply spent_arith; [right; exact Hd|exact H]|].
  split; [intros u name h' id H; eapply spent_dot; [left; exact Hd|exact H]|].
  split; [intros u name h' id H; eapply spent_dot; [right; exact Hd|exact H]|].
  split; [intros u name h' id H; eapply spent_matmul; [left; exact Hd|exact H]|].
  split; [intros u name h' id H; eapply spent_matmul; [right; exact Hd|exact H]|].
  split; [intros index p name h' id H; eapply spent_patch; [left; exact Hd|exact H]|].
  split; [intros index u name h' id H; eapply spent_patch; [right; exact Hd|exact H]|].
  intros; eapply spent_concat; eauto.
Qed.

End BpFlagsP.

(* example on the heap of TrackEx: back-propagation from y (id 5) *)
Module BpEx.
Import TrackEx.
#[local] Existing Instance Z_scalar.

Definition ids : option nat -> tensor Z -> tensor Z := fun _ g => g.
Definition bp := bp_topo RedSum ids e5 5.
Definition hb : @heap Z := fst (fst bp).

Example ex_bp_run :
  snd bp = Ok tt /\ length hb = 8 /\
  map (fun i => match gradOf hb i with Some _ => true | None => false end) (seq 0 8)
    = [true; false; true; true; false; true; false; false] /\
  map (dirtyOf hb) (seq 0 8) = [true; false; true; true; false; true; false; false] /\
  map (trackedOf hb) (seq 0 8) = map (trackedOf e5) (seq 0 8) /\
  gradOf hb 0 = Some (vec2 2 2).
Proof. vm_compute. repeat split. Qed.

(* the theorem's hypotheses hold and its conclusion gives the same information *)
Example ex_bp_flags :
  (forall i, In i [5; 3; 2; 0] -> gradOf hb i <> None /\ dirtyOf hb i = true) /\
  (forall i, ~ In i [5; 3; 2; 0] -> gradOf hb i = gradOf e5 i) /\
  erase hb = erase e5.
Proof.
  assert (Ht : trackedOf e5 5 = true) by (vm_compute; reflexivity).
  assert (E : bp_topo RedSum ids e5 5 = (hb, snd (fst bp), Ok tt)) by (vm_compute; reflexivity).
  destruct (bp_topo_flags RedSum ids e5 5 _ _ _ ex_wf Ht E) as (_ & _ & Hnn).
  destruct (bp_topo_frame RedSum ids e5 5 _ _ _ ex_wf Ht E) as (_ & He & _ & _ & _ & _ & Hg).
  destruct DfsEx.ex_order as (Eo & _). rewrite Eo in *.
  split; [|split; [exact Hg|exact He]].
  intros i Hi. split; [apply Hnn; [reflexivity|exact Hi]|].
  apply (bp_topo_spent RedSum ids e5 5 _ _ _ i ex_wf E). rewrite Eo. exact Hi.
Qed.

(* scaling the spent leaf x afterwards gives an untracked, spent, edge-free result;
   resetting x first makes it usable again *)
Example ex_spent :
  isolated (fst (h_scale hb 0 2%Z None)) 8 /\
  trackedOf (fst (h_scale (h_reset hb 0 true) 0 2%Z None)) 8 = true.
Proof.
  split; [|vm_compute; reflexivity].
  assert (E : bp_topo RedSum ids e5 5 = (hb, snd (fst bp), Ok tt)) by (vm_compute; reflexivity).
  assert (Hx : In 0 (topoOrder e5 5)) by (vm_compute; auto).
  destruct (spent_isolated RedSum ids e5 5 _ _ _ 0 ex_wf E Hx) as (_ & Hop1 & _).
  apply (Hop1 (v_unary (UScale 2%Z)) (fun y => RScale y 2%Z) None). vm_compute. reflexivity.
Qed.
End BpEx.

Print Assumptions bp_topo_flags.
Print Assumptions bp_topo_frame.
Print Assumptions bp_topo_wf.
Print Assumptions spent_isolated.
