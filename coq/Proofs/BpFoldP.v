(* BpFoldP.v — back-propagation through an explicitly known list of nodes, read element-wise on
   the reals (shared by the component theorems of C13, C15, C16).

   A heap [H] gives the structure (values, flags, edges); [hh] is any heap with that structure
   ([sameS H hh]) whose gradients on a set [dom] of nodes are described by an abstract state
   [s : nat -> option assignment] ([models]).  [fold_abs]: folding the model's [process_node] over
   a list [l] of nodes of [dom] succeeds, and the gradients afterwards are described by the fold of
   [anode] over [l], PROVIDED every tracked back edge [e] of a node [c] of [l] leads into [dom], is
   not a self loop, and is sound for the chosen reading [sem] of the rules ([esound]: from a
   gradient of [c] with elements [fc], the rule evaluates, without failing, to a tensor of the
   target's shape with elements [sem r fc]).  Nothing is assumed about the rest of the heap.
   [rsem]/[rok]/[rsem_sound] give reading and shape conditions for the rules whose reading does not
   depend on the component (element-wise ones, Along-reductions, Broadcast over a leading batch
   dimension, Reshape); a component whose rules go beyond these adds its own cases to [sem]. *)
From Coq Require Import List Arith ZArith Bool Lia Reals Lra.
From Coquelicot Require Import Coquelicot.
From Qeep Require Import Model.Scalar Model.Nd Model.Fill Model.Data Model.Valid Model.Api Model.Grad Model.Backprop
  Model.Components.
From Qeep Require Import Spec.RScalar Spec.VjpSpec.
From Qeep Require Import Proofs.NdP Proofs.ElemP Proofs.BroadcastP Proofs.ReduceP Proofs.ReduceRP Proofs.CompP
  Proofs.OdometerP Proofs.ReshapeP Proofs.VjpElemP Proofs.VjpGatherP Proofs.VjpReduceP Proofs.VjpLinalgP Proofs.TrackP
  Proofs.BackpropP.
Import ListNotations.
Local Open Scope nat_scope.

(* [lia] on the arithmetic hypotheses only (boolean facts about the heap slow it down) *)
Ltac nlia :=
  repeat match goal with
         | H : ?P |- _ =>
             lazymatch type of P with Prop => idtac end;
             lazymatch P with
             | @eq nat _ _ => fail | lt _ _ => fail | le _ _ => fail | not (@eq nat _ _) => fail
             | or _ _ => fail | and _ _ => fail | _ => idtac
             end; clear H
         end; lia.

Lemma in_each {X} (P : X -> Prop) l : List.Forall P l -> forall x, In x l -> P x.
Proof. apply Forall_forall. Qed.

Tactic Notation "hstep" hyp(H) ident(E) :=
  match type of H with
  | context [hbind ?r _] => destruct r as [? [?| |]] eqn:E; cbn [hbind atomically] in H; try discriminate H
  end.

(* observers of an appended node *)
Section Obs.
Context {A : Type} {SA : Scalar A}.
Notation heap := (@heap A).

(* every observer is a function of the node found at the position *)
Lemma obs_at (h : heap) i n : nth_error h i = Some n ->
  valOf h i = Some (nval n) /\ trackedOf h i = ntracked n /\ dirtyOf h i = ndirty n /\
  edgesOf h i = nedges n /\ gradOf h i = ngrad n /\ i < length h.
Proof.
  intros E. unfold valOf, trackedOf, dirtyOf, edgesOf, gradOf. rewrite E. cbn [obind].
  repeat (split; [reflexivity|]). apply nth_error_Some. congruence.
Qed.

Lemma nth_error_at (h l : heap) i k : i = length h + k -> nth_error (h ++ l) i = nth_error l k.
Proof. intros ->. rewrite nth_error_app2 by lia. f_equal. lia. Qed.

Lemma app_at (h l : heap) i k n : i = length h + k -> nth_error l k = Some n -> nth_error (h ++ l) i = Some n.
Proof. intros Hi E. rewrite (nth_error_at h l i k Hi). exact E. Qed.
End Obs.

(* 1. element-wise description of real tensors *)
Local Open Scope R_scope.

Section Gen.
Variables (thr : R) (draw : bool -> nat -> R).
Local Hint Extern 0 (Scalar R) => exact (R_scalar thr draw) : typeclass_instances.
Notation T := (tensor R).
Notation heap := (@heap R).
Notation rule := (@rule R).
Notation node := (@node R).
Notation idseal := (fun (_ : option nat) (g : T) => g).

Definition isT (ds : list nat) (f : assignment) (g : T) : Prop :=
  dims g = ds /\ wf g /\ forall idx, validIdx ds idx -> elt g idx = f idx.

Lemma isT_ext ds f f' g : isT ds f g -> (forall idx, validIdx ds idx -> f idx = f' idx) -> isT ds f' g.
Proof. intros (D & W & G) E. split; [exact D|]. split; [exact W|]. intros idx Hv. rewrite (G idx Hv). apply E, Hv. Qed.

Lemma isT_self g : wf g -> isT (dims g) (elt g) g.
Proof. intros W. split; [reflexivity|]. split; [exact W|]. reflexivity. Qed.

Lemma isT_eq ds f a b : isT ds f a -> isT ds f b -> a = b.
Proof.
  intros (Da & Wa & Ga) (Db & Wb & Gb). destruct a as [da xa], b as [db xb]. cbn [dims] in Da, Db. subst da db.
  f_equal. destruct Wa as [Wa _], Wb as [Wb _]. cbn [dims data] in Wa, Wb.
  apply (nd_ext R ds); [exact Wa|exact Wb|]. intros idx Hv.
  destruct (get_wf R _ _ _ Wa Hv) as (x & Ex). destruct (get_wf R _ _ _ Wb Hv) as (y & Ey).
  specialize (Ga idx Hv). specialize (Gb idx Hv). unfold elt in Ga, Gb. cbn [data] in Ga, Gb.
  rewrite Ex in Ga |- *. rewrite Ey in Gb |- *. congruence.
Qed.

Lemma isT_add ds f1 f2 a b : isT ds f1 a -> isT ds f2 b ->
  exists r, v_arith BiAdd a b = Ok r /\ isT ds (fun i => f1 i + f2 i) r.
Proof.
  intros (Da & Wa & Ga) (Db & Wb & Gb).
  destruct (ar_elt thr draw BiAdd a b Wa Wb ltac:(congruence)) as (r & Er & Dr & Wr & Gr).
  exists r. split; [exact Er|]. split; [congruence|]. split; [exact Wr|].
  intros idx Hv. rewrite Gr by (rewrite Da; exact Hv). rewrite bF_add, (Ga idx Hv), (Gb idx Hv). reflexivity.
Qed.

(* forward calls, element-wise *)
Lemma un_isT (u : unary) ds f xv v : isT ds f xv -> v_unary u xv = Ok v -> isT ds (fun i => unaryF u (f i)) v.
Proof.
  intros (D & W & G) E. destruct (un_elt thr draw u xv W) as (r & Er & Dr & Wr & Gr).
  assert (r = v) by congruence. subst r. split; [congruence|]. split; [exact Wr|].
  intros idx Hv. rewrite Gr by (rewrite D; exact Hv). rewrite (G idx Hv). reflexivity.
Qed.

Lemma same_isT (b : binary) ds f1 f2 xv uv v : isT ds f1 xv -> isT ds f2 uv -> v_same b xv uv = Ok v ->
  isT ds (fun i => binaryF b (f1 i) (f2 i)) v.
Proof.
  intros (D1 & W1 & G1) (D2 & W2 & G2) E.
  destruct (same_elt thr draw b xv uv W1 W2 ltac:(congruence)) as (r & Er & Dr & Wr & Gr).
  assert (r = v) by congruence. subst r. split; [congruence|]. split; [exact Wr|].
  intros idx Hv. rewrite Gr by (rewrite D1; exact Hv). rewrite (G1 idx Hv), (G2 idx Hv). reflexivity.
Qed.

Lemma ar_isT (b : binary) ds f1 f2 xv uv v : isT ds f1 xv -> isT ds f2 uv -> v_arith b xv uv = Ok v ->
  isT ds (fun i => binaryF b (f1 i) (f2 i)) v.
Proof.
  intros (D1 & W1 & G1) (D2 & W2 & G2) E.
  destruct (ar_elt thr draw b xv uv W1 W2 ltac:(congruence)) as (r & Er & Dr & Wr & Gr).
  assert (r = v) by congruence. subst r. split; [congruence|]. split; [exact Wr|].
  intros idx Hv. rewrite Gr by (rewrite D1; exact Hv). rewrite (G1 idx Hv), (G2 idx Hv). reflexivity.
Qed.

(* 2. element-level reading of the back-edge rules *)
Variable rd : bred.

Section OnHeap.
Variable H : heap.      (* the structure: values, tracking flags, edges *)

Definition Dm (i : nat) : list nat := match valOf H i with Some v => dims v | None => [] end.
Definition Vl (i : nat) : assignment := match valOf H i with Some v => elt v | None => fun _ => 0 end.
Definition okv (i : nat) : Prop := exists v, valOf H i = Some v /\ wf v.

Lemma Dm_val i v : valOf H i = Some v -> Dm i = dims v.
Proof. intros E. unfold Dm. rewrite E. reflexivity. Qed.
Lemma Vl_val i v : valOf H i = Some v -> Vl i = elt v.
Proof. intros E. unfold Vl. rewrite E. reflexivity. Qed.
Lemma okv_val i v : valOf H i = Some v -> wf v -> okv i.
Proof. intros E W. exists v. auto. Qed.

(* from a gradient of node c with elements fc to what the rule hands to its target; a
   Broadcast back edge copies between equal shapes and reduces over ONE leading dimension
   otherwise (the two cases that occur in the components) *)
Definition rsem (r : rule) (fy : assignment) : assignment :=
  match r with
  | RId _ => fy
  | RNeg _ => fun i => fy i * -1
  | RScale _ a => fun i => fy i * a
  | RMul _ o => fun i => fy i * Vl o i
  | RLog _ x => fun i => fy i * / Vl x i
  | RPow _ x a true => fun _ => 0
  | RPow _ x a false => fun i => fy i * (a * Rpow (Vl x i) (a - 1))
  | RElSel y a b => fun i => fy i * (eqt thr (Vl y i) (Vl a i) - / 2 * eqt thr (Vl a i) (Vl b i))
  | RTanh _ x => fun i => fy i * / (cosh (Vl x i)) ^ 2
  | RExp y => fun i => fy i * Vl y i
  | RDivA _ b => fun i => fy i * / Vl b i
  | RDivB _ a b => fun i => fy i * (- Vl a i / (Vl b i) ^ 2)
  | RBroadcast y x =>
      if (length (Dm y) =? length (Dm x))%nat then fy
      else fun i => rdc rd (hd 0%nat (Dm y)) * sumN (hd 0%nat (Dm y)) (fun k => fy (k :: i))
  | RReshape y x => fun i => fy (unflatIdx (Dm y) (flatIdx (Dm x) i))
  | RAvgAlong _ x dim => fun i => 1 / INR (nth (Z.to_nat dim) (Dm x) 0%nat) * fy (del (Z.to_nat dim) i)
  | RSumAlong _ x dim => fun i => fy (del (Z.to_nat dim) i)
  | _ => fun _ => 0
  end.

(* shape conditions for the rule r of node c with target x *)
Definition rok (c x : nat) (r : rule) : Prop :=
  match r with
  | RId _ | RNeg _ | RScale _ _ => Dm c = Dm x
  | RMul _ o => Dm c = Dm x /\ Dm o = Dm x /\ okv o
  | RLog _ x' | RPow _ x' _ _ | RTanh _ x' => x' = x /\ Dm c = Dm x /\ okv x
  | RExp _ => Dm c = Dm x /\ okv c
  | RDivA _ b => Dm c = Dm x /\ Dm b = Dm x /\ okv b
  | RDivB _ a b => b = x /\ Dm c = Dm x /\ Dm a = Dm x /\ okv a /\ okv x
  | RElSel _ a b => a = x /\ Dm c = Dm x /\ Dm b = Dm x /\ okv c /\ okv x /\ okv b
  | RBroadcast _ x' =>
      x' = x /\ okv c /\ okv x /\ (Dm c = Dm x \/ exists B, Dm c = B :: Dm x)
  | RReshape _ x' => x' = x /\ okv x /\ prodn (Dm c) = prodn (Dm x)
  | RAvgAlong _ x' dim | RSumAlong _ x' dim =>
      x' = x /\ okv x /\ exists d, dim = Z.of_nat d /\ (d < length (Dm x))%nat /\ Dm c = squeezeDims d (Dm x)
  | _ => False
  end.

Lemma bcDims_same (gy : T) : forall ds j, bcDims rd j ds ds gy = Ok gy.
Proof.
  induction ds as [|d ds IH]; intros j; cbn [bcDims]; [reflexivity|].
  rewrite Nat.eqb_refl. cbn [res_bind]. apply IH.
Qed.
Lemma bcastBack_same (gy : T) ds : bcastBack rd gy ds ds = Ok gy.
Proof. unfold bcastBack. rewrite Nat.sub_diag. cbn [bcLead res_bind skipn]. apply bcDims_same. Qed.

(* a tensor of shape ds that was broadcast to B :: ds: the back edge sums (or averages) over B *)
Lemma bcastBack_lead (gy : T) ds B : wf gy -> dims gy = B :: ds ->
  exists g, bcastBack rd gy ds (B :: ds) = Ok g /\
    isT ds (fun i => rdc rd B * sumN B (fun k => elt gy (k :: i))) g.
Proof.
  intros Wg Dg.
  assert (L1 : (length (B :: ds) - length ds = 1)%nat) by (cbn [length]; lia).
  assert (Hc : bcompat ds (B :: ds)).
  { split; [cbn; lia|]. rewrite L1. cbn [skipn]. clear. induction ds; constructor; auto. }
  destruct (bcastBack_char thr draw rd gy ds (B :: ds) Wg Dg Hc) as (g & Eg & Dgg & Wgg & Hel).
  exists g. split; [exact Eg|]. split; [exact Dgg|]. split; [exact Wgg|]. intros i Hi. rewrite (Hel i Hi).
  assert (Ef : bfac rd ds (B :: ds) = rdc rd B).
  { unfold bfac. rewrite L1. cbn [firstn skipn rdcs].
    assert (E1 : redDims ds ds = []).
    { clear. induction ds as [|d ds IH]; [reflexivity|]. cbn [redDims]. rewrite Nat.eqb_refl. exact IH. }
    rewrite E1. cbn [rdcs]. ring. }
  rewrite Ef. f_equal. rewrite sumIdx_cons. apply (sumN_ext B). intros k Hk.
  transitivity (sumIdx ds (fun j => if idx_eqb j i then elt gy (k :: j) else 0)); [|exact (sumIdx_single ds i (fun j => elt gy (k :: j)) Hi)].
  apply sumIdx_ext. intros j Hj.
  assert (Ep : bproj ds (B :: ds) (k :: j) = bproj ds ds j) by (unfold bproj; rewrite L1, Nat.sub_diag; reflexivity).
  rewrite Ep, bproj_same by exact Hj. reflexivity.
Qed.

Lemma rsem_bcast_same y x fy : Dm y = Dm x -> rsem (RBroadcast y x) fy = fy.
Proof. intros E. cbn [rsem]. rewrite E, Nat.eqb_refl. reflexivity. Qed.

(* an edge (x, r) of node c is sound for the reading [sem] of its rule *)
Definition esound (sem : rule -> assignment -> assignment) (c x : nat) (r : rule) : Prop :=
  forall (hh : heap) gc fc, (forall i, valOf hh i = valOf H i) -> gradOf hh c = Some gc -> isT (Dm c) fc gc ->
    exists g, eval_rule rd hh r = Ok g /\ isT (Dm x) (sem r fc) g.

Lemma rsem_sound c x r : rule_y r = c -> rok c x r -> esound rsem c x r.
Proof.
  intros Hy Hok hh gc fc Hv Hg (Dg & Wg & Gg).
  destruct r; cbn [rule_y] in Hy; cbn [rok] in Hok; try contradiction; subst c.
  - (* RReshape *)
    destruct Hok as (-> & (xv & Ex & Wx) & Ep). rewrite (Dm_val x xv Ex) in *.
    destruct (vjp_reshape thr draw rd hh y x xv gc) as (g & Eg & Dgg & Wgg & Ggg & _);
      [rewrite Hv; exact Ex|exact Hg|exact Wx|exact Wg|congruence|].
    exists g. split; [exact Eg|]. split; [exact Dgg|]. split; [exact Wgg|].
    intros i Hi. rewrite (Ggg i Hi), Dg. cbn [rsem]. rewrite (Dm_val x xv Ex). apply Gg.
    apply unflatIdx_valid. rewrite <- Dg. exact (proj2 Wg).
  - (* RBroadcast *)
    destruct Hok as (-> & (yv & Ey & Wy) & (xv & Ex & Wx) & Hsh).
    assert (Eev : eval_rule rd hh (RBroadcast y x) = bcastBack rd gc (Dm x) (Dm y)).
    { unfold eval_rule, gy_of, val_of. rewrite Hg, !Hv, Ex, Ey. cbn [of_opt res_bind].
      rewrite (Dm_val x xv Ex), (Dm_val y yv Ey). reflexivity. }
    rewrite Eev. cbn [rsem]. destruct Hsh as [Ed|(B & Ed)]; rewrite Ed in *.
    + rewrite Nat.eqb_refl. exists gc. split; [apply bcastBack_same|]. split; [exact Dg|]. split; [exact Wg|exact Gg].
    + cbn [length hd]. rewrite (proj2 (Nat.eqb_neq _ _)) by lia.
      destruct (bcastBack_lead gc (Dm x) B Wg Dg) as (g & Eg & Tg). exists g. split; [exact Eg|].
      apply (isT_ext _ _ _ _ Tg). intros i Hi. f_equal. apply (sumN_ext B). intros k Hk. apply Gg.
      constructor; assumption.
  - (* RSumAlong *)
    destruct Hok as (-> & (xv & Ex & Wx) & d & -> & Hd & Ed). rewrite (Dm_val x xv Ex) in *.
    destruct (rsum_eval thr draw rd hh y x d xv gc) as (g & Eg & Dgg & Wgg & Ggg);
      [rewrite Hv; exact Ex|exact Hg|exact Wx|exact Wg|exact Hd|congruence|].
    exists g. split; [exact Eg|]. split; [exact Dgg|]. split; [exact Wgg|].
    intros i Hi. rewrite (Ggg i Hi). cbn [rsem]. rewrite Nat2Z.id. apply Gg.
    rewrite Ed, squeezeDims_del. apply vi_del, Hi.
  - (* RAvgAlong *)
    destruct Hok as (-> & (xv & Ex & Wx) & d & -> & Hd & Ed). rewrite (Dm_val x xv Ex) in *.
    destruct (ravg_eval thr draw rd hh y x d xv gc) as (g & Eg & Dgg & Wgg & Ggg);
      [rewrite Hv; exact Ex|exact Hg|exact Wx|exact Wg|exact Hd|congruence|].
    exists g. split; [exact Eg|]. split; [exact Dgg|]. split; [exact Wgg|].
    intros i Hi. rewrite (Ggg i Hi). cbn [rsem]. rewrite Nat2Z.id, (Dm_val x xv Ex). f_equal. apply Gg.
    rewrite Ed, squeezeDims_del. apply vi_del, Hi.
  - (* RScale *)
    destruct (rscale_eval thr draw rd hh y a gc Hg Wg) as (g & Eg & Dgg & Wgg & Ggg).
    exists g. split; [exact Eg|]. rewrite <- Hok. split; [congruence|]. split; [exact Wgg|].
    intros i Hi. rewrite Ggg by (rewrite Dg; exact Hi). cbn [rsem]. rewrite (Gg i Hi). reflexivity.
  - (* RPow *)
    destruct Hok as (-> & Ed & (xv & Ex & Wx)). rewrite (Dm_val x xv Ex) in *.
    destruct azero.
    + destruct (rpow_eval_zero thr draw rd hh y x a xv gc) as (g & Eg & Dgg & Wgg & Ggg);
        [rewrite Hv; exact Ex|exact Hg|exact Wg|congruence|].
      exists g. split; [exact Eg|]. split; [exact Dgg|]. split; [exact Wgg|exact Ggg].
    + destruct (rpow_eval thr draw rd hh y x a xv gc) as (g & Eg & Dgg & Wgg & Ggg);
        [rewrite Hv; exact Ex|exact Hg|exact Wx|exact Wg|congruence|].
      exists g. split; [exact Eg|]. split; [exact Dgg|]. split; [exact Wgg|].
      intros i Hi. rewrite (Ggg i Hi). cbn [rsem]. rewrite Gg by (rewrite Ed; exact Hi).
      rewrite (Vl_val x xv Ex). reflexivity.
  - (* RExp *)
    destruct Hok as (Ed & (yv & Ey & Wy)). rewrite <- Ed. rewrite (Dm_val y yv Ey) in *.
    destruct (rexp_eval thr draw rd hh y yv gc) as (g & Eg & Dgg & Wgg & Ggg);
      [rewrite Hv; exact Ey|exact Hg|exact Wy|exact Wg|exact Dg|].
    exists g. split; [exact Eg|]. split; [exact Dgg|]. split; [exact Wgg|].
    intros i Hi. rewrite (Ggg i Hi). cbn [rsem]. rewrite (Gg i Hi), (Vl_val y yv Ey). reflexivity.
  - (* RLog *)
    destruct Hok as (-> & Ed & (xv & Ex & Wx)). rewrite (Dm_val x xv Ex) in *.
    destruct (rlog_eval thr draw rd hh y x xv gc) as (g & Eg & Dgg & Wgg & Ggg);
      [rewrite Hv; exact Ex|exact Hg|exact Wx|exact Wg|congruence|].
    exists g. split; [exact Eg|]. split; [exact Dgg|]. split; [exact Wgg|].
    intros i Hi. rewrite (Ggg i Hi). cbn [rsem]. rewrite Gg by (rewrite Ed; exact Hi).
    rewrite (Vl_val x xv Ex). reflexivity.
  - (* RTanh *)
    destruct Hok as (-> & Ed & (xv & Ex & Wx)). rewrite (Dm_val x xv Ex) in *.
    destruct (rtanh_eval thr draw rd hh y x xv gc) as (g & Eg & Dgg & Wgg & Ggg);
      [rewrite Hv; exact Ex|exact Hg|exact Wx|exact Wg|congruence|].
    exists g. split; [exact Eg|]. split; [exact Dgg|]. split; [exact Wgg|].
    intros i Hi. rewrite (Ggg i Hi). cbn [rsem]. rewrite Gg by (rewrite Ed; exact Hi).
    rewrite (Vl_val x xv Ex). reflexivity.
  - (* RElSel *)
    destruct Hok as (-> & Ed & Edb & (yv & Ey & Wy) & (xv & Ex & Wx) & (bv & Eb & Wb)).
    rewrite (Dm_val x xv Ex), ?(Dm_val y yv Ey), ?(Dm_val b bv Eb) in *.
    destruct (relsel_eval thr draw rd hh y x b yv xv bv gc) as (g & Eg & Dgg & Wgg & Ggg);
      [rewrite Hv; exact Ey|rewrite Hv; exact Ex|rewrite Hv; exact Eb|exact Hg|exact Wy|exact Wx|exact Wb|exact Wg
      |congruence|congruence|congruence|].
    exists g. split; [exact Eg|]. split; [exact Dgg|]. split; [exact Wgg|].
    intros i Hi. rewrite (Ggg i Hi). cbn [rsem]. rewrite Gg by (rewrite Ed; exact Hi).
    rewrite (Vl_val y yv Ey), (Vl_val x xv Ex), (Vl_val b bv Eb). reflexivity.
  - (* RId *)
    exists gc. split; [apply (rid_eval thr draw); exact Hg|]. rewrite <- Hok. split; [exact Dg|]. split; [exact Wg|exact Gg].
  - (* RNeg *)
    destruct (rneg_eval thr draw rd hh y gc Hg Wg) as (g & Eg & Dgg & Wgg & Ggg).
    exists g. split; [exact Eg|]. rewrite <- Hok. split; [congruence|]. split; [exact Wgg|].
    intros i Hi. rewrite Ggg by (rewrite Dg; exact Hi). cbn [rsem]. rewrite (Gg i Hi). reflexivity.
  - (* RMul *)
    destruct Hok as (Ed & Edo & (ov & Eo & Wo)). rewrite <- Edo in *. rewrite (Dm_val o ov Eo) in *.
    destruct (rmul_eval thr draw rd hh y o ov gc) as (g & Eg & Dgg & Wgg & Ggg);
      [rewrite Hv; exact Eo|exact Hg|exact Wo|exact Wg|congruence|].
    exists g. split; [exact Eg|]. split; [exact Dgg|]. split; [exact Wgg|].
    intros i Hi. rewrite (Ggg i Hi). cbn [rsem]. rewrite Gg by (rewrite Ed; exact Hi).
    rewrite (Vl_val o ov Eo). reflexivity.
  - (* RDivA *)
    destruct Hok as (Ed & Edb & (bv & Eb & Wb)). rewrite <- Edb in *. rewrite (Dm_val b bv Eb) in *.
    destruct (rdiva_eval thr draw rd hh y b bv gc) as (g & Eg & Dgg & Wgg & Ggg);
      [rewrite Hv; exact Eb|exact Hg|exact Wb|exact Wg|congruence|].
    exists g. split; [exact Eg|]. split; [exact Dgg|]. split; [exact Wgg|].
    intros i Hi. rewrite (Ggg i Hi). cbn [rsem]. rewrite Gg by (rewrite Ed; exact Hi).
    rewrite (Vl_val b bv Eb). reflexivity.
  - (* RDivB *)
    destruct Hok as (-> & Ed & Eda & (av & Ea & Wa) & (xv & Ex & Wx)).
    rewrite (Dm_val x xv Ex), ?(Dm_val a av Ea) in *.
    destruct (rdivb_eval thr draw rd hh y a x av xv gc) as (g & Eg & Dgg & Wgg & Ggg);
      [rewrite Hv; exact Ea|rewrite Hv; exact Ex|exact Hg|exact Wa|exact Wx|exact Wg|congruence|congruence|].
    exists g. split; [exact Eg|]. split; [exact Dgg|]. split; [exact Wgg|].
    intros i Hi. rewrite (Ggg i Hi). cbn [rsem]. rewrite Gg by (rewrite Ed; exact Hi).
    rewrite (Vl_val a av Ea), (Vl_val x xv Ex). reflexivity.
Qed.

(* a component reads the rules [rsem] does not know in its own way and the others as [rsem] *)
Lemma esound_ext (sem sem' : rule -> assignment -> assignment) c x r :
  sem' r = sem r -> esound sem c x r -> esound sem' c x r.
Proof. intros E Hs hh gc fc Hv Hg HT. rewrite E. exact (Hs hh gc fc Hv Hg HT). Qed.

(* 3. process_node over a known list, element-wise *)
Definition astate := nat -> option assignment.

(* accumulate on an abstract gradient *)
Definition aacc (o : option assignment) (f : assignment) : assignment :=
  match o with Some f0 => fun i => f0 i + f i | None => f end.

Variable sem : rule -> assignment -> assignment.

Definition aupd (s : astate) (x : nat) (f : assignment) : astate :=
  fun j => if (j =? x)%nat then Some (aacc (s x) f) else s j.
Definition aedge (fc : assignment) (s : astate) (e : nat * rule) : astate :=
  if trackedOf H (fst e) then aupd s (fst e) (sem (snd e) fc) else s.
Definition anode (s : astate) (c : nat) : astate :=
  match s c with Some fc => fold_left (aedge fc) (edgesOf H c) s | None => s end.

Lemma aacc_prior (o : option T) f i :
  aacc (option_map elt o) f i = match o with Some g => elt g i | None => 0 end + f i.
Proof. destruct o; cbn [option_map aacc]; [reflexivity|ring]. Qed.
Lemma aacc_some f0 f i : aacc (Some f0) f i = f0 i + f i.
Proof. reflexivity. Qed.
Lemma aacc_none f : aacc None f = f.
Proof. reflexivity. Qed.
Lemma aupd_same (s : astate) x f : aupd s x f x = Some (aacc (s x) f).
Proof. unfold aupd. rewrite Nat.eqb_refl. reflexivity. Qed.
Lemma aupd_other (s : astate) x f j : j <> x -> aupd s x f j = s j.
Proof. intros E. unfold aupd. rewrite (proj2 (Nat.eqb_neq j x) E). reflexivity. Qed.
Lemma aupd_hit (s : astate) x f o : s x = o -> aupd s x f x = Some (aacc o f).
Proof. intros <-. apply aupd_same. Qed.
Lemma aupd_miss (s : astate) x f j o : j <> x -> s j = o -> aupd s x f j = o.
Proof. intros Hn <-. apply aupd_other, Hn. Qed.
Lemma aedge_tracked fc (s : astate) x r : trackedOf H x = true -> aedge fc s (x, r) = aupd s x (sem r fc).
Proof. intros E. unfold aedge. cbn [fst snd]. rewrite E. reflexivity. Qed.
Lemma aedge_untracked fc (s : astate) x r : trackedOf H x = false -> aedge fc s (x, r) = s.
Proof. intros E. unfold aedge. cbn [fst snd]. rewrite E. reflexivity. Qed.

(* the abstract fold together with the nodes that held a gradient when met (newest first) *)
Fixpoint arun (l : list nat) (s : astate) (met : list nat) : astate * list nat :=
  match l with
  | [] => (s, met)
  | c :: l' => match s c with
               | Some fc => arun l' (fold_left (aedge fc) (edgesOf H c) s) (c :: met)
               | None => arun l' s met
               end
  end.

Lemma arun_cons (s : astate) c l met fc es : s c = Some fc -> edgesOf H c = es ->
  arun (c :: l) s met = arun l (fold_left (aedge fc) es s) (c :: met).
Proof. intros E <-. cbn [arun]. rewrite E. reflexivity. Qed.
Lemma arun_skip (s : astate) c l met : s c = None -> arun (c :: l) s met = arun l s met.
Proof. intros E. cbn [arun]. rewrite E. reflexivity. Qed.
(* the usual nodes: one tracked edge; two tracked edges; two edges, the second to an untracked node *)
Lemma arun_cons1 (s : astate) c l met fc x r : s c = Some fc -> edgesOf H c = [(x, r)] -> trackedOf H x = true ->
  arun (c :: l) s met = arun l (aupd s x (sem r fc)) (c :: met).
Proof. intros Es Ee Ht. rewrite (arun_cons s c l met fc _ Es Ee). cbn [fold_left]. rewrite (aedge_tracked _ _ _ _ Ht). reflexivity. Qed.
Lemma arun_cons2 (s : astate) c l met fc x1 r1 x2 r2 : s c = Some fc -> edgesOf H c = [(x1, r1); (x2, r2)] ->
  trackedOf H x1 = true -> trackedOf H x2 = true ->
  arun (c :: l) s met = arun l (aupd (aupd s x1 (sem r1 fc)) x2 (sem r2 fc)) (c :: met).
Proof.
  intros Es Ee H1 H2. rewrite (arun_cons s c l met fc _ Es Ee). cbn [fold_left].
  rewrite (aedge_tracked _ _ _ _ H1), (aedge_tracked _ _ _ _ H2). reflexivity.
Qed.
Lemma arun_cons2u (s : astate) c l met fc x1 r1 x2 r2 : s c = Some fc -> edgesOf H c = [(x1, r1); (x2, r2)] ->
  trackedOf H x1 = true -> trackedOf H x2 = false ->
  arun (c :: l) s met = arun l (aupd s x1 (sem r1 fc)) (c :: met).
Proof.
  intros Es Ee H1 H2. rewrite (arun_cons s c l met fc _ Es Ee). cbn [fold_left].
  rewrite (aedge_tracked _ _ _ _ H1), (aedge_untracked _ _ _ _ H2). reflexivity.
Qed.

Lemma arun_fst l : forall s met, fst (arun l s met) = fold_left anode l s.
Proof.
  induction l as [|c l IH]; intros s met; [reflexivity|]. cbn [arun fold_left]. unfold anode at 2.
  destruct (s c); apply IH.
Qed.

Variable dom : nat -> Prop.

Definition models (hh : heap) (s : astate) : Prop :=
  forall j, dom j ->
    match s j with
    | Some f => exists g, gradOf hh j = Some g /\ isT (Dm j) f g
    | None => gradOf hh j = None
    end.

(* the state before the fold: the upstream gradient on y, priors on the nodes below a, nothing
   on the other nodes from a on *)
Definition seed (a y : nat) (gy : T) (hh : heap) : astate :=
  fun j => if (j =? y)%nat then Some (elt gy)
           else if (j <? a)%nat then option_map elt (gradOf hh j) else None.

Lemma seed_y a y gy hh : seed a y gy hh y = Some (elt gy).
Proof. unfold seed. rewrite Nat.eqb_refl. reflexivity. Qed.
Lemma seed_new a y gy hh j : (a <= j)%nat -> j <> y -> seed a y gy hh j = None.
Proof.
  intros Hj Hn. unfold seed. rewrite (proj2 (Nat.eqb_neq j y) Hn), (proj2 (Nat.ltb_ge j a) Hj). reflexivity.
Qed.
Lemma seed_old a y gy hh j : (j < a)%nat -> (a <= y)%nat -> seed a y gy hh j = option_map elt (gradOf hh j).
Proof.
  intros Hj Hy. unfold seed. rewrite (proj2 (Nat.eqb_neq j y)) by lia. rewrite (proj2 (Nat.ltb_lt j a) Hj). reflexivity.
Qed.

Lemma models_seed a y gy (hh : heap) : (a <= y)%nat ->
  gradOf hh y = Some gy -> wf gy -> dims gy = Dm y ->
  (forall j, dom j -> (a <= j)%nat -> j <> y -> gradOf hh j = None) ->
  (forall j g, dom j -> (j < a)%nat -> gradOf hh j = Some g -> wf g /\ dims g = Dm j) ->
  models hh (seed a y gy hh).
Proof.
  intros Hy Hg Wg Dg Hnew Hold j Hj. destruct (Nat.eq_dec j y) as [->|Hn].
  - rewrite seed_y. exists gy. split; [exact Hg|]. rewrite <- Dg. apply isT_self, Wg.
  - destruct (Nat.lt_ge_cases j a) as [Hl|Hl].
    + rewrite seed_old by assumption. destruct (gradOf hh j) as [g|] eqn:Eg; cbn [option_map]; [|reflexivity].
      exists g. split; [reflexivity|]. destruct (Hold j g Hj Hl Eg) as [W D]. rewrite <- D. apply isT_self, W.
    + rewrite seed_new by assumption. apply Hnew; assumption.
Qed.

Definition edges_rok (c : nat) : Prop :=
  forall e, In e (edgesOf H c) -> trackedOf H (fst e) = true ->
    dom (fst e) /\ fst e <> c /\ esound sem c (fst e) (snd e).

(* a node that no processed tracked edge leads to keeps its gradient *)
Definition untouched (l : list nat) (j : nat) : Prop :=
  forall c e, In c l -> In e (edgesOf H c) -> trackedOf H (fst e) = true -> fst e <> j.

Lemma untouched_dom l j : (forall c, In c l -> edges_rok c) -> ~ dom j -> untouched l j.
Proof. intros Hl Hj c e Hc He Ht E. apply Hj. rewrite <- E. exact (proj1 (Hl c Hc e He Ht)). Qed.

Lemma edges_abs c gc fc es : forall (hh : heap) (s : astate),
  sameS H hh -> models hh s -> gradOf hh c = Some gc -> isT (Dm c) fc gc ->
  (forall e, In e es -> In e (edgesOf H c)) -> edges_rok c ->
  exists hh', fold_left (process_edge rd c) es (hh, Ok tt) = (hh', Ok tt) /\
    sameS H hh' /\ models hh' (fold_left (aedge fc) es s) /\ gradOf hh' c = Some gc /\
    (forall j, (forall e, In e es -> trackedOf H (fst e) = true -> fst e <> j) -> gradOf hh' j = gradOf hh j).
Proof.
  induction es as [|e es IH]; intros hh s HS HM Hg HT Hin Hrok.
  - exists hh. cbn [fold_left]. split; [reflexivity|]. split; [exact HS|]. split; [exact HM|]. split; [exact Hg|]. intros j _. reflexivity.
  - assert (He : In e (edgesOf H c)) by (apply Hin; left; reflexivity).
    assert (Hin' : forall e0, In e0 es -> In e0 (edgesOf H c)) by (intros e0 H0; apply Hin; right; exact H0).
    cbn [fold_left]. unfold process_edge at 2. unfold aedge at 2.
    rewrite <- (sameS_trk _ _ HS). destruct (trackedOf H (fst e)) eqn:Et.
    + destruct (Hrok e He Et) as (Hd & Hne & Hr).
      destruct (Hr hh gc fc) as (g & Eg & Tg); [intros i; symmetry; apply (sameS_val _ _ HS)|exact Hg|exact HT|].
      rewrite Eg.
      assert (Hlt : (fst e < length hh)%nat).
      { rewrite <- (proj1 HS). apply tracked_lt. exact Et. }
      assert (Hstep : exists o, accumulate hh (fst e) g = (setGrad hh (fst e) (Some o), Ok tt) /\
                isT (Dm (fst e)) (aacc (s (fst e)) (sem (snd e) fc)) o).
      { unfold accumulate. specialize (HM (fst e) Hd). destruct (s (fst e)) as [f0|]; cbn [aacc].
        - destruct HM as (g0 & E0 & T0). rewrite E0. destruct (isT_add _ _ _ _ _ T0 Tg) as (r & Er & Tr).
          rewrite Er. exists r. split; [reflexivity|exact Tr].
        - rewrite HM. exists g. split; [reflexivity|exact Tg]. }
      destruct Hstep as (o & Eacc & To). rewrite Eacc.
      apply Nat.ltb_lt in Hlt.
      destruct (IH (setGrad hh (fst e) (Some o)) (aupd s (fst e) (sem (snd e) fc))) as (hh' & Ef & HS' & HM' & Hg' & Hfr).
      * eapply sameS_trans; [exact HS|apply sameS_setGrad].
      * intros j Hj. unfold aupd. rewrite gradOf_setGrad. destruct (j =? fst e)%nat eqn:Ej.
        -- apply Nat.eqb_eq in Ej. subst j. rewrite Hlt. exists o. split; [reflexivity|exact To].
        -- apply HM, Hj.
      * rewrite gradOf_setGrad. apply Nat.eqb_neq in Hne. rewrite Nat.eqb_sym, Hne. exact Hg.
      * exact HT.
      * exact Hin'.
      * exact Hrok.
      * exists hh'. split; [exact Ef|]. split; [exact HS'|]. split; [exact HM'|]. split; [exact Hg'|].
        intros j Hj. rewrite Hfr by (intros e0 H0; apply Hj; right; exact H0). rewrite gradOf_setGrad.
        destruct (j =? fst e)%nat eqn:Ej; [|reflexivity]. apply Nat.eqb_eq in Ej. subst j.
        exfalso. exact (Hj e (or_introl eq_refl) Et eq_refl).
    + destruct (IH hh s HS HM Hg HT Hin' Hrok) as (hh' & Ef & HS' & HM' & Hg' & Hfr).
      exists hh'. split; [exact Ef|]. split; [exact HS'|]. split; [exact HM'|]. split; [exact Hg'|].
      intros j Hj. apply Hfr. intros e0 H0. apply Hj. right. exact H0.
Qed.

(* the log gains the entry of c exactly when c holds a gradient *)
Lemma node_abs (hh : heap) log (s : astate) c :
  sameS H hh -> models hh s -> dom c -> (c < length H)%nat -> edges_rok c ->
  exists hh', process_node rd idseal (hh, log, Ok tt) c =
                (hh', match gradOf hh c with Some gc => (c, gc) :: log | None => log end, Ok tt) /\
    sameS H hh' /\ models hh' (anode s c) /\ (forall j, untouched [c] j -> gradOf hh' j = gradOf hh j).
Proof.
  intros HS HM Hd Hlt Hrok.
  assert (Hlt' : (c < length hh)%nat) by (rewrite <- (proj1 HS); exact Hlt).
  destruct (nth_error hh c) as [nd|] eqn:En; [|apply nth_error_None in En; lia].
  assert (Hgr : gradOf hh c = ngrad nd) by (unfold gradOf; rewrite En; reflexivity).
  assert (Hed : edgesOf H c = nedges nd) by (rewrite (sameS_edges _ _ HS); unfold edgesOf; rewrite En; reflexivity).
  pose proof (HM c Hd) as HMc. rewrite Hgr in HMc |- *. cbn [process_node]. rewrite En. unfold anode.
  destruct (s c) as [fc|] eqn:Esc.
  - destruct HMc as (gc & Egc & Tgc). rewrite Egc.
    destruct (edges_abs c gc fc (nedges nd) (setGrad hh c (Some gc)) s) as (hh' & Ef & HS' & HM' & _ & Hfr).
    + eapply sameS_trans; [exact HS|apply sameS_setGrad].
    + intros j Hj. rewrite gradOf_setGrad. destruct (j =? c)%nat eqn:Ej; [|apply HM, Hj].
      apply Nat.eqb_eq in Ej. subst j. apply Nat.ltb_lt in Hlt'. rewrite Hlt', Esc. exists gc. split; [reflexivity|exact Tgc].
    + rewrite gradOf_setGrad, Nat.eqb_refl. apply Nat.ltb_lt in Hlt'. rewrite Hlt'. reflexivity.
    + exact Tgc.
    + intros e He. rewrite Hed. exact He.
    + exact Hrok.
    + rewrite Ef. exists hh'. split; [reflexivity|]. split; [exact HS'|]. split; [rewrite Hed; exact HM'|].
      intros j Hj. rewrite Hfr by (intros e He; apply (Hj c e (or_introl eq_refl)); rewrite Hed; exact He).
      rewrite gradOf_setGrad. destruct (j =? c)%nat eqn:Ej; [|reflexivity].
      apply Nat.eqb_eq in Ej. subst j. apply Nat.ltb_lt in Hlt'. rewrite Hlt', Hgr. symmetry. exact Egc.
  - rewrite HMc. exists hh. split; [reflexivity|]. split; [exact HS|]. split; [exact HM|]. intros j _. reflexivity.
Qed.

Theorem fold_abs l : forall (hh : heap) log (s : astate) met,
  sameS H hh -> models hh s ->
  (forall c, In c l -> dom c /\ (c < length H)%nat /\ edges_rok c) ->
  exists hh' lg, fold_left (process_node rd idseal) l (hh, log, Ok tt) = (hh', lg ++ log, Ok tt) /\
    snd (arun l s met) = map fst lg ++ met /\
    sameS H hh' /\ models hh' (fold_left anode l s) /\ (forall j, untouched l j -> gradOf hh' j = gradOf hh j).
Proof.
  induction l as [|c l IH]; intros hh log s met HS HM Hl.
  - exists hh, []. cbn [fold_left app]. split; [reflexivity|]. split; [reflexivity|]. split; [exact HS|]. split; [exact HM|].
    intros j _. reflexivity.
  - destruct (Hl c (or_introl eq_refl)) as (Hd & Hlt & Hrok).
    destruct (node_abs hh log s c HS HM Hd Hlt Hrok) as (h1 & E1 & HS1 & HM1 & Hfr1).
    assert (Hl' : forall c0, In c0 l -> dom c0 /\ (c0 < length H)%nat /\ edges_rok c0) by (intros c0 H0; apply Hl; right; exact H0).
    assert (Hfr : forall h2, (forall j, untouched l j -> gradOf h2 j = gradOf h1 j) ->
                  forall j, untouched (c :: l) j -> gradOf h2 j = gradOf hh j).
    { intros h2 Hfr2 j Hj. rewrite Hfr2 by (intros c0 e H0; apply Hj; right; exact H0).
      apply Hfr1. intros c0 e [<-|[]]. apply Hj. left. reflexivity. }
    cbn [fold_left arun]. rewrite E1. pose proof (HM c Hd) as HMc. unfold anode in HM1 |- *.
    destruct (s c) as [fc|].
    + destruct HMc as (gc & Egc & _). rewrite Egc.
      destruct (IH h1 ((c, gc) :: log) _ (c :: met) HS1 HM1 Hl') as (h2 & lg & E2 & Hlg & HS2 & HM2 & Hfr2).
      exists h2, (lg ++ [(c, gc)]). rewrite <- app_assoc. split; [exact E2|].
      split; [rewrite Hlg, map_app, <- app_assoc; reflexivity|]. split; [exact HS2|]. split; [exact HM2|exact (Hfr h2 Hfr2)].
    + rewrite HMc. destruct (IH h1 log s met HS1 HM1 Hl') as (h2 & lg & E2 & Hlg & HS2 & HM2 & Hfr2).
      exists h2, lg. split; [exact E2|]. split; [exact Hlg|]. split; [exact HS2|]. split; [exact HM2|exact (Hfr h2 Hfr2)].
Qed.

(* a component: its result y, which holds the upstream gradient, then the nodes below it *)
Corollary comp_abs y l (hh : heap) log (s : astate) gy fy :
  sameS H hh -> models hh s -> gradOf hh y = Some gy -> s y = Some fy ->
  (forall c, In c (y :: l) -> dom c /\ (c < length H)%nat /\ edges_rok c) ->
  exists hh' lg, fold_left (process_node rd idseal) (y :: l) (hh, log, Ok tt) = (hh', lg ++ (y, gy) :: log, Ok tt) /\
    snd (arun (y :: l) s []) = map fst lg ++ [y] /\
    sameS H hh' /\ models hh' (fold_left anode (y :: l) s) /\
    (forall j, untouched (y :: l) j -> gradOf hh' j = gradOf hh j).
Proof.
  intros HS HM Hg Hs Hl. destruct (Hl y (or_introl eq_refl)) as (Hd & Hlt & Hrok).
  destruct (node_abs hh log s y HS HM Hd Hlt Hrok) as (h1 & E1 & HS1 & HM1 & Hfr1). rewrite Hg in E1.
  destruct (fold_abs l h1 ((y, gy) :: log) (anode s y) [y] HS1 HM1) as (h2 & lg & E2 & Hlg & HS2 & HM2 & Hfr2).
  { intros c0 H0. apply Hl. right. exact H0. }
  exists h2, lg. cbn [fold_left arun]. rewrite E1, Hs. split; [exact E2|].
  split; [unfold anode in Hlg; rewrite Hs in Hlg; exact Hlg|]. split; [exact HS2|]. split; [exact HM2|].
  intros j Hj. rewrite Hfr2 by (intros c0 e H0; apply Hj; right; exact H0).
  apply Hfr1. intros c0 e [<-|[]]. apply Hj. left. reflexivity.
Qed.

End OnHeap.
(* The component theorems share this form: H = the heap after the forward call, whose new nodes
   start at a and end with the result y; [ins] are the operands below a that may receive a
   gradient; hh holds the upstream gradient on y, none on the other new nodes, priors of the
   right shape on the operands.  What is left to a component: its edges and their soundness,
   and the evaluation of [arun] on its list of nodes. *)
Lemma comp_run sem (H hh : heap) a y l ins gy log :
  sameS H hh -> (a <= y)%nat -> gradOf hh y = Some gy -> wf gy -> dims gy = Dm H y ->
  (forall j, (a <= j < y)%nat -> gradOf hh j = None) ->
  (forall j g, In j ins -> gradOf hh j = Some g -> wf g /\ dims g = Dm H j) ->
  (forall c, In c (y :: l) -> (a <= c <= y)%nat /\ (c < length H)%nat /\
     forall e, In e (edgesOf H c) -> trackedOf H (fst e) = true ->
       (((fst e < a)%nat /\ In (fst e) ins) \/ (a <= fst e < c)%nat) /\ esound H sem c (fst e) (snd e)) ->
  let r := arun H sem (y :: l) (seed a y gy hh) [] in
  exists hh' lg,
    fold_left (process_node rd idseal) (y :: l) (hh, log, Ok tt) = (hh', lg ++ (y, gy) :: log, Ok tt) /\
    snd r = map fst lg ++ [y] /\
    sameS hh hh' /\
    (forall n, ~ In n ins -> (n < a \/ y <= n)%nat -> gradOf hh' n = gradOf hh n) /\
    (forall x, In x ins -> (x < a)%nat ->
       match fst r x with
       | Some f => exists gx, gradOf hh' x = Some gx /\ isT (Dm H x) f gx
       | None => gradOf hh' x = None
       end).
Proof.
  intros HS Hay Hg Wg Dg Hnew Hold Hl r.
  set (dom := fun j : nat => ((j < a)%nat /\ In j ins) \/ (a <= j <= y)%nat).
  assert (HM : models H dom hh (seed a y gy hh)).
  { apply (models_seed H dom a y gy hh Hay Hg Wg Dg).
    - intros j [[Hj _]|Hj] H1 H2; apply Hnew; lia.
    - intros j g [[_ Hj]|Hj] Hlt Ej; [exact (Hold j g Hj Ej)|lia]. }
  destruct (comp_abs H sem dom y l hh log (seed a y gy hh) gy (elt gy) HS HM Hg (seed_y a y gy hh))
    as (hh' & lg & Ef & Hlg & HS' & HM' & Hfr).
  { intros c Hc. destruct (Hl c Hc) as (Hr & Hlt & He). split; [right; exact Hr|]. split; [exact Hlt|].
    intros e Hin Ht. destruct (He e Hin Ht) as [[[Hi Hi']|Hi] Hs].
    - split; [left; split; assumption|]. split; [lia|exact Hs].
    - split; [right; lia|]. split; [lia|exact Hs]. }
  exists hh', lg. split; [exact Ef|]. split; [exact Hlg|].
  split; [eapply sameS_trans; [apply sameS_sym; exact HS|exact HS']|]. split.
  - intros n Hn Hr. apply Hfr. intros c e Hc Hin Ht E. destruct (Hl c Hc) as (Hcr & _ & He).
    destruct (He e Hin Ht) as [[[_ Hi]|Hi] _]; [apply Hn; rewrite <- E; exact Hi|lia].
  - intros x Hx Hxa. unfold r. rewrite arun_fst. apply HM'. left. split; assumption.
Qed.

End Gen.

(* looking a node up in a state built by [aupd] on top of [seed] *)
Ltac alook :=
  repeat first [ rewrite aupd_same | rewrite aupd_other by nlia | rewrite seed_y
               | rewrite seed_new by nlia | rewrite seed_old by nlia ].

(* the same by applying lemmas instead of rewriting: the goal is [s j = ?v]; cheaper on long components *)
Ltac alk ne :=
  first [ apply aupd_hit; alk ne | apply aupd_miss; [ne|alk ne] | apply seed_y | apply seed_new; ne | apply seed_old; ne ].

(* one node of a goal [arun (c :: l) s met = ?r]: E gives its edges, whose targets' flags are
   among the hypotheses; [ne] tells two ids apart *)
Ltac arun_skip ne := etransitivity; [apply arun_skip; alk ne|].
Ltac arun1 ne E := etransitivity; [eapply arun_cons1; [alk ne|exact E|assumption]|].
Ltac arun2 ne E := etransitivity; [eapply arun_cons2; [alk ne|exact E|assumption|assumption]|].
Ltac arun2u ne E := etransitivity; [eapply arun_cons2u; [alk ne|exact E|assumption|assumption]|].

(* one node of [arun]: E gives its edges; the flags of their targets are among the hypotheses *)
Ltac astep E :=
  erewrite arun_cons; [|alook; reflexivity|exact E]; cbn [fold_left];
  rewrite ?aedge_tracked by assumption; rewrite ?aedge_untracked by assumption.

(* the edges E of a node of a component, one goal [esound] per edge: a target is an operand
   (a hypothesis puts it below the first new node) or an earlier new node *)
Ltac each_in :=
  lazymatch goal with |- forall x, In x ?l -> @?P x => refine (in_each P l _) end;
  repeat (apply Forall_cons; [|]); try apply Forall_nil.
Ltac comp_edges E :=
  rewrite E; each_in; intros _; cbn [fst snd];
  (split; [first [right; nlia | left; split; [nlia|cbn [In]; tauto]]|]).
