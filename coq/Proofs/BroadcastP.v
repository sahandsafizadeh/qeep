(* BroadcastP.v — broadcast (shape_modifiers.go, broadcastElemGenerator): one generator step
   is one increment of the TARGET-shape odometer and the source index read is the
   broadcasting projection of the target digits; hence element idx of the result is element
   [bproj (dims t) shape idx] of the source.  Public method: Ok iff the validators accept,
   Err otherwise, never Panic.  targetBroadcastDims is the right-aligned maximum. *)
From Coq Require Import List Arith ZArith Bool Lia.
From Qeep Require Import Model.Scalar Model.Nd Model.Fill Model.Data Model.Valid Model.Api.
From Qeep Require Import Proofs.NdP Proofs.FillP Proofs.OdometerP Proofs.ReshapeP.
Import ListNotations.

Lemma Forall2_len {T U} (R : T -> U -> Prop) l r : Forall2 R l r -> length l = length r.
Proof. apply NdP.Forall2_len. Qed.

(* ---------- compatibility ---------- *)

(* least-significant-first form (the form the validator and the generator work with) *)
Fixpoint compatR (rsrc rsh : list nat) : Prop :=
  match rsrc, rsh with
  | [], _ => True
  | d :: rs, sh :: rsh' => (d = sh \/ d = 1) /\ compatR rs rsh'
  | _ :: _, [] => False
  end.

(* most-significant-first statement: right-aligned, each source dim equals the target dim or is 1 *)
Definition bcompat (src shape : list nat) : Prop :=
  length src <= length shape /\
  Forall2 (fun d sh => d = sh \/ d = 1) src (skipn (length shape - length src) shape).

(* the source index of target index idx: drop the leading components, 0 where the source dim is 1 *)
Definition bproj (src shape idx : list nat) : list nat :=
  map (fun p => if fst p =? 1 then 0 else snd p) (combine src (skipn (length shape - length src) idx)).

Lemma compatR_length rsrc : forall rsh, compatR rsrc rsh -> length rsrc <= length rsh.
Proof.
  induction rsrc as [|d rs IH]; intros [|sh rsh] H; cbn [compatR] in H; cbn [length]; try lia; try contradiction.
  destruct H as [_ H]. specialize (IH _ H). lia.
Qed.

Lemma compatR_of_Forall2 a b c : Forall2 (fun d sh => d = sh \/ d = 1) a b -> compatR a (b ++ c).
Proof. induction 1 as [|d sh a b Hd _ IH]; cbn [app compatR]; [exact I|split; assumption]. Qed.

Lemma compatR_firstn a : forall b, compatR a b -> Forall2 (fun d sh => d = sh \/ d = 1) a (firstn (length a) b).
Proof.
  induction a as [|d a IH]; intros [|sh b] H; cbn [compatR] in H; try contradiction; cbn [length firstn]; try constructor.
  - tauto.
  - apply IH. tauto.
Qed.

Lemma bcompat_compatR src shape : bcompat src shape <-> compatR (rev src) (rev shape).
Proof.
  split.
  - intros [Hl HF]. rewrite <- (firstn_skipn (length shape - length src) shape) at 1.
    rewrite rev_app_distr. apply compatR_of_Forall2, Forall2_rev', HF.
  - intros H. pose proof (compatR_length _ _ H) as Hl. rewrite !rev_length in Hl. split; [exact Hl|].
    apply compatR_firstn in H. rewrite firstn_rev, rev_length in H.
    apply Forall2_rev' in H. rewrite !rev_involutive in H. exact H.
Qed.

Lemma compatR_refl l : compatR l l.
Proof. induction l as [|d l IH]; cbn; auto. Qed.

(* validator = compatibility *)
Lemma bcastOkRev_iff a : forall b, bcastOkRev (map Z.of_nat a) (map Z.of_nat b) = true <-> compatR a b.
Proof.
  induction a as [|d a IH]; intros [|sh b]; cbn [map bcastOkRev compatR]; try tauto.
  - split; [discriminate|contradiction].
  - rewrite andb_true_iff, orb_true_iff, !Z.eqb_eq, IH. split; intros [H1 H2]; (split; [lia|exact H2]).
Qed.

Lemma validateBroadcast_iff src shape :
  validateBroadcast (map Z.of_nat src) (map Z.of_nat shape) = true <-> bcompat src shape.
Proof.
  unfold validateBroadcast. rewrite bcompat_compatR, andb_true_iff, <- !map_rev, bcastOkRev_iff, !map_length.
  split; [tauto|]. intros H. split; [|exact H]. apply Nat.leb_le.
  apply compatR_length in H. rewrite !rev_length in H. exact H.
Qed.

(* ---------- the generator state as a function of the target digits ---------- *)

Fixpoint mkps (rsrc rsh rd : list nat) : list bpos :=
  match rsh, rd with
  | sh :: rsh', i :: rd' =>
      match rsrc with
      | d :: rs' => mkBpos (Some d) sh (if d =? sh then i else 0) (if d =? sh then 0 else i) :: mkps rs' rsh' rd'
      | [] => mkBpos None sh 0 i :: mkps [] rsh' rd'
      end
  | _, _ => []
  end.

Fixpoint bprojR (rsrc rsh rd : list nat) : list nat :=
  match rsrc, rsh, rd with
  | d :: rs', sh :: rsh', i :: rd' => (if d =? sh then i else 0) :: bprojR rs' rsh' rd'
  | _, _, _ => []
  end.

Lemma mkbpos_mkps rsh : forall rsrc, mkbpos rsrc rsh = mkps rsrc rsh (repeat 0 (length rsh)).
Proof.
  induction rsh as [|sh rsh IH]; intros rsrc; cbn [mkbpos mkps length repeat]; [reflexivity|].
  destruct rsrc as [|d rs]; rewrite IH; [reflexivity|]. destruct (d =? sh); reflexivity.
Qed.

(* one generator step = one increment of the target odometer *)
Lemma bstep_mkps rsh : forall rsrc rd, compatR rsrc rsh -> ovalid rsh rd ->
  bstep (mkps rsrc rsh rd) = mkps rsrc rsh (incr rsh rd).
Proof.
  induction rsh as [|sh rsh IH]; intros rsrc [|i rd] Hc Hv; cbn [ovalid] in Hv; try contradiction.
  - reflexivity.
  - destruct Hv as [Hi Hr]. destruct rsrc as [|d rs].
    + specialize (IH [] rd I Hr).
      cbn [mkps bstep bsrc bshp bstt brpt incr].
      destruct (Nat.eqb_spec (S i) sh) as [E1|E1]; destruct (Nat.ltb_spec (S i) sh) as [E2|E2]; try lia.
      * cbn [mkps]. rewrite IH. reflexivity.
      * cbn [mkps]. reflexivity.
    + cbn [compatR] in Hc. destruct Hc as [Hd Hc]. specialize (IH rs rd Hc Hr).
      cbn [mkps]. destruct (Nat.eqb_spec d sh) as [Ed|Ed].
      * subst d. cbn [bstep bsrc bshp bstt brpt incr].
        destruct (Nat.ltb_spec (S i) sh) as [E2|E2].
        -- cbn [mkps]. rewrite ?Nat.eqb_refl. reflexivity.
        -- rewrite ?Nat.eqb_refl. cbn [orb]. cbn [mkps]. rewrite ?Nat.eqb_refl, IH. reflexivity.
      * destruct Hd as [Hd|Hd]; [contradiction|]. subst d.
        assert (E0 : (1 =? sh) = false) by (apply Nat.eqb_neq; exact Ed).
        cbn [bstep bsrc bshp bstt brpt incr].
        replace (1 <? 1) with false by reflexivity. rewrite E0. cbn [orb].
        destruct (Nat.eqb_spec (S i) sh) as [E1|E1]; destruct (Nat.ltb_spec (S i) sh) as [E2|E2]; try lia.
        -- cbn [mkps]. rewrite ?E0, IH. reflexivity.
        -- cbn [mkps]. rewrite ?E0. reflexivity.
Qed.

Lemma iter_bstep_mkps rsrc rsh k : forall rd, compatR rsrc rsh -> ovalid rsh rd ->
  iter _ bstep k (mkps rsrc rsh rd) = mkps rsrc rsh (iter _ (incr rsh) k rd).
Proof.
  induction k as [|k IH]; intros rd Hc Hv; cbn [iter]; [reflexivity|].
  rewrite bstep_mkps by assumption. apply IH; [exact Hc|apply incr_valid, Hv].
Qed.

(* the source index read in a state *)
Lemma bsrcidx_mkps_nil rsh : forall rd, bsrcidx (mkps [] rsh rd) = [].
Proof.
  unfold bsrcidx. induction rsh as [|sh rsh IH]; intros [|i rd]; cbn [mkps filter bsrc map rev]; try reflexivity.
  apply IH.
Qed.

Lemma bsrcidx_mkps rsh : forall rsrc rd, bsrcidx (mkps rsrc rsh rd) = rev (bprojR rsrc rsh rd).
Proof.
  induction rsh as [|sh rsh IH]; intros rsrc [|i rd].
  - destruct rsrc; reflexivity.
  - destruct rsrc; reflexivity.
  - destruct rsrc; reflexivity.
  - destruct rsrc as [|d rs].
    + rewrite bsrcidx_mkps_nil. reflexivity.
    + specialize (IH rs rd). unfold bsrcidx in *. cbn [mkps filter bsrc map bstt rev bprojR]. rewrite IH. reflexivity.
Qed.

Lemma bprojR_valid rsrc : forall rsh rd, compatR rsrc rsh -> ovalid rsh rd -> ovalid rsrc (bprojR rsrc rsh rd).
Proof.
  induction rsrc as [|d rs IH]; intros [|sh rsh] [|i rd] Hc Hv; cbn [compatR ovalid] in Hc, Hv; try contradiction;
    cbn [bprojR ovalid]; try exact I.
  destruct Hc as [Hd Hc]. destruct Hv as [Hi Hv]. split; [|apply IH; assumption].
  destruct (Nat.eqb_spec d sh) as [E|E]; lia.
Qed.

(* the reversed projection is the most-significant-first [bproj] *)
Lemma bprojR_app rs : forall a b a' b', length a = length rs -> length b = length rs ->
  bprojR rs (a ++ a') (b ++ b') = bprojR rs a b.
Proof.
  induction rs as [|d rs IH]; intros [|sh a] [|i b] a' b' Ha Hb; cbn in Ha, Hb; try discriminate.
  - destruct a'; reflexivity.
  - cbn [app bprojR]. rewrite IH by lia. reflexivity.
Qed.

Lemma bprojR_snoc rs : forall a b d sh i, length a = length rs -> length b = length rs ->
  bprojR (rs ++ [d]) (a ++ [sh]) (b ++ [i]) = bprojR rs a b ++ [if d =? sh then i else 0].
Proof.
  induction rs as [|d0 rs IH]; intros [|sh0 a] [|i0 b] d sh i Ha Hb; cbn in Ha, Hb; try discriminate.
  - reflexivity.
  - cbn [app bprojR]. rewrite IH by lia. reflexivity.
Qed.

Lemma bprojR_rev_aligned src : forall suf isuf,
  Forall2 (fun d sh => d = sh \/ d = 1) src suf -> validIdx suf isuf ->
  rev (bprojR (rev src) (rev suf) (rev isuf)) =
  map (fun p => if fst p =? 1 then 0 else snd p) (combine src isuf).
Proof.
  induction src as [|d src IH]; intros suf isuf HF Hv.
  - reflexivity.
  - inversion HF as [|? sh ? suf' Hd HF']; subst.
    apply validIdx_cons in Hv as (i & isuf' & -> & Hi & Hv').
    cbn [rev combine map fst snd].
    pose proof (Forall2_len _ _ _ HF') as L1. pose proof (validIdx_length _ _ Hv') as L2.
    rewrite bprojR_snoc by (rewrite !rev_length; lia).
    rewrite rev_app_distr. cbn [rev app]. rewrite (IH suf' isuf' HF' Hv'). f_equal.
    destruct (Nat.eqb_spec d sh) as [E1|E1]; destruct (Nat.eqb_spec d 1) as [E2|E2]; lia.
Qed.

Lemma bprojR_bproj src shape idx : bcompat src shape -> validIdx shape idx ->
  rev (bprojR (rev src) (rev shape) (rev idx)) = bproj src shape idx.
Proof.
  intros [Hl HF] Hv. unfold bproj.
  set (k := length shape - length src) in *.
  pose proof (validIdx_length _ _ Hv) as Li.
  assert (Lk : length (firstn k idx) = length (firstn k shape)) by (rewrite !firstn_length; lia).
  pose proof Hv as Hv2. unfold validIdx in Hv2.
  rewrite <- (firstn_skipn k shape), <- (firstn_skipn k idx) in Hv2.
  apply Forall2_app_inv_len in Hv2 as [_ Hvs]; [|exact Lk].
  rewrite <- (firstn_skipn k shape) at 1. rewrite <- (firstn_skipn k idx) at 1.
  rewrite !rev_app_distr.
  pose proof (Forall2_len _ _ _ HF) as L1.
  rewrite bprojR_app.
  - apply bprojR_rev_aligned; assumption.
  - rewrite !rev_length. lia.
  - rewrite !rev_length. rewrite (validIdx_length _ _ Hvs). lia.
Qed.

Lemma bproj_valid src shape idx : bcompat src shape -> validIdx shape idx -> validIdx src (bproj src shape idx).
Proof.
  intros Hc Hv. rewrite <- (bprojR_bproj src shape idx Hc Hv).
  apply ovalid_rev_inv, bprojR_valid; [apply bcompat_compatR, Hc|apply ovalid_rev, Hv].
Qed.

(* ---------- the probe lemma: steps as increments of the digit vector ---------- *)

Definition digit (p : bpos) : nat :=
  match bsrc p with Some d => if d =? bshp p then bstt p else brpt p | None => brpt p end.

Definition okpos (p : bpos) : Prop :=
  match bsrc p with
  | Some d => (d = bshp p /\ bstt p < d /\ brpt p = 0) \/ (d = 1 /\ 1 < bshp p /\ bstt p = 0 /\ brpt p < bshp p)
  | None => bstt p = 0 /\ brpt p < bshp p /\ 0 < bshp p
  end.

Lemma digit_mk src sh st rp :
  digit (mkBpos src sh st rp) = match src with Some d => if d =? sh then st else rp | None => rp end.
Proof. reflexivity. Qed.

Lemma bstep_digits ps : Forall okpos ps ->
  map digit (bstep ps) = incr (map bshp ps) (map digit ps) /\ Forall okpos (bstep ps) /\
  map bshp (bstep ps) = map bshp ps /\ map bsrc (bstep ps) = map bsrc ps.
Proof.
  induction 1 as [|p ps Hp Hps IH]; [cbn; auto|].
  destruct IH as (I1 & I2 & I3 & I4).
  destruct p as [src sh st rp]. unfold okpos in Hp. cbn [bsrc bshp bstt brpt] in Hp.
  cbn [bstep bsrc bshp bstt brpt map incr]. rewrite digit_mk.
  destruct src as [d|].
  - destruct Hp as [(-> & Hst & ->)|(-> & Hsh & -> & Hrp)].
    + rewrite Nat.eqb_refl. cbn [orb].
      destruct (Nat.ltb_spec (S st) sh) as [E|E]; cbn [map bsrc bshp]; rewrite digit_mk, ?Nat.eqb_refl.
      * split; [reflexivity|]. split; [|split; reflexivity].
        constructor; [|exact Hps]. unfold okpos; cbn. left. lia.
      * rewrite I1, I3, I4. split; [reflexivity|]. split; [|split; reflexivity].
        constructor; [|exact I2]. unfold okpos; cbn. left. lia.
    + replace (1 <? 1) with false by reflexivity.
      assert (E1 : (1 =? sh) = false) by (apply Nat.eqb_neq; lia). rewrite E1. cbn [orb].
      destruct (Nat.eqb_spec (S rp) sh) as [E2|E2]; destruct (Nat.ltb_spec (S rp) sh) as [E3|E3]; try lia;
        cbn [map bsrc bshp]; rewrite digit_mk, ?E1.
      * rewrite I1, I3, I4. split; [reflexivity|]. split; [|split; reflexivity].
        constructor; [|exact I2]. unfold okpos; cbn. right. lia.
      * split; [reflexivity|]. split; [|split; reflexivity].
        constructor; [|exact Hps]. unfold okpos; cbn. right. lia.
  - destruct Hp as (-> & Hrp & Hsh).
    destruct (Nat.eqb_spec (S rp) sh) as [E2|E2]; destruct (Nat.ltb_spec (S rp) sh) as [E3|E3]; try lia;
      cbn [map bsrc bshp]; rewrite digit_mk.
    + rewrite I1, I3, I4. split; [reflexivity|]. split; [|split; reflexivity].
      constructor; [|exact I2]. unfold okpos; cbn. lia.
    + split; [reflexivity|]. split; [|split; reflexivity].
      constructor; [|exact Hps]. unfold okpos; cbn. lia.
Qed.

(* ---------- the data layer ---------- *)
Section Broadcast.
Variable A : Type.
Notation T := (tensor A).

Lemma broadcast_data src (x : nd A) shape :
  wfnd src x -> allpos src -> allpos shape -> compatR (rev src) (rev shape) ->
  exists d, initWith shape (bcGen x) (bcInit src shape) = Some d /\ wfnd shape d /\
    forall idx, validIdx shape idx -> get d idx = get x (rev (bprojR (rev src) (rev shape) (rev idx))).
Proof.
  intros Hw Hp Hps Hc.
  set (rsrc := rev src) in *. set (rsh := rev shape) in *.
  (* the states reached are the images under [mkps] of the target odometer's states *)
  set (Inv := fun ps : list bpos => exists rd, ovalid rsh rd /\ ps = mkps rsrc rsh rd).
  destruct (initWith_get (bcGen x) bstep (fun ps => get x (bsrcidx ps)) Inv) with (ds := shape) (s0 := bcInit src shape)
    as (d & Ed & Hwd & Hget).
  - intros ps (rd & Hrd & ->). unfold bcGen. rewrite bsrcidx_mkps.
    destruct (dataAt_full src x (rev (bprojR rsrc rsh rd)) Hw) as (a & E1 & E2).
    { apply ovalid_rev_inv, bprojR_valid; assumption. }
    exists a. rewrite E1, E2. split; reflexivity.
  - intros ps (rd & Hrd & ->). exists (incr rsh rd). split; [apply incr_valid, Hrd|apply bstep_mkps; assumption].
  - exists (repeat 0 (length rsh)). split; [apply ovalid_zeros, Forall_rev, Hps|apply mkbpos_mkps].
  - exists d. split; [exact Ed|]. split; [exact Hwd|]. intros idx Hv. rewrite (Hget idx Hv).
    unfold bcInit. fold rsrc rsh. rewrite mkbpos_mkps, iter_bstep_mkps by (try assumption; apply ovalid_zeros, Forall_rev, Hps).
    unfold rsh at 2 3. rewrite rev_length, (iter_incr_flatIdx shape idx Hv), bsrcidx_mkps. reflexivity.
Qed.

(* main theorem *)
Theorem broadcast_spec (t : T) shape :
  wf t -> allpos shape -> bcompat (dims t) shape ->
  exists r, broadcast t shape = Some r /\ dims r = shape /\ wf r /\
    forall idx, validIdx shape idx -> get (data r) idx = get (data t) (bproj (dims t) shape idx).
Proof.
  intros [Hw Hp] Hps Hc.
  destruct (broadcast_data (dims t) (data t) shape Hw Hp Hps (proj1 (bcompat_compatR _ _) Hc)) as (d & Ed & Hd & Hg).
  exists (mkT shape d). unfold broadcast. rewrite Ed. cbn [obind dims data].
  split; [reflexivity|]. split; [reflexivity|]. split; [split; assumption|].
  intros idx Hv. rewrite (Hg idx Hv), (bprojR_bproj (dims t) shape idx Hc Hv). reflexivity.
Qed.

Definition broadcasted (t r : T) (shape : list nat) : Prop :=
  dims r = shape /\ wf r /\
  forall idx, validIdx shape idx -> get (data r) idx = get (data t) (bproj (dims t) shape idx).

(* the two validators of Broadcast say: a positive shape, compatible with the source dims *)
Lemma validateBroadcast_shape_iff (t : T) shape :
  validateInputDims shape && validateBroadcast (zdims t) shape = true <->
  exists ns, shape = map Z.of_nat ns /\ allpos ns /\ bcompat (dims t) ns.
Proof.
  rewrite andb_true_iff, validateInputDims_iff. unfold zdims. split.
  - intros [Hpz Hb]. exists (natsOf shape). split; [symmetry; apply natsOf_id, Hpz|].
    split; [apply natsOf_pos, Hpz|]. rewrite <- (natsOf_id shape Hpz) in Hb.
    apply validateBroadcast_iff, Hb.
  - intros (ns & -> & Hpn & Hc). split; [apply of_nat_pos, Hpn|apply validateBroadcast_iff, Hc].
Qed.

Theorem v_broadcast_spec (t : T) (shape : list Z) : wf t ->
  (validateInputDims shape && validateBroadcast (zdims t) shape = true ->
     exists r, v_broadcast t shape = Ok r /\ broadcasted t r (natsOf shape)) /\
  (validateInputDims shape && validateBroadcast (zdims t) shape = false -> v_broadcast t shape = Err).
Proof.
  intros Ht. split; intros H.
  - pose proof H as H'. apply validateBroadcast_shape_iff in H' as (ns & -> & Hp & Hc).
    apply andb_true_iff in H as [H1 H2]. unfold v_broadcast, guard. rewrite H1, H2.
    rewrite natsOf_of_nat. destruct (broadcast_spec t ns Ht Hp Hc) as (r & Er & Hr).
    exists r. rewrite Er. split; [reflexivity|exact Hr].
  - unfold v_broadcast, guard. destruct (validateInputDims shape); [|reflexivity].
    cbn [andb] in H. rewrite H. reflexivity.
Qed.

Corollary v_broadcast_no_panic (t : T) shape : wf t -> v_broadcast t shape <> Panic.
Proof.
  intros Ht E. destruct (v_broadcast_spec t shape Ht) as [H1 H2].
  destruct (validateInputDims shape && validateBroadcast (zdims t) shape).
  - destruct (H1 eq_refl) as (r & Er & _). congruence.
  - rewrite (H2 eq_refl) in E. discriminate.
Qed.

(* the same for a target shape given in naturals *)
Lemma v_broadcast_nat (t : T) s : wf t -> allpos s ->
  (bcompat (dims t) s -> exists r, v_broadcast t (map Z.of_nat s) = Ok r /\ broadcasted t r s) /\
  (~ bcompat (dims t) s -> v_broadcast t (map Z.of_nat s) = Err).
Proof.
  intros Ht Hs. destruct (v_broadcast_spec t (map Z.of_nat s) Ht) as [H1 H2].
  rewrite (proj2 (validateInputDims_iff _) (of_nat_pos s Hs)), natsOf_of_nat in *. cbn [andb] in *. unfold zdims in *.
  split; intros H.
  - apply H1, validateBroadcast_iff, H.
  - apply H2, not_true_is_false. intros E. apply validateBroadcast_iff in E. contradiction.
Qed.

(* two operands, each to its own target: Err as soon as one of them is incompatible *)
Lemma v_broadcast_pair (t u : T) s1 s2 : wf t -> wf u -> allpos s1 -> allpos s2 ->
  let both := (dor t1 <- v_broadcast t (map Z.of_nat s1); dor t2 <- v_broadcast u (map Z.of_nat s2); Ok (t1, t2)) in
  (bcompat (dims t) s1 -> bcompat (dims u) s2 ->
     exists t1 u1, both = Ok (t1, u1) /\ broadcasted t t1 s1 /\ broadcasted u u1 s2) /\
  (~ (bcompat (dims t) s1 /\ bcompat (dims u) s2) -> both = Err).
Proof.
  intros Ht Hu H1 H2 both. subst both.
  destruct (v_broadcast_nat t s1 Ht H1) as [Ta Tb]. destruct (v_broadcast_nat u s2 Hu H2) as [Ua Ub]. split.
  - intros C1 C2. destruct (Ta C1) as (t1 & -> & B1). destruct (Ua C2) as (u1 & -> & B2). exists t1, u1. auto.
  - intros N. destruct (validateBroadcast (map Z.of_nat (dims t)) (map Z.of_nat s1)) eqn:E.
    + apply validateBroadcast_iff in E. destruct (Ta E) as (t1 & -> & _). cbn [res_bind].
      rewrite Ub; [reflexivity|]. intros C2. apply N. auto.
    + rewrite Tb; [reflexivity|]. intros C1. apply validateBroadcast_iff in C1. congruence.
Qed.

End Broadcast.

(* ---------- targetBroadcastDims ---------- *)

(* NumPy compatibility of two shapes, least significant first *)
Fixpoint compat2R (r1 r2 : list nat) : Prop :=
  match r1, r2 with
  | a :: r1', b :: r2' => (a = b \/ a = 1 \/ b = 1) /\ compat2R r1' r2'
  | _, _ => True
  end.
Definition bcompat2 (d1 d2 : list nat) : Prop := compat2R (rev d1) (rev d2).

Lemma tbdRev_length r1 : forall r2, length (tbdRev r1 r2) = Nat.max (length r1) (length r2).
Proof.
  induction r1 as [|a r1 IH]; intros [|b r2]; cbn [tbdRev length]; try lia.
  rewrite IH. lia.
Qed.

(* entry i from the right is the maximum of the two entries (a missing entry counts as 0) *)
Lemma tbdRev_nth r1 : forall r2 i, nth i (tbdRev r1 r2) 0 = Nat.max (nth i r1 0) (nth i r2 0).
Proof.
  induction r1 as [|a r1 IH]; intros [|b r2] [|i]; cbn [tbdRev nth]; try lia.
  apply IH.
Qed.

Lemma allpos_nth1 l : allpos l -> forall i, 1 <= nth i l 1.
Proof. induction 1 as [|d l Hd _ IH]; intros [|i]; cbn [nth]; try lia. apply IH. Qed.

(* NumPy's formulation: pad the shorter shape with 1s *)
Lemma tbdRev_nth1 r1 : forall r2 i, allpos r1 -> allpos r2 ->
  nth i (tbdRev r1 r2) 1 = Nat.max (nth i r1 1) (nth i r2 1).
Proof.
  induction r1 as [|a r1 IH]; intros [|b r2] i H1 H2; cbn [tbdRev].
  - destruct i; reflexivity.
  - pose proof (allpos_nth1 _ H2 i). destruct i; cbn [nth] in *; lia.
  - pose proof (allpos_nth1 _ H1 i). destruct i; cbn [nth] in *; lia.
  - inversion H1; subst. inversion H2; subst. destruct i as [|i]; cbn [nth]; [reflexivity|]. apply IH; assumption.
Qed.

Theorem targetBroadcastDims_spec d1 d2 :
  length (targetBroadcastDims d1 d2) = Nat.max (length d1) (length d2) /\
  (forall i, nth i (rev (targetBroadcastDims d1 d2)) 0 = Nat.max (nth i (rev d1) 0) (nth i (rev d2) 0)) /\
  (allpos d1 -> allpos d2 ->
     allpos (targetBroadcastDims d1 d2) /\
     forall i, nth i (rev (targetBroadcastDims d1 d2)) 1 = Nat.max (nth i (rev d1) 1) (nth i (rev d2) 1)).
Proof.
  unfold targetBroadcastDims. rewrite rev_length, tbdRev_length, !rev_length, rev_involutive.
  split; [reflexivity|]. split; [intros i; apply tbdRev_nth|].
  intros H1 H2. apply Forall_rev in H1. apply Forall_rev in H2. split; [|intros i; apply tbdRev_nth1; assumption].
  apply Forall_rev. revert H1 H2. generalize (rev d1) (rev d2). clear d1 d2.
  intros r1. induction r1 as [|a r1 IH]; intros [|b r2] H1 H2; cbn [tbdRev]; try assumption.
  inversion H1; subst. inversion H2; subst. constructor; [lia|apply IH; assumption].
Qed.

Lemma tbdRev_compat r1 : forall r2, allpos r1 -> allpos r2 ->
  (compat2R r1 r2 <-> compatR r1 (tbdRev r1 r2) /\ compatR r2 (tbdRev r1 r2)).
Proof.
  induction r1 as [|a r1 IH]; intros [|b r2] H1 H2; cbn [tbdRev compat2R].
  - cbn. tauto.
  - split; [intros _; split; [exact I|apply compatR_refl]|tauto].
  - split; [intros _; split; [apply compatR_refl|exact I]|tauto].
  - inversion H1; subst. inversion H2; subst. cbn [compatR]. rewrite (IH r2) by assumption.
    split.
    + intros [Hab [Hc1 Hc2]]. repeat split; try assumption; lia.
    + intros [[Ha Hc1] [Hb Hc2]]. repeat split; try assumption; lia.
Qed.

(* two shapes are NumPy-compatible iff both pass the Broadcast validator against the target *)
Theorem targetBroadcastDims_compat d1 d2 : allpos d1 -> allpos d2 ->
  (bcompat2 d1 d2 <->
   bcompat d1 (targetBroadcastDims d1 d2) /\ bcompat d2 (targetBroadcastDims d1 d2)).
Proof.
  intros H1 H2. unfold bcompat2, targetBroadcastDims. rewrite !bcompat_compatR, rev_involutive.
  apply tbdRev_compat; apply Forall_rev; assumption.
Qed.

Corollary targetBroadcastDims_validates d1 d2 : allpos d1 -> allpos d2 -> bcompat2 d1 d2 ->
  let target := map Z.of_nat (targetBroadcastDims d1 d2) in
  validateInputDims target = true /\
  validateBroadcast (map Z.of_nat d1) target = true /\ validateBroadcast (map Z.of_nat d2) target = true.
Proof.
  intros H1 H2 Hc target. subst target.
  apply (targetBroadcastDims_compat d1 d2 H1 H2) in Hc as [Hc1 Hc2].
  destruct (targetBroadcastDims_spec d1 d2) as (_ & _ & Hp). destruct (Hp H1 H2) as [Hpos _].
  split; [apply validateInputDims_iff, of_nat_pos, Hpos|]. split; apply validateBroadcast_iff; assumption.
Qed.

(* broadcastForBinaryOp *)
Theorem v_bcast2_spec {A} (t u : tensor A) : wf t -> wf u ->
  let target := targetBroadcastDims (dims t) (dims u) in
  (bcompat2 (dims t) (dims u) ->
     exists t1 u1, v_bcast2 t u = Ok (t1, u1) /\ broadcasted A t t1 target /\ broadcasted A u u1 target) /\
  (~ bcompat2 (dims t) (dims u) -> v_bcast2 t u = Err).
Proof.
  intros Ht Hu target.
  destruct (targetBroadcastDims_spec (dims t) (dims u)) as (_ & _ & Hp). destruct (Hp (proj2 Ht) (proj2 Hu)) as [Hpos _].
  pose proof (v_broadcast_pair A t u target target Ht Hu Hpos Hpos) as [P1 P2].
  pose proof (targetBroadcastDims_compat _ _ (proj2 Ht) (proj2 Hu)) as HC. fold target in HC.
  split; intros H.
  - apply HC in H as [C1 C2]. apply P1; assumption.
  - apply P2. intros C. apply H, HC, C.
Qed.

(* ---------- non-vacuity ---------- *)
Definition b13 : tensor nat := mkT [1; 3] (Vec [Vec [Sc 1; Sc 2; Sc 3]]).
Definition b21 : tensor nat := mkT [2; 1] (Vec [Vec [Sc 10]; Vec [Sc 20]]).
Definition b3 : tensor nat := mkT [3] (Vec [Sc 1; Sc 2; Sc 3]).

Example b13_wf : wf b13.
Proof. split; [apply wfndb_spec; reflexivity|repeat constructor]. Qed.
Example b13_compat : allpos [2; 2; 3] /\ bcompat (dims b13) [2; 2; 3].
Proof.
  split; [repeat constructor|]. split; [cbn; lia|]. cbn.
  constructor; [right; reflexivity|]. constructor; [left; reflexivity|constructor].
Qed.
Example broadcast_ex :
  broadcast b13 [2; 2; 3] =
  Some (mkT [2; 2; 3] (Vec [Vec [Vec [Sc 1; Sc 2; Sc 3]; Vec [Sc 1; Sc 2; Sc 3]];
                            Vec [Vec [Sc 1; Sc 2; Sc 3]; Vec [Sc 1; Sc 2; Sc 3]]])).
Proof. vm_compute. reflexivity. Qed.
Example bproj_ex : bproj [1; 3] [2; 2; 3] [1; 1; 2] = [0; 2] /\ bproj [2; 1] [2; 3] [1; 2] = [1; 0].
Proof. vm_compute. auto. Qed.
Example broadcast_ex2 :
  broadcast b21 [2; 3] = Some (mkT [2; 3] (Vec [Vec [Sc 10; Sc 10; Sc 10]; Vec [Sc 20; Sc 20; Sc 20]])).
Proof. vm_compute. reflexivity. Qed.
Example broadcast_rank0_ex : broadcast (mkT [] (Sc 7)) [2; 2] = Some (mkT [2; 2] (Vec [Vec [Sc 7; Sc 7]; Vec [Sc 7; Sc 7]])).
Proof. vm_compute. reflexivity. Qed.
Example v_broadcast_ex :
  v_broadcast b3 [2%Z; 3%Z] = Ok (mkT [2; 3] (Vec [Vec [Sc 1; Sc 2; Sc 3]; Vec [Sc 1; Sc 2; Sc 3]])) /\
  v_broadcast b3 [3%Z; 2%Z] = Err /\ v_broadcast b13 [3%Z] = Err /\ v_broadcast b3 [0%Z; 3%Z] = Err.
Proof. vm_compute. auto. Qed.
Example tbd_ex : targetBroadcastDims [2; 1] [4; 1; 3] = [4; 2; 3] /\ bcompat2 [2; 1] [4; 1; 3] /\ ~ bcompat2 [2; 3] [3; 2].
Proof. split; [reflexivity|]. split; [cbn; auto|]. cbn. intros [[H|[H|H]] _]; discriminate. Qed.
Example v_bcast2_ex :
  v_bcast2 b21 b13 = Ok (mkT [2; 3] (Vec [Vec [Sc 10; Sc 10; Sc 10]; Vec [Sc 20; Sc 20; Sc 20]]),
                         mkT [2; 3] (Vec [Vec [Sc 1; Sc 2; Sc 3]; Vec [Sc 1; Sc 2; Sc 3]])).
Proof. vm_compute. reflexivity. Qed.

Print Assumptions bstep_digits.
Print Assumptions broadcast_spec.
Print Assumptions v_broadcast_spec.
Print Assumptions targetBroadcastDims_spec.
Print Assumptions targetBroadcastDims_compat.
Print Assumptions v_bcast2_spec.
