(* ChainRuleP.v — the back-edge closures of gradients.go are their source chains  (see ChainBaseP.v for the scheme). *)
From Coq Require Import String List ZArith Bool Arith.
From Qeep Require Import Model.Scalar Model.Nd Model.Fill Model.Data Model.Valid Model.Api Model.Grad
  Model.Components Model.ChainIR.
From Qeep Require Model.Chains.
Import ListNotations.
Local Open Scope string_scope.
From Qeep Require Import Proofs.ChainBaseP.

Section RuleC.
Context {A : Type} {SA : Scalar A}.
Notation T := (tensor A).
Notation heap := (@heap A).

(* ---- back-edge closures of tensor/internal/gradtrack/gradients.go ----
   Each theorem: the model's rule ([eval_rule], which first looks up the captured tensors' values and
   the result's gradient) IS the generated closure chain interpreted on those values.  The resolver
   maps the captured non-tensor variables (a, dim, index) and the few derived expressions to the
   quantities the model uses; anything else would be [Panic]. *)

Definition vrRB (x : T) (dim : Z) : @vresolver A :=
  mkVR (lk []) (lk [("dim", dim)]) (lk [("x.Shape()", zdims x)]) (lk []) (fun _ => None).

(* gradient_helpers.go: toZeros, toOnes, reducerBroadcasted(y, x, dim) *)
Definition helperUser (it : lets -> string -> option Z) : vuserfun := fun f =>
  if String.eqb f "toZeros" then
    Some (fun args => match args with
                      | [VT t] => asRes (runFun (hooksV vrNone noVUser noBind noCond) Chains.g_toZeros tt [("t", t)])
                      | _ => Panic end)
  else if String.eqb f "toOnes" then
    Some (fun args => match args with
                      | [VT t] => asRes (runFun (hooksV vrNone noVUser noBind noCond) Chains.g_toOnes tt [("t", t)])
                      | _ => Panic end)
  else if String.eqb f "reducerBroadcasted" then
    Some (fun args => match args with
                      | [VT y; VT x; VX d] =>
                          match it [] d with
                          | Some dim => asRes (runFun (hooksV (vrRB x dim) noVUser noBind noCond)
                                                 Chains.g_reducerBroadcasted tt [("y", y); ("x", x)])
                          | None => Panic
                          end
                      | _ => Panic end)
  else None.
Definition hu0 : vuserfun := helperUser (lk []).

Theorem toZeros_chain (t : T) :
  toZeros t = asRes (runFun (hooksV vrNone noVUser noBind noCond) Chains.g_toZeros tt [("t", t)]).
Proof. unfold toZeros. vgo. Qed.
Theorem toOnes_chain (t : T) :
  toOnes t = asRes (runFun (hooksV vrNone noVUser noBind noCond) Chains.g_toOnes tt [("t", t)]).
Proof. unfold toOnes. vgo. Qed.
Theorem reducerBroadcasted_chain (y x : T) dim :
  reducerBroadcasted y x dim =
  asRes (runFun (hooksV (vrRB x dim) noVUser noBind noCond) Chains.g_reducerBroadcasted tt [("y", y); ("x", x)]).
Proof. unfold reducerBroadcasted. vgo. Qed.

Section Rule.
Variable rd : bred.
Variable h : heap.

Theorem back_Slice_0_chain y x index :
  eval_rule rd h (RSliceX y x index) =
  dor gy <- gy_of h y; dor xv <- val_of h x;
  asRes (runFun (hooksV (vrOf gy (lk []) (lk []) (lk []) (lk [("index", index)])) hu0 noBind noCond)
           Chains.back_Slice_0 tt [("x", xv)]).
Proof. open_rule. rewrite toZeros_chain. vgo. Qed.

Theorem back_Patch_0_chain y p index :
  eval_rule rd h (RPatchX y p index) =
  dor gy <- gy_of h y; dor pv <- val_of h p;
  asRes (runFun (hooksV (vrOf gy (lk []) (lk []) (lk []) (lk [("index", index)])) hu0 noBind noCond)
           Chains.back_Patch_0 tt [("p", pv)]).
Proof. open_rule. rewrite toZeros_chain. vgo. Qed.

Theorem back_Patch_1_chain y p index :
  eval_rule rd h (RPatchP y p index) =
  dor gy <- gy_of h y; dor pv <- val_of h p;
  asRes (runFun (hooksV (vrOf gy (lk []) (lk []) (lk [])
                          (lk [("patchedRegion(index, p.Shape())", patchedRegion index (zdims pv))])) hu0 noBind noCond)
           Chains.back_Patch_1 tt [("p", pv)]).
Proof. open_rule. vgo. Qed.

Theorem back_Transpose_0_chain y :
  eval_rule rd h (RTranspose y) =
  dor gy <- gy_of h y; asRes (runFun (hooksV (vrG gy) hu0 noBind noCond) Chains.back_Transpose_0 tt []).
Proof. open_rule. vgo. Qed.

Definition reshapeBack (c : cfun) y x :=
  eval_rule rd h (RReshape y x) =
  dor gy <- gy_of h y; dor xv <- val_of h x;
  asRes (runFun (hooksV (vrOf gy (lk []) (lk []) (lk [("x.Shape()", zdims xv)]) (lk [])) hu0 noBind noCond) c tt [("x", xv)]).
Theorem back_Reshape_0_chain y x : reshapeBack Chains.back_Reshape_0 y x.
Proof. unfold reshapeBack. open_rule. vgo. Qed.
Theorem back_UnSqueeze_0_chain y x : reshapeBack Chains.back_UnSqueeze_0 y x.
Proof. exact (back_Reshape_0_chain y x). Qed.
Theorem back_Squeeze_0_chain y x : reshapeBack Chains.back_Squeeze_0 y x.
Proof. exact (back_Reshape_0_chain y x). Qed.
Theorem back_Flatten_0_chain y x : reshapeBack Chains.back_Flatten_0 y x.
Proof. exact (back_Reshape_0_chain y x). Qed.

(* reducers: dim is the captured dimension *)
Definition dimI (dim : Z) : lets -> string -> option Z := lk [("dim", dim)].

Theorem back_SumAlong_0_chain y x dim :
  eval_rule rd h (RSumAlong y x dim) =
  dor gy <- gy_of h y; dor xv <- val_of h x;
  asRes (runFun (hooksV (vrOf gy (lk []) (dimI dim) (lk []) (lk [])) (helperUser (dimI dim)) noBind noCond)
           Chains.back_SumAlong_0 tt [("x", xv)]).
Proof. open_rule. rewrite reducerBroadcasted_chain. vgo. Qed.

Definition extBack (c : cfun) y x dim :=
  eval_rule rd h (RExtAlong y x dim) =
  dor gy <- gy_of h y; dor xv <- val_of h x; dor yv <- val_of h y;
  asRes (runFun (hooksV (vrOf gy (lk []) (dimI dim) (lk []) (lk [])) (helperUser (dimI dim)) noBind noCond)
           c tt [("y", yv); ("x", xv)]).
Theorem back_MaxAlong_0_chain y x dim : extBack Chains.back_MaxAlong_0 y x dim.
Proof. unfold extBack. open_rule. rewrite !reducerBroadcasted_chain. vgo. Qed.
Theorem back_MinAlong_0_chain y x dim : extBack Chains.back_MinAlong_0 y x dim.
Proof. exact (back_MaxAlong_0_chain y x dim). Qed.

(* n := float64(x.Shape()[dim]);  Scale(1 / n) *)
Definition avgScalar (xv : T) (dim : Z) : lets -> string -> option A := fun ls t =>
  match lookupS ls "n" with
  | Some e => if String.eqb e "float64(x.Shape()[dim])" && String.eqb t "1 / n"
              then Some (sdiv (cst 1 0) (sofnat (dimAt xv dim))) else None
  | None => None
  end.
Definition avgBack (c : cfun) y x dim :=
  eval_rule rd h (RAvgAlong y x dim) =
  dor gy <- gy_of h y; dor xv <- val_of h x;
  asRes (runFun (hooksV (vrOf gy (avgScalar xv dim) (dimI dim) (lk []) (lk [])) (helperUser (dimI dim)) noBind noCond)
           c tt [("x", xv)]).
Theorem back_AvgAlong_0_chain y x dim : avgBack Chains.back_AvgAlong_0 y x dim.
Proof. unfold avgBack. open_rule. rewrite reducerBroadcasted_chain. vgo. Qed.
Theorem back_MeanAlong_0_chain y x dim : avgBack Chains.back_MeanAlong_0 y x dim.
Proof. exact (back_AvgAlong_0_chain y x dim). Qed.

(* n := x.Shape()[dim];  if n == 1 { zeros };  Scale(2 / float64(n - 1)) resp. Scale(1 / float64(n - 1)) *)
Definition nIs (ls : lets) : bool :=
  match lookupS ls "n" with Some e => String.eqb e "x.Shape()[dim]" | None => false end.
Definition varScalar (xv : T) (dim : Z) (txt : string) (num : Z) : lets -> string -> option A := fun ls t =>
  if nIs ls && String.eqb t txt then Some (sdiv (cst num 0) (sofnat (dimAt xv dim - 1))) else None.
Definition varCond (xv : T) (dim : Z) : lets -> string -> option bool := fun ls t =>
  if nIs ls && String.eqb t "n == 1" then Some (dimAt xv dim =? 1)%nat else None.

Theorem back_VarAlong_0_chain y x dim :
  eval_rule rd h (RVarAlong y x dim) =
  dor gy <- gy_of h y; dor xv <- val_of h x;
  asRes (runFun (hooksV (vrOf gy (varScalar xv dim "2 / float64(n - 1)" 2) (dimI dim) (lk []) (lk []))
                   (helperUser (dimI dim)) noBind (varCond xv dim))
           Chains.back_VarAlong_0 tt [("x", xv)]).
Proof.
  open_rule. rewrite reducerBroadcasted_chain. cbn.
  match goal with |- res_bind ?X _ = _ => destruct X as [?| |]; [|reflexivity|reflexivity] end.
  cbn. unfold varCond, nIs. cbn. destruct (dimAt _ dim =? 1)%nat; [rewrite toZeros_chain; vgo|]. vgo.
Qed.

Theorem back_StdAlong_0_chain y x dim :
  eval_rule rd h (RStdAlong y x dim) =
  dor gy <- gy_of h y; dor xv <- val_of h x; dor yv <- val_of h y;
  asRes (runFun (hooksV (vrOf gy (varScalar xv dim "1 / float64(n - 1)" 1) (dimI dim) (lk []) (lk []))
                   (helperUser (dimI dim)) noBind (varCond xv dim))
           Chains.back_StdAlong_0 tt [("y", yv); ("x", xv)]).
Proof.
  open_rule. rewrite reducerBroadcasted_chain. cbn.
  match goal with |- res_bind ?X _ = _ => destruct X as [?| |]; [|reflexivity|reflexivity] end.
  cbn. unfold varCond, nIs. cbn. destruct (dimAt _ dim =? 1)%nat; [rewrite toZeros_chain; vgo|]. vgo.
Qed.

(* element-wise *)
Theorem back_Scale_0_chain y a :
  eval_rule rd h (RScale y a) =
  dor gy <- gy_of h y;
  asRes (runFun (hooksV (vrOf gy (lk [("a", a)]) (lk []) (lk []) (lk [])) hu0 noBind noCond) Chains.back_Scale_0 tt []).
Proof. open_rule. vgo. Qed.

(* if a == 0 { zeros };  x.Pow(a - 1).Scale(a) *)
Theorem back_Pow_0_chain y x a azero :
  eval_rule rd h (RPow y x a azero) =
  dor gy <- gy_of h y; dor xv <- val_of h x;
  asRes (runFun (hooksV (vrOf gy (lk [("a - 1", ssub a (cst 1 0)); ("a", a)]) (lk []) (lk []) (lk [])) hu0 noBind
                   (fun _ t => if String.eqb t "a == 0" then Some azero else None))
           Chains.back_Pow_0 tt [("x", xv)]).
Proof. open_rule. cbn. destruct azero; [rewrite toZeros_chain; vgo|vgo]. Qed.

Theorem back_Exp_0_chain y :
  eval_rule rd h (RExp y) =
  dor gy <- gy_of h y; dor yv <- val_of h y;
  asRes (runFun (hooksV (vrG gy) hu0 noBind noCond) Chains.back_Exp_0 tt [("y", yv)]).
Proof. open_rule. vgo. Qed.

Definition unaryBack (r : nat -> nat -> rule) (c : cfun) y x :=
  eval_rule rd h (r y x) =
  dor gy <- gy_of h y; dor xv <- val_of h x;
  asRes (runFun (hooksV (vrG gy) hu0 noBind noCond) c tt [("x", xv)]).
Theorem back_Log_0_chain y x : unaryBack (@RLog A) Chains.back_Log_0 y x.
Proof. unfold unaryBack. open_rule. vgo. Qed.
Theorem back_Sin_0_chain y x : unaryBack (@RSin A) Chains.back_Sin_0 y x.
Proof. unfold unaryBack. open_rule. vgo. Qed.
Theorem back_Cos_0_chain y x : unaryBack (@RCos A) Chains.back_Cos_0 y x.
Proof. unfold unaryBack. open_rule. unfold cst. vgo. Qed.
Theorem back_Tan_0_chain y x : unaryBack (@RTan A) Chains.back_Tan_0 y x.
Proof. unfold unaryBack. open_rule. unfold cst. vgo. Qed.
Theorem back_Sinh_0_chain y x : unaryBack (@RSinh A) Chains.back_Sinh_0 y x.
Proof. unfold unaryBack. open_rule. vgo. Qed.
Theorem back_Cosh_0_chain y x : unaryBack (@RCosh A) Chains.back_Cosh_0 y x.
Proof. unfold unaryBack. open_rule. vgo. Qed.
Theorem back_Tanh_0_chain y x : unaryBack (@RTanh A) Chains.back_Tanh_0 y x.
Proof. unfold unaryBack. open_rule. unfold cst. vgo. Qed.

(* ElMax / ElMin: edge 0 targets a (rule RElSel y a b), edge 1 targets b (rule RElSel y b a) *)
Definition elselBack (c : cfun) (first : bool) y a b :=
  eval_rule rd h (if first then RElSel y a b else RElSel y b a) =
  (if first
   then dor gy <- gy_of h y; dor yv <- val_of h y; dor av <- val_of h a; dor bv <- val_of h b;
        asRes (runFun (hooksV (vrG gy) hu0 noBind noCond) c tt [("y", yv); ("a", av); ("b", bv)])
   else dor gy <- gy_of h y; dor yv <- val_of h y; dor bv <- val_of h b; dor av <- val_of h a;
        asRes (runFun (hooksV (vrG gy) hu0 noBind noCond) c tt [("y", yv); ("a", av); ("b", bv)])).
Theorem back_ElMax_0_chain y a b : elselBack Chains.back_ElMax_0 true y a b.
Proof. unfold elselBack. open_rule. unfold cst. vgo. Qed.
Theorem back_ElMax_1_chain y a b : elselBack Chains.back_ElMax_1 false y a b.
Proof. unfold elselBack. open_rule. unfold cst. vgo. Qed.
Theorem back_ElMin_0_chain y a b : elselBack Chains.back_ElMin_0 true y a b.
Proof. exact (back_ElMax_0_chain y a b). Qed.
Theorem back_ElMin_1_chain y a b : elselBack Chains.back_ElMin_1 false y a b.
Proof. exact (back_ElMax_1_chain y a b). Qed.

(* arithmetic *)
Definition gyOnly (r : rule) (c : cfun) y :=
  eval_rule rd h r = dor gy <- gy_of h y; asRes (runFun (hooksV (vrG gy) hu0 noBind noCond) c tt []).
Theorem back_Add_0_chain y : gyOnly (RId y) Chains.back_Add_0 y.
Proof. unfold gyOnly. unfold eval_rule. destruct (gy_of h y); reflexivity. Qed.
Theorem back_Add_1_chain y : gyOnly (RId y) Chains.back_Add_1 y.
Proof. exact (back_Add_0_chain y). Qed.
Theorem back_Sub_0_chain y : gyOnly (RId y) Chains.back_Sub_0 y.
Proof. exact (back_Add_0_chain y). Qed.
Theorem back_Sub_1_chain y : gyOnly (RNeg y) Chains.back_Sub_1 y.
Proof. unfold gyOnly. open_rule. unfold cst. vgo. Qed.

Theorem back_Mul_0_chain y b :
  eval_rule rd h (RMul y b) =
  dor gy <- gy_of h y; dor bv <- val_of h b; asRes (runFun (hooksV (vrG gy) hu0 noBind noCond) Chains.back_Mul_0 tt [("b", bv)]).
Proof. open_rule. vgo. Qed.
Theorem back_Mul_1_chain y a :
  eval_rule rd h (RMul y a) =
  dor gy <- gy_of h y; dor av <- val_of h a; asRes (runFun (hooksV (vrG gy) hu0 noBind noCond) Chains.back_Mul_1 tt [("a", av)]).
Proof. open_rule. vgo. Qed.
Theorem back_Div_0_chain y b :
  eval_rule rd h (RDivA y b) =
  dor gy <- gy_of h y; dor bv <- val_of h b; asRes (runFun (hooksV (vrG gy) hu0 noBind noCond) Chains.back_Div_0 tt [("b", bv)]).
Proof. open_rule. vgo. Qed.
Theorem back_Div_1_chain y a b :
  eval_rule rd h (RDivB y a b) =
  dor gy <- gy_of h y; dor av <- val_of h a; dor bv <- val_of h b;
  asRes (runFun (hooksV (vrG gy) hu0 noBind noCond) Chains.back_Div_1 tt [("a", av); ("b", bv)]).
Proof. open_rule. unfold cst. vgo. Qed.

(* Dot (fix F2: the contracted dimension is restored first), MatMul *)
Definition dotBack (c : cfun) (nm : string) y o :=
  eval_rule rd h (RDot y o) =
  dor gy <- gy_of h y; dor yv <- val_of h y; dor ov <- val_of h o;
  asRes (runFun (hooksV (vrOf gy (lk []) (lk [("len(y.Shape())", zlen (dims yv))]) (lk []) (lk [])) hu0 noBind noCond)
           c tt [(nm, ov)]).
Theorem back_Dot_0_chain y b : dotBack Chains.back_Dot_0 "b" y b.
Proof. unfold dotBack. open_rule. vgo. Qed.
Theorem back_Dot_1_chain y a : dotBack Chains.back_Dot_1 "a" y a.
Proof. unfold dotBack. open_rule. vgo. Qed.

Theorem back_MatMul_0_chain y b :
  eval_rule rd h (RMatMulA y b) =
  dor gy <- gy_of h y; dor bv <- val_of h b; asRes (runFun (hooksV (vrG gy) hu0 noBind noCond) Chains.back_MatMul_0 tt [("b", bv)]).
Proof. open_rule. vgo. Qed.
Theorem back_MatMul_1_chain y a :
  eval_rule rd h (RMatMulB y a) =
  dor gy <- gy_of h y; dor av <- val_of h a; asRes (runFun (hooksV (vrG gy) hu0 noBind noCond) Chains.back_MatMul_1 tt [("a", av)]).
Proof. open_rule. vgo. Qed.

End Rule.

(* every function of gradients.go starts with the same three-way test: spent operand -> spent result,
   no tracked operand -> untracked result ([mkCtx] in the model) *)
Definition prologue_of (args : string) : string :=
  "if anyIsBPDirty(" ++ args ++ ") { return NewDirtyGradContext() } if nonIsTracked(" ++ args ++ ") { return NewGradContext(false) }".
Definition prologue_ok (p : string * string) : bool :=
  String.eqb (snd p) (prologue_of "x") || String.eqb (snd p) (prologue_of "a, b") ||
  (String.eqb (fst p) "Patch" && String.eqb (snd p) (prologue_of "x, p")).
Theorem rule_prologues_ok : forallb prologue_ok Chains.rule_prologues = true /\ length Chains.rule_prologues = 32%nat.
Proof. split; vm_compute; reflexivity. Qed.

End RuleC.
