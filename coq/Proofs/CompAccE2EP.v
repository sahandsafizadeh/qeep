(* CompAccE2EP.v — property C19 END TO END at the level of the translated source.
   Composition of
     - Proofs/CompAccP.v : the translated programs GoComp.c_Accuracy_{NewAccuracy,Accumulate,Result} (linked oracle
       CompExt.cext), run over any list of batches, compute the model fold [acc_fold] (theorem Accuracy_history), and
     - Proofs/AccP.v / Properties/C19.v : the model fold [acc_run] over any history of calls is matched / total over
       the accepted calls (history_counts, result_after_any_history, accumulate_never_panics,
       rejected_calls_can_be_deleted), over the reals a number of [0,1] (result_in_unit_interval).
   Result: running the TRANSLATED NewAccuracy, then the TRANSLATED Accumulate on every batch in order, then the
   TRANSLATED Result returns matched / total over the accepted calls (0 before any), with nil error, for EVERY
   history of calls on a heap of well-formed tensors, all fuel, all depth, all oracle parameters. *)
From Coq Require Import String List ZArith Bool Lia Arith.
From Qeep Require Import Model.Scalar Model.Nd Model.Fill Model.Data Model.Valid Model.Api Model.Grad Model.Backprop
     Model.Components Model.DataIR Model.HeapExt Model.GoComp Model.CompExt
     Proofs.NdP Proofs.DataIRP Proofs.HeapAccP Proofs.AccP Proofs.CompAccP.
From Qeep Require Properties.C19.
From Coq Require Import Reals.
From Qeep Require Import Spec.RScalar Proofs.CmpRP Proofs.AccRP.
Import ListNotations.
Local Open Scope string_scope.
Local Open Scope list_scope.
Local Open Scope nat_scope.

Section E2E.
Context {A : Type} {SA : Scalar A}.
Variables (fltb fleb : A -> A -> bool)
          (lib : string -> list (@dval A) -> @heap A -> option (list (@dval A) * @heap A)).
Notation heap := (@heap A).
Notation accuracy := (@accuracy A).

(* a history of calls on ONE heap, as the list of batches of CompAccP *)
Definition batchesOf (h : heap) (calls : list (targ * targ)) : list (@batch A) :=
  map (fun c => (h, fst c, snd c)) calls.

(* the ids of all calls denote nodes of the heap (needed by the PROGRAM side only: the oracle resolves ids) *)
Definition idsOk (h : heap) (calls : list (targ * targ)) : Prop :=
  Forall (fun c => targOk h (fst c) /\ targOk h (snd c)) calls.

Lemma idsOk_batchOk (h : heap) (calls : list (targ * targ)) :
  idsOk h calls -> Forall batchOk (batchesOf h calls).
Proof.
  unfold idsOk, batchesOf. induction 1 as [|[yp yt] cs Hc Hcs IH]; cbn [map]; constructor; [exact Hc | exact IH].
Qed.

Lemma idsOk_filter (h : heap) (f : targ * targ -> bool) (calls : list (targ * targ)) :
  idsOk h calls -> idsOk h (filter f calls).
Proof.
  unfold idsOk. rewrite !Forall_forall. intros H c Hc. apply filter_In in Hc. apply H, Hc.
Qed.

(* ================= (1) the two model folds agree ================= *)

(* [vals_wf h] alone is enough here: both folds are on the MODEL side, no id has to be valid (an id outside the heap
   makes lossArgs1 reject the call in both folds) *)
Theorem acc_fold_is_acc_run_any_ids (h : heap) (calls : list (targ * targ)) :
  vals_wf h -> forall a : accuracy,
  acc_fold a (map (fun c => (h, fst c, snd c)) calls) = Some (acc_run h calls a).
Proof.
  intros W. induction calls as [|c cs IH]; intros a; [reflexivity|].
  cbn [map acc_fold]. unfold acc_run. cbn [fold_left]. fold (acc_run h cs).
  pose proof (C19.accumulate_never_panics A SA h a (fst c) (snd c) W) as NP.
  pose proof (acc_accumulate_unchanged h a (fst c) (snd c)) as U.
  destruct (acc_accumulate h a (fst c) (snd c)) as [a' [[]| |]]; cbn [fst snd] in *.
  - apply IH.
  - rewrite U by discriminate. apply IH.
  - exfalso. apply NP. reflexivity.
Qed.

Theorem acc_fold_is_acc_run (h : heap) (calls : list (targ * targ)) :
  vals_wf h ->
  Forall (fun c => targOk h (fst c) /\ targOk h (snd c)) calls ->
  forall a : accuracy,
  acc_fold a (map (fun c => (h, fst c, snd c)) calls) = Some (acc_run h calls a).
Proof. intros W _. apply acc_fold_is_acc_run_any_ids, W. Qed.

(* ================= (2) the translated source over any history ================= *)

(* program history = Result of the model history *)
Lemma source_history_is_acc_run fuel depth (h : heap) (calls : list (targ * targ)) :
  vals_wf h ->
  Forall (fun c => targOk h (fst c) /\ targOk h (snd c)) calls ->
  accProg_history fltb fleb lib fuel depth h (map (fun c => (h, fst c, snd c)) calls) h
  = Some [DF (acc_result (acc_run h calls acc_new)); DI 0%Z].
Proof.
  intros W Hids.
  rewrite (Accuracy_history fltb fleb lib fuel depth h h _ (idsOk_batchOk h calls Hids)).
  rewrite (acc_fold_is_acc_run h calls W Hids acc_new). reflexivity.
Qed.

Theorem source_accuracy_over_any_history fuel depth (h : heap) (calls : list (targ * targ)) :
  vals_wf h ->
  Forall (fun c => targOk h (fst c) /\ targOk h (snd c)) calls ->
  let acc := filter (accepted h) calls in
  let total := list_sum (map (call_len h) acc) in
  let matched := fold_left sadd (map (call_matched h) acc) (sconst 0 0) in
  accProg_history fltb fleb lib fuel depth h (map (fun c => (h, fst c, snd c)) calls) h
  = Some [DF (if total =? 0 then sconst 0 0 else sdiv matched (sofnat total)); DI 0%Z].
Proof.
  intros W Hids acc total matched.
  rewrite (source_history_is_acc_run fuel depth h calls W Hids).
  destruct (C19.result_after_any_history A SA h calls W) as (_ & _ & Hr). cbv zeta in Hr.
  rewrite Hr. reflexivity.
Qed.

(* before any call: 0 *)
Corollary source_accuracy_before_any_call fuel depth (h : heap) :
  accProg_history fltb fleb lib fuel depth h [] h = Some [DF (sconst 0 0); DI 0%Z].
Proof.
  rewrite (Accuracy_history fltb fleb lib fuel depth h h [] (Forall_nil _)). reflexivity.
Qed.

(* ================= (3) rejected calls leave no trace in the translated source ================= *)

Theorem source_accuracy_ignores_rejected_calls fuel depth (h : heap) (calls : list (targ * targ)) :
  vals_wf h ->
  Forall (fun c => targOk h (fst c) /\ targOk h (snd c)) calls ->
  accProg_history fltb fleb lib fuel depth h (map (fun c => (h, fst c, snd c)) calls) h
  = accProg_history fltb fleb lib fuel depth h (map (fun c => (h, fst c, snd c)) (filter (accepted h) calls)) h.
Proof.
  intros W Hids.
  rewrite (source_history_is_acc_run fuel depth h calls W Hids).
  rewrite (source_history_is_acc_run fuel depth h _ W (idsOk_filter h (accepted h) calls Hids)).
  rewrite <- (C19.rejected_calls_can_be_deleted A SA h calls W acc_new). reflexivity.
Qed.

(* a rejected call anywhere in the history can be deleted *)
Corollary source_accuracy_rejected_call_anywhere fuel depth (h : heap) (l1 l2 : list (targ * targ)) (c : targ * targ) :
  vals_wf h ->
  Forall (fun c => targOk h (fst c) /\ targOk h (snd c)) (l1 ++ c :: l2) ->
  accepted h c = false ->
  accProg_history fltb fleb lib fuel depth h (map (fun c => (h, fst c, snd c)) (l1 ++ c :: l2)) h
  = accProg_history fltb fleb lib fuel depth h (map (fun c => (h, fst c, snd c)) (l1 ++ l2)) h.
Proof.
  intros W Hids Hc.
  assert (Hids' : Forall (fun c => targOk h (fst c) /\ targOk h (snd c)) (l1 ++ l2)).
  { rewrite Forall_forall in *. intros x Hx. apply Hids. apply in_app_or in Hx. apply in_or_app.
    destruct Hx as [Hx|Hx]; [left; exact Hx | right; right; exact Hx]. }
  rewrite (source_history_is_acc_run fuel depth h _ W Hids).
  rewrite (source_history_is_acc_run fuel depth h _ W Hids').
  rewrite (acc_run_delete h l1 l2 c acc_new W Hc). reflexivity.
Qed.

End E2E.

(* ================= (4) over the reals: the returned number lies in [0, 1] ================= *)

Theorem source_accuracy_in_unit_interval (thr : R) (draw : bool -> nat -> R)
        (fltb fleb : R -> R -> bool)
        (lib : string -> list (@dval R) -> @heap R -> option (list (@dval R) * @heap R))
        fuel depth (h : @heap R) (calls : list (targ * targ)) :
  (0 <= thr)%R ->
  @vals_wf R h ->
  (forall c, In c calls -> @accepted R h c = true -> call_sep thr h c) ->
  Forall (fun c => targOk h (fst c) /\ targOk h (snd c)) calls ->
  exists r : R,
    @accProg_history R (RS thr draw) fltb fleb lib fuel depth h (map (fun c => (h, fst c, snd c)) calls) h
    = Some [DF r; DI 0%Z] /\ (0 <= r <= 1)%R.
Proof.
  intros Hthr W Hsep Hids.
  exists (@acc_result R (RS thr draw) (@acc_run R (RS thr draw) h calls (@acc_new R (RS thr draw)))).
  split.
  - apply (@source_history_is_acc_run R (RS thr draw) fltb fleb lib fuel depth h calls W Hids).
  - apply (C19.result_in_unit_interval thr draw Hthr h calls W Hsep).
Qed.

Print Assumptions acc_fold_is_acc_run_any_ids.
Print Assumptions acc_fold_is_acc_run.
Print Assumptions source_accuracy_over_any_history.
Print Assumptions source_accuracy_before_any_call.
Print Assumptions source_accuracy_ignores_rejected_calls.
Print Assumptions source_accuracy_rejected_call_anywhere.
Print Assumptions source_accuracy_in_unit_interval.

(* ================= a concrete history over the free term algebra ================= *)
(* CompAccP.ex_h: node 0 = [1, 2], node 1 = [1, 3], node 2 = [[1, 2]] *)
Lemma ex_h_wf : @vals_wf term ex_h.
Proof.
  intros i v H.
  do 3 (destruct i as [|i]; [inversion H; subst; split; [apply wfndb_spec; reflexivity|repeat constructor]|]).
  destruct i; discriminate.
Qed.

Definition ex_calls : list (targ * targ) :=
  [(Some 0, Some 1); (None, Some 1); (Some 2, Some 1); (Some 1, Some 1)].

Lemma ex_calls_ids : Forall (fun c => targOk ex_h (fst c) /\ targOk ex_h (snd c)) ex_calls.
Proof. repeat constructor; cbn; lia. Qed.

(* the theorem instantiated, and the same equation checked by computation; two calls of four are accepted *)
Example e2e_example :
  filter (accepted ex_h) ex_calls = [(Some 0, Some 1); (Some 1, Some 1)] /\
  list_sum (map (call_len ex_h) (filter (accepted ex_h) ex_calls)) = 4 /\
  accProg_history ex_tb ex_tb ex_lib 1 1 ex_h (map (fun c => (ex_h, fst c, snd c)) ex_calls) ex_h
  = Some [DF (sdiv (fold_left sadd (map (call_matched ex_h) (filter (accepted ex_h) ex_calls)) (sconst 0 0))
                   (sofnat 4)); DI 0%Z] /\
  accProg_history ex_tb ex_tb ex_lib 1 1 ex_h (map (fun c => (ex_h, fst c, snd c)) ex_calls) ex_h
  = accProg_history ex_tb ex_tb ex_lib 7 3 ex_h
      (map (fun c => (ex_h, fst c, snd c)) (filter (accepted ex_h) ex_calls)) ex_h.
Proof.
  split; [vm_compute; reflexivity|]. split; [vm_compute; reflexivity|]. split.
  - pose proof (source_accuracy_over_any_history ex_tb ex_tb ex_lib 1 1 ex_h ex_calls ex_h_wf ex_calls_ids) as H.
    cbv zeta in H. rewrite H. vm_compute. reflexivity.
  - vm_compute. reflexivity.
Qed.
