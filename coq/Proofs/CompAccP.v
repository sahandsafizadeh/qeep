(* CompAccP.v — component/metrics/accuracy.go (NewAccuracy, Accumulate, Result, validateInputs) and the six Forward
   entry points of component/layers{,/activations} as translated by harness/gox into the DataIR programs
   GoComp.c_Accuracy_*, c_*_Forward, run with the LINKED oracle CompExt.cext (sibling calls run the sibling's own
   translated program), ARE the hand-written model Components.acc_new / acc_accumulate / acc_result and the input
   tests (oneInput, rankOf) of Components.*_forward.  History theorem: any sequence of batches (property C19). *)
From Coq Require Import String List ZArith Bool Lia Arith ZifyBool.
From Qeep Require Import Model.Scalar Model.Nd Model.Fill Model.Data Model.Valid Model.Api Model.Grad Model.Backprop
     Model.Components Model.DataIR Model.HeapExt Model.GoComp Model.CompExt
     Spec.ValidSpec Proofs.ValidP Proofs.NdP Proofs.DataIRP Proofs.DataAtP Proofs.HeapAccP Proofs.CompBaseP.
From Qeep Require Proofs.CompValidP.
From Qeep Require Model.GoIR.
Import ListNotations.
Local Open Scope string_scope.
Local Open Scope Z_scope.
Local Open Scope list_scope.

Section CompAcc.
Context {A : Type} {SA : Scalar A}.
Variables (fltb fleb : A -> A -> bool)
          (lib : string -> list (@dval A) -> @heap A -> option (list (@dval A) * @heap A)).
Notation T := (tensor A).
Notation heap := (@heap A).
Notation dval := (@dval A).
Notation denv := (@denv A).
Notation accuracy := (@accuracy A).
Notation run0 p := (drun cfapp heap (cext0 fltb fleb lib) p).
Notation run p := (drun cfapp heap (cext fltb fleb lib) p).

(* a caller-side tensor argument denotes a node of the heap *)
Definition targOk (h : heap) (x : targ) : Prop :=
  match x with Some n => (n < length h)%nat | None => True end.

Lemma targOk_Valid (h : heap) (x : targ) : targOk h x -> CompValidP.targOk h x.
Proof. intros H n ->. exact H. Qed.

(* ================= the oracle entries used, one equation each ================= *)

Lemma cext_Eq a b (h : heap) :
  cext fltb fleb lib "Eq" [a; b] h =
  do x <- tens h a; do y <- tens h b; do r <- retT (v_same BiEq x y); Some (r, h).
Proof. reflexivity. Qed.
Lemma cext_Sum v (h : heap) :
  cext fltb fleb lib "Sum" [v] h = do t <- tens h v; do s <- r_sum t; Some ([DF s], h).
Proof. reflexivity. Qed.

(* ================= (1) NewAccuracy ================= *)

Lemma cst_sconst (m e : Z) : @cst A SA m e = sconst m e.
Proof. reflexivity. Qed.

Theorem NewAccuracy_run fuel depth (h : heap) :
  exists g l, run c_Accuracy_NewAccuracy fuel depth [] h
              = DRet heap [DL [DI (Z.of_nat (acc_total (@acc_new A SA))); DF (acc_correct acc_new)]] h g l.
Proof. start c_Accuracy_NewAccuracy. cbn [app]. eauto. Qed.

(* ================= Accuracy.validateInputs = lossArgs1 ================= *)

Definition okCode (b : bool) : Z := if b then 0 else 1.

Theorem AccValidate_run0 fuel depth (h : heap) (tot cor : dval) (yp yt : targ) :
  targOk h yp -> targOk h yt ->
  exists g l, run0 c_Accuracy_validateInputs fuel depth [tot; cor; dtarg yp; dtarg yt] h
              = DRet heap [DI (match lossArgs1 h yp yt with Some _ => 0 | None => 1 end)] h g l.
Proof.
  intros Hp Ht. apply ret_DRet.
  apply (CompValidP.Accuracy_validateInputs_spec fltb fleb lib); apply targOk_Valid; assumption.
Qed.

Lemma cext_AccValidate_spec (h : heap) (tot cor : dval) (yp yt : targ) :
  targOk h yp -> targOk h yt ->
  cext fltb fleb lib "Accuracy.validateInputs" [tot; cor; dtarg yp; dtarg yt] h
  = Some ([DI (match lossArgs1 h yp yt with Some _ => 0 | None => 1 end)], h).
Proof.
  intros Hp Ht. apply (cext_ret fltb fleb lib "Accuracy.validateInputs" eq_refl).
  apply (CompValidP.Accuracy_validateInputs_spec fltb fleb lib); apply targOk_Valid; assumption.
Qed.

(* ================= (2) Accumulate = acc_accumulate ================= *)

Lemma v_same_dims (b : binary) (t u r : T) : v_same b t u = Ok r -> dims r = dims t.
Proof.
  unfold v_same, guard, apply2. destruct (validateBinaryFuncDimsMatch _ _); [|discriminate].
  destruct (calc2 _ _ _ _) as [d|]; cbn [obind of_opt]; [|discriminate].
  intros E; inversion E; subst; reflexivity.
Qed.

Theorem Accumulate_run fuel depth (h : heap) (a : accuracy) (yp yt : targ) :
  targOk h yp -> targOk h yt ->
  let o := run c_Accuracy_Accumulate fuel depth
               [DI (Z.of_nat (acc_total a)); DF (acc_correct a); dtarg yp; dtarg yt] h in
  match acc_accumulate h a yp yt with
  | (a', Ok _) => exists g l, o = DRet heap [DI 0] h g l /\
                              vlookup g l "c.total" = Some (DI (Z.of_nat (acc_total a'))) /\
                              vlookup g l "c.correct" = Some (DF (acc_correct a'))
  | (a', Err) => exists g l, o = DRet heap [DI 1] h g l /\
                             vlookup g l "c.total" = Some (DI (Z.of_nat (acc_total a))) /\
                             vlookup g l "c.correct" = Some (DF (acc_correct a))
  | (_, Panic) => o = DPanic heap
  end.
Proof.
  intros Hp Ht o. subst o. start c_Accuracy_Accumulate.
  rewrite (cext_AccValidate_spec h _ _ yp yt Hp Ht).
  unfold acc_accumulate.
  destruct (lossArgs1 h yp yt) as [[p t]|] eqn:EL.
  2:{ go. do 2 eexists. split; [reflexivity|]. split; reflexivity. }
  (* accepted: both are nodes holding vectors of one length n *)
  apply lossArgs1_spec in EL. destruct EL as (-> & -> & pv & tv & n & Hpv & Htv & Hdp & _).
  rewrite Hpv, Htv. cbn [dtarg]. go.
  rewrite cext_Eq, (tens_node h p pv Hpv), (tens_node h t tv Htv). cbn [obind].
  destruct (v_same BiEq pv tv) as [eq| |] eqn:Ev; cbn [retT obind].
  3:{ reflexivity. }
  2:{ go. do 2 eexists. split; [reflexivity|]. split; reflexivity. }
  go. rewrite (cext_leaf fltb fleb lib "Shape") by reflexivity.
  rewrite cext0_Shape, tens_embT. cbn [obind]. rewrite (v_same_dims _ _ _ _ Ev), Hdp. unfold dnats. cbn [map]. go.
  rewrite cext_Sum, tens_embT. cbn [obind].
  destruct (r_sum eq) as [s|]; cbn [obind]; [|reflexivity].
  dxs. cbn [asFloats cfapp String.eqb Ascii.eqb Bool.eqb]. dxs.
  do 2 eexists. split; [reflexivity|]. cbn [acc_total acc_correct].
  rewrite Nat2Z.inj_add. split; reflexivity.
Qed.

(* remark: once validateInputs has accepted the batch, Eq cannot fail with an error (the shapes are equal), so the
   only source of Err in the model is the input validation *)
Lemma acc_accumulate_Err_validation (h : heap) (a a' : accuracy) (yp yt : targ) :
  acc_accumulate h a yp yt = (a', Err) -> lossArgs1 h yp yt = None.
Proof.
  unfold acc_accumulate. destruct (lossArgs1 h yp yt) as [[p t]|] eqn:EL; [|reflexivity].
  intros H. exfalso. revert H.
  apply lossArgs1_spec in EL. destruct EL as (_ & _ & pv & tv & n & -> & -> & Hdp & Hdt).
  unfold v_same, guard, validateBinaryFuncDimsMatch, zdims. rewrite Hdp, Hdt.
  cbn [map dimsEq]. rewrite Z.eqb_refl. cbn [andb].
  destruct (apply2 _ _ _) as [eq|]; cbn [of_opt]; [|discriminate].
  destruct (r_sum eq); discriminate.
Qed.

(* ================= (3) Result = acc_result ================= *)

Theorem Result_run fuel depth (h : heap) (a : accuracy) :
  exists g l, run c_Accuracy_Result fuel depth [DI (Z.of_nat (acc_total a)); DF (acc_correct a)] h
              = DRet heap [DF (acc_result a); DI 0] h g l.
Proof.
  start c_Accuracy_Result. unfold acc_result.
  pose proof (Zeqb_nat (acc_total a) 0) as E. change (Z.of_nat 0) with 0 in E. rewrite E.
  destruct (acc_total a =? 0)%nat; dxs.
  - eauto.
  - rewrite (cext_leaf fltb fleb lib "float64"), cext0_float64 by reflexivity.
    rewrite (proj2 (Z.leb_le _ _) (Nat2Z.is_nonneg _)), Nat2Z.id. dxs. eauto.
Qed.


(* ================= (4) history: any sequence of batches (C19) ================= *)

(* the flattened receiver *Accuracy between two calls: the values of c.total and c.correct *)
Definition accSt : Type := (dval * dval)%type.
(* a batch: the heap at the time of the call, predictions, targets *)
Definition batch : Type := (heap * targ * targ)%type.

Definition encAcc (a : accuracy) : accSt := (DI (Z.of_nat (acc_total a)), DF (acc_correct a)).

(* NewAccuracy(): the fields of the constructed struct *)
Definition accProg_new (fuel depth : nat) (h : heap) : option accSt :=
  match run c_Accuracy_NewAccuracy fuel depth [] h with
  | DRet _ [DL [t; c]] _ _ _ => Some (t, c)
  | _ => None
  end.

(* one Accumulate call from the state left by the previous call; the new state is read back from the final
   environment of the program (the receiver fields are pointer parameters) *)
Definition accProg_step (fuel depth : nat) (st : accSt) (b : batch) : option accSt :=
  let '(h, yp, yt) := b in
  match run c_Accuracy_Accumulate fuel depth [fst st; snd st; dtarg yp; dtarg yt] h with
  | DRet _ _ h' g l =>
      match vlookup g l "c.total", vlookup g l "c.correct" with
      | Some t, Some c => Some (t, c)
      | _, _ => None
      end
  | _ => None
  end.

Fixpoint accProg_fold (fuel depth : nat) (st : accSt) (bs : list batch) : option accSt :=
  match bs with
  | [] => Some st
  | b :: r => match accProg_step fuel depth st b with
              | Some st' => accProg_fold fuel depth st' r
              | None => None
              end
  end.

Definition accProg_result (fuel depth : nat) (st : accSt) (h : heap) : option (list dval) :=
  match run c_Accuracy_Result fuel depth [fst st; snd st] h with
  | DRet _ vs _ _ _ => Some vs
  | _ => None
  end.

(* the whole life of an Accuracy value: NewAccuracy, Accumulate on every batch, Result *)
Definition accProg_history (fuel depth : nat) (h0 : heap) (bs : list batch) (hr : heap) : option (list dval) :=
  do st0 <- accProg_new fuel depth h0;
  do st <- accProg_fold fuel depth st0 bs;
  accProg_result fuel depth st hr.

(* the model: batches rejected with Err are skipped (state unchanged), a Panic ends the history *)
Fixpoint acc_fold (a : accuracy) (bs : list batch) : option accuracy :=
  match bs with
  | [] => Some a
  | (h, yp, yt) :: r =>
      match acc_accumulate h a yp yt with
      | (a', Ok _) => acc_fold a' r
      | (_, Err) => acc_fold a r
      | (_, Panic) => None
      end
  end.

Definition batchOk (b : batch) : Prop := let '(h, yp, yt) := b in targOk h yp /\ targOk h yt.

Lemma accProg_new_spec fuel depth (h : heap) : accProg_new fuel depth h = Some (encAcc acc_new).
Proof.
  unfold accProg_new. destruct (NewAccuracy_run fuel depth h) as [g [l E]]. rewrite E. reflexivity.
Qed.

Lemma accProg_step_spec fuel depth (a : accuracy) (h : heap) (yp yt : targ) :
  targOk h yp -> targOk h yt ->
  accProg_step fuel depth (encAcc a) (h, yp, yt) =
  match acc_accumulate h a yp yt with
  | (a', Ok _) => Some (encAcc a')
  | (_, Err) => Some (encAcc a)
  | (_, Panic) => None
  end.
Proof.
  intros Hp Ht. unfold accProg_step, encAcc. cbn [fst snd].
  pose proof (Accumulate_run fuel depth h a yp yt Hp Ht) as H. cbv zeta in H.
  destruct (acc_accumulate h a yp yt) as [a' [[]| |]].
  - destruct H as [g [l [E [E1 E2]]]]. rewrite E, E1, E2. reflexivity.
  - destruct H as [g [l [E [E1 E2]]]]. rewrite E, E1, E2. reflexivity.
  - rewrite H. reflexivity.
Qed.

Lemma accProg_fold_spec fuel depth (bs : list batch) :
  Forall batchOk bs -> forall a : accuracy,
  accProg_fold fuel depth (encAcc a) bs = option_map encAcc (acc_fold a bs).
Proof.
  induction 1 as [|[[h yp] yt] bs [Hp Ht] Hbs IH]; intros a; [reflexivity|].
  cbn [accProg_fold acc_fold]. rewrite (accProg_step_spec fuel depth a h yp yt Hp Ht).
  destruct (acc_accumulate h a yp yt) as [a' [[]| |]]; [apply IH | apply IH | reflexivity].
Qed.

Lemma accProg_result_spec fuel depth (a : accuracy) (h : heap) :
  accProg_result fuel depth (encAcc a) h = Some [DF (acc_result a); DI 0].
Proof.
  unfold accProg_result, encAcc. cbn [fst snd].
  destruct (Result_run fuel depth h a) as [g [l E]]. rewrite E. reflexivity.
Qed.

(* C19 at the level of the translated source: for EVERY list of batches (any length, each with its own heap),
   constructing, accumulating every batch and asking for the result returns the model's accuracy of the fold,
   with nil error; if the model panics on some batch the program panics too *)
Theorem Accuracy_history fuel depth (h0 hr : heap) (bs : list batch) :
  Forall batchOk bs ->
  accProg_history fuel depth h0 bs hr =
  match acc_fold acc_new bs with
  | Some a => Some [DF (acc_result a); DI 0]
  | None => None
  end.
Proof.
  intros Hbs. unfold accProg_history.
  rewrite accProg_new_spec. cbn [obind].
  rewrite (accProg_fold_spec fuel depth bs Hbs acc_new).
  destruct (acc_fold acc_new bs) as [a|]; cbn [option_map obind]; [|reflexivity].
  apply accProg_result_spec.
Qed.

(* the same over one fixed heap, batches given as pairs (yp, yt) *)
Corollary Accuracy_history_fixed fuel depth (h : heap) (ps : list (targ * targ)) :
  Forall (fun p => targOk h (fst p) /\ targOk h (snd p)) ps ->
  let bs := map (fun p => (h, fst p, snd p)) ps in
  forall a, acc_fold acc_new bs = Some a ->
  accProg_history fuel depth h bs h = Some [DF (acc_result a); DI 0].
Proof.
  intros Hps bs.
  assert (Hbs : Forall batchOk bs).
  { subst bs. induction Hps as [|[yp yt] ps Hp Hps IH]; cbn [map]; constructor; [exact Hp | exact IH]. }
  intros a Ha.
  rewrite (Accuracy_history fuel depth h h bs Hbs), Ha. reflexivity.
Qed.


(* ================= (5) the Forward entry points ================= *)

(* the outcome of a call that is handed over to [lib] and must return (tensor, error) *)
Definition libOut (r : option (list dval * heap)) (o : @doutcome A heap) : Prop :=
  match r with
  | Some ([r0; r1], h') => exists g l, o = DRet heap [r0; r1] h' g l
  | _ => o = DPanic heap
  end.

Definition dtargs (xs : list targ) : dval := DL (map dtarg xs).

(* the one input, when there is one, is a node of the heap *)
Definition inputOk (h : heap) (xs : list targ) : Prop :=
  match oneInput xs with Some x => (x < length h)%nat | None => True end.

Lemma inputOk_oneInput (h : heap) (xs : list targ) :
  inputOk h xs -> forall x, oneInput xs = Some x -> (x < length h)%nat.
Proof. unfold inputOk. intros H x E. rewrite E in H. exact H. Qed.

(* after the call of forward: exactly two results, returned as they are *)
Ltac finish_lib :=
  match goal with |- context [lib ?f ?args ?h] => destruct (lib f args h) as [[[|r0 [|r1 [|r2 rs]]] h']|] end;
  cbn [libOut]; dxs; try reflexivity; eauto.

(* each Forward calls its sibling toValidInputs (linked: the theorems of CompValidP say what it returns), stops on its
   error, and otherwise hands the input to its forward body, which [lib] stands for *)

Theorem Relu_Forward_run fuel depth (h : heap) (xs : list targ) :
  let o := run c_Relu_Forward fuel depth [dtargs xs] h in
  match oneInput xs with
  | None => exists g l, o = DRet heap [DNil; DI 1] h g l
  | Some x => libOut (lib "Relu.forward" [DI (Z.of_nat x)] h) o
  end.
Proof.
  intros o. subst o. start c_Relu_Forward.
  rewrite (cext_ret fltb fleb lib "Relu.toValidInputs" eq_refl
             (CompValidP.Relu_toValidInputs_spec fltb fleb lib _ _ h xs)).
  unfold CompValidP.oneInputRet. destruct (oneInput xs) as [x|]; go; eauto.
  libcall. finish_lib.
Qed.

Theorem Sigmoid_Forward_run fuel depth (h : heap) (xs : list targ) :
  let o := run c_Sigmoid_Forward fuel depth [dtargs xs] h in
  match oneInput xs with
  | None => exists g l, o = DRet heap [DNil; DI 1] h g l
  | Some x => libOut (lib "Sigmoid.forward" [DI (Z.of_nat x)] h) o
  end.
Proof.
  intros o. subst o. start c_Sigmoid_Forward.
  rewrite (cext_ret fltb fleb lib "Sigmoid.toValidInputs" eq_refl
             (CompValidP.Sigmoid_toValidInputs_spec fltb fleb lib _ _ h xs)).
  unfold CompValidP.oneInputRet. destruct (oneInput xs) as [x|]; go; eauto.
  libcall. finish_lib.
Qed.

Theorem Tanh_Forward_run fuel depth (h : heap) (xs : list targ) :
  let o := run c_Tanh_Forward fuel depth [dtargs xs] h in
  match oneInput xs with
  | None => exists g l, o = DRet heap [DNil; DI 1] h g l
  | Some x => libOut (lib "Tanh.forward" [DI (Z.of_nat x)] h) o
  end.
Proof.
  intros o. subst o. start c_Tanh_Forward.
  rewrite (cext_ret fltb fleb lib "Tanh.toValidInputs" eq_refl
             (CompValidP.Tanh_toValidInputs_spec fltb fleb lib _ _ h xs)).
  unfold CompValidP.oneInputRet. destruct (oneInput xs) as [x|]; go; eauto.
  libcall. finish_lib.
Qed.

Theorem LeakyRelu_Forward_run fuel depth (h : heap) (m : A) (xs : list targ) :
  let o := run c_LeakyRelu_Forward fuel depth [DF m; dtargs xs] h in
  match oneInput xs with
  | None => exists g l, o = DRet heap [DNil; DI 1] h g l
  | Some x => libOut (lib "LeakyRelu.forward" [DF m; DI (Z.of_nat x)] h) o
  end.
Proof.
  intros o. subst o. start c_LeakyRelu_Forward.
  rewrite (cext_ret fltb fleb lib "LeakyRelu.toValidInputs" eq_refl
             (CompValidP.LeakyRelu_toValidInputs_spec fltb fleb lib _ _ h (DF m) xs)).
  unfold CompValidP.oneInputRet. destruct (oneInput xs) as [x|]; go; eauto.
  libcall. finish_lib.
Qed.

Theorem Softmax_Forward_run fuel depth (h : heap) (dim : Z) (xs : list targ) :
  inputOk h xs ->
  let o := run c_Softmax_Forward fuel depth [DI dim; dtargs xs] h in
  match oneInput xs with
  | None => exists g l, o = DRet heap [DNil; DI 1] h g l
  | Some x => if Z.of_nat (rankOf h x) <=? dim
              then exists g l, o = DRet heap [DNil; DI 1] h g l
              else libOut (lib "Softmax.forward" [DI dim; DI (Z.of_nat x)] h) o
  end.
Proof.
  intros Hx o. subst o. start c_Softmax_Forward.
  rewrite (cext_ret fltb fleb lib "Softmax.toValidInputs" eq_refl
             (CompValidP.Softmax_toValidInputs_run fltb fleb lib _ _ h dim xs (inputOk_oneInput h xs Hx))).
  unfold CompValidP.softmaxRet. destruct (oneInput xs) as [x|]; [|go; eauto].
  destruct (Z.of_nat (rankOf h x) <=? dim); go; eauto.
  libcall. finish_lib.
Qed.

(* with the model's natural-number dimension (Components.softmax_forward tests [rankOf h x <=? dim]) *)
Corollary Softmax_Forward_run_nat fuel depth (h : heap) (dim : nat) (xs : list targ) :
  inputOk h xs ->
  let o := run c_Softmax_Forward fuel depth [DI (Z.of_nat dim); dtargs xs] h in
  match oneInput xs with
  | None => exists g l, o = DRet heap [DNil; DI 1] h g l
  | Some x => if (rankOf h x <=? dim)%nat
              then exists g l, o = DRet heap [DNil; DI 1] h g l
              else libOut (lib "Softmax.forward" [DI (Z.of_nat dim); DI (Z.of_nat x)] h) o
  end.
Proof.
  intros Hx o. pose proof (Softmax_Forward_run fuel depth h (Z.of_nat dim) xs Hx) as H. cbv zeta in H.
  destruct (oneInput xs) as [x|]; [|exact H].
  assert (E : (Z.of_nat (rankOf h x) <=? Z.of_nat dim) = (rankOf h x <=? dim)%nat) by lia.
  rewrite E in H. exact H.
Qed.

Theorem FC_Forward_run fuel depth (h : heap) (w b : dval) (xs : list targ) :
  inputOk h xs ->
  let o := run c_FC_Forward fuel depth [w; b; dtargs xs] h in
  match oneInput xs with
  | None => exists g l, o = DRet heap [DNil; DI 1] h g l
  | Some x => if (rankOf h x =? 2)%nat
              then libOut (lib "FC.forward" [w; b; DI (Z.of_nat x)] h) o
              else exists g l, o = DRet heap [DNil; DI 1] h g l
  end.
Proof.
  intros Hx o. subst o. start c_FC_Forward.
  rewrite (cext_ret fltb fleb lib "FC.toValidInputs" eq_refl
             (CompValidP.FC_toValidInputs_run fltb fleb lib _ _ h w b xs (inputOk_oneInput h xs Hx))).
  unfold CompValidP.fcRet. destruct (oneInput xs) as [x|]; [|go; eauto].
  destruct (rankOf h x =? 2)%nat; go; eauto.
  libcall. finish_lib.
Qed.

End CompAcc.

Print Assumptions NewAccuracy_run.
Print Assumptions AccValidate_run0.
Print Assumptions cext_AccValidate_spec.
Print Assumptions Accumulate_run.
Print Assumptions Result_run.
Print Assumptions Accuracy_history.
Print Assumptions Accuracy_history_fixed.
Print Assumptions Relu_Forward_run.
Print Assumptions Sigmoid_Forward_run.
Print Assumptions Tanh_Forward_run.
Print Assumptions LeakyRelu_Forward_run.
Print Assumptions Softmax_Forward_run.
Print Assumptions Softmax_Forward_run_nat.
Print Assumptions FC_Forward_run.
Print Assumptions acc_accumulate_Err_validation.

(* ================= concrete runs over the free term algebra ================= *)
Definition ex_tb (a b : term) : bool := true.
(* a library in which Relu.forward returns its input with a nil error and FC.forward returns three values *)
Definition ex_lib (f : string) (args : list (@dval term)) (h : @heap term) : option (list (@dval term) * @heap term) :=
  if String.eqb f "Relu.forward" then match args with [x] => Some ([x; DI 0], h) | _ => None end
  else if String.eqb f "FC.forward" then Some ([DNil; DI 0; DI 0], h)
  else None.
Definition ex_v (a b : Z) : tensor term := mkT [2%nat] (Vec [Sc (TConst a 0); Sc (TConst b 0)]).
Definition ex_m : tensor term := mkT [1%nat; 2%nat] (Vec [Vec [Sc (TConst 1 0); Sc (TConst 2 0)]]).
(* node 0 = [1, 2], node 1 = [1, 3], node 2 = [[1, 2]] *)
Definition ex_h : @heap term :=
  fst (leaf (fst (leaf (fst (leaf [] (ex_v 1 2) false None)) (ex_v 1 3) false None)) ex_m false None).
Definition ex_batches : list (@batch term) :=
  [(ex_h, Some 0%nat, Some 1%nat); (ex_h, None, Some 1%nat); (ex_h, Some 2%nat, Some 1%nat); (ex_h, Some 1%nat, Some 1%nat)].

(* two accepted batches of size 2, two rejected ones (nil prediction, rank 2) *)
Example history_example :
  Forall batchOk ex_batches /\
  option_map acc_total (acc_fold acc_new ex_batches) = Some 4%nat /\
  accProg_history ex_tb ex_tb ex_lib 1 1 ex_h ex_batches ex_h =
  option_map (fun a => [DF (acc_result a); DI 0]) (acc_fold acc_new ex_batches) /\
  accProg_history ex_tb ex_tb ex_lib 1 1 ex_h ex_batches ex_h <> None.
Proof.
  split; [|split; [|split]].
  - repeat constructor; cbn; lia.
  - vm_compute. reflexivity.
  - vm_compute. reflexivity.
  - vm_compute. discriminate.
Qed.

Example accumulate_example :
  match drun cfapp (@heap term) (cext ex_tb ex_tb ex_lib) c_Accuracy_Accumulate 1 1
             [DI 0; DF (TConst 0 0); DI 0; DI 1] ex_h with
  | DRet _ [DI 0] h' g l =>
      h' = ex_h /\ vlookup g l "c.total" = Some (DI 2) /\
      vlookup g l "c.correct" = Some (DF (acc_correct (fst (acc_accumulate ex_h acc_new (Some 0%nat) (Some 1%nat)))))
  | _ => False
  end.
Proof. vm_compute. repeat split; reflexivity. Qed.

Example forward_examples :
  (exists g l, drun cfapp (@heap term) (cext ex_tb ex_tb ex_lib) c_Relu_Forward 1 1 [dtargs [Some 1%nat]] ex_h
               = DRet _ [DI 1; DI 0] ex_h g l) /\
  (exists g l, drun cfapp (@heap term) (cext ex_tb ex_tb ex_lib) c_Relu_Forward 1 1 [dtargs [None]] ex_h
               = DRet _ [DNil; DI 1] ex_h g l) /\
  (exists g l, drun cfapp (@heap term) (cext ex_tb ex_tb ex_lib) c_Softmax_Forward 1 1 [DI 1; dtargs [Some 0%nat]] ex_h
               = DRet _ [DNil; DI 1] ex_h g l) /\
  drun cfapp (@heap term) (cext ex_tb ex_tb ex_lib) c_Softmax_Forward 1 1 [DI 0; dtargs [Some 0%nat]] ex_h = DPanic _ /\
  (exists g l, drun cfapp (@heap term) (cext ex_tb ex_tb ex_lib) c_FC_Forward 1 1 [DI 0; DI 1; dtargs [Some 0%nat]] ex_h
               = DRet _ [DNil; DI 1] ex_h g l) /\
  drun cfapp (@heap term) (cext ex_tb ex_tb ex_lib) c_FC_Forward 1 1 [DI 0; DI 1; dtargs [Some 2%nat]] ex_h = DPanic _.
Proof. vm_compute. repeat split; try (do 2 eexists; reflexivity). Qed.
