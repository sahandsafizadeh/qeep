(* CompBaseP.v — what the proofs about the translated component layer (Proofs/Comp*P.v) share: the observable part of
   a run, how a name is resolved by the linked oracles of Model/CompExt.v, the leaf oracle on nodes of the heap, the
   arithmetic of the length and index tests, and the stepping tactics. *)
From Coq Require Import String List ZArith Bool Lia Arith.
From Qeep Require Import Model.Scalar Model.Nd Model.Fill Model.Data Model.Valid Model.Api Model.Grad Model.Backprop
     Model.Components Model.DataIR Model.HeapExt Model.GoComp Model.CompExt Proofs.DataIRP Proofs.HeapAccP.
Import ListNotations.
Local Open Scope string_scope.
Local Open Scope Z_scope.
Local Open Scope list_scope.

Section CompBase.
Context {A : Type} {SA : Scalar A}.
Variables (fltb fleb : A -> A -> bool).
Variable lib : string -> list (@dval A) -> @heap A -> option (list (@dval A) * @heap A).
Notation T := (tensor A).
Notation heap := (@heap A).
Notation dval := (@dval A).
Notation oracle := (string -> list dval -> heap -> option (list dval * heap)).

(* returned values and final heap ([outcome] in CompValidP.v, CompInitP.v, CompFcP.v, CompTensorP.v, CompInputP.v has the same body) *)
Definition ret (o : @doutcome A heap) : option (list dval * heap) :=
  match o with DRet _ vs s _ _ => Some (vs, s) | _ => None end.

Lemma ret_DRet o vs s : ret o = Some (vs, s) <-> exists g l, o = DRet heap vs s g l.
Proof.
  split.
  - destruct o; cbn [ret]; intros E; try discriminate. inversion E; subst. eauto.
  - intros [g [l ->]]. reflexivity.
Qed.

(* a linked name is the callee's own translated program, run with the layer below *)
Lemma linkWith_ret (table : list (string * dprog)) (base : oracle) f {p a h r} :
  findProg table f = Some p -> ret (drun cfapp heap base p sibFuel sibFuel a h) = Some r ->
  linkWith table base f a h = Some r.
Proof.
  intros Hf Hr. unfold linkWith. rewrite Hf.
  destruct (drun cfapp heap base p sibFuel sibFuel a h); try discriminate. exact Hr.
Qed.

Lemma cext_ret f {p a h r} :
  findProg siblings f = Some p -> ret (drun cfapp heap (cext0 fltb fleb lib) p sibFuel sibFuel a h) = Some r ->
  cext fltb fleb lib f a h = Some r.
Proof. exact (linkWith_ret siblings _ f). Qed.

Lemma cext2_ret f {p a h r} :
  findProg siblings2 f = Some p -> ret (drun cfapp heap (cext fltb fleb lib) p sibFuel sibFuel a h) = Some r ->
  cext2 fltb fleb lib f a h = Some r.
Proof. exact (linkWith_ret siblings2 _ f). Qed.

Lemma cext3_ret f {p a h r} :
  findProg siblings3 f = Some p -> ret (drun cfapp heap (cext2 fltb fleb lib) p sibFuel sibFuel a h) = Some r ->
  cext3 fltb fleb lib f a h = Some r.
Proof. exact (linkWith_ret siblings3 _ f). Qed.

Lemma cextI_ret f {p a h r} :
  findProg siblingsI f = Some p -> ret (drun cfapp heap (cext2 fltb fleb lib) p sibFuel sibFuel a h) = Some r ->
  cextI fltb fleb lib f a h = Some r.
Proof. exact (linkWith_ret siblingsI _ f). Qed.

(* a name that a layer does not link goes to the layer below *)
Lemma cext_leaf f a h : findProg siblings f = None -> cext fltb fleb lib f a h = cext0 fltb fleb lib f a h.
Proof. intros Hf. unfold cext. rewrite Hf. reflexivity. Qed.

Lemma cext2_below f a h : findProg siblings2 f = None -> cext2 fltb fleb lib f a h = cext fltb fleb lib f a h.
Proof. intros Hf. unfold cext2, linkWith. rewrite Hf. reflexivity. Qed.

Lemma valOf_valid (h : heap) (n : nat) : (n < length h)%nat -> exists v, valOf h n = Some v.
Proof.
  intros H. unfold valOf. destruct (nth_error h n) as [nd|] eqn:E.
  - eexists. reflexivity.
  - apply nth_error_None in E. lia.
Qed.

Lemma valOf_length (h : heap) (n : nat) (v : T) : valOf h n = Some v -> (n < length h)%nat.
Proof.
  unfold valOf. destruct (nth_error h n) as [nd|] eqn:E; [|discriminate].
  intros _. apply nth_error_Some. congruence.
Qed.

Lemma tens_node (h : heap) (n : nat) (v : T) : valOf h n = Some v -> tens h (DI (Z.of_nat n)) = Some v.
Proof. intros Hv. unfold tens. rewrite (nodeId_nat h n (valOf_length h n v Hv)). exact Hv. Qed.

Lemma tens_embT (h : heap) (t : T) : tens h (embT t) = Some t.
Proof. apply (unembT_embT t). Qed.

Lemma cext0_Shape v (h : heap) :
  cext0 fltb fleb lib "Shape" [v] h = do t <- tens h v; Some ([dnats (dims t)], h).
Proof. reflexivity. Qed.

Lemma cext0_Shape_node (h : heap) (n : nat) (v : T) :
  valOf h n = Some v ->
  cext0 fltb fleb lib "Shape" [DI (Z.of_nat n)] h = Some ([DL (map (fun k => DI (Z.of_nat k)) (dims v))], h).
Proof. intros Hv. rewrite cext0_Shape, (tens_node h n v Hv). reflexivity. Qed.

Lemma cext0_float64 z (h : heap) :
  cext0 fltb fleb lib "float64" [DI z] h = if 0 <=? z then Some ([DF (sofnat (Z.to_nat z))], h) else None.
Proof. reflexivity. Qed.

Lemma cext0_typeof (v : dval) (h : heap) :
  cext0 fltb fleb lib "typeof" [v] h = Some ([DI (match v with DI _ => 0 | DNil => 1 | _ => 2 end)], h).
Proof. destruct v; reflexivity. Qed.

Lemma Zeqb_nat (a b : nat) : (Z.of_nat a =? Z.of_nat b) = Nat.eqb a b.
Proof.
  destruct (Nat.eqb a b) eqn:E.
  - apply Nat.eqb_eq in E. subst. apply Z.eqb_refl.
  - apply Nat.eqb_neq in E. apply Z.eqb_neq. lia.
Qed.

Lemma dlen_nats_eqb (l : list nat) (k : nat) :
  (dlen (map (fun n => @DI A (Z.of_nat n)) l) =? Z.of_nat k) = Nat.eqb (length l) k.
Proof. rewrite dlen_map. apply Zeqb_nat. Qed.

Lemma dlen_nats_eqb1 (l : list nat) : (dlen (map (fun n => @DI A (Z.of_nat n)) l) =? 1) = Nat.eqb (length l) 1.
Proof. exact (dlen_nats_eqb l 1). Qed.
Lemma dlen_nats_eqb2 (l : list nat) : (dlen (map (fun n => @DI A (Z.of_nat n)) l) =? 2) = Nat.eqb (length l) 2.
Proof. exact (dlen_nats_eqb l 2). Qed.

Lemma didx_0 : didx 0 = Some 0%nat. Proof. reflexivity. Qed.
Lemma didx_1 : didx 1 = Some 1%nat. Proof. reflexivity. Qed.

Lemma dlen_eqb0 (l : list dval) : (dlen l =? 0) = match l with [] => true | _ => false end.
Proof. destruct l; unfold dlen; cbn [length]; [reflexivity|]. apply Z.eqb_neq. lia. Qed.

Lemma dlen_eqb1 (l : list dval) : (dlen l =? 1) = match l with [_] => true | _ => false end.
Proof.
  destruct l as [|a [|b r]]; [reflexivity | reflexivity |].
  unfold dlen. cbn [length]. apply Z.eqb_neq. lia.
Qed.

Lemma nth_error_nats (l : list nat) (i : nat) :
  (i < length l)%nat -> nth_error (map (fun n => @DI A (Z.of_nat n)) l) i = Some (DI (Z.of_nat (nth i l 0%nat))).
Proof.
  revert i. induction l as [|a l IH]; intros [|i] H; cbn in *; try lia; [reflexivity|]. apply IH. lia.
Qed.

End CompBase.

(* open the run of program [p] up to its first statement that does not compute *)
Ltac start p := unfold drun, p; cbn [pmain dbody plocals dparams dbind]; dxs.

(* closed integer tests, indices and lengths *)
Ltac zb := cbn [Z.eqb Z.leb Z.ltb Z.add Pos.add Z.compare Pos.compare Pos.compare_cont Pos.eqb negb didx Z.to_nat nth_error app dlen length];
  try change (Pos.to_nat 1) with 1%nat; try change (Pos.to_nat 2) with 2%nat; cbn [nth_error setNthD].
Ltac go := repeat (progress (dxs; zb)).

(* a call that neither a linking layer nor the leaf oracle knows by name is [lib]'s *)
Ltac libcall :=
  match goal with |- context [?ext ?fltb ?fleb ?lib ?f ?a ?h] =>
    change (ext fltb fleb lib f a h) with (lib f a h) end.

(* a goal of the form [isCall o call] (defined in CompInitP.v and CompTensorP.v: three conjuncts, one per case of
   [call]), where [o] is stuck on [call] and returns its two results as they are *)
Ltac finish :=
  split; [|split];
  [ intros r0 r1 h2 Hcall; rewrite Hcall; dxs; reflexivity
  | intros Hcall; rewrite Hcall; reflexivity
  | intros rs h2 Hcall Hl; rewrite Hcall;
    destruct rs as [|a0 [|a1 [|a2 rs]]]; cbn [length] in Hl; try lia; dxs; reflexivity ].
