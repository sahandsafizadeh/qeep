(* CompFcP.v — the FC constructor (component/layers/fc.go: toValidFCConfig, NewFC) as translated by harness/gox into
   the DataIR programs GoComp.c_FC_toValidFCConfig / c_FC_NewFC, run with the linked oracles CompExt.cext2 / cext3
   (initializers.NewXavierUniform, initializers.NewFull, validateInitializedWeights, toValidFCConfig are their own
   translated programs; only the interface method call win.Init(shape) stays with [lib]):
   1. toValidFCConfig rejects exactly when the model's fc_new does at its validation stage, otherwise returns a copy
      of the config whose map holds the caller's initializers or the defaults XavierUniform(inputs, outputs) /
      Full(0) — the initSpecs fc_new uses;
   2. NewFC calls Init on the weight initializer first, then on the bias initializer, both with shape [outputs],
      threads the heap, stops at the first error, and accepts exactly when both results are rank-1 tensors of size
      outputs. *)
From Coq Require Import String List ZArith Bool Lia Arith.
From Qeep Require Import Model.Scalar Model.Nd Model.Fill Model.Data Model.Valid Model.Api Model.Grad Model.Backprop
     Model.Components Model.Consts Model.DataIR Model.HeapExt Model.GoComp Model.CompExt Proofs.DataIRP Proofs.HeapAccP
     Proofs.CompBaseP.
From Qeep Require Proofs.CompInitP Proofs.CompValidP.
From Qeep Require Model.GoIR.
Import ListNotations.
Local Open Scope string_scope.
Local Open Scope Z_scope.
Local Open Scope list_scope.

Section CompFc.
Context {A : Type} {SA : Scalar A}.
Notation heap := (@heap A).
Notation dval := (@dval A).
Variables (fltb fleb : A -> A -> bool) (lib : string -> list dval -> heap -> option (list dval * heap)).
Notation run0 p := (drun cfapp heap (cext0 fltb fleb lib) p).
Notation run1 p := (drun cfapp heap (cext fltb fleb lib) p).
Notation run2 p := (drun cfapp heap (cext2 fltb fleb lib) p).   (* toValidFCConfig *)
Notation run3 p := (drun cfapp heap (cext3 fltb fleb lib) p).   (* NewFC *)

Definition outcome (o : @doutcome A heap) : option (list dval * heap) :=
  match o with DRet _ vs s _ _ => Some (vs, s) | _ => None end.

(* ... together with the final value of the parameter [iconf] (the caller's config as the translation sees it) *)
Definition outcomeI (o : @doutcome A heap) : option (list dval * heap * option dval) :=
  match o with DRet _ vs s g l => Some (vs, s, vlookup g l "iconf") | _ => None end.
Lemma outcomeI_outcome o vs s x : outcomeI o = Some (vs, s, x) -> outcome o = Some (vs, s).
Proof. destruct o; cbn [outcomeI outcome]; intros H; try discriminate. inversion H; reflexivity. Qed.

Lemma outcome_Init o : CompInitP.outcome o = outcome o.
Proof. reflexivity. Qed.
Lemma outcome_Valid o : CompValidP.outcome o = outcome o.
Proof. reflexivity. Qed.

(* a map slot: key absent, or present with a value (DNil = nil initializer) *)
Definition slot (o : option dval) : dval := match o with None => DNil | Some v => DL [v] end.

(* the map Initializers: nil, or one slot per key ("Weight", "Bias") *)
Definition fcMap (mp : option (option dval * option dval)) : dval :=
  match mp with None => DNil | Some (wi, bi) => DL [slot wi; slot bi] end.
Definition mapW (mp : option (option dval * option dval)) : option dval :=
  match mp with Some (wi, _) => wi | None => None end.
Definition mapB (mp : option (option dval * option dval)) : option dval :=
  match mp with Some (_, bi) => bi | None => None end.

Definition fcConf (inputs outputs : Z) (m : dval) : dval := DL [DI inputs; DI outputs; m].

(* the default initializers, as constructed components *)
Definition xavierC (inputs outputs : Z) : dval := DL [DI inputs; DI outputs].   (* XavierUniform{fanIn, fanOut} *)
Definition fullC : dval := DL [DF (sconst 0 0)].                                  (* Full{value: 0} *)

Definition wvOf (inputs outputs : Z) (wi : option dval) : dval :=
  match wi with Some v => v | None => xavierC inputs outputs end.
Definition bvOf (bi : option dval) : dval := match bi with Some v => v | None => fullC end.

(* key present with a nil value *)
Definition isNilD (v : dval) : bool := match v with DNil => true | _ => false end.
Definition isNilV (o : option dval) : bool := match o with Some v => isNilD v | None => false end.

Lemma isNil_eval (v : dval) :
  match v with DNil => Some (@DB A true) | _ => Some (DB false) end = Some (DB (isNilD v)).
Proof. destruct v; reflexivity. Qed.
Lemma isNilD_false v : isNilD v = false -> v <> DNil.
Proof. intros H E. subst v. discriminate. Qed.

Lemma isNilV_true o : isNilV o = true <-> o = Some DNil.
Proof.
  destruct o as [v|]; cbn [isNilV]; [|split; discriminate].
  destruct v; cbn [isNilD]; split; intros H; try discriminate; try reflexivity; inversion H.
Qed.
Lemma isNilV_false o : isNilV o = false <-> o <> Some DNil.
Proof.
  rewrite <- isNilV_true. destruct (isNilV o); split; intros H; try discriminate; try reflexivity; try congruence.
Qed.

(* what toValidFCConfig returns for a non-nil config: the config and the error flag *)
Definition fcValidated (inputs outputs : Z) (mp : option (option dval * option dval)) : dval * Z :=
  if (inputs <=? 0) || (outputs <=? 0) then (fcConf inputs outputs (fcMap mp), 1)
  else if isNilV (mapW mp) then (fcConf inputs outputs (fcMap mp), 1)
  else if isNilV (mapB mp)
       then (fcConf inputs outputs (DL [DL [wvOf inputs outputs (mapW mp)]; DL [DNil]]), 1)
       else (fcConf inputs outputs (DL [DL [wvOf inputs outputs (mapW mp)]; DL [bvOf (mapB mp)]]), 0).

Lemma NewXavierUniform_pos fuel depth inputs outputs (h : heap) :
  0 < inputs -> 0 < outputs ->
  outcome (run1 c_XavierUniform_NewXavierUniform fuel depth [DL [DI inputs; DI outputs]] h)
  = Some ([xavierC inputs outputs; DI 0], h).
Proof.
  intros Hi Ho.
  pose proof (CompInitP.NewXavierUniform fltb fleb lib (0, 0) (0, 0) (0, 0) fuel depth (Some (inputs, outputs)) h) as E.
  cbn [CompInitP.cfgI2 init_valid] in E. rewrite outcome_Init in E. rewrite E.
  apply Z.ltb_lt in Hi, Ho. rewrite Hi, Ho. reflexivity.
Qed.

Lemma NewFull_zero fuel depth (h : heap) :
  outcome (run1 c_Full_NewFull fuel depth [DL [DF (sconst 0 0)]] h) = Some ([fullC], h).
Proof.
  pose proof (CompInitP.NewFull fltb fleb lib fuel depth (Some (sconst 0 0)) h) as E.
  cbn [CompInitP.cfgF1] in E. rewrite outcome_Init in E. exact E.
Qed.

(* toValidFCConfig's two calls of the constructors, by what the constructors return *)
Lemma cext2_NewXavierUniform inputs outputs (h : heap) :
  0 < inputs -> 0 < outputs ->
  cext2 fltb fleb lib "initializers.NewXavierUniform" [DL [DI inputs; DI outputs]] h
  = Some ([xavierC inputs outputs; DI 0], h).
Proof.
  intros Hi Ho. apply (cext2_ret fltb fleb lib "initializers.NewXavierUniform" eq_refl).
  exact (NewXavierUniform_pos sibFuel sibFuel inputs outputs h Hi Ho).
Qed.
Lemma cext2_NewFull (h : heap) :
  cext2 fltb fleb lib "initializers.NewFull" [DL [DF (sconst 0 0)]] h = Some ([fullC], h).
Proof. apply (cext2_ret fltb fleb lib "initializers.NewFull" eq_refl). exact (NewFull_zero sibFuel sibFuel h). Qed.

Theorem toValidFCConfig_nil fuel depth (h : heap) :
  outcome (run2 c_FC_toValidFCConfig fuel depth [DNil] h) = Some ([DNil; DI 1], h).
Proof. start c_FC_toValidFCConfig. reflexivity. Qed.

(* reject flag of a non-nil config *)
Definition fcReject (inputs outputs : Z) (mp : option (option dval * option dval)) : bool :=
  (inputs <=? 0) || (outputs <=? 0) || isNilV (mapW mp) || isNilV (mapB mp).

Lemma fcValidated_flag inputs outputs mp :
  snd (fcValidated inputs outputs mp) = if fcReject inputs outputs mp then 1 else 0.
Proof.
  unfold fcValidated, fcReject.
  destruct ((inputs <=? 0) || (outputs <=? 0)); cbn [orb]; [reflexivity|].
  destruct (isNilV (mapW mp)); cbn [orb]; [reflexivity|].
  destruct (isNilV (mapB mp)); reflexivity.
Qed.

Lemma fcValidated_accept inputs outputs mp :
  fcReject inputs outputs mp = false ->
  fcValidated inputs outputs mp
  = (fcConf inputs outputs (DL [DL [wvOf inputs outputs (mapW mp)]; DL [bvOf (mapB mp)]]), 0).
Proof.
  unfold fcValidated, fcReject. intros H.
  destruct ((inputs <=? 0) || (outputs <=? 0)); cbn [orb] in H; [discriminate|].
  destruct (isNilV (mapW mp)); cbn [orb] in H; [discriminate|].
  destruct (isNilV (mapB mp)); [discriminate|reflexivity].
Qed.

(* main statement: results, heap, and the final value of the parameter [iconf] *)
Theorem toValidFCConfig_run fuel depth (inputs outputs : Z) (mp : option (option dval * option dval)) (h : heap) :
  outcomeI (run2 c_FC_toValidFCConfig fuel depth [fcConf inputs outputs (fcMap mp)] h)
  = Some ([fst (fcValidated inputs outputs mp); DI (snd (fcValidated inputs outputs mp))], h,
          Some (fcConf inputs outputs (fcMap mp))).
Proof.
  start c_FC_toValidFCConfig. unfold fcValidated, fcConf. go.
  destruct (inputs <=? 0) eqn:Ei; cbn [orb fst snd]; go; [reflexivity|].
  destruct (outputs <=? 0) eqn:Eo; cbn [orb fst snd]; go; [reflexivity|].
  apply Z.leb_gt in Ei, Eo.
  destruct mp as [[wi bi]|]; cbn [fcMap mapW mapB slot isNilV wvOf bvOf].
  - destruct wi as [wv|]; cbn [slot isNilV wvOf]; go.
    + rewrite isNil_eval. destruct (isNilD wv) eqn:Ew; cbn [fst snd]; go; [reflexivity|].
      destruct bi as [bv|]; cbn [slot isNilV bvOf]; go.
      * rewrite isNil_eval. destruct (isNilD bv) eqn:Eb; cbn [fst snd]; go; [|reflexivity].
        destruct bv; try discriminate. reflexivity.
      * rewrite cext2_NewFull. go. reflexivity.
    + rewrite cext2_NewXavierUniform by assumption. go.
      destruct bi as [bv|]; cbn [slot isNilV bvOf]; go.
      * rewrite isNil_eval. destruct (isNilD bv) eqn:Eb; cbn [fst snd]; go; [|reflexivity].
        destruct bv; try discriminate. reflexivity.
      * rewrite cext2_NewFull. go. reflexivity.
  - go. rewrite cext2_NewXavierUniform by assumption. go.
    rewrite cext2_NewFull. go. reflexivity.
Qed.

Theorem toValidFCConfig_spec fuel depth (inputs outputs : Z) (mp : option (option dval * option dval)) (h : heap) :
  outcome (run2 c_FC_toValidFCConfig fuel depth [fcConf inputs outputs (fcMap mp)] h)
  = Some ([fst (fcValidated inputs outputs mp); DI (snd (fcValidated inputs outputs mp))], h).
Proof. eapply outcomeI_outcome, toValidFCConfig_run. Qed.

(* a non-positive size: the copy is returned with the flag; the map is not looked at (any value [m]) *)
Theorem toValidFCConfig_nonpos fuel depth (inputs outputs : Z) (m : dval) (h : heap) :
  inputs <= 0 \/ outputs <= 0 ->
  outcome (run2 c_FC_toValidFCConfig fuel depth [fcConf inputs outputs m] h)
  = Some ([fcConf inputs outputs m; DI 1], h).
Proof.
  intros H. start c_FC_toValidFCConfig. unfold fcConf. go.
  destruct (inputs <=? 0) eqn:Ei; go; [reflexivity|].
  destruct (outputs <=? 0) eqn:Eo; go; [reflexivity|].
  apply Z.leb_gt in Ei, Eo. lia.
Qed.

Theorem toValidFCConfig_nilWeight fuel depth (inputs outputs : Z) mp (h : heap) :
  0 < inputs -> 0 < outputs -> mapW mp = Some DNil ->
  outcome (run2 c_FC_toValidFCConfig fuel depth [fcConf inputs outputs (fcMap mp)] h)
  = Some ([fcConf inputs outputs (fcMap mp); DI 1], h).
Proof.
  intros Hi Ho Hw. rewrite toValidFCConfig_spec. unfold fcValidated.
  apply Z.leb_gt in Hi, Ho. apply isNilV_true in Hw. rewrite Hi, Ho, Hw. reflexivity.
Qed.

(* nil bias initializer: the flag, and the config in which the weight default has already been stored *)
Theorem toValidFCConfig_nilBias fuel depth (inputs outputs : Z) mp (h : heap) :
  0 < inputs -> 0 < outputs -> mapW mp <> Some DNil -> mapB mp = Some DNil ->
  outcome (run2 c_FC_toValidFCConfig fuel depth [fcConf inputs outputs (fcMap mp)] h)
  = Some ([fcConf inputs outputs (DL [DL [wvOf inputs outputs (mapW mp)]; DL [DNil]]); DI 1], h).
Proof.
  intros Hi Ho Hw Hb. rewrite toValidFCConfig_spec. unfold fcValidated.
  apply Z.leb_gt in Hi, Ho. apply isNilV_false in Hw. apply isNilV_true in Hb. rewrite Hi, Ho, Hw, Hb. reflexivity.
Qed.

Theorem toValidFCConfig_ok fuel depth (inputs outputs : Z) mp (h : heap) :
  0 < inputs -> 0 < outputs -> mapW mp <> Some DNil -> mapB mp <> Some DNil ->
  outcome (run2 c_FC_toValidFCConfig fuel depth [fcConf inputs outputs (fcMap mp)] h)
  = Some ([fcConf inputs outputs (DL [DL [wvOf inputs outputs (mapW mp)]; DL [bvOf (mapB mp)]]); DI 0], h).
Proof.
  intros Hi Ho Hw Hb. rewrite toValidFCConfig_spec. unfold fcValidated.
  apply Z.leb_gt in Hi, Ho. apply isNilV_false in Hw, Hb. rewrite Hi, Ho, Hw, Hb. reflexivity.
Qed.

(* the error flag is 0 exactly in the last case *)
Corollary toValidFCConfig_accepts_iff fuel depth (inputs outputs : Z) mp (h : heap) :
  (exists c, outcome (run2 c_FC_toValidFCConfig fuel depth [fcConf inputs outputs (fcMap mp)] h) = Some ([c; DI 0], h))
  <-> (0 < inputs /\ 0 < outputs /\ mapW mp <> Some DNil /\ mapB mp <> Some DNil).
Proof.
  rewrite toValidFCConfig_spec, fcValidated_flag. unfold fcReject. split.
  - intros [c H].
    destruct (inputs <=? 0) eqn:Ei; cbn [orb] in H; [inversion H|].
    destruct (outputs <=? 0) eqn:Eo; cbn [orb] in H; [inversion H|].
    destruct (isNilV (mapW mp)) eqn:Ew; cbn [orb] in H; [inversion H|].
    destruct (isNilV (mapB mp)) eqn:Eb; cbn [orb] in H; [inversion H|].
    apply Z.leb_gt in Ei, Eo. apply isNilV_false in Ew, Eb. repeat split; assumption.
  - intros [Hi [Ho [Hw Hb]]]. apply Z.leb_gt in Hi, Ho. apply isNilV_false in Hw, Hb.
    rewrite Hi, Ho, Hw, Hb. eexists. reflexivity.
Qed.

(* what the translation shows about the caller's config: the parameter keeps its value — the copy [*conf = *iconf] is
   a copy of the VALUE, map included; the sharing of the map between the caller's config and the returned one that Go
   has is not represented *)
Corollary toValidFCConfig_param_unchanged fuel depth (inputs outputs : Z) mp (h : heap) :
  exists vs, outcomeI (run2 c_FC_toValidFCConfig fuel depth [fcConf inputs outputs (fcMap mp)] h)
             = Some (vs, h, Some (fcConf inputs outputs (fcMap mp))).
Proof. eexists. apply toValidFCConfig_run. Qed.

(* NewFC's call of toValidFCConfig, by what toValidFCConfig returns *)
Lemma cext3_toValidFCConfig_nil (h : heap) : cext3 fltb fleb lib "toValidFCConfig" [DNil] h = Some ([DNil; DI 1], h).
Proof. apply (cext3_ret fltb fleb lib "toValidFCConfig" eq_refl). exact (toValidFCConfig_nil sibFuel sibFuel h). Qed.

Lemma cext3_toValidFCConfig (inputs outputs : Z) mp (h : heap) :
  cext3 fltb fleb lib "toValidFCConfig" [fcConf inputs outputs (fcMap mp)] h
  = Some ([fst (fcValidated inputs outputs mp); DI (snd (fcValidated inputs outputs mp))], h).
Proof. exact (cext3_ret fltb fleb lib "toValidFCConfig" eq_refl (toValidFCConfig_spec _ _ inputs outputs mp h)). Qed.

(* validateInitializedWeights is linked in [siblings2]: it runs with [cext], which leaves Shape to the leaf oracle *)
Lemma cext3_validate (h : heap) (w b : targ) (inputs outputs : Z) (rest : dval) :
  CompValidP.targOk h w -> CompValidP.targOk h b ->
  cext3 fltb fleb lib "validateInitializedWeights" [dtarg w; dtarg b; DL [DI inputs; DI outputs; rest]] h
  = Some ([DI (if CompValidP.initWeightsOk h w b outputs then 0 else 1)], h).
Proof.
  intros Hw Hb. apply (cext2_ret fltb fleb lib "validateInitializedWeights" eq_refl).
  exact (CompValidP.FC_validateInitializedWeights_run fltb fleb lib _ sibFuel sibFuel h w b inputs outputs rest (fun _ => eq_refl) Hw Hb).
Qed.

Theorem NewFC_nil fuel depth (h : heap) :
  outcome (run3 c_FC_NewFC fuel depth [DNil] h) = Some ([DNil; DI 1], h).
Proof.
  start c_FC_NewFC. rewrite cext3_toValidFCConfig_nil. go. reflexivity.
Qed.

(* rejected by toValidFCConfig: error, no component, nothing called *)
Theorem NewFC_reject fuel depth (inputs outputs : Z) mp (h : heap) :
  fcReject inputs outputs mp = true ->
  outcome (run3 c_FC_NewFC fuel depth [fcConf inputs outputs (fcMap mp)] h) = Some ([DNil; DI 1], h).
Proof.
  intros Hr. start c_FC_NewFC. rewrite cext3_toValidFCConfig, fcValidated_flag, Hr.
  go. reflexivity.
Qed.

Section Accepted.
Variables (inputs outputs : Z) (mp : option (option dval * option dval)).
Hypothesis Hacc : fcReject inputs outputs mp = false.
Let wv := wvOf inputs outputs (mapW mp).
Let bv := bvOf (mapB mp).
Let sh : dval := DL [DI outputs].

(* the run up to the first Init call *)
Ltac toInit :=
  start c_FC_NewFC; rewrite cext3_toValidFCConfig, (fcValidated_accept _ _ _ Hacc);
  cbn [fst snd]; unfold fcConf; go; libcall; fold wv sh.

(* Init of the weight initializer comes first, on the caller's heap, with shape [outputs] *)
Theorem NewFC_weightInit_panics fuel depth (h : heap) :
  lib "Init" [wv; sh] h = None ->
  run3 c_FC_NewFC fuel depth [fcConf inputs outputs (fcMap mp)] h = DPanic heap.
Proof. intros H1. toInit. rewrite H1. reflexivity. Qed.

Theorem NewFC_weightInit_fails fuel depth (h h1 : heap) (w : dval) (e1 : Z) :
  lib "Init" [wv; sh] h = Some ([w; DI e1], h1) -> e1 <> 0 ->
  outcome (run3 c_FC_NewFC fuel depth [fcConf inputs outputs (fcMap mp)] h) = Some ([DNil; DI e1], h1).
Proof.
  intros H1 He. toInit. rewrite H1. go.
  apply Z.eqb_neq in He. rewrite He. go. reflexivity.
Qed.

(* then Init of the bias initializer, on the heap the first call returned, with the same shape *)
Theorem NewFC_biasInit_panics fuel depth (h h1 : heap) (w : dval) :
  lib "Init" [wv; sh] h = Some ([w; DI 0], h1) ->
  lib "Init" [bv; sh] h1 = None ->
  run3 c_FC_NewFC fuel depth [fcConf inputs outputs (fcMap mp)] h = DPanic heap.
Proof. intros H1 H2. toInit. rewrite H1. go. libcall. fold bv sh. rewrite H2. reflexivity. Qed.

Theorem NewFC_biasInit_fails fuel depth (h h1 h2 : heap) (w b : dval) (e2 : Z) :
  lib "Init" [wv; sh] h = Some ([w; DI 0], h1) ->
  lib "Init" [bv; sh] h1 = Some ([b; DI e2], h2) -> e2 <> 0 ->
  outcome (run3 c_FC_NewFC fuel depth [fcConf inputs outputs (fcMap mp)] h) = Some ([DNil; DI e2], h2).
Proof.
  intros H1 H2 He. toInit. rewrite H1. go. libcall. fold bv sh. rewrite H2. go.
  apply Z.eqb_neq in He. rewrite He. go. reflexivity.
Qed.

(* both succeed: the linked validateInitializedWeights decides *)
Theorem NewFC_initialized fuel depth (h h1 h2 : heap) (w b : targ) :
  lib "Init" [wv; sh] h = Some ([dtarg w; DI 0], h1) ->
  lib "Init" [bv; sh] h1 = Some ([dtarg b; DI 0], h2) ->
  CompValidP.targOk h2 w -> CompValidP.targOk h2 b ->
  outcome (run3 c_FC_NewFC fuel depth [fcConf inputs outputs (fcMap mp)] h)
  = Some (if CompValidP.initWeightsOk h2 w b outputs then [DL [dtarg w; dtarg b]; DI 0] else [DNil; DI 1], h2).
Proof.
  intros H1 H2 Hw Hb. toInit. rewrite H1. go. libcall. fold bv sh. rewrite H2. go.
  rewrite (cext3_validate h2 w b inputs outputs _ Hw Hb).
  destruct (CompValidP.initWeightsOk h2 w b outputs); go; reflexivity.
Qed.

(* ... i.e. the component is returned iff both are tensors of rank 1 and size [outputs] *)
Corollary NewFC_ok_iff fuel depth (h h1 h2 : heap) (w b : targ) :
  lib "Init" [wv; sh] h = Some ([dtarg w; DI 0], h1) ->
  lib "Init" [bv; sh] h1 = Some ([dtarg b; DI 0], h2) ->
  CompValidP.targOk h2 w -> CompValidP.targOk h2 b ->
  (outcome (run3 c_FC_NewFC fuel depth [fcConf inputs outputs (fcMap mp)] h)
   = Some ([DL [dtarg w; dtarg b]; DI 0], h2)
   <-> exists wn bn, w = Some wn /\ b = Some bn /\ rankOf h2 wn = 1%nat /\ rankOf h2 bn = 1%nat /\
                     Z.of_nat (dim0Of h2 wn) = outputs /\ Z.of_nat (dim0Of h2 bn) = outputs).
Proof.
  intros H1 H2 Hw Hb. rewrite (NewFC_initialized fuel depth h h1 h2 w b H1 H2 Hw Hb).
  rewrite <- CompValidP.initWeightsOk_true_iff.
  destruct (CompValidP.initWeightsOk h2 w b outputs); split; intros E; try reflexivity; discriminate.
Qed.
End Accepted.

(* a slot of the model ([None] key absent, [Some None] nil value, [Some (Some s)] an initializer of spec s) is
   represented by a slot content of the program: nil value = DNil, an initializer = a non-nil component *)
Definition slotRep (m : option (option initSpec)) (d : option dval) : Prop :=
  match m, d with
  | None, None => True
  | Some None, Some DNil => True
  | Some (Some _), Some v => v <> DNil
  | _, _ => False
  end.

Definition specNil (o : option (option initSpec)) : bool := match o with Some None => true | _ => false end.
Definition wsOf (inputs outputs : Z) (wi : option (option initSpec)) : initSpec :=
  match wi with Some (Some s) => s | _ => IXavierUniform (Some (inputs, outputs)) end.
Definition bsOf (bi : option (option initSpec)) : initSpec :=
  match bi with Some (Some s) => s | _ => IFull (Some (0, 0)) end.

Lemma slotRep_nil m d : slotRep m d -> isNilV d = specNil m.
Proof.
  destruct m as [[s|]|], d as [v|]; cbn [slotRep isNilV specNil]; intros H; try contradiction; try reflexivity.
  - destruct v; try reflexivity. contradiction H; reflexivity.
  - destruct v; try contradiction; reflexivity.
Qed.

(* the program rejects exactly the configs the model rejects before initializing anything *)
Lemma fcReject_model inputs outputs wi bi wd bd :
  slotRep wi wd -> slotRep bi bd ->
  fcReject inputs outputs (Some (wd, bd)) = (inputs <=? 0) || (outputs <=? 0) || specNil wi || specNil bi.
Proof.
  intros Hw Hb. unfold fcReject. cbn [mapW mapB]. rewrite (slotRep_nil _ _ Hw), (slotRep_nil _ _ Hb). reflexivity.
Qed.
(* a nil map is a map without keys *)
Lemma fcReject_model_nilmap inputs outputs :
  fcReject inputs outputs None = (inputs <=? 0) || (outputs <=? 0) || specNil None || specNil None.
Proof. unfold fcReject. cbn [mapW mapB isNilV specNil]. reflexivity. Qed.

Lemma fc_new_reject dF dL dU dM dS (h : heap) inputs outputs wi bi pos :
  (inputs <=? 0) || (outputs <=? 0) || specNil wi || specNil bi = true ->
  fc_new dF dL dU dM dS h inputs outputs wi bi pos = (h, Err, pos).
Proof.
  unfold fc_new. destruct ((inputs <=? 0) || (outputs <=? 0)); cbn [orb]; [reflexivity|].
  destruct wi as [[ws|]|], bi as [[bs|]|]; cbn [specNil orb]; intros H; try discriminate; reflexivity.
Qed.

(* otherwise: init_run of the weight spec first, then of the bias spec on the heap (and source position) the first
   returned, both with shape [outputs] — the two lib "Init" calls of NewFC *)
Lemma fc_new_accept dF dL dU dM dS (h : heap) inputs outputs wi bi pos :
  (inputs <=? 0) || (outputs <=? 0) || specNil wi || specNil bi = false ->
  fc_new dF dL dU dM dS h inputs outputs wi bi pos =
  match init_run dF dL dU dM dS h (wsOf inputs outputs wi) [outputs] pos None with
  | (h1, Ok w, pos1) =>
      match init_run dF dL dU dM dS h1 (bsOf bi) [outputs] pos1 None with
      | (h2, Ok b, pos2) => (h2, Ok (w, b), pos2)
      | (_, Err, _) => (h, Err, pos)
      | (_, Panic, _) => (h, Panic, pos)
      end
  | (_, Err, _) => (h, Err, pos)
  | (_, Panic, _) => (h, Panic, pos)
  end.
Proof.
  unfold fc_new. destruct ((inputs <=? 0) || (outputs <=? 0)); cbn [orb]; [discriminate|].
  destruct wi as [[ws|]|], bi as [[bs|]|]; cbn [specNil orb wsOf bsOf]; intros H; try discriminate; reflexivity.
Qed.

(* the two defaults of the program are the components the linked constructors build for the default specs of the
   model, and these specs are valid *)
Lemma default_weight_spec dL dU dS fuel depth inputs outputs (h : heap) :
  0 < inputs -> 0 < outputs ->
  init_valid dL dU dS (wsOf inputs outputs None) = true /\
  outcome (run1 c_XavierUniform_NewXavierUniform fuel depth [CompInitP.cfgI2 (Some (inputs, outputs))] h)
  = Some ([wvOf inputs outputs None; DI 0], h).
Proof.
  intros Hi Ho. split.
  - cbn [wsOf init_valid]. apply Z.ltb_lt in Hi, Ho. rewrite Hi, Ho. reflexivity.
  - exact (NewXavierUniform_pos fuel depth inputs outputs h Hi Ho).
Qed.

Lemma default_bias_spec dL dU dS fuel depth (h : heap) :
  init_valid dL dU dS (bsOf None) = true /\
  outcome (run1 c_Full_NewFull fuel depth [CompInitP.cfgD1 (Some (0, 0))] h) = Some ([bvOf None], h).
Proof. split; [reflexivity|]. exact (NewFull_zero fuel depth h). Qed.

(* ... and Init on the default weight component draws from U(-r, r), r = sqrtOver 6 (inputs + outputs): the value
   init_value gives to IXavierUniform (Some (inputs, outputs)) (CompInitP.XavierUniform_Init, init_value_XavierUniform);
   on the default bias component it is tensor.Full with the literal 0 (CompInitP.Full_Init, init_value_Full) *)
Lemma default_weight_Init fuel depth inputs outputs (sh cfg : dval) (h h1 : heap) :
  0 < inputs -> 0 < outputs ->
  lib "tensorInitConf" [] h = Some ([cfg], h1) ->
  match wvOf inputs outputs None with
  | DL fields =>
      let r := sqrtOver 6 (inputs + outputs) in
      CompInitP.isCall (run0 c_XavierUniform_Init fuel depth (fields ++ [sh]) h)
                       (lib "tensor.RandU" [sh; DF (ssub (sconst 0 0) r); DF r; cfg] h1)
  | _ => False
  end.
Proof.
  intros Hi Ho Hc. cbn [wvOf xavierC app].
  apply (CompInitP.XavierUniform_Init fltb fleb lib fuel depth inputs outputs sh cfg h h1); [lia|exact Hc].
Qed.

Lemma default_bias_Init fuel depth (sh cfg : dval) (h h1 : heap) :
  lib "tensorInitConf" [] h = Some ([cfg], h1) ->
  match bvOf None with
  | DL fields =>
      CompInitP.isCall (run0 c_Full_Init fuel depth (fields ++ [sh]) h)
                       (lib "tensor.Full" [sh; DF (dcst (0, 0)); cfg] h1)
  | _ => False
  end.
Proof.
  intros Hc. cbn [bvOf fullC app].
  exact (CompInitP.Full_Init fltb fleb lib fuel depth (sconst 0 0) sh cfg h h1 Hc).
Qed.

End CompFc.

Print Assumptions toValidFCConfig_nil.
Print Assumptions toValidFCConfig_run.
Print Assumptions toValidFCConfig_spec.
Print Assumptions toValidFCConfig_nonpos.
Print Assumptions toValidFCConfig_nilWeight.
Print Assumptions toValidFCConfig_nilBias.
Print Assumptions toValidFCConfig_ok.
Print Assumptions toValidFCConfig_accepts_iff.
Print Assumptions toValidFCConfig_param_unchanged.
Print Assumptions NewFC_nil.
Print Assumptions NewFC_reject.
Print Assumptions NewFC_weightInit_panics.
Print Assumptions NewFC_weightInit_fails.
Print Assumptions NewFC_biasInit_panics.
Print Assumptions NewFC_biasInit_fails.
Print Assumptions NewFC_initialized.
Print Assumptions NewFC_ok_iff.
Print Assumptions fcReject_model.
Print Assumptions fc_new_reject.
Print Assumptions fc_new_accept.
Print Assumptions default_weight_spec.
Print Assumptions default_bias_spec.
Print Assumptions default_weight_Init.
Print Assumptions default_bias_Init.

Module Examples.
Definition tb (a b : term) : bool := true.
(* a library whose Init allocates a vector of zeros of the requested size and names the initializer it was called
   on in the node (2 = a component with two fields, 1 = with one field); any other shape: error 7 *)
Definition zeros (n : nat) : tensor term := mkT [n] (Vec (repeat (Sc (TConst 0 0)) n)).
Definition elib (f : string) (args : list (@dval term)) (h : @heap term)
  : option (list (@dval term) * @heap term) :=
  if String.eqb f "Init" then
    match args with
    | [DL fields; DL [DI n]] =>
        let '(h', id) := leaf h (zeros (Z.to_nat n)) true (Some (length fields)) in
        Some ([DI (Z.of_nat id); DI 0], h')
    | [_; _] => Some ([DNil; DI 7], h)
    | _ => None
    end
  else None.
Definition h0 : @heap term := [].
Notation erun2 p := (drun cfapp (@heap term) (cext2 tb tb elib) p 0%nat 0%nat).
Notation erun3 p := (drun cfapp (@heap term) (cext3 tb tb elib) p 0%nat 0%nat).

(* nil map: both defaults *)
Example ex_toValid_nilmap :
  outcome (erun2 c_FC_toValidFCConfig [fcConf 4 3 (fcMap None)] h0)
  = Some ([DL [DI 4; DI 3; DL [DL [DL [DI 4; DI 3]]; DL [DL [DF (TConst 0 0)]]]]; DI 0], h0).
Proof. vm_compute. reflexivity. Qed.

(* a caller-provided map with only a bias initializer (some component with fields 9, 9, 9) *)
Example ex_toValid_bias_only :
  outcome (erun2 c_FC_toValidFCConfig [fcConf 4 3 (fcMap (Some (None, Some (DL [DI 9; DI 9; DI 9]))))] h0)
  = Some ([DL [DI 4; DI 3; DL [DL [DL [DI 4; DI 3]]; DL [DL [DI 9; DI 9; DI 9]]]]; DI 0], h0).
Proof. vm_compute. reflexivity. Qed.

(* nil bias initializer: rejected, but the weight default is already in the returned config's map *)
Example ex_toValid_nil_bias :
  outcome (erun2 c_FC_toValidFCConfig [fcConf 4 3 (fcMap (Some (None, Some DNil)))] h0)
  = Some ([DL [DI 4; DI 3; DL [DL [DL [DI 4; DI 3]]; DL [DNil]]]; DI 1], h0).
Proof. vm_compute. reflexivity. Qed.

Example ex_toValid_nonpos :
  outcome (erun2 c_FC_toValidFCConfig [fcConf 4 0 (fcMap None)] h0) = Some ([DL [DI 4; DI 0; DNil]; DI 1], h0).
Proof. vm_compute. reflexivity. Qed.

(* NewFC with a nil map: node 0 is made by the two-field (XavierUniform) component, node 1 by the one-field (Full)
   one — weight first *)
Example ex_NewFC :
  outcome (erun3 c_FC_NewFC [fcConf 4 3 (fcMap None)] h0)
  = Some ([DL [DI 0; DI 1]; DI 0],
          [mkNode (zeros 3) true false None [] (Some 2%nat); mkNode (zeros 3) true false None [] (Some 1%nat)]).
Proof. vm_compute. reflexivity. Qed.

Example ex_NewFC_reject : outcome (erun3 c_FC_NewFC [fcConf 0 3 (fcMap None)] h0) = Some ([DNil; DI 1], h0).
Proof. vm_compute. reflexivity. Qed.

(* a weight initializer that fails (not a component: error 7 of the library): the bias Init is not called *)
Example ex_NewFC_weight_fails :
  outcome (erun3 c_FC_NewFC [fcConf 4 3 (fcMap (Some (Some (DI 5), None)))] h0) = Some ([DNil; DI 7], h0).
Proof. vm_compute. reflexivity. Qed.

Example ex_NewFC_by_theorem fuel depth :
  outcome (drun cfapp (@heap term) (cext3 tb tb elib) c_FC_NewFC fuel depth [fcConf 4 3 (fcMap None)] h0)
  = Some ([DL [DI 0; DI 1]; DI 0],
          [mkNode (zeros 3) true false None [] (Some 2%nat); mkNode (zeros 3) true false None [] (Some 1%nat)]).
Proof.
  pose proof (NewFC_initialized tb tb elib 4 3 None eq_refl fuel depth h0
                [mkNode (zeros 3) true false None [] (Some 2%nat)]
                [mkNode (zeros 3) true false None [] (Some 2%nat); mkNode (zeros 3) true false None [] (Some 1%nat)]
                (Some 0%nat) (Some 1%nat) eq_refl eq_refl) as E.
  rewrite E.
  - reflexivity.
  - intros n Hn. inversion Hn. cbn. lia.
  - intros n Hn. inversion Hn. cbn. lia.
Qed.
End Examples.
