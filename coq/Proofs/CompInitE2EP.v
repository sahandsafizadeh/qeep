(* CompInitE2EP.v — the seven initializers' Init END TO END through package tensor: the translated Init programs
   (component/initializers) run with the oracle [cextI] of Model/CompExt.v, in which tensorInitConf and the entry points
   tensor.RandU / tensor.RandN / tensor.Full are LINKED by running their own translated programs (those with [cext2]:
   prepareConfig, validateConfig linked in turn).  What is left to [lib] is the cputensor constructor.
   0. tensorInitConf returns the config (CPU, GradTrack = true);
   1. every Init ends in the cputensor constructor with the model's scale formulas and gradient tracking ON
      (property C18: every initializer returns a tracked tensor);
   2. a panic can only come from the cputensor call itself. *)
From Coq Require Import String List ZArith Bool Lia Arith.
From Qeep Require Import Model.Scalar Model.Nd Model.Fill Model.Data Model.Valid Model.Api Model.Grad Model.Backprop
     Model.Components Model.DataIR Model.HeapExt Model.GoComp Model.CompExt Proofs.DataIRP Proofs.CompBaseP Proofs.CompTensorP.
From Qeep Require Proofs.CompInitP.
From Qeep Require Model.GoIR.
Import ListNotations.
Local Open Scope string_scope.
Local Open Scope Z_scope.
Local Open Scope list_scope.

Section CompInitE2E.
Context {A : Type} {SA : Scalar A}.
Notation heap := (@heap A).
Notation dval := (@dval A).
Variables (fltb fleb : A -> A -> bool) (lib : string -> list dval -> heap -> option (list dval * heap)).
Notation run2 p := (drun cfapp heap (cext2 fltb fleb lib) p).   (* the entry points of package tensor *)
Notation runI p := (drun cfapp heap (cextI fltb fleb lib) p).   (* the Init methods, end to end *)

(* ================= 0. tensorInitConf ================= *)

(* &tensor.Config{Device: tensor.CPU, GradTrack: true} *)
Definition initConf : dval := DL [DI 1; DB true].

(* it makes no oracle call: the same under every oracle *)
Lemma tensorInitConf_under (ext : string -> list dval -> heap -> option (list dval * heap)) fuel depth (h : heap) :
  outcome (drun cfapp heap ext c_initializers_tensorInitConf fuel depth [] h) = Some ([initConf], h).
Proof. start c_initializers_tensorInitConf. reflexivity. Qed.

Theorem tensorInitConf_run fuel depth (h : heap) :
  outcome (runI c_initializers_tensorInitConf fuel depth [] h) = Some ([initConf], h).
Proof. apply tensorInitConf_under. Qed.

(* linked in [siblingsI]: its own program run with [cext2] *)
Theorem cextI_tensorInitConf (h : heap) :
  cextI fltb fleb lib "tensorInitConf" [] h = Some ([initConf], h).
Proof. apply (cextI_ret fltb fleb lib "tensorInitConf" eq_refl). apply tensorInitConf_under. Qed.

(* initConf is the valid config (CPU, tracking) of CompTensorP's theorems *)
Lemma initConf_cfg : initConf = cfgOf (Some (1, DB true)).
Proof. reflexivity. Qed.

(* the entry points of package tensor, called with initConf, are the cputensor call with tracking ON *)
Lemma linked_RandU (sh l u : dval) (h : heap) :
  isCall (run2 c_tensor_RandU sibFuel sibFuel [sh; l; u; initConf] h) (lib "cputensor.RandU" [sh; l; u; DB true] h).
Proof. rewrite initConf_cfg. exact (RandU_spec fltb fleb lib sibFuel sibFuel sh l u (Some (1, DB true)) h). Qed.
Lemma linked_RandN (sh m s : dval) (h : heap) :
  isCall (run2 c_tensor_RandN sibFuel sibFuel [sh; m; s; initConf] h) (lib "cputensor.RandN" [sh; m; s; DB true] h).
Proof. rewrite initConf_cfg. exact (RandN_spec fltb fleb lib sibFuel sibFuel sh m s (Some (1, DB true)) h). Qed.
Lemma linked_Full (sh v : dval) (h : heap) :
  isCall (run2 c_tensor_Full sibFuel sibFuel [sh; v; initConf] h) (lib "cputensor.Full" [sh; v; DB true] h).
Proof. rewrite initConf_cfg. exact (Full_spec fltb fleb lib sibFuel sibFuel sh v (Some (1, DB true)) h). Qed.

(* ================= 1. Init end to end ================= *)

(* Each Init under [cextI] is CompInitP's theorem about Init under any oracle: tensorInitConf answers [initConf]
   (above), the conversion float64 is the leaf oracle's (no layer links it), and the final call tensor.RandU /
   RandN / Full is the linked entry point of package tensor, which hands over to cputensor (linked_RandU, linked_RandN, linked_Full). *)

Theorem Full_Init_e2e fuel depth (v : A) (sh : dval) (h : heap) :
  isCall (runI c_Full_Init fuel depth [DF v; sh] h) (lib "cputensor.Full" [sh; DF v; DB true] h).
Proof.
  eapply isCall_trans; [|apply linked_Full].
  exact (CompInitP.Full_Init_under (cextI fltb fleb lib) fuel depth v sh initConf h h (cextI_tensorInitConf h)).
Qed.

Theorem XavierUniform_Init_e2e fuel depth (fi fo : Z) (sh : dval) (h : heap) :
  0 <= fi + fo ->
  let r := sqrtOver 6 (fi + fo) in
  isCall (runI c_XavierUniform_Init fuel depth [DI fi; DI fo; sh] h)
         (lib "cputensor.RandU" [sh; DF (ssub (sconst 0 0) r); DF r; DB true] h).
Proof.
  intros Hn r. eapply isCall_trans; [|apply linked_RandU].
  exact (CompInitP.XavierUniform_Init_under fltb fleb lib (cextI fltb fleb lib) fuel depth fi fo sh initConf h h
           (fun _ => eq_refl) Hn (cextI_tensorInitConf h)).
Qed.

Theorem XavierNormal_Init_e2e fuel depth (fi fo : Z) (sh : dval) (h : heap) :
  0 <= fi + fo ->
  isCall (runI c_XavierNormal_Init fuel depth [DI fi; DI fo; sh] h)
         (lib "cputensor.RandN" [sh; DF (sconst 0 0); DF (sqrtOver 2 (fi + fo)); DB true] h).
Proof.
  intros Hn. eapply isCall_trans; [|apply linked_RandN].
  exact (CompInitP.XavierNormal_Init_under fltb fleb lib (cextI fltb fleb lib) fuel depth fi fo sh initConf h h
           (fun _ => eq_refl) Hn (cextI_tensorInitConf h)).
Qed.

Theorem HeUniform_Init_e2e fuel depth (f : Z) (sh : dval) (h : heap) :
  0 <= f ->
  let r := sqrtOver 6 f in
  isCall (runI c_HeUniform_Init fuel depth [DI f; sh] h)
         (lib "cputensor.RandU" [sh; DF (ssub (sconst 0 0) r); DF r; DB true] h).
Proof.
  intros Hn r. eapply isCall_trans; [|apply linked_RandU].
  exact (CompInitP.HeUniform_Init_under fltb fleb lib (cextI fltb fleb lib) fuel depth f sh initConf h h
           (fun _ => eq_refl) Hn (cextI_tensorInitConf h)).
Qed.

Theorem HeNormal_Init_e2e fuel depth (f : Z) (sh : dval) (h : heap) :
  0 <= f ->
  isCall (runI c_HeNormal_Init fuel depth [DI f; sh] h)
         (lib "cputensor.RandN" [sh; DF (sconst 0 0); DF (sqrtOver 2 f); DB true] h).
Proof.
  intros Hn. eapply isCall_trans; [|apply linked_RandN].
  exact (CompInitP.HeNormal_Init_under fltb fleb lib (cextI fltb fleb lib) fuel depth f sh initConf h h
           (fun _ => eq_refl) Hn (cextI_tensorInitConf h)).
Qed.

Theorem Uniform_Init_e2e fuel depth (l u : A) (sh : dval) (h : heap) :
  isCall (runI c_Uniform_Init fuel depth [DF l; DF u; sh] h) (lib "cputensor.RandU" [sh; DF l; DF u; DB true] h).
Proof.
  eapply isCall_trans; [|apply linked_RandU].
  exact (CompInitP.Uniform_Init_under (cextI fltb fleb lib) fuel depth l u sh initConf h h (cextI_tensorInitConf h)).
Qed.

Theorem Normal_Init_e2e fuel depth (m s : A) (sh : dval) (h : heap) :
  isCall (runI c_Normal_Init fuel depth [DF m; DF s; sh] h) (lib "cputensor.RandN" [sh; DF m; DF s; DB true] h).
Proof.
  eapply isCall_trans; [|apply linked_RandN].
  exact (CompInitP.Normal_Init_under (cextI fltb fleb lib) fuel depth m s sh initConf h h (cextI_tensorInitConf h)).
Qed.

(* a negative fan (excluded by the constructors) panics in the conversion, before package tensor is reached *)
Theorem HeUniform_Init_e2e_neg fuel depth (f : Z) (sh : dval) (h : heap) :
  f < 0 -> runI c_HeUniform_Init fuel depth [DI f; sh] h = DPanic heap.
Proof. exact (CompInitP.HeUniform_Init_neg_under fltb fleb lib (cextI fltb fleb lib) fuel depth f sh h (fun _ => eq_refl)). Qed.

(* ================= 2. no panic of its own ================= *)
(* the "unreachable" panic of the device switch of package tensor, the error branch of prepareConfig and the
   conversion are not reached: the outcome is a panic only if the cputensor call itself failed (no result, or not
   two results) *)

Corollary XavierUniform_never_reaches_a_panic fuel depth (fi fo : Z) (sh : dval) (h : heap) :
  0 <= fi + fo ->
  runI c_XavierUniform_Init fuel depth [DI fi; DI fo; sh] h = DPanic heap ->
  let r := sqrtOver 6 (fi + fo) in
  libFails 2 (lib "cputensor.RandU" [sh; DF (ssub (sconst 0 0) r); DF r; DB true] h).
Proof. intros Hn E. exact (isCall_panic _ _ (XavierUniform_Init_e2e fuel depth fi fo sh h Hn) E). Qed.

Corollary XavierNormal_never_reaches_a_panic fuel depth (fi fo : Z) (sh : dval) (h : heap) :
  0 <= fi + fo ->
  runI c_XavierNormal_Init fuel depth [DI fi; DI fo; sh] h = DPanic heap ->
  libFails 2 (lib "cputensor.RandN" [sh; DF (sconst 0 0); DF (sqrtOver 2 (fi + fo)); DB true] h).
Proof. intros Hn E. exact (isCall_panic _ _ (XavierNormal_Init_e2e fuel depth fi fo sh h Hn) E). Qed.

Corollary HeUniform_never_reaches_a_panic fuel depth (f : Z) (sh : dval) (h : heap) :
  0 <= f ->
  runI c_HeUniform_Init fuel depth [DI f; sh] h = DPanic heap ->
  let r := sqrtOver 6 f in
  libFails 2 (lib "cputensor.RandU" [sh; DF (ssub (sconst 0 0) r); DF r; DB true] h).
Proof. intros Hn E. exact (isCall_panic _ _ (HeUniform_Init_e2e fuel depth f sh h Hn) E). Qed.

Corollary HeNormal_never_reaches_a_panic fuel depth (f : Z) (sh : dval) (h : heap) :
  0 <= f ->
  runI c_HeNormal_Init fuel depth [DI f; sh] h = DPanic heap ->
  libFails 2 (lib "cputensor.RandN" [sh; DF (sconst 0 0); DF (sqrtOver 2 f); DB true] h).
Proof. intros Hn E. exact (isCall_panic _ _ (HeNormal_Init_e2e fuel depth f sh h Hn) E). Qed.

Corollary Uniform_never_reaches_a_panic fuel depth (l u : A) (sh : dval) (h : heap) :
  runI c_Uniform_Init fuel depth [DF l; DF u; sh] h = DPanic heap ->
  libFails 2 (lib "cputensor.RandU" [sh; DF l; DF u; DB true] h).
Proof. intros E. exact (isCall_panic _ _ (Uniform_Init_e2e fuel depth l u sh h) E). Qed.

Corollary Normal_never_reaches_a_panic fuel depth (m s : A) (sh : dval) (h : heap) :
  runI c_Normal_Init fuel depth [DF m; DF s; sh] h = DPanic heap ->
  libFails 2 (lib "cputensor.RandN" [sh; DF m; DF s; DB true] h).
Proof. intros E. exact (isCall_panic _ _ (Normal_Init_e2e fuel depth m s sh h) E). Qed.

Corollary Full_never_reaches_a_panic fuel depth (v : A) (sh : dval) (h : heap) :
  runI c_Full_Init fuel depth [DF v; sh] h = DPanic heap ->
  libFails 2 (lib "cputensor.Full" [sh; DF v; DB true] h).
Proof. intros E. exact (isCall_panic _ _ (Full_Init_e2e fuel depth v sh h) E). Qed.

(* C18 in one sentence: whatever an Init returns is what cputensor returned for a request with tracking ON *)
Corollary Full_Init_returns_tracked fuel depth (v : A) (sh : dval) (vs : list dval) (h h2 : heap) :
  outcome (runI c_Full_Init fuel depth [DF v; sh] h) = Some (vs, h2) ->
  lib "cputensor.Full" [sh; DF v; DB true] h = Some (vs, h2).
Proof.
  intros E. destruct (Full_Init_e2e fuel depth v sh h) as [S1 [S2 S3]].
  destruct (lib "cputensor.Full" [sh; DF v; DB true] h) as [[rs h3]|] eqn:L.
  - destruct rs as [|a0 [|a1 [|a2 rs]]];
      try (rewrite (S3 _ _ eq_refl) in E; [discriminate E | cbn [length]; lia]).
    rewrite (S1 a0 a1 h3 eq_refl) in E. exact E.
  - rewrite (S2 eq_refl) in E. discriminate E.
Qed.

End CompInitE2E.
Print Assumptions tensorInitConf_run.
Print Assumptions cextI_tensorInitConf.
Print Assumptions Full_Init_e2e.
Print Assumptions XavierUniform_Init_e2e.
Print Assumptions XavierNormal_Init_e2e.
Print Assumptions HeUniform_Init_e2e.
Print Assumptions HeNormal_Init_e2e.
Print Assumptions Uniform_Init_e2e.
Print Assumptions Normal_Init_e2e.
Print Assumptions HeUniform_Init_e2e_neg.
Print Assumptions XavierUniform_never_reaches_a_panic.
Print Assumptions XavierNormal_never_reaches_a_panic.
Print Assumptions HeUniform_never_reaches_a_panic.
Print Assumptions HeNormal_never_reaches_a_panic.
Print Assumptions Uniform_never_reaches_a_panic.
Print Assumptions Normal_never_reaches_a_panic.
Print Assumptions Full_never_reaches_a_panic.
Print Assumptions Full_Init_returns_tracked.

(* ================= examples over the free scalar algebra [term] ================= *)
Module Examples.
Definition tb (a b : term) : bool := true.
(* a cputensor that echoes its arguments; RandN fails; Full returns one result only.  Nothing is said about
   tensorInitConf / tensor.*: they are linked *)
Definition elib (f : string) (args : list (@dval term)) (h : @heap term)
  : option (list (@dval term) * @heap term) :=
  if String.eqb f "cputensor.RandN" then None
  else if String.eqb f "cputensor.Full" then Some ([DI 5], h)
  else Some ([DL (DI 7 :: args); DI 0], h).
Definition elib2 (f : string) (args : list (@dval term)) (h : @heap term)
  : option (list (@dval term) * @heap term) := Some ([DL (DI 7 :: args); DI 0], h).
Definition h0 : @heap term := [].
Notation erunI p := (drun cfapp (@heap term) (cextI tb tb elib) p 0%nat 0%nat).
Notation erunI2 p := (drun cfapp (@heap term) (cextI tb tb elib2) p 0%nat 0%nat).

Example ex_tensorInitConf : cextI tb tb elib "tensorInitConf" [] h0 = Some ([DL [DI 1; DB true]], h0).
Proof. vm_compute. reflexivity. Qed.

Example ex_XavierUniform_Init_e2e :
  outcome (erunI c_XavierUniform_Init [DI 4; DI 3; DL [DI 2]] h0)
  = Some ([DL [DI 7; DL [DI 2];
               DF (TBin BSub (TConst 0 0) (TUn USqrt (TBin BDiv (TConst 6 0) (TNat 7))));
               DF (TUn USqrt (TBin BDiv (TConst 6 0) (TNat 7))); DB true]; DI 0], h0).
Proof. vm_compute. reflexivity. Qed.

Example ex_Uniform_Init_e2e :
  outcome (erunI c_Uniform_Init [DF (TConst (-5) (-2)); DF (TConst 5 (-2)); DL [DI 2; DI 3]] h0)
  = Some ([DL [DI 7; DL [DI 2; DI 3]; DF (TConst (-5) (-2)); DF (TConst 5 (-2)); DB true]; DI 0], h0).
Proof. vm_compute. reflexivity. Qed.

Example ex_Full_Init_e2e :
  outcome (erunI2 c_Full_Init [DF (TConst 3 0); DL [DI 2]] h0)
  = Some ([DL [DI 7; DL [DI 2]; DF (TConst 3 0); DB true]; DI 0], h0).
Proof. vm_compute. reflexivity. Qed.

Example ex_HeNormal_Init_e2e :
  outcome (erunI2 c_HeNormal_Init [DI 5; DL [DI 2; DI 3]] h0)
  = Some ([DL [DI 7; DL [DI 2; DI 3]; DF (TConst 0 0); DF (TUn USqrt (TBin BDiv (TConst 2 0) (TNat 5))); DB true];
           DI 0], h0).
Proof. vm_compute. reflexivity. Qed.

(* a panic comes from cputensor only: no result, or the wrong number of results; or from a negative fan *)
Example ex_HeNormal_lib_fails : erunI c_HeNormal_Init [DI 5; DL [DI 2; DI 3]] h0 = DPanic _.
Proof. vm_compute. reflexivity. Qed.
Example ex_Full_lib_arity : erunI c_Full_Init [DF (TConst 3 0); DL [DI 2]] h0 = DPanic _.
Proof. vm_compute. reflexivity. Qed.
Example ex_HeUniform_neg : erunI2 c_HeUniform_Init [DI (-5); DL [DI 2]] h0 = DPanic _.
Proof. vm_compute. reflexivity. Qed.
End Examples.
