(* CompInitP.v — component/initializers (+ the config validators / constructors of SGD, LeakyRelu, Softmax) as
   translated by harness/gox into the DataIR programs of Model/GoComp.v, run with the oracle Model/CompExt.v:
   1. the config validators return a copy of the config (the default literals for a nil config) and an error
      flag: for the fan configs (He.., Xavier..) the flag is Components.init_valid; for Uniform / Normal it is the
      oracle's float comparison of the two fields, which is init_valid when that comparison agrees with the exact
      one on the literals (…_config_dec); Softmax: the dimension is non-negative; Full, SGD, LeakyRelu have no
      error result;
   2. the constructors build the component from the validated config exactly when the flag is clear;
   3. the Init methods call tensor.RandU / RandN / Full with the arguments Components.init_value passes to
      v_randu / v_randn / v_full (scale formulas sqrtOver 6 / sqrtOver 2). *)
From Coq Require Import String List ZArith Bool Lia Arith.
From Qeep Require Import Model.Scalar Model.Nd Model.Fill Model.Data Model.Valid Model.Api Model.Grad Model.Backprop
     Model.Components Model.Consts Model.DataIR Model.HeapExt Model.GoComp Model.CompExt Proofs.DataIRP Proofs.CompBaseP.
From Qeep Require Model.GoIR.
Import ListNotations.
Local Open Scope string_scope.
Local Open Scope Z_scope.
Local Open Scope list_scope.

Section CompInit.
Context {A : Type} {SA : Scalar A}.
Notation heap := (@heap A).
Notation dval := (@dval A).
Variables (fltb fleb : A -> A -> bool) (lib : string -> list dval -> heap -> option (list dval * heap)).
Notation run0 p := (drun cfapp heap (cext0 fltb fleb lib) p).   (* leaf functions *)
Notation run p := (drun cfapp heap (cext fltb fleb lib) p).     (* functions that call siblings *)
Notation oracle := (string -> list dval -> heap -> option (list dval * heap)).

Definition outcome (o : @doutcome A heap) : option (list dval * heap) :=
  match o with DRet _ vs s _ _ => Some (vs, s) | _ => None end.

Definition flag (ok : bool) : dval := DI (if ok then 0 else 1).

(* config pointers: nil or the list of the fields *)
Definition cfgI1 (c : option Z) : dval := match c with None => DNil | Some f => DL [DI f] end.
Definition cfgI2 (c : option (Z * Z)) : dval := match c with None => DNil | Some (a, b) => DL [DI a; DI b] end.
Definition cfgF1 (c : option A) : dval := match c with None => DNil | Some v => DL [DF v] end.
Definition cfgF2 (c : option (A * A)) : dval := match c with None => DNil | Some (a, b) => DL [DF a; DF b] end.

Lemma leb0_ltb0 z : (z <=? 0) = negb (0 <? z).
Proof. destruct (Z.leb_spec z 0), (Z.ltb_spec 0 z); try reflexivity; lia. Qed.
Lemma ltb0_leb0 z : (z <? 0) = negb (0 <=? z).
Proof. destruct (Z.ltb_spec z 0), (Z.leb_spec 0 z); try reflexivity; lia. Qed.

Theorem HeUniform_config dl du ds fuel depth (c : option Z) (h : heap) :
  outcome (run0 c_HeUniform_toValidHeUniformConfig fuel depth [cfgI1 c] h)
  = Some ([cfgI1 c; flag (init_valid dl du ds (IHeUniform c))], h).
Proof.
  start c_HeUniform_toValidHeUniformConfig.
  destruct c as [f|]; cbn [cfgI1 init_valid flag]; dxs; zb; dxs.
  - rewrite leb0_ltb0. destruct (0 <? f); cbn [negb]; dxs; reflexivity.
  - reflexivity.
Qed.

(* HeNormal's validator is the same program; init_valid makes the same test for both specs *)
Theorem HeNormal_config dl du ds fuel depth (c : option Z) (h : heap) :
  outcome (run0 c_HeNormal_toValidHeNormalConfig fuel depth [cfgI1 c] h)
  = Some ([cfgI1 c; flag (init_valid dl du ds (IHeNormal c))], h).
Proof. exact (HeUniform_config dl du ds fuel depth c h). Qed.

Theorem XavierUniform_config dl du ds fuel depth (c : option (Z * Z)) (h : heap) :
  outcome (run0 c_XavierUniform_toValidXavierUniformConfig fuel depth [cfgI2 c] h)
  = Some ([cfgI2 c; flag (init_valid dl du ds (IXavierUniform c))], h).
Proof.
  start c_XavierUniform_toValidXavierUniformConfig.
  destruct c as [[fi fo]|]; cbn [cfgI2 init_valid flag]; dxs; zb; dxs.
  - rewrite leb0_ltb0. destruct (0 <? fi); cbn [negb andb]; dxs; zb; dxs; [|reflexivity].
    rewrite leb0_ltb0. destruct (0 <? fo); cbn [negb]; dxs; reflexivity.
  - reflexivity.
Qed.

(* likewise XavierNormal *)
Theorem XavierNormal_config dl du ds fuel depth (c : option (Z * Z)) (h : heap) :
  outcome (run0 c_XavierNormal_toValidXavierNormalConfig fuel depth [cfgI2 c] h)
  = Some ([cfgI2 c; flag (init_valid dl du ds (IXavierNormal c))], h).
Proof. exact (XavierUniform_config dl du ds fuel depth c h). Qed.

(* Softmax: the dimension must be non-negative; nil config: dimension 0 *)
Theorem Softmax_config fuel depth (c : option Z) (h : heap) :
  let d := match c with Some d => d | None => 0 end in
  outcome (run0 c_Softmax_toValidSoftmaxConfig fuel depth [cfgI1 c] h) = Some ([DL [DI d]; flag (0 <=? d)], h).
Proof.
  start c_Softmax_toValidSoftmaxConfig.
  destruct c as [d|]; cbn [cfgI1 flag]; dxs; zb; dxs.
  - rewrite ltb0_leb0. destruct (0 <=? d); cbn [negb]; dxs; reflexivity.
  - reflexivity.
Qed.

Lemma cext0_flt a b (h : heap) : cext0 fltb fleb lib "f<" [DF a; DF b] h = Some ([DB (fltb a b)], h).
Proof. reflexivity. Qed.
Lemma cext0_fgt a b (h : heap) : cext0 fltb fleb lib "f>" [DF a; DF b] h = Some ([DB (fltb b a)], h).
Proof. reflexivity. Qed.

Definition uniDefault : A * A := (sconst (-5) (-2), sconst 5 (-2)).
Definition norDefault : A * A := (sconst 0 0, sconst 5 (-2)).

Theorem Uniform_config fuel depth (c : option (A * A)) (h : heap) :
  let '(l, u) := match c with Some p => p | None => uniDefault end in
  outcome (run0 c_Uniform_toValidUniformConfig fuel depth [cfgF2 c] h) = Some ([DL [DF l; DF u]; flag (fltb l u)], h).
Proof.
  start c_Uniform_toValidUniformConfig.
  destruct c as [[l u]|]; cbn [cfgF2 uniDefault flag]; dxs; zb; dxs; rewrite cext0_flt; dxs.
  - destruct (fltb l u); dxs; reflexivity.
  - destruct (fltb _ _); dxs; reflexivity.
Qed.

Theorem Normal_config fuel depth (c : option (A * A)) (h : heap) :
  let '(m, s) := match c with Some p => p | None => norDefault end in
  outcome (run0 c_Normal_toValidNormalConfig fuel depth [cfgF2 c] h)
  = Some ([DL [DF m; DF s]; flag (fltb (sconst 0 0) s)], h).
Proof.
  start c_Normal_toValidNormalConfig.
  destruct c as [[m s]|]; cbn [cfgF2 norDefault flag]; dxs; zb; dxs; rewrite cext0_fgt; dxs.
  - destruct (fltb _ s); dxs; reflexivity.
  - destruct (fltb _ _); dxs; reflexivity.
Qed.

(* decimal configs, as the model's scenario language passes them *)
Definition cfgD1 (c : option dec) : dval := cfgF1 (option_map dcst c).
Definition cfgD2 (c : option (dec * dec)) : dval := cfgF2 (option_map (fun p => (dcst (fst p), dcst (snd p))) c).

(* the defaults of the programs are the constants harness/constx extracts into Model/Consts.v *)
Lemma uniDefault_consts : uniDefault = (dcst c_uniform_lower, dcst c_uniform_upper).
Proof. reflexivity. Qed.
Lemma norDefault_consts : norDefault = (dcst c_normal_mean, dcst c_normal_stddev).
Proof. reflexivity. Qed.

(* if the float comparison of the two literals agrees with the exact one, the validator is init_valid *)
Corollary Uniform_config_dec dUniL dUniU dNorS fuel depth (l u : dec) (h : heap) :
  fltb (dcst l) (dcst u) = dec_lt l u ->
  outcome (run0 c_Uniform_toValidUniformConfig fuel depth [cfgD2 (Some (l, u))] h)
  = Some ([DL [DF (dcst l); DF (dcst u)]; flag (init_valid dUniL dUniU dNorS (IUniform (Some (l, u))))], h).
Proof.
  intros H. pose proof (Uniform_config fuel depth (Some (dcst l, dcst u)) h) as E. cbv beta iota in E.
  unfold cfgD2; cbn [option_map fst snd init_valid]. rewrite E, H. reflexivity.
Qed.

Corollary Uniform_config_dec_nil dNorS fuel depth (h : heap) :
  fltb (dcst c_uniform_lower) (dcst c_uniform_upper) = dec_lt c_uniform_lower c_uniform_upper ->
  outcome (run0 c_Uniform_toValidUniformConfig fuel depth [cfgD2 None] h)
  = Some ([DL [DF (dcst c_uniform_lower); DF (dcst c_uniform_upper)];
           flag (init_valid c_uniform_lower c_uniform_upper dNorS (IUniform None))], h).
Proof.
  intros H. pose proof (Uniform_config fuel depth None h) as E. cbv beta iota in E.
  rewrite uniDefault_consts in E. unfold cfgD2; cbn [option_map init_valid]. rewrite E, H. reflexivity.
Qed.

(* the literal 0 compared with a decimal literal: exact comparison is dec_pos *)
Corollary Normal_config_dec dUniL dUniU dNorS fuel depth (m s : dec) (h : heap) :
  fltb (sconst 0 0) (dcst s) = dec_pos s ->
  outcome (run0 c_Normal_toValidNormalConfig fuel depth [cfgD2 (Some (m, s))] h)
  = Some ([DL [DF (dcst m); DF (dcst s)]; flag (init_valid dUniL dUniU dNorS (INormal (Some (m, s))))], h).
Proof.
  intros H. pose proof (Normal_config fuel depth (Some (dcst m, dcst s)) h) as E. cbv beta iota in E.
  unfold cfgD2; cbn [option_map fst snd init_valid]. rewrite E, H. reflexivity.
Qed.

Corollary Normal_config_dec_nil dUniL dUniU fuel depth (h : heap) :
  fltb (sconst 0 0) (dcst c_normal_stddev) = dec_pos c_normal_stddev ->
  outcome (run0 c_Normal_toValidNormalConfig fuel depth [cfgD2 None] h)
  = Some ([DL [DF (dcst c_normal_mean); DF (dcst c_normal_stddev)];
           flag (init_valid dUniL dUniU c_normal_stddev (INormal None))], h).
Proof.
  intros H. pose proof (Normal_config fuel depth None h) as E. cbv beta iota in E.
  rewrite norDefault_consts in E. unfold cfgD2; cbn [option_map init_valid]. rewrite E, H. reflexivity.
Qed.

(* total validators: nil gives the default literal, non-nil a copy *)
Theorem Full_config fuel depth (c : option A) (h : heap) :
  outcome (run0 c_Full_toValidFullConfig fuel depth [cfgF1 c] h)
  = Some ([DL [DF (match c with Some v => v | None => sconst 0 0 end)]], h).
Proof. start c_Full_toValidFullConfig. destruct c as [v|]; cbn [cfgF1]; dxs; reflexivity. Qed.

Theorem SGD_config fuel depth (c : option A) (h : heap) :
  outcome (run0 c_SGD_toValidSGDConfig fuel depth [cfgF1 c] h)
  = Some ([DL [DF (match c with Some v => v | None => sconst 1 (-2) end)]], h).
Proof. start c_SGD_toValidSGDConfig. destruct c as [v|]; cbn [cfgF1]; dxs; reflexivity. Qed.

(* toValidLeakyReluConfig is the program of toValidSGDConfig (same default literal) *)
Theorem LeakyRelu_config fuel depth (c : option A) (h : heap) :
  outcome (run0 c_LeakyRelu_toValidLeakyReluConfig fuel depth [cfgF1 c] h)
  = Some ([DL [DF (match c with Some v => v | None => sconst 1 (-2) end)]], h).
Proof. exact (SGD_config fuel depth c h). Qed.

(* the same with the model's constants *)
Corollary Full_config_dec fuel depth (c : option dec) (h : heap) :
  outcome (run0 c_Full_toValidFullConfig fuel depth [cfgD1 c] h)
  = Some ([DL [DF (dcst (match c with Some d => d | None => c_full_value end))]], h).
Proof. unfold cfgD1. rewrite Full_config. destruct c; reflexivity. Qed.
Corollary SGD_config_dec fuel depth (c : option dec) (h : heap) :
  outcome (run0 c_SGD_toValidSGDConfig fuel depth [cfgD1 c] h)
  = Some ([DL [DF (dcst (match c with Some d => d | None => c_sgd_lr end))]], h).
Proof. unfold cfgD1. rewrite SGD_config. destruct c; reflexivity. Qed.
Corollary LeakyRelu_config_dec fuel depth (c : option dec) (h : heap) :
  outcome (run0 c_LeakyRelu_toValidLeakyReluConfig fuel depth [cfgD1 c] h)
  = Some ([DL [DF (dcst (match c with Some d => d | None => c_leaky_m end))]], h).
Proof. unfold cfgD1. rewrite LeakyRelu_config. destruct c; reflexivity. Qed.

(* the constructors call the validators above: they run with the linked oracle [cext] *)

Theorem NewHeUniform dl du ds fuel depth (c : option Z) (h : heap) :
  outcome (run c_HeUniform_NewHeUniform fuel depth [cfgI1 c] h)
  = Some (if init_valid dl du ds (IHeUniform c) then [cfgI1 c; DI 0] else [DNil; DI 1], h).
Proof.
  start c_HeUniform_NewHeUniform. rewrite (cext_ret fltb fleb lib "toValidHeUniformConfig" eq_refl (HeUniform_config dl du ds _ _ c h)). dxs.
  destruct c as [f|]; cbn [cfgI1 flag]; [destruct (init_valid dl du ds (IHeUniform (Some f)))|cbn [init_valid]];
    dxs; zb; dxs; reflexivity.
Qed.

Theorem NewHeNormal dl du ds fuel depth (c : option Z) (h : heap) :
  outcome (run c_HeNormal_NewHeNormal fuel depth [cfgI1 c] h)
  = Some (if init_valid dl du ds (IHeNormal c) then [cfgI1 c; DI 0] else [DNil; DI 1], h).
Proof.
  start c_HeNormal_NewHeNormal. rewrite (cext_ret fltb fleb lib "toValidHeNormalConfig" eq_refl (HeNormal_config dl du ds _ _ c h)). dxs.
  destruct c as [f|]; cbn [cfgI1 flag]; [destruct (init_valid dl du ds (IHeNormal (Some f)))|cbn [init_valid]];
    dxs; zb; dxs; reflexivity.
Qed.

Theorem NewXavierUniform dl du ds fuel depth (c : option (Z * Z)) (h : heap) :
  outcome (run c_XavierUniform_NewXavierUniform fuel depth [cfgI2 c] h)
  = Some (if init_valid dl du ds (IXavierUniform c) then [cfgI2 c; DI 0] else [DNil; DI 1], h).
Proof.
  start c_XavierUniform_NewXavierUniform. rewrite (cext_ret fltb fleb lib "toValidXavierUniformConfig" eq_refl (XavierUniform_config dl du ds _ _ c h)). dxs.
  destruct c as [[fi fo]|]; cbn [cfgI2 flag];
    [destruct (init_valid dl du ds (IXavierUniform (Some (fi, fo))))|cbn [init_valid]];
    dxs; zb; dxs; reflexivity.
Qed.

Theorem NewXavierNormal dl du ds fuel depth (c : option (Z * Z)) (h : heap) :
  outcome (run c_XavierNormal_NewXavierNormal fuel depth [cfgI2 c] h)
  = Some (if init_valid dl du ds (IXavierNormal c) then [cfgI2 c; DI 0] else [DNil; DI 1], h).
Proof.
  start c_XavierNormal_NewXavierNormal. rewrite (cext_ret fltb fleb lib "toValidXavierNormalConfig" eq_refl (XavierNormal_config dl du ds _ _ c h)). dxs.
  destruct c as [[fi fo]|]; cbn [cfgI2 flag];
    [destruct (init_valid dl du ds (IXavierNormal (Some (fi, fo))))|cbn [init_valid]];
    dxs; zb; dxs; reflexivity.
Qed.

Theorem NewUniform fuel depth (c : option (A * A)) (h : heap) :
  let '(l, u) := match c with Some p => p | None => uniDefault end in
  outcome (run c_Uniform_NewUniform fuel depth [cfgF2 c] h)
  = Some (if fltb l u then [DL [DF l; DF u]; DI 0] else [DNil; DI 1], h).
Proof.
  pose proof (Uniform_config sibFuel sibFuel c h) as E.
  start c_Uniform_NewUniform.
  destruct (match c with Some p => p | None => uniDefault end) as [l u].
  rewrite (cext_ret fltb fleb lib "toValidUniformConfig" eq_refl E). unfold flag. destruct (fltb l u); dxs; zb; dxs; reflexivity.
Qed.

Theorem NewNormal fuel depth (c : option (A * A)) (h : heap) :
  let '(m, s) := match c with Some p => p | None => norDefault end in
  outcome (run c_Normal_NewNormal fuel depth [cfgF2 c] h)
  = Some (if fltb (sconst 0 0) s then [DL [DF m; DF s]; DI 0] else [DNil; DI 1], h).
Proof.
  pose proof (Normal_config sibFuel sibFuel c h) as E.
  start c_Normal_NewNormal.
  destruct (match c with Some p => p | None => norDefault end) as [m s].
  rewrite (cext_ret fltb fleb lib "toValidNormalConfig" eq_refl E). unfold flag. destruct (fltb (sconst 0 0) s); dxs; zb; dxs; reflexivity.
Qed.

(* with decimal literals whose float comparison is exact: the constructor succeeds exactly when init_valid holds *)
Corollary NewUniform_dec dNorS fuel depth (c : option (dec * dec)) (h : heap) :
  let '(l, u) := match c with Some p => p | None => (c_uniform_lower, c_uniform_upper) end in
  fltb (dcst l) (dcst u) = dec_lt l u ->
  outcome (run c_Uniform_NewUniform fuel depth [cfgD2 c] h)
  = Some (if init_valid c_uniform_lower c_uniform_upper dNorS (IUniform c)
          then [DL [DF (dcst l); DF (dcst u)]; DI 0] else [DNil; DI 1], h).
Proof.
  pose proof (NewUniform fuel depth (option_map (fun p => (dcst (fst p), dcst (snd p))) c) h) as E.
  unfold cfgD2. destruct c as [[l u]|]; cbn [option_map fst snd init_valid] in *; intros H.
  - rewrite E, H. reflexivity.
  - rewrite uniDefault_consts in E. rewrite E, H. reflexivity.
Qed.

Corollary NewNormal_dec dUniL dUniU fuel depth (c : option (dec * dec)) (h : heap) :
  let '(m, s) := match c with Some p => p | None => (c_normal_mean, c_normal_stddev) end in
  fltb (sconst 0 0) (dcst s) = dec_pos s ->
  outcome (run c_Normal_NewNormal fuel depth [cfgD2 c] h)
  = Some (if init_valid dUniL dUniU c_normal_stddev (INormal c)
          then [DL [DF (dcst m); DF (dcst s)]; DI 0] else [DNil; DI 1], h).
Proof.
  pose proof (NewNormal fuel depth (option_map (fun p => (dcst (fst p), dcst (snd p))) c) h) as E.
  unfold cfgD2. destruct c as [[m s]|]; cbn [option_map fst snd init_valid] in *; intros H.
  - rewrite E, H. reflexivity.
  - rewrite norDefault_consts in E. rewrite E, H. reflexivity.
Qed.

Theorem NewSoftmax fuel depth (c : option Z) (h : heap) :
  let d := match c with Some d => d | None => 0 end in
  outcome (run c_Softmax_NewSoftmax fuel depth [cfgI1 c] h)
  = Some (if 0 <=? d then [DL [DI d]; DI 0] else [DNil; DI 1], h).
Proof.
  intros d. pose proof (Softmax_config sibFuel sibFuel c h) as E. cbv zeta in E. fold d in E.
  start c_Softmax_NewSoftmax. rewrite (cext_ret fltb fleb lib "toValidSoftmaxConfig" eq_refl E). unfold flag.
  destruct (0 <=? d); dxs; zb; dxs; reflexivity.
Qed.

(* constructors without an error result *)
Theorem NewFull fuel depth (c : option A) (h : heap) :
  outcome (run c_Full_NewFull fuel depth [cfgF1 c] h)
  = Some ([DL [DF (match c with Some v => v | None => sconst 0 0 end)]], h).
Proof. start c_Full_NewFull. rewrite (cext_ret fltb fleb lib "toValidFullConfig" eq_refl (Full_config _ _ c h)). go. reflexivity. Qed.

Theorem NewSGD fuel depth (c : option A) (h : heap) :
  outcome (run c_SGD_NewSGD fuel depth [cfgF1 c] h)
  = Some ([DL [DF (match c with Some v => v | None => sconst 1 (-2) end)]], h).
Proof. start c_SGD_NewSGD. rewrite (cext_ret fltb fleb lib "toValidSGDConfig" eq_refl (SGD_config _ _ c h)). go. reflexivity. Qed.

Theorem NewLeakyRelu fuel depth (c : option A) (h : heap) :
  outcome (run c_LeakyRelu_NewLeakyRelu fuel depth [cfgF1 c] h)
  = Some ([DL [DF (match c with Some v => v | None => sconst 1 (-2) end)]], h).
Proof. start c_LeakyRelu_NewLeakyRelu. rewrite (cext_ret fltb fleb lib "toValidLeakyReluConfig" eq_refl (LeakyRelu_config _ _ c h)). go. reflexivity. Qed.

Corollary NewFull_dec fuel depth (c : option dec) (h : heap) :
  outcome (run c_Full_NewFull fuel depth [cfgD1 c] h)
  = Some ([DL [DF (dcst (match c with Some d => d | None => c_full_value end))]], h).
Proof. unfold cfgD1. rewrite NewFull. destruct c; reflexivity. Qed.
Corollary NewSGD_dec fuel depth (c : option dec) (h : heap) :
  outcome (run c_SGD_NewSGD fuel depth [cfgD1 c] h)
  = Some ([DL [DF (dcst (match c with Some d => d | None => c_sgd_lr end))]], h).
Proof. unfold cfgD1. rewrite NewSGD. destruct c; reflexivity. Qed.
Corollary NewLeakyRelu_dec fuel depth (c : option dec) (h : heap) :
  outcome (run c_LeakyRelu_NewLeakyRelu fuel depth [cfgD1 c] h)
  = Some ([DL [DF (dcst (match c with Some d => d | None => c_leaky_m end))]], h).
Proof. unfold cfgD1. rewrite NewLeakyRelu. destruct c; reflexivity. Qed.

(* the program's outcome is the library call's: its two results are returned as they are, with its final heap;
   the program panics when the call does (and when it does not return two results) *)
Definition isCall (o : @doutcome A heap) (call : option (list dval * heap)) : Prop :=
  (forall r0 r1 h2, call = Some ([r0; r1], h2) -> outcome o = Some ([r0; r1], h2)) /\
  (call = None -> o = DPanic heap) /\
  (forall rs h2, call = Some (rs, h2) -> length rs <> 2%nat -> o = DPanic heap).

(* the constants of the model are the literals of the programs *)
Lemma cst_sconst m e : @cst A SA m e = sconst m e.
Proof. reflexivity. Qed.
Lemma sqrtOver_eq c n : @sqrtOver A SA c n = ssqrt (sdiv (sconst c 0) (sofnat (Z.to_nat n))).
Proof. reflexivity. Qed.

(* Every Init asks tensorInitConf for the config, computes its scale (the fan-based ones convert the fan with
   float64) and ends in one call whose two results it returns.  Which oracle layer runs it does not matter: the
   statements are about any oracle [ext] that converts like the leaf oracle; the leaf theorems below and the
   end-to-end ones of CompInitE2EP are instances. *)
Definition converts (ext : oracle) (h : heap) : Prop :=
  forall z, ext "float64" [DI z] h = cext0 fltb fleb lib "float64" [DI z] h.

Lemma XavierUniform_Init_under (ext : oracle) fuel depth (fi fo : Z) (sh cfg : dval) (h h1 : heap) :
  converts ext h -> 0 <= fi + fo ->
  ext "tensorInitConf" [] h = Some ([cfg], h1) ->
  let r := sqrtOver 6 (fi + fo) in
  isCall (drun cfapp heap ext c_XavierUniform_Init fuel depth [DI fi; DI fo; sh] h)
         (ext "tensor.RandU" [sh; DF (ssub (sconst 0 0) r); DF r; cfg] h1).
Proof.
  intros Hf Hn Hc r. subst r. rewrite sqrtOver_eq.
  start c_XavierUniform_Init. rewrite Hf, cext0_float64. apply Z.leb_le in Hn. rewrite Hn. dxs.
  cbn [asFloats cfapp String.eqb Ascii.eqb Bool.eqb]. dxs.
  rewrite Hc. dxs. finish.
Qed.

Lemma XavierNormal_Init_under (ext : oracle) fuel depth (fi fo : Z) (sh cfg : dval) (h h1 : heap) :
  converts ext h -> 0 <= fi + fo ->
  ext "tensorInitConf" [] h = Some ([cfg], h1) ->
  isCall (drun cfapp heap ext c_XavierNormal_Init fuel depth [DI fi; DI fo; sh] h)
         (ext "tensor.RandN" [sh; DF (sconst 0 0); DF (sqrtOver 2 (fi + fo)); cfg] h1).
Proof.
  intros Hf Hn Hc. rewrite sqrtOver_eq.
  start c_XavierNormal_Init. rewrite Hf, cext0_float64. apply Z.leb_le in Hn. rewrite Hn. dxs.
  cbn [asFloats cfapp String.eqb Ascii.eqb Bool.eqb]. dxs.
  rewrite Hc. dxs. finish.
Qed.

Lemma HeUniform_Init_under (ext : oracle) fuel depth (f : Z) (sh cfg : dval) (h h1 : heap) :
  converts ext h -> 0 <= f ->
  ext "tensorInitConf" [] h = Some ([cfg], h1) ->
  let r := sqrtOver 6 f in
  isCall (drun cfapp heap ext c_HeUniform_Init fuel depth [DI f; sh] h)
         (ext "tensor.RandU" [sh; DF (ssub (sconst 0 0) r); DF r; cfg] h1).
Proof.
  intros Hf Hn Hc r. subst r. rewrite sqrtOver_eq.
  start c_HeUniform_Init. rewrite Hf, cext0_float64. apply Z.leb_le in Hn. rewrite Hn. dxs.
  cbn [asFloats cfapp String.eqb Ascii.eqb Bool.eqb]. dxs.
  rewrite Hc. dxs. finish.
Qed.

Lemma HeNormal_Init_under (ext : oracle) fuel depth (f : Z) (sh cfg : dval) (h h1 : heap) :
  converts ext h -> 0 <= f ->
  ext "tensorInitConf" [] h = Some ([cfg], h1) ->
  isCall (drun cfapp heap ext c_HeNormal_Init fuel depth [DI f; sh] h)
         (ext "tensor.RandN" [sh; DF (sconst 0 0); DF (sqrtOver 2 f); cfg] h1).
Proof.
  intros Hf Hn Hc. rewrite sqrtOver_eq.
  start c_HeNormal_Init. rewrite Hf, cext0_float64. apply Z.leb_le in Hn. rewrite Hn. dxs.
  cbn [asFloats cfapp String.eqb Ascii.eqb Bool.eqb]. dxs.
  rewrite Hc. dxs. finish.
Qed.

Lemma Uniform_Init_under (ext : oracle) fuel depth (l u : A) (sh cfg : dval) (h h1 : heap) :
  ext "tensorInitConf" [] h = Some ([cfg], h1) ->
  isCall (drun cfapp heap ext c_Uniform_Init fuel depth [DF l; DF u; sh] h) (ext "tensor.RandU" [sh; DF l; DF u; cfg] h1).
Proof. intros Hc. start c_Uniform_Init. rewrite Hc. dxs. finish. Qed.

Lemma Normal_Init_under (ext : oracle) fuel depth (m s : A) (sh cfg : dval) (h h1 : heap) :
  ext "tensorInitConf" [] h = Some ([cfg], h1) ->
  isCall (drun cfapp heap ext c_Normal_Init fuel depth [DF m; DF s; sh] h) (ext "tensor.RandN" [sh; DF m; DF s; cfg] h1).
Proof. intros Hc. start c_Normal_Init. rewrite Hc. dxs. finish. Qed.

Lemma Full_Init_under (ext : oracle) fuel depth (v : A) (sh cfg : dval) (h h1 : heap) :
  ext "tensorInitConf" [] h = Some ([cfg], h1) ->
  isCall (drun cfapp heap ext c_Full_Init fuel depth [DF v; sh] h) (ext "tensor.Full" [sh; DF v; cfg] h1).
Proof. intros Hc. start c_Full_Init. rewrite Hc. dxs. finish. Qed.

(* a negative fan (excluded by the constructors) panics in the conversion: float64 of the oracle is partial *)
Lemma HeUniform_Init_neg_under (ext : oracle) fuel depth (f : Z) (sh : dval) (h : heap) :
  converts ext h -> f < 0 -> drun cfapp heap ext c_HeUniform_Init fuel depth [DI f; sh] h = DPanic heap.
Proof.
  intros Hf Hn. start c_HeUniform_Init. rewrite Hf, cext0_float64. apply Z.leb_gt in Hn. rewrite Hn. reflexivity.
Qed.

(* under the leaf oracle, where tensorInitConf and the tensor constructors are [lib]'s *)

Theorem XavierUniform_Init fuel depth (fi fo : Z) (sh cfg : dval) (h h1 : heap) :
  0 <= fi + fo ->
  lib "tensorInitConf" [] h = Some ([cfg], h1) ->
  let r := sqrtOver 6 (fi + fo) in
  isCall (run0 c_XavierUniform_Init fuel depth [DI fi; DI fo; sh] h)
         (lib "tensor.RandU" [sh; DF (ssub (sconst 0 0) r); DF r; cfg] h1).
Proof. exact (XavierUniform_Init_under _ fuel depth fi fo sh cfg h h1 (fun _ => eq_refl)). Qed.

Theorem XavierNormal_Init fuel depth (fi fo : Z) (sh cfg : dval) (h h1 : heap) :
  0 <= fi + fo ->
  lib "tensorInitConf" [] h = Some ([cfg], h1) ->
  isCall (run0 c_XavierNormal_Init fuel depth [DI fi; DI fo; sh] h)
         (lib "tensor.RandN" [sh; DF (sconst 0 0); DF (sqrtOver 2 (fi + fo)); cfg] h1).
Proof. exact (XavierNormal_Init_under _ fuel depth fi fo sh cfg h h1 (fun _ => eq_refl)). Qed.

Theorem HeUniform_Init fuel depth (f : Z) (sh cfg : dval) (h h1 : heap) :
  0 <= f ->
  lib "tensorInitConf" [] h = Some ([cfg], h1) ->
  let r := sqrtOver 6 f in
  isCall (run0 c_HeUniform_Init fuel depth [DI f; sh] h)
         (lib "tensor.RandU" [sh; DF (ssub (sconst 0 0) r); DF r; cfg] h1).
Proof. exact (HeUniform_Init_under _ fuel depth f sh cfg h h1 (fun _ => eq_refl)). Qed.

Theorem HeNormal_Init fuel depth (f : Z) (sh cfg : dval) (h h1 : heap) :
  0 <= f ->
  lib "tensorInitConf" [] h = Some ([cfg], h1) ->
  isCall (run0 c_HeNormal_Init fuel depth [DI f; sh] h)
         (lib "tensor.RandN" [sh; DF (sconst 0 0); DF (sqrtOver 2 f); cfg] h1).
Proof. exact (HeNormal_Init_under _ fuel depth f sh cfg h h1 (fun _ => eq_refl)). Qed.

Theorem Uniform_Init fuel depth (l u : A) (sh cfg : dval) (h h1 : heap) :
  lib "tensorInitConf" [] h = Some ([cfg], h1) ->
  isCall (run0 c_Uniform_Init fuel depth [DF l; DF u; sh] h) (lib "tensor.RandU" [sh; DF l; DF u; cfg] h1).
Proof. exact (Uniform_Init_under _ fuel depth l u sh cfg h h1). Qed.

Theorem Normal_Init fuel depth (m s : A) (sh cfg : dval) (h h1 : heap) :
  lib "tensorInitConf" [] h = Some ([cfg], h1) ->
  isCall (run0 c_Normal_Init fuel depth [DF m; DF s; sh] h) (lib "tensor.RandN" [sh; DF m; DF s; cfg] h1).
Proof. exact (Normal_Init_under _ fuel depth m s sh cfg h h1). Qed.

Theorem Full_Init fuel depth (v : A) (sh cfg : dval) (h h1 : heap) :
  lib "tensorInitConf" [] h = Some ([cfg], h1) ->
  isCall (run0 c_Full_Init fuel depth [DF v; sh] h) (lib "tensor.Full" [sh; DF v; cfg] h1).
Proof. exact (Full_Init_under _ fuel depth v sh cfg h h1). Qed.

Theorem HeUniform_Init_neg fuel depth (f : Z) (sh : dval) (h : heap) :
  f < 0 -> run0 c_HeUniform_Init fuel depth [DI f; sh] h = DPanic heap.
Proof. exact (HeUniform_Init_neg_under _ fuel depth f sh h (fun _ => eq_refl)). Qed.

(* these are the arguments the model's init_value passes to v_randu / v_randn / v_full *)
Lemma init_value_XavierUniform dF dL dU dM dS fi fo shape pos :
  @init_value A SA dF dL dU dM dS (IXavierUniform (Some (fi, fo))) shape pos
  = let r := sqrtOver 6 (fi + fo) in v_randu shape (ssub (sconst 0 0) r) r true pos.
Proof. reflexivity. Qed.
Lemma init_value_XavierNormal dF dL dU dM dS fi fo shape pos :
  @init_value A SA dF dL dU dM dS (IXavierNormal (Some (fi, fo))) shape pos
  = v_randn shape (sconst 0 0) (sqrtOver 2 (fi + fo)) true pos.
Proof. reflexivity. Qed.
Lemma init_value_HeUniform dF dL dU dM dS f shape pos :
  @init_value A SA dF dL dU dM dS (IHeUniform (Some f)) shape pos
  = let r := sqrtOver 6 f in v_randu shape (ssub (sconst 0 0) r) r true pos.
Proof. reflexivity. Qed.
Lemma init_value_HeNormal dF dL dU dM dS f shape pos :
  @init_value A SA dF dL dU dM dS (IHeNormal (Some f)) shape pos
  = v_randn shape (sconst 0 0) (sqrtOver 2 f) true pos.
Proof. reflexivity. Qed.
Lemma init_value_Uniform dF dL dU dM dS l u shape pos :
  @init_value A SA dF dL dU dM dS (IUniform (Some (l, u))) shape pos
  = v_randu shape (dcst l) (dcst u) (dec_lt l u) pos.
Proof. reflexivity. Qed.
Lemma init_value_Normal dF dL dU dM dS m s shape pos :
  @init_value A SA dF dL dU dM dS (INormal (Some (m, s))) shape pos
  = v_randn shape (dcst m) (dcst s) (dec_pos s) pos.
Proof. reflexivity. Qed.
Lemma init_value_Full dF dL dU dM dS v shape pos :
  @init_value A SA dF dL dU dM dS (IFull (Some v)) shape pos = v_full shape (dcst v).
Proof. reflexivity. Qed.

End CompInit.
Print Assumptions HeUniform_config.
Print Assumptions HeNormal_config.
Print Assumptions XavierUniform_config.
Print Assumptions XavierNormal_config.
Print Assumptions Softmax_config.
Print Assumptions Uniform_config.
Print Assumptions Normal_config.
Print Assumptions Uniform_config_dec.
Print Assumptions Uniform_config_dec_nil.
Print Assumptions Normal_config_dec.
Print Assumptions Normal_config_dec_nil.
Print Assumptions Full_config_dec.
Print Assumptions SGD_config_dec.
Print Assumptions LeakyRelu_config_dec.
Print Assumptions NewHeUniform.
Print Assumptions NewHeNormal.
Print Assumptions NewXavierUniform.
Print Assumptions NewXavierNormal.
Print Assumptions NewUniform.
Print Assumptions NewNormal.
Print Assumptions NewUniform_dec.
Print Assumptions NewNormal_dec.
Print Assumptions NewSoftmax.
Print Assumptions NewFull_dec.
Print Assumptions NewSGD_dec.
Print Assumptions NewLeakyRelu_dec.
Print Assumptions XavierUniform_Init.
Print Assumptions XavierNormal_Init.
Print Assumptions HeUniform_Init.
Print Assumptions HeNormal_Init.
Print Assumptions Uniform_Init.
Print Assumptions Normal_Init.
Print Assumptions Full_Init.
Print Assumptions HeUniform_Init_neg.
Print Assumptions Full_config.
Print Assumptions SGD_config.
Print Assumptions LeakyRelu_config.
Print Assumptions NewFull.
Print Assumptions NewSGD.
Print Assumptions NewLeakyRelu.

Module Examples.
(* exact comparison on literals (what the dec corollaries assume), anything else: false *)
Definition tlt (a b : term) : bool :=
  match a, b with TConst m e, TConst m' e' => dec_lt (m, e) (m', e') | _, _ => false end.
(* a library that echoes its arguments *)
Definition elib (f : string) (args : list (@dval term)) (h : @heap term)
  : option (list (@dval term) * @heap term) :=
  if String.eqb f "tensorInitConf" then Some ([DB true], h) else Some ([DL (DI 7 :: args); DI 0], h).
Definition h0 : @heap term := [].
Notation erun0 p := (drun cfapp (@heap term) (cext0 tlt tlt elib) p 0%nat 0%nat).
Notation erun p := (drun cfapp (@heap term) (cext tlt tlt elib) p 0%nat 0%nat).

Example ex_XavierUniform_Init :
  outcome (erun0 c_XavierUniform_Init [DI 4; DI 3; DL [DI 2]] h0)
  = Some ([DL [DI 7; DL [DI 2];
               DF (TBin BSub (TConst 0 0) (TUn USqrt (TBin BDiv (TConst 6 0) (TNat 7))));
               DF (TUn USqrt (TBin BDiv (TConst 6 0) (TNat 7))); DB true]; DI 0], h0).
Proof. vm_compute. reflexivity. Qed.

Example ex_HeNormal_Init :
  outcome (erun0 c_HeNormal_Init [DI 5; DL [DI 2; DI 3]] h0)
  = Some ([DL [DI 7; DL [DI 2; DI 3]; DF (TConst 0 0); DF (TUn USqrt (TBin BDiv (TConst 2 0) (TNat 5))); DB true];
           DI 0], h0).
Proof. vm_compute. reflexivity. Qed.

Example ex_HeNormal_Init_neg : erun0 c_HeNormal_Init [DI (-5); DL [DI 2; DI 3]] h0 = DPanic _.
Proof. vm_compute. reflexivity. Qed.

Example ex_NewUniform_nil :
  outcome (erun c_Uniform_NewUniform [DNil] h0) = Some ([DL [DF (TConst (-5) (-2)); DF (TConst 5 (-2))]; DI 0], h0).
Proof. vm_compute. reflexivity. Qed.

Example ex_NewUniform_bad :
  outcome (erun c_Uniform_NewUniform [DL [DF (TConst 1 0); DF (TConst 10 (-1))]] h0) = Some ([DNil; DI 1], h0).
Proof. vm_compute. reflexivity. Qed.

Example ex_NewNormal_nil :
  outcome (erun c_Normal_NewNormal [DNil] h0) = Some ([DL [DF (TConst 0 0); DF (TConst 5 (-2))]; DI 0], h0).
Proof. vm_compute. reflexivity. Qed.

Example ex_NewXavierUniform_bad :
  outcome (erun c_XavierUniform_NewXavierUniform [DL [DI 4; DI 0]] h0) = Some ([DNil; DI 1], h0).
Proof. vm_compute. reflexivity. Qed.

Example ex_XavierUniform_config_bad :
  outcome (erun0 c_XavierUniform_toValidXavierUniformConfig [DL [DI 4; DI 0]] h0) = Some ([DL [DI 4; DI 0]; DI 1], h0).
Proof. vm_compute. reflexivity. Qed.

Example ex_NewSoftmax : outcome (erun c_Softmax_NewSoftmax [DL [DI (-1)]] h0) = Some ([DNil; DI 1], h0).
Proof. vm_compute. reflexivity. Qed.

Example ex_NewLeakyRelu_nil : outcome (erun c_LeakyRelu_NewLeakyRelu [DNil] h0) = Some ([DL [DF (TConst 1 (-2))]], h0).
Proof. vm_compute. reflexivity. Qed.

(* the hypothesis of the dec corollaries is satisfiable (by the exact comparison), and then the default configs are
   accepted: the model's defaults (Consts.v) are valid *)
Example ex_default_uniform_valid dNorS fuel depth h :
  outcome (drun cfapp (@heap term) (cext tlt tlt elib) c_Uniform_NewUniform fuel depth [cfgD2 None] h)
  = Some ([DL [DF (dcst c_uniform_lower); DF (dcst c_uniform_upper)]; DI 0], h)
  /\ init_valid c_uniform_lower c_uniform_upper dNorS (IUniform None) = true.
Proof.
  split; [|reflexivity].
  exact (NewUniform_dec tlt tlt elib dNorS fuel depth None h eq_refl).
Qed.

Example ex_default_normal_valid dUniL dUniU fuel depth h :
  outcome (drun cfapp (@heap term) (cext tlt tlt elib) c_Normal_NewNormal fuel depth [cfgD2 None] h)
  = Some ([DL [DF (dcst c_normal_mean); DF (dcst c_normal_stddev)]; DI 0], h)
  /\ init_valid dUniL dUniU c_normal_stddev (INormal None) = true.
Proof.
  split; [|reflexivity].
  exact (NewNormal_dec tlt tlt elib dUniL dUniU fuel depth None h eq_refl).
Qed.
End Examples.
