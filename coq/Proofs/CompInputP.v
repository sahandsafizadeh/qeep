(* CompInputP.v — layers/input.go by translation (Model/GoComp.v: c_Input_NewInput, c_Input_validateInputs,
   c_Input_Forward): the Input layer accepts no input tensors, needs a seed function, and returns what it returns. *)
From Coq Require Import String List ZArith Bool Arith Lia.
From Qeep Require Import Model.Scalar Model.Nd Model.Fill Model.Data Model.Valid Model.Api Model.Grad Model.Backprop
  Model.Components Model.DataIR Model.HeapExt Model.GoComp Model.CompExt.
From Qeep Require Import Proofs.DataIRP Proofs.CompBaseP.
Import ListNotations.
Local Open Scope string_scope.
Local Open Scope Z_scope.
Local Open Scope list_scope.

Section CompInput.
Context {A : Type} {SA : Scalar A}.
Notation heap := (@heap A).
Notation dval := (@dval A).
Variables (fltb fleb : A -> A -> bool) (lib : string -> list dval -> heap -> option (list dval * heap)).
Notation run0 p := (drun cfapp heap (cext0 fltb fleb lib) p).
Notation run p := (drun cfapp heap (cext fltb fleb lib) p).

Definition outcome (o : @doutcome A heap) : option (list dval * heap) :=
  match o with DRet _ vs s _ _ => Some (vs, s) | _ => None end.

Theorem NewInput_run fuel depth (h : heap) :
  outcome (run0 c_Input_NewInput fuel depth [] h) = Some ([DL [DNil]], h).
Proof. start c_Input_NewInput. reflexivity. Qed.

(* validateInputs: error exactly when a tensor is passed *)
Theorem Input_validateInputs_spec fuel depth (h : heap) (seed : dval) (xs : list dval) :
  outcome (run0 c_Input_validateInputs fuel depth [seed; DL xs] h) =
  Some ([DI (match xs with [] => 0 | _ => 1 end)], h).
Proof.
  start c_Input_validateInputs. rewrite dlen_eqb0. destruct xs; cbn [negb]; dxs; reflexivity.
Qed.

(* Forward: [nil; error] when a tensor is passed or the seed function is unset; otherwise the value the seed
   function returns (the oracle entry "call" applied to the field's value), with a nil error *)
Theorem Input_Forward_run fuel depth (h : heap) (seed : dval) (xs : list dval) :
  let o := run c_Input_Forward fuel depth [seed; DL xs] h in
  match xs with
  | _ :: _ => outcome o = Some ([DNil; DI 1], h)
  | [] =>
      match seed with
      | DNil => outcome o = Some ([DNil; DI 1], h)
      | _ => match lib "call" [seed] h with
             | Some ([y], h') => outcome o = Some ([y; DI 0], h')
             | _ => o = DPanic heap
             end
      end
  end.
Proof.
  intros o.
  pose proof (cext_ret fltb fleb lib "Input.validateInputs" eq_refl (Input_validateInputs_spec _ _ h seed xs)) as EV.
  destruct xs as [|x r].
  - (* one equation for the run, stepped up to the nil test on [seed]: the cases of the statement, which repeat [o]
       in every leaf, are split afterwards, on the short rest *)
    eassert (E : o = _).
    { subst o. start c_Input_Forward. rewrite EV. go. reflexivity. }
    clearbody o. subst o.
    destruct seed; go; try reflexivity;
      libcall; (destruct (lib "call" _ h) as [[[|y [|z' rs]] h']|]; dxs; reflexivity).
  - subst o. start c_Input_Forward. rewrite EV. go. reflexivity.
Qed.

End CompInput.

Print Assumptions NewInput_run.
Print Assumptions Input_validateInputs_spec.
Print Assumptions Input_Forward_run.
