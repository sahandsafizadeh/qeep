(* CompP.v — components (component/{layers/activations,optimizers}) against exact element-wise
   expressions, for an arbitrary [Scalar A] with no laws.

   Value projection: every tracked heap method used by the components allocates a node whose
   value is the value-level function [v_*] of Api.v applied to the operand VALUES
   ([tracks]: Ok <-> Ok, Err <-> Err, Panic <-> Panic; old nodes untouched), hence so does every
   chain of them ([runOps_tracks_w]); element-wise descriptions ([pw2]) compose along the
   value-level chain.  Then SGD (C17) and the activations Relu / LeakyRelu / Sigmoid / Tanh (C14).
   (Accuracy is in AccP.v, the losses in LossP.v.) *)
From Coq Require Import List Arith ZArith Bool Lia.
From Qeep Require Import Model.Scalar Model.Nd Model.Fill Model.Data Model.Valid Model.Api Model.Grad Model.Components.
From Qeep Require Import Proofs.NdP Proofs.ElemP Proofs.ReshapeP Proofs.BroadcastP Proofs.TrackP
  Spec.ValidSpec Proofs.ValidP Proofs.OpsP.
Import ListNotations.

Lemma compat2R_refl l : compat2R l l.
Proof. induction l as [|a l IH]; cbn; auto. Qed.

Lemma tbdRev_same l : tbdRev l l = l.
Proof. induction l as [|a l IH]; cbn [tbdRev]; [reflexivity|]. rewrite Nat.max_id, IH. reflexivity. Qed.

Lemma targetBroadcastDims_same ds : targetBroadcastDims ds ds = ds.
Proof. unfold targetBroadcastDims. rewrite tbdRev_same, rev_involutive. reflexivity. Qed.

Lemma bproj_same ds idx : validIdx ds idx -> bproj ds ds idx = idx.
Proof.
  unfold bproj. rewrite Nat.sub_diag. cbn [skipn]. unfold validIdx.
  induction 1 as [|i d idx' ds' Hi _ IH]; cbn [combine map fst snd]; [reflexivity|].
  rewrite IH. destruct (d =? 1) eqn:E; [|reflexivity]. apply Nat.eqb_eq in E. f_equal. lia.
Qed.

Section CompP.
Context {A : Type} {SA : Scalar A}.
Notation T := (tensor A).
Notation heap := (@heap A).
Notation hres := (@hres A).
Notation node := (@node A).

(* Add/Sub/Mul/Div on two tensors of the same shape: never an error, element-wise *)
Theorem v_arith_same_dims (b : binary) (t u : T) : wf t -> wf u -> dims t = dims u ->
  exists r, v_arith b t u = Ok r /\ dims r = dims t /\ wf r /\
    forall idx, validIdx (dims t) idx ->
      get (data r) idx =
      match get (data t) idx, get (data u) idx with Some x, Some y => Some (binaryF b x y) | _, _ => None end.
Proof.
  intros Ht Hu E. destruct (v_bcast2_spec t u Ht Hu) as [H _]. cbv zeta in H.
  assert (Et : targetBroadcastDims (dims t) (dims u) = dims t) by (rewrite <- E; apply targetBroadcastDims_same).
  rewrite Et in H.
  destruct H as (t1 & u1 & Eb & (Hd1 & Hw1 & Hg1) & (Hd2 & Hw2 & Hg2)).
  { unfold bcompat2. rewrite <- E. apply compat2R_refl. }
  unfold v_arith. rewrite Eb. cbn [res_bind fst snd].
  destruct (apply2_spec (binaryF b) t1 u1 Hw1 Hw2 ltac:(congruence)) as (r & Er & Hdr & Hwr & Hgr).
  rewrite Er. cbn [of_opt]. exists r. split; [reflexivity|]. split; [congruence|]. split; [exact Hwr|].
  intros idx Hv. rewrite Hgr by (rewrite Hd1; exact Hv). rewrite Hg1, Hg2 by exact Hv.
  rewrite <- E. rewrite !bproj_same by exact Hv. reflexivity.
Qed.

(* r has the shape of p and r[idx] = F p[idx] t[idx] *)
Definition pw2 (F : A -> A -> A) (p t r : T) : Prop :=
  dims r = dims p /\ wf r /\
  forall idx, validIdx (dims p) idx ->
    get (data r) idx =
    match get (data p) idx, get (data t) idx with Some a, Some b => Some (F a b) | _, _ => None end.

(* r has the shape of x and r[idx] = F x[idx] *)
Definition pw1 (F : A -> A) (x r : T) : Prop :=
  dims r = dims x /\ wf r /\
  forall idx, validIdx (dims x) idx -> get (data r) idx = option_map F (get (data x) idx).

Lemma pw2_fst (p t : T) : wf p -> wf t -> dims p = dims t -> pw2 (fun a _ => a) p t p.
Proof.
  intros Hp Ht E. split; [reflexivity|]. split; [exact Hp|]. intros idx Hv.
  destruct (get_wf A _ _ _ (proj1 Hp) Hv) as (a & ->).
  rewrite E in Hv. destruct (get_wf A _ _ _ (proj1 Ht) Hv) as (b & ->). reflexivity.
Qed.

Lemma pw2_snd (p t : T) : wf p -> wf t -> dims p = dims t -> pw2 (fun _ b => b) p t t.
Proof.
  intros Hp Ht E. split; [congruence|]. split; [exact Ht|]. intros idx Hv.
  destruct (get_wf A _ _ _ (proj1 Hp) Hv) as (a & ->).
  rewrite E in Hv. destruct (get_wf A _ _ _ (proj1 Ht) Hv) as (b & ->). reflexivity.
Qed.

Lemma pw2_unary (u : unary) F (p t a : T) : pw2 F p t a ->
  exists r, v_unary u a = Ok r /\ pw2 (fun x y => unaryF u (F x y)) p t r.
Proof.
  intros (Hd & Hw & Hg). destruct (v_unary_spec u a Hw) as (r & Er & Hdr & Hwr & Hgr).
  exists r. split; [exact Er|]. split; [congruence|]. split; [exact Hwr|].
  intros idx Hv. rewrite Hgr by (rewrite Hd; exact Hv). rewrite Hg by exact Hv.
  destruct (get (data p) idx); [destruct (get (data t) idx)|]; reflexivity.
Qed.

Lemma pw2_same (b : binary) F G (p t a1 a2 : T) : pw2 F p t a1 -> pw2 G p t a2 ->
  exists r, v_same b a1 a2 = Ok r /\ pw2 (fun x y => binaryF b (F x y) (G x y)) p t r.
Proof.
  intros (Hd1 & Hw1 & Hg1) (Hd2 & Hw2 & Hg2).
  destruct (v_same_spec b a1 a2 Hw1 Hw2) as [H _].
  destruct (H ltac:(congruence)) as (r & Er & Hdr & Hwr & Hgr).
  exists r. split; [exact Er|]. split; [congruence|]. split; [exact Hwr|].
  intros idx Hv. rewrite Hgr by (rewrite Hd1; exact Hv). rewrite Hg1, Hg2 by exact Hv.
  destruct (get (data p) idx); [destruct (get (data t) idx)|]; reflexivity.
Qed.

Lemma pw2_arith (b : binary) F G (p t a1 a2 : T) : pw2 F p t a1 -> pw2 G p t a2 ->
  exists r, v_arith b a1 a2 = Ok r /\ pw2 (fun x y => binaryF b (F x y) (G x y)) p t r.
Proof.
  intros (Hd1 & Hw1 & Hg1) (Hd2 & Hw2 & Hg2).
  destruct (v_arith_same_dims b a1 a2 Hw1 Hw2 ltac:(congruence)) as (r & Er & Hdr & Hwr & Hgr).
  exists r. split; [exact Er|]. split; [congruence|]. split; [exact Hwr|].
  intros idx Hv. rewrite Hgr by (rewrite Hd1; exact Hv). rewrite Hg1, Hg2 by exact Hv.
  destruct (get (data p) idx); [destruct (get (data t) idx)|]; reflexivity.
Qed.

(* one step of a value-level chain whose intermediate results are described element-wise *)
Lemma pw2_bind F (p t : T) (r : res T) (k : T -> res T) (Q : T -> Prop) :
  (exists a, r = Ok a /\ pw2 F p t a) -> (forall a, pw2 F p t a -> exists v, k a = Ok v /\ Q v) ->
  exists v, res_bind r k = Ok v /\ Q v.
Proof. intros (a & -> & Ha) K. exact (K a Ha). Qed.

Lemma pw2_diag F (x r : T) : pw2 F x x r -> pw1 (fun e => F e e) x r.
Proof.
  intros (Hd & Hw & Hg). split; [exact Hd|]. split; [exact Hw|]. intros idx Hv.
  rewrite Hg by exact Hv. destruct (get (data x) idx); reflexivity.
Qed.

Lemma rank1_flat_length (v : T) n : wf v -> dims v = [n] -> length (flat (data v)) = n.
Proof. intros [Hw _] Ed. rewrite (flat_length A (dims v) (data v) Hw), Ed. cbn. lia. Qed.

Lemma pw1_ext (F G : A -> A) (x r : T) : (forall e, F e = G e) -> pw1 F x r -> pw1 G x r.
Proof.
  intros E (Hd & Hw & Hg). split; [exact Hd|]. split; [exact Hw|]. intros idx Hv.
  rewrite (Hg idx Hv). destruct (get (data x) idx) as [a|]; cbn [option_map]; [rewrite E|]; reflexivity.
Qed.

(* the elements of a pw2-described tensor in row-major order *)
Lemma pw2_flat F (p t r : T) : wf p -> wf t -> dims p = dims t -> pw2 F p t r ->
  flat (data r) = map2 F (flat (data p)) (flat (data t)).
Proof.
  intros [Hp _] [Ht _] E (Hd & [Hw _] & Hg). rewrite <- E in Ht. rewrite Hd in Hw.
  destruct (calc2_spec F (dims p) (data p) (data t) Hp Ht) as (d & Ed & Hwd & Hgd).
  assert (data r = d) as ->.
  { apply (nd_ext A (dims p)); [exact Hw|exact Hwd|]. intros idx Hv. rewrite Hg, Hgd by exact Hv. reflexivity. }
  apply (calc2_flat F (dims p) (data p) (data t) d Hp Ht Ed).
Qed.

Definition nameOf (h : heap) (i : nat) : option nat :=
  match nth_error h i with Some n => nname n | None => None end.

(* the call succeeded: the result is the LAST node of an extension of h; its value is v *)
Definition produces (h : heap) (hr : hres) (v : T) (name : option nat) : Prop :=
  exists h' id, hr = (h', Ok id) /\ extends h h' /\ length h <= id /\ S id = length h' /\
                valOf h' id = Some v /\ gradOf h' id = None /\ nameOf h' id = name.

(* the heap call [hr] started in [h] behaves like the value-level outcome [r]:
   Ok v -> a new node with value v;  Err / Panic -> same outcome, heap unchanged *)
Definition tracks (h : heap) (hr : hres) (r : res T) (name : option nat) : Prop :=
  match r with Ok v => produces h hr v name | Err => hr = (h, Err) | Panic => hr = (h, Panic) end.

(* the same inside a composite call, before [atomically] restores the heap *)
Definition tracks_w (h : heap) (hr : hres) (r : res T) (name : option nat) : Prop :=
  match r with Ok v => produces h hr v name | Err => snd hr = Err | Panic => snd hr = Panic end.

Lemma extends_valOf (h h' : heap) i v : extends h h' -> valOf h i = Some v -> valOf h' i = Some v.
Proof.
  intros [l ->] H. rewrite valOf_app; [exact H|]. eapply valOf_some_lt; eauto.
Qed.

Lemma extends_gradOf (h h' : heap) i g : extends h h' -> gradOf h i = Some g -> gradOf h' i = Some g.
Proof.
  intros [l ->] H. unfold gradOf in *. destruct (nth_error h i) as [n|] eqn:E; [|discriminate].
  rewrite (nth_error_snoc_old h l i n E). exact H.
Qed.

Lemma produces_ok (h : heap) hr v name : produces h hr v name -> exists id, snd hr = Ok id.
Proof. intros (h' & id & -> & _). exists id. reflexivity. Qed.

Lemma produces_weaken (h h1 : heap) hr v name : extends h h1 -> produces h1 hr v name -> produces h hr v name.
Proof.
  intros He (h' & id & E & Hext & Hle & HS & Hv & Hg & Hn). exists h', id. split; [exact E|].
  split; [eapply extends_trans; eauto|]. split; [apply extends_length in He; lia|]. auto.
Qed.

Lemma tracks_is_w (h : heap) hr r name : tracks h hr r name -> tracks_w h hr r name.
Proof. destruct r as [v| |]; cbn; [auto|intros ->; reflexivity|intros ->; reflexivity]. Qed.

Lemma tracks_w_weaken (h h1 : heap) hr r name : extends h h1 -> tracks_w h1 hr r name -> tracks_w h hr r name.
Proof. destruct r as [v| |]; cbn; [apply produces_weaken|auto|auto]. Qed.

(* a tracked call that is Ok at the value level is Ok on the heap and conversely *)
Lemma tracks_ok_iff (h : heap) hr r name : tracks h hr r name ->
  ((exists id, snd hr = Ok id) <-> (exists v, r = Ok v)) /\ (snd hr = Err <-> r = Err) /\ (snd hr = Panic <-> r = Panic).
Proof.
  destruct r as [v| |]; cbn.
  - intros (h' & id & -> & _). cbn. repeat split; try discriminate; eauto.
  - intros ->. cbn. repeat split; try discriminate; auto; intros (x & X); discriminate.
  - intros ->. cbn. repeat split; try discriminate; auto; intros (x & X); discriminate.
Qed.

(* the same read from the heap side: "if the call returns (h', Ok id) then ..." *)
Lemma tracks_ok_inv (h : heap) hr r name h' id : tracks h hr r name -> hr = (h', Ok id) ->
  exists v, r = Ok v /\ valOf h' id = Some v /\ length h <= id /\
    (forall i n, nth_error h i = Some n -> nth_error h' i = Some n) /\
    (forall i v0, valOf h i = Some v0 -> valOf h' i = Some v0).
Proof.
  intros H E. rewrite E in H. destruct r as [v| |]; cbn [tracks] in H; try discriminate.
  destruct H as (h'' & id' & E' & Hext & Hle & _ & Hv & _). inversion E'; subst h'' id'.
  exists v. split; [reflexivity|]. split; [exact Hv|]. split; [exact Hle|].
  split; [apply extends_nth, Hext|]. intros i v0. apply extends_valOf, Hext.
Qed.

(* a heap call that tracks a successful value-level computation produces its result *)
Lemma spec_of_tracks (h : heap) hr r name (Q : T -> Prop) : tracks h hr r name ->
  (exists v, r = Ok v /\ Q v) -> exists v, produces h hr v name /\ Q v.
Proof. intros H (v & -> & HQ). exists v. split; [exact H|exact HQ]. Qed.

Lemma alloc_produces (h : heap) (v : T) ctx name :
  produces h (let '(h', id) := alloc h v ctx name in (h', Ok id)) v name.
Proof.
  rewrite alloc_eq. exists (h ++ [ctxNode v ctx name]), (length h). split; [reflexivity|].
  split; [eexists; reflexivity|]. split; [lia|]. split; [rewrite app_length; cbn; lia|].
  split; [rewrite valOf_new; reflexivity|].
  split; [unfold gradOf; rewrite nth_error_snoc_new; reflexivity|].
  unfold nameOf. rewrite nth_error_snoc_new. reflexivity.
Qed.

Theorem h_op1_tracks (h : heap) x (f : T -> res T) mk name xv : valOf h x = Some xv ->
  tracks h (h_op1 h x f mk name) (f xv) name.
Proof.
  intros Hx. unfold h_op1. rewrite Hx. destruct (f xv) as [v| |]; cbn [tracks]; try reflexivity.
  cbv zeta. apply alloc_produces.
Qed.

Corollary h_scale_tracks (h : heap) x a name xv : valOf h x = Some xv ->
  tracks h (h_scale h x a name) (v_unary (UScale a) xv) name.
Proof. apply h_op1_tracks. Qed.
Corollary h_pow_tracks (h : heap) x a az name xv : valOf h x = Some xv ->
  tracks h (h_pow h x a az name) (v_unary (UPow a) xv) name.
Proof. apply h_op1_tracks. Qed.
Corollary h_math_tracks (h : heap) fn x name xv : valOf h x = Some xv ->
  tracks h (h_math h fn x name) (v_unary (mathUnary fn) xv) name.
Proof. apply h_op1_tracks. Qed.
Corollary h_reduceAlong_tracks (h : heap) rd x dim name xv : valOf h x = Some xv ->
  tracks h (h_reduceAlong h rd x dim name) (v_reduceAlong rd xv dim) name.
Proof. intros Hx. apply (h_op1_tracks h x (fun v => v_reduceAlong rd v dim) _ name xv Hx). Qed.
Corollary h_unsqueeze_tracks (h : heap) x dim name xv : valOf h x = Some xv ->
  tracks h (h_unsqueeze h x dim name) (v_unsqueeze xv dim) name.
Proof. intros Hx. apply (h_op1_tracks h x (fun v => v_unsqueeze v dim) _ name xv Hx). Qed.
Corollary h_broadcast_tracks (h : heap) x shape name xv : valOf h x = Some xv ->
  tracks h (h_broadcast h x shape name) (v_broadcast xv shape) name.
Proof. intros Hx. apply (h_op1_tracks h x (fun v => v_broadcast v shape) _ name xv Hx). Qed.

(* a missing operand panics and leaves the heap alone *)
Lemma h_op1_missing (h : heap) x f mk name : valOf h x = None -> h_op1 h x f mk name = (h, Panic).
Proof. intros Hx. unfold h_op1. rewrite Hx. reflexivity. Qed.

Theorem h_elsel_tracks (h : heap) b x u name xv uv : valOf h x = Some xv -> valOf h u = Some uv ->
  tracks h (h_elsel h b x u name) (v_same b xv uv) name.
Proof.
  intros Hx Hu. unfold h_elsel. rewrite Hx, Hu. destruct (v_same b xv uv) as [v| |]; cbn [tracks]; try reflexivity.
  cbv zeta. apply alloc_produces.
Qed.

Theorem h_cmp_tracks (h : heap) b x u name xv uv : valOf h x = Some xv -> valOf h u = Some uv ->
  tracks h (h_cmp h b x u name) (v_same b xv uv) name.
Proof.
  intros Hx Hu. unfold h_cmp. rewrite Hx, Hu. destruct (v_same b xv uv) as [v| |]; cbn [tracks]; try reflexivity.
  apply alloc_produces.
Qed.

(* two public Broadcast calls, then a data-layer function: Add/Sub/Mul/Div, Dot, MatMul *)
Definition binop_val (s1 s2 : list Z) (f : T -> T -> option T) (xv uv : T) : res T :=
  dor t1 <- v_broadcast xv s1; dor t2 <- v_broadcast uv s2; of_opt (f t1 t2).

Theorem h_binop_tracks (h : heap) x u s1 s2 f edges name xv uv :
  valOf h x = Some xv -> valOf h u = Some uv ->
  tracks h (h_binop h x u s1 s2 f edges name) (binop_val s1 s2 f xv uv) name.
Proof.
  intros Hx Hu. unfold h_binop, h_bcast2, binop_val.
  pose proof (h_broadcast_tracks h x s1 None xv Hx) as H1.
  destruct (v_broadcast xv s1) as [v1| |]; cbn [tracks res_bind] in *.
  - destruct H1 as (h1 & b1 & E1 & Hext1 & Hle1 & HS1 & Hv1 & _). rewrite E1.
    pose proof (h_broadcast_tracks h1 u s2 None uv (extends_valOf _ _ _ _ Hext1 Hu)) as H2.
    destruct (v_broadcast uv s2) as [v2| |]; cbn [tracks res_bind] in *.
    + destruct H2 as (h2 & b2 & E2 & Hext2 & Hle2 & HS2 & Hv2 & _). rewrite E2.
      rewrite (extends_valOf _ _ _ _ Hext2 Hv1), Hv2.
      destruct (f v1 v2) as [v|]; cbn [of_opt tracks]; [|reflexivity].
      cbv zeta. eapply produces_weaken; [eapply extends_trans; eauto|]. apply alloc_produces.
    + rewrite H2. reflexivity.
    + rewrite H2. reflexivity.
  - rewrite H1. reflexivity.
  - rewrite H1. reflexivity.
Qed.

(* Api.v pairs the broadcast operands before applying the function *)
Lemma binop_val_pair s1 s2 f (xv uv : T) :
  (dor p <- (dor t1 <- v_broadcast xv s1; dor t2 <- v_broadcast uv s2; Ok (t1, t2)); of_opt (f (fst p) (snd p)))
  = binop_val s1 s2 f xv uv.
Proof.
  unfold binop_val. destruct (v_broadcast xv s1); cbn [res_bind]; try reflexivity.
  destruct (v_broadcast uv s2); reflexivity.
Qed.

Theorem h_arith_tracks (h : heap) b x u name xv uv : valOf h x = Some xv -> valOf h u = Some uv ->
  tracks h (h_arith h b x u name) (v_arith b xv uv) name.
Proof.
  intros Hx Hu. unfold h_arith, v_arith, v_bcast2. rewrite Hx, Hu. cbv zeta.
  rewrite binop_val_pair. apply h_binop_tracks; assumption.
Qed.

Theorem h_matmul_tracks (h : heap) x u name xv uv : valOf h x = Some xv -> valOf h u = Some uv ->
  tracks h (h_matmul h x u name) (v_matmul xv uv) name.
Proof.
  intros Hx Hu. unfold h_matmul, v_matmul, v_bcastMM. rewrite Hx, Hu.
  destruct (validateMatMulDims (zdims xv) (zdims uv)); [|reflexivity]. cbv zeta.
  rewrite binop_val_pair. apply h_binop_tracks; assumption.
Qed.

Lemma h_arith_missing (h : heap) b x u name : valOf h x = None \/ valOf h u = None ->
  h_arith h b x u name = (h, Panic).
Proof.
  intros [H|H]; unfold h_arith; rewrite H; [reflexivity|]. destruct (valOf h x); reflexivity.
Qed.

Corollary h_arith_ok_inv (h : heap) b x u name xv uv h' id :
  valOf h x = Some xv -> valOf h u = Some uv -> h_arith h b x u name = (h', Ok id) ->
  exists v, v_arith b xv uv = Ok v /\ valOf h' id = Some v /\ length h <= id /\
    (forall i n, nth_error h i = Some n -> nth_error h' i = Some n) /\
    (forall i v0, valOf h i = Some v0 -> valOf h' i = Some v0).
Proof. intros Hx Hu. apply (tracks_ok_inv _ _ _ name), h_arith_tracks; assumption. Qed.

Corollary h_op1_ok_inv (h : heap) x f mk name xv h' id :
  valOf h x = Some xv -> h_op1 h x f mk name = (h', Ok id) ->
  exists v, f xv = Ok v /\ valOf h' id = Some v /\ length h <= id /\
    (forall i n, nth_error h i = Some n -> nth_error h' i = Some n) /\
    (forall i v0, valOf h i = Some v0 -> valOf h' i = Some v0).
Proof. intros Hx. apply (tracks_ok_inv _ _ _ name), h_op1_tracks, Hx. Qed.

Corollary h_elsel_ok_inv (h : heap) b x u name xv uv h' id :
  valOf h x = Some xv -> valOf h u = Some uv -> h_elsel h b x u name = (h', Ok id) ->
  exists v, v_same b xv uv = Ok v /\ valOf h' id = Some v /\ length h <= id /\
    (forall i n, nth_error h i = Some n -> nth_error h' i = Some n) /\
    (forall i v0, valOf h i = Some v0 -> valOf h' i = Some v0).
Proof. intros Hx Hu. apply (tracks_ok_inv _ _ _ name), h_elsel_tracks; assumption. Qed.

Lemma tracks_w_bind (h : heap) hr (r : res T) nm (f : heap -> nat -> hres) (k : T -> res T) name :
  tracks_w h hr r nm ->
  (forall h1 id v, extends h h1 -> length h <= id -> valOf h1 id = Some v -> r = Ok v ->
     tracks_w h1 (f h1 id) (k v) name) ->
  tracks_w h (hbind hr f) (res_bind r k) name.
Proof.
  intros H K. destruct r as [v| |]; cbn [tracks_w res_bind] in *.
  - destruct H as (h1 & id & -> & Hext & Hle & _ & Hv & _). cbn [hbind].
    eapply tracks_w_weaken; [exact Hext|]. apply K; auto.
  - destruct hr as [h1 r1]. cbn in H. subst r1. reflexivity.
  - destruct hr as [h1 r1]. cbn in H. subst r1. reflexivity.
Qed.

Lemma tracks_atomically (h : heap) hr r name : tracks_w h hr r name -> tracks h (atomically h hr) r name.
Proof.
  destruct r as [v| |]; cbn [tracks tracks_w].
  - intros (h1 & id & -> & H). cbn [atomically]. exists h1, id. split; [reflexivity|exact H].
  - destruct hr as [h1 r1]. cbn. intros ->. reflexivity.
  - destruct hr as [h1 r1]. cbn. intros ->. reflexivity.
Qed.

(* a composite call that returns no tensor leaves the heap as it was *)
Lemma atomically_fail (h : heap) (hr : hres) : (forall id, snd (atomically h hr) <> Ok id) -> fst (atomically h hr) = h.
Proof. destruct hr as [h1 [id| |]]; cbn; intros H; [exfalso; apply (H id)| |]; reflexivity. Qed.

(* chains (OpsP.v): ids and values of the operands so far, position by position *)
Definition envOk (h : heap) (env : list nat) (vals : list T) : Prop :=
  Forall2 (fun id v => valOf h id = Some v) env vals.

(* every operand position exists when its instruction runs; decided by computation for each table *)
Fixpoint opsOk (n : nat) (ops : list (@op A)) : bool :=
  match ops with [] => true | (_, a) :: rest => forallb (fun i => i <? n) a && opsOk (S n) rest end.

Lemma envOk_ext (h h1 : heap) env vals : extends h h1 -> envOk h env vals -> envOk h1 env vals.
Proof. intros X H. induction H; constructor; [eapply extends_valOf; eauto|assumption]. Qed.

Lemma envOk_pick (h : heap) env vals a : envOk h env vals -> forallb (fun i => i <? length env) a = true ->
  envOk h (pick env 0 a) (pick vals noT a).
Proof.
  intros He Ha. induction a as [|i a IH]; [constructor|]. cbn [forallb] in Ha. apply andb_prop in Ha as [Hi Ha].
  constructor; [|exact (IH Ha)]. apply Nat.ltb_lt in Hi. clear -He Hi. revert i Hi.
  induction He as [|id v env vals Hv _ IH]; intros [|i] Hi; cbn in Hi |- *; [lia|lia|exact Hv|apply IH; lia].
Qed.

Lemma runPrim_tracks (p : prim) (h : heap) ids vals name : envOk h ids vals ->
  tracks h (runPrim p h ids name) (primV p vals) name.
Proof.
  intros He. destruct p; destruct He as [|x xv ? ? Hx [|u uv ? ? Hu [|? ? ? ? _ _]]]; try reflexivity;
    first [exact (h_op1_tracks h x _ _ name xv Hx)|apply h_elsel_tracks|apply h_arith_tracks|apply h_matmul_tracks];
    assumption.
Qed.

Theorem runOps_tracks_w (ops : list op) : forall (h : heap) env vals name,
  envOk h env vals -> opsOk (length env) ops = true ->
  tracks_w h (runOps ops h env name) (runOpsV ops vals) name.
Proof.
  induction ops as [|[p a] rest IH]; intros h env vals name He Ho; [reflexivity|].
  cbn [opsOk] in Ho. apply andb_prop in Ho as [Ha Ho].
  pose proof (fun nm => tracks_is_w _ _ _ _ (runPrim_tracks p h _ _ nm (envOk_pick h env vals a He Ha))) as Hp.
  destruct rest as [|o rest]; [apply Hp|].
  cbn [runOps runOpsV]. eapply tracks_w_bind; [apply Hp|]. intros h1 id v X _ Hv _. apply IH.
  - apply Forall2_app; [exact (envOk_ext _ _ _ _ X He)|repeat constructor; exact Hv].
  - rewrite app_length, Nat.add_1_r. exact Ho.
Qed.

Theorem sgd_update_spec (h : heap) (lr : A) (w : nat) name (wv g : T) :
  valOf h w = Some wv -> gradOf h w = Some g -> wf wv -> wf g -> dims g = dims wv ->
  exists n, sgd_update h lr (Some w) name = (h ++ [n], Ok (length h)) /\
    ntracked n = false /\ ndirty n = true /\ ngrad n = None /\ nedges n = [] /\ nname n = name /\
    dims (nval n) = dims wv /\ wf (nval n) /\
    forall idx, validIdx (dims wv) idx ->
      get (data (nval n)) idx =
      match get (data wv) idx, get (data g) idx with
      | Some x, Some gx => Some (ssub x (smul lr gx)) | _, _ => None end.
Proof.
  intros Hw Hg Wwv Wg Ed. unfold sgd_update. rewrite Hw, Hg.
  destruct (v_unary_spec (UScale lr) g Wg) as (delta & Edl & Hdd & Wd & Hgd).
  rewrite Edl. cbn [res_bind].
  destruct (v_arith_same_dims BiSub wv delta Wwv Wd ltac:(congruence)) as (r & Er & Hdr & Wr & Hgr).
  rewrite Er. cbn [alloc]. eexists. split; [reflexivity|]. cbn [ntracked ndirty ngrad nedges nname nval].
  repeat (split; [reflexivity|]). split; [exact Hdr|]. split; [exact Wr|].
  intros idx Hv. rewrite Hgr by exact Hv. rewrite Hgd by (rewrite Ed; exact Hv).
  destruct (get (data wv) idx); [|reflexivity]. destruct (get (data g) idx); reflexivity.
Qed.

(* the previous tensor and its gradient are still there; the new tensor is at the fresh id *)
Corollary sgd_update_frame (h : heap) (lr : A) (w : nat) name (wv g : T) :
  valOf h w = Some wv -> gradOf h w = Some g -> wf wv -> wf g -> dims g = dims wv ->
  exists h' r, sgd_update h lr (Some w) name = (h', Ok (length h)) /\
    valOf h' (length h) = Some r /\ valOf h' w = Some wv /\ gradOf h' w = Some g /\
    (forall i n, nth_error h i = Some n -> nth_error h' i = Some n) /\ length h' = S (length h).
Proof.
  intros Hw Hg Wwv Wg Ed. destruct (sgd_update_spec h lr w name wv g Hw Hg Wwv Wg Ed) as (n & E & _).
  exists (h ++ [n]), (nval n). split; [exact E|]. split; [apply valOf_new|].
  assert (Hext : extends h (h ++ [n])) by (eexists; reflexivity).
  split; [eapply extends_valOf; eauto|]. split; [eapply extends_gradOf; eauto|].
  split; [apply extends_nth, Hext|]. rewrite app_length. cbn. lia.
Qed.

(* nil cell, or a tensor without gradient: error, nothing allocated *)
Theorem sgd_update_errors (h : heap) (lr : A) name :
  sgd_update h lr None name = (h, Err) /\
  (forall w wv, valOf h w = Some wv -> gradOf h w = None -> sgd_update h lr (Some w) name = (h, Err)).
Proof.
  split; [reflexivity|]. intros w wv Hw Hg. unfold sgd_update. rewrite Hw, Hg. reflexivity.
Qed.

(* whatever the arguments: a call that does not return a tensor leaves the heap as it was *)
Theorem sgd_update_fail_frame (h : heap) (lr : A) cell name h' r :
  sgd_update h lr cell name = (h', r) -> (forall id, r <> Ok id) -> h' = h.
Proof.
  unfold sgd_update. destruct cell as [w|]; [|intros E; inversion E; reflexivity].
  destruct (valOf h w) as [wv|]; [destruct (gradOf h w) as [g|]|]; try (intros E; inversion E; reflexivity).
  destruct (dor delta <- v_unary (UScale lr) g; v_arith BiSub wv delta) as [v| |];
    try (intros E; inversion E; reflexivity).
  cbn [alloc]. intros E Hr. inversion E; subst. exfalso. apply (Hr (length h)). reflexivity.
Qed.

Notation c0 := (sconst 0 0).
Notation cm1 := (sconst (-1) 0).

(* the compositions at the value level, in the order of the Go code *)
Definition relu_val (xv : T) : res T := runOpsV relu_ops [xv].
Definition leaky_val (m : A) (xv : T) : res T := runOpsV (leaky_ops m) [xv].
Definition sigmoid_val (xv : T) : res T := runOpsV sigmoid_ops [xv].
Definition tanh_val (xv : T) : res T := v_unary UTanH xv.

Definition reluF (e : A) : A := smax (smul c0 e) e.
Definition leakyF (m e : A) : A := sadd (smax (smul c0 e) e) (smul m (smin (smul c0 e) e)).
Definition sigmoidF (e : A) : A := spow (sadd (spow e c0) (sexp (smul cm1 e))) cm1.

(* heap level: the layer is its value-level composition (no hypothesis on the values) *)
Theorem relu_forward_tracks (h : heap) x name xv : valOf h x = Some xv ->
  tracks h (relu_forward h [Some x] name) (relu_val xv) name.
Proof.
  intros Hx. rewrite relu_forward_ops.
  apply tracks_atomically, runOps_tracks_w; [repeat constructor; exact Hx|reflexivity].
Qed.

Theorem leaky_forward_tracks (h : heap) m x name xv : valOf h x = Some xv ->
  tracks h (leaky_forward h m [Some x] name) (leaky_val m xv) name.
Proof.
  intros Hx. rewrite leaky_forward_ops.
  apply tracks_atomically, runOps_tracks_w; [repeat constructor; exact Hx|reflexivity].
Qed.

Theorem sigmoid_forward_tracks (h : heap) x name xv : valOf h x = Some xv ->
  tracks h (sigmoid_forward h [Some x] name) (sigmoid_val xv) name.
Proof.
  intros Hx. rewrite sigmoid_forward_ops.
  apply tracks_atomically, runOps_tracks_w; [repeat constructor; exact Hx|reflexivity].
Qed.

Theorem tanh_forward_tracks (h : heap) x name xv : valOf h x = Some xv ->
  tracks h (tanh_forward h [Some x] name) (tanh_val xv) name.
Proof. intros Hx. unfold tanh_forward, tanh_val. cbn [oneInput]. apply (h_op1_tracks h x), Hx. Qed.

(* value level: exact element-wise expressions, for a well-formed input *)
Theorem relu_val_spec (xv : T) : wf xv -> exists r, relu_val xv = Ok r /\ pw1 reluF xv r.
Proof.
  intros W. pose proof (pw2_fst xv xv W W eq_refl) as Hx.
  eapply pw2_bind; [apply (pw2_unary (UScale c0)), Hx|intros z Hz].
  destruct (pw2_same BiElMax _ _ _ _ _ _ Hz Hx) as (r & Er & Hr). exists r. split; [exact Er|exact (pw2_diag _ _ _ Hr)].
Qed.

Theorem leaky_val_spec (m : A) (xv : T) : wf xv -> exists r, leaky_val m xv = Ok r /\ pw1 (leakyF m) xv r.
Proof.
  intros W. pose proof (pw2_fst xv xv W W eq_refl) as Hx.
  eapply pw2_bind; [apply (pw2_unary (UScale c0)), Hx|intros z Hz].
  eapply pw2_bind; [apply (pw2_same BiElMax), Hx; exact Hz|intros p1 H1].
  eapply pw2_bind; [apply (pw2_same BiElMin), Hx; exact Hz|intros p2 H2].
  eapply pw2_bind; [apply (pw2_unary (UScale m)), H2|intros p3 H3].
  destruct (pw2_arith BiAdd _ _ _ _ _ _ H1 H3) as (r & Er & Hr). exists r. split; [exact Er|exact (pw2_diag _ _ _ Hr)].
Qed.

Theorem sigmoid_val_spec (xv : T) : wf xv -> exists r, sigmoid_val xv = Ok r /\ pw1 sigmoidF xv r.
Proof.
  intros W. pose proof (pw2_fst xv xv W W eq_refl) as Hx.
  eapply pw2_bind; [apply (pw2_unary (UPow c0)), Hx|intros one H1].
  eapply pw2_bind; [apply (pw2_unary (UScale cm1)), Hx|intros nx H2].
  eapply pw2_bind; [apply (pw2_unary UExpo), H2|intros ex H3].
  eapply pw2_bind; [apply (pw2_arith BiAdd), H3; exact H1|intros y H4].
  destruct (pw2_unary (UPow cm1) _ _ _ _ H4) as (r & Er & Hr). exists r. split; [exact Er|exact (pw2_diag _ _ _ Hr)].
Qed.

Theorem tanh_val_spec (xv : T) : wf xv -> exists r, tanh_val xv = Ok r /\ pw1 stanh xv r.
Proof.
  intros W. destruct (pw2_unary UTanH _ _ _ _ (pw2_fst xv xv W W eq_refl)) as (r & Er & Hr).
  exists r. split; [exact Er|exact (pw2_diag _ _ _ Hr)].
Qed.

Theorem relu_forward_spec (h : heap) x name xv : valOf h x = Some xv -> wf xv ->
  exists r, produces h (relu_forward h [Some x] name) r name /\ pw1 reluF xv r.
Proof. intros Hx W. exact (spec_of_tracks _ _ _ _ _ (relu_forward_tracks h x name xv Hx) (relu_val_spec xv W)). Qed.

Theorem leaky_forward_spec (h : heap) m x name xv : valOf h x = Some xv -> wf xv ->
  exists r, produces h (leaky_forward h m [Some x] name) r name /\ pw1 (leakyF m) xv r.
Proof. intros Hx W. exact (spec_of_tracks _ _ _ _ _ (leaky_forward_tracks h m x name xv Hx) (leaky_val_spec m xv W)). Qed.

Theorem sigmoid_forward_spec (h : heap) x name xv : valOf h x = Some xv -> wf xv ->
  exists r, produces h (sigmoid_forward h [Some x] name) r name /\ pw1 sigmoidF xv r.
Proof. intros Hx W. exact (spec_of_tracks _ _ _ _ _ (sigmoid_forward_tracks h x name xv Hx) (sigmoid_val_spec xv W)). Qed.

Theorem tanh_forward_spec (h : heap) x name xv : valOf h x = Some xv -> wf xv ->
  exists r, produces h (tanh_forward h [Some x] name) r name /\ pw1 stanh xv r.
Proof. intros Hx W. exact (spec_of_tracks _ _ _ _ _ (tanh_forward_tracks h x name xv Hx) (tanh_val_spec xv W)). Qed.

(* anything but exactly one non-nil input: error, heap unchanged *)
Theorem activations_reject (h : heap) (m : A) xs name : oneInput xs = None ->
  relu_forward h xs name = (h, Err) /\ leaky_forward h m xs name = (h, Err) /\
  sigmoid_forward h xs name = (h, Err) /\ tanh_forward h xs name = (h, Err).
Proof.
  intros E. unfold relu_forward, leaky_forward, sigmoid_forward, tanh_forward. rewrite E. auto.
Qed.

(* [oneInput] rejects exactly the lists that are not a singleton non-nil tensor *)
Lemma oneInput_none_iff (xs : list targ) : oneInput xs = None <-> forall x, xs <> [Some x].
Proof.
  split.
  - intros E x ->. discriminate.
  - intros H. destruct (oneInput xs) as [x|] eqn:E; [|reflexivity].
    apply oneInput_spec in E. exfalso. apply (H x E).
Qed.

(* whatever happens, a call that does not return a tensor leaves the heap as it was *)
Theorem activations_fail_frame (h : heap) (m : A) xs name :
  let unchanged (hr : hres) := (forall id, snd hr <> Ok id) -> fst hr = h in
  unchanged (relu_forward h xs name) /\ unchanged (leaky_forward h m xs name) /\
  unchanged (sigmoid_forward h xs name) /\ unchanged (tanh_forward h xs name).
Proof.
  cbv zeta. unfold relu_forward, leaky_forward, sigmoid_forward, tanh_forward.
  destruct (oneInput xs) as [x|]; [|cbn; auto].
  repeat split; try apply atomically_fail.
  intros H. pose proof (h_math_frame h FTanh x name) as (_ & _ & _ & F).
  apply F. destruct (snd (h_math h FTanh x name)) as [id| |]; [exfalso; apply (H id); reflexivity|auto|auto].
Qed.

End CompP.

Module CompExamples.
Open Scope Z_scope.
Definition b2z (b : bool) : Z := if b then 1 else 0.
#[export] Instance z_scalar : Scalar Z := {|
  s0 := 0; s1 := 1;
  sadd := Z.add; ssub := Z.sub; smul := Z.mul; sdiv := Z.div; spow := Z.pow;
  sexp := fun a => 2 ^ a; slog := Z.log2; ssin := fun a => a; scos := fun a => a; stan := fun a => a;
  ssinh := fun a => a; scosh := fun a => a; stanh := fun a => a + 1000; ssqrt := Z.sqrt;
  smax := Z.max; smin := Z.min;
  sselgt := fun a b => if b <? a then a else b; ssellt := fun a b => if a <? b then a else b;
  seqt := fun a b => b2z (a =? b); snet := fun a b => b2z (negb (a =? b));
  sgt := fun a b => b2z (b <? a); sge := fun a b => b2z (b <=? a);
  slt := fun a b => b2z (a <? b); sle := fun a b => b2z (a <=? b);
  sgeb := fun a b => b2z (b <=? a); strunc := fun a => a; sofnat := Z.of_nat;
  sconst := fun m e => m * 10 ^ e; sneginf := -1000000; sposinf := 1000000; srnd := fun _ k => Z.of_nat k
|}.

Definition tw : tensor Z := mkT [2; 2]%nat (Vec [Vec [Sc 10; Sc (-20)]; Vec [Sc 30; Sc 40]]).
Definition tg : tensor Z := mkT [2; 2]%nat (Vec [Vec [Sc 1; Sc 2]; Vec [Sc (-3); Sc 4]]).
Lemma wf_tw : wf tw. Proof. split; [apply wfndb_spec; reflexivity|repeat constructor]. Qed.
Lemma wf_tg : wf tg. Proof. split; [apply wfndb_spec; reflexivity|repeat constructor]. Qed.

(* a weight with a gradient (as after a backward pass), and one without *)
Definition hg : @heap Z := [mkNode tw true false (Some tg) [] (Some 7%nat)].
Definition hl : @heap Z := fst (leaf [] tw true (Some 7%nat)).

Example sgd_ex :
  sgd_update hg 3 (Some 0%nat) (Some 8%nat)
  = (hg ++ [mkNode (mkT [2; 2]%nat (Vec [Vec [Sc 7; Sc (-26)]; Vec [Sc 39; Sc 28]])) false true None [] (Some 8%nat)],
     Ok 1%nat).
Proof. vm_compute. reflexivity. Qed.

Example sgd_spec_inst :
  exists n, sgd_update hg 3 (Some 0%nat) None = (hg ++ [n], Ok 1%nat) /\
            get (data (nval n)) [1; 0]%nat = Some (30 - 3 * (-3)).
Proof.
  destruct (sgd_update_spec hg 3 0%nat None tw tg eq_refl eq_refl wf_tw wf_tg eq_refl) as (n & E & _ & _ & _ & _ & _ & _ & _ & Hg).
  exists n. split; [exact E|]. rewrite Hg by (repeat constructor). reflexivity.
Qed.

Example sgd_err_ex :
  sgd_update hl 3 (Some 0%nat) None = (hl, Err) /\ sgd_update hl 3 None None = (hl, Err) /\
  sgd_update hl 3 (Some 5%nat) None = (hl, Panic).
Proof. vm_compute. auto. Qed.

Example arith_same_ex : v_arith BiSub tw tg = Ok (mkT [2; 2]%nat (Vec [Vec [Sc 9; Sc (-22)]; Vec [Sc 33; Sc 36]])).
Proof. vm_compute. reflexivity. Qed.

Example relu_ex :
  exists h', relu_forward hl [Some 0%nat] (Some 9%nat) = (h', Ok 2%nat) /\
    valOf h' 2 = Some (mkT [2; 2]%nat (Vec [Vec [Sc 10; Sc 0]; Vec [Sc 30; Sc 40]])) /\ length h' = 3%nat.
Proof. eexists. vm_compute. auto. Qed.

Example leaky_ex :
  exists h', leaky_forward hl 3 [Some 0%nat] None = (h', Ok 7%nat) /\
    valOf h' 7 = Some (mkT [2; 2]%nat (Vec [Vec [Sc 10; Sc (-60)]; Vec [Sc 30; Sc 40]])).
Proof. eexists. vm_compute. auto. Qed.

Example relu_spec_inst :
  exists r, produces hl (relu_forward hl [Some 0%nat] None) r None /\ get (data r) [0; 1]%nat = Some (Z.max (0 * -20) (-20)).
Proof.
  destruct (relu_forward_spec hl 0%nat None tw eq_refl wf_tw) as (r & H & _ & _ & Hg).
  exists r. split; [exact H|]. rewrite Hg by (repeat constructor). reflexivity.
Qed.

Example tanh_ex :
  exists h', tanh_forward hl [Some 0%nat] None = (h', Ok 1%nat) /\
    valOf h' 1 = Some (mkT [2; 2]%nat (Vec [Vec [Sc 1010; Sc 980]; Vec [Sc 1030; Sc 1040]])).
Proof. eexists. vm_compute. auto. Qed.

Example sigmoid_ex :
  exists h' id, sigmoid_forward hl [Some 0%nat] None = (h', Ok id).
Proof. eexists. eexists. vm_compute. reflexivity. Qed.

Example reject_ex :
  relu_forward hl [] None = (hl, Err) /\ relu_forward hl [None] None = (hl, Err) /\
  relu_forward hl [Some 0%nat; Some 0%nat] None = (hl, Err) /\ relu_forward hl [Some 4%nat] None = (hl, Panic).
Proof. vm_compute. auto. Qed.

End CompExamples.

Print Assumptions v_arith_same_dims.
Print Assumptions h_op1_tracks.
Print Assumptions h_elsel_tracks.
Print Assumptions h_arith_tracks.
Print Assumptions sgd_update_spec.
Print Assumptions sgd_update_frame.
Print Assumptions sgd_update_errors.
Print Assumptions sgd_update_fail_frame.
Print Assumptions relu_forward_spec.
Print Assumptions leaky_forward_spec.
Print Assumptions sigmoid_forward_spec.
Print Assumptions tanh_forward_spec.
Print Assumptions relu_forward_tracks.
Print Assumptions leaky_forward_tracks.
Print Assumptions sigmoid_forward_tracks.
Print Assumptions activations_reject.
Print Assumptions activations_fail_frame.
