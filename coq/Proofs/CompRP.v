(* CompRP.v — the components read over the reals (C14 activations, C12 losses, C17 SGD).
   CompP.v / LossP.v give, for an ARBITRARY scalar type, the exact expression every component
   computes.  Here the scalar type is [R] ([R_scalar thr draw], any threshold, any random source)
   and the expressions are shown to be the defining mathematical functions:
     Relu = max(0,x), LeakyRelu = max(0,x) + m*min(0,x), Sigmoid = 1/(1+e^-x), Tanh = tanh,
     clip = max(l, min(x,u)) in [l,u], MSE = mean (t-p)^2 >= 0,
     BCE = mean -(tc ln pc + (1-tc) ln(1-pc)) >= 0 with both logarithm arguments in [eps, 1-eps],
     CE = (Σ_i -Σ_j tc ln pc)/m >= 0, SGD: x - lr*g,
   together with the values of the constants read from the Go sources (Consts.v).
   (Accuracy, C19, is in AccRP.v.) *)
From Coq Require Import List Arith ZArith Lia Reals Lra.
From Qeep Require Import Model.Scalar Model.Nd Model.Fill Model.Data Model.Valid Model.Api Model.Grad
  Model.Components Model.Consts Spec.RScalar.
From Qeep Require Import Proofs.NdP Proofs.ElemP Proofs.CompP Proofs.LossP Proofs.ReduceRP Proofs.VjpElemP.
Import ListNotations.
Open Scope R_scope.

(* ---- the constants of the Go sources, as real numbers ---- *)
Definition epsR : R := dec2R (fst c_epsilon) (snd c_epsilon).
Definition omeR : R := dec2R (fst c_one_minus_epsilon) (snd c_one_minus_epsilon).

Lemma epsilon_value : epsR = / 10 ^ 12.
Proof.
  unfold epsR, dec2R, c_epsilon; cbn [fst snd].
  change (powerRZ 10 (-12)) with (/ 10 ^ 12). ring.
Qed.

Lemma epsilon_value_powerRZ : epsR = powerRZ 10 (-12).
Proof. unfold epsR, dec2R, c_epsilon; cbn [fst snd]. ring. Qed.

Lemma one_minus_epsilon_value : omeR = 1 - epsR.
Proof.
  rewrite epsilon_value. unfold omeR, dec2R, c_one_minus_epsilon; cbn [fst snd].
  change (powerRZ 10 (-12)) with (/ 10 ^ 12). lra.
Qed.

Lemma epsilon_pos : 0 < epsR.
Proof. rewrite epsilon_value. lra. Qed.

Lemma epsilon_order : epsR < 1 - epsR /\ 1 - epsR < 1.
Proof. rewrite epsilon_value. lra. Qed.

Lemma epsilon_lt_ome : 0 < epsR /\ epsR < omeR /\ omeR < 1.
Proof. rewrite one_minus_epsilon_value. pose proof epsilon_pos. pose proof epsilon_order. lra. Qed.

Lemma leaky_default_slope : dec2R (fst c_leaky_m) (snd c_leaky_m) = 0.01.
Proof.
  unfold dec2R, c_leaky_m; cbn [fst snd]. change (powerRZ 10 (-2)) with (/ 10 ^ 2). lra.
Qed.

Lemma sgd_default_learning_rate : dec2R (fst c_sgd_lr) (snd c_sgd_lr) = 0.01.
Proof.
  unfold dec2R, c_sgd_lr; cbn [fst snd]. change (powerRZ 10 (-2)) with (/ 10 ^ 2). lra.
Qed.

(* ---- real-number facts ---- *)
Lemma Rpow_m1 x : Rpow x (-1) = / x.
Proof. rewrite (Rpow_IZR x (-1)). change (powerRZ x (-1)) with (/ x ^ 1). rewrite pow_1. reflexivity. Qed.

Lemma ln_le_0 x : 0 < x -> x <= 1 -> ln x <= 0.
Proof.
  intros H0 [H1| ->]; [|rewrite ln_1; lra].
  pose proof (ln_increasing x 1 H0 H1) as H. rewrite ln_1 in H. lra.
Qed.

Lemma ln_lt_0 x : 0 < x -> x < 1 -> ln x < 0.
Proof. intros H0 H1. pose proof (ln_increasing x 1 H0 H1) as H. rewrite ln_1 in H. exact H. Qed.

Lemma Rsum_nonneg xs : Forall (fun x => 0 <= x) xs -> 0 <= Rsum xs.
Proof.
  induction 1 as [|x xs Hx _ IH]; unfold Rsum in *; cbn [fold_right]; lra.
Qed.

Lemma Rsum_nonpos xs : Forall (fun x => x <= 0) xs -> Rsum xs <= 0.
Proof.
  induction 1 as [|x xs Hx _ IH]; unfold Rsum in *; cbn [fold_right]; lra.
Qed.

Lemma Rsum_map_ext {X} (f g : X -> R) l : (forall x, In x l -> f x = g x) -> Rsum (map f l) = Rsum (map g l).
Proof. intros H. f_equal. apply map_ext_in. exact H. Qed.

Lemma Rsum_map_opp {X} (f : X -> R) l : Rsum (map (fun x => - f x) l) = - Rsum (map f l).
Proof. induction l as [|x l IH]; unfold Rsum in *; cbn [map fold_right]; [ring|rewrite IH; ring]. Qed.

Lemma clamp_range l u e : l <= u -> l <= Rmax l (Rmin e u) <= u.
Proof.
  intros H. split; [apply Rmax_l|]. apply Rmax_lub; [exact H|apply Rmin_r].
Qed.

Lemma clamp_id l u e : l <= e <= u -> Rmax l (Rmin e u) = e.
Proof. intros [H1 H2]. rewrite Rmin_left by exact H2. apply Rmax_right. exact H1. Qed.

(* a statement about an element-wise description is one about any pointwise equal description *)
Lemma pw1_ext_ex {A} (F G : A -> A) (x : tensor A) (P : tensor A -> Prop) : (forall e, F e = G e) ->
  (exists r, P r /\ pw1 F x r) -> exists r, P r /\ pw1 G x r.
Proof. intros E (r & H & Hr). exists r. split; [exact H|exact (pw1_ext _ _ _ _ E Hr)]. Qed.

Section R.
Variable thr : R.
Variable draw : bool -> nat -> R.
Local Instance RS : Scalar R := R_scalar thr draw.
Notation T := (tensor R).
Notation heap := (@heap R).

(* ---- the fields of the instance, folded ---- *)
Lemma s0_R : s0 = 0.                                 Proof. reflexivity. Qed.
Lemma s1_R : s1 = 1.                                 Proof. reflexivity. Qed.
Lemma sadd_R a b : sadd a b = a + b.                 Proof. reflexivity. Qed.
Lemma ssub_R a b : ssub a b = a - b.                 Proof. reflexivity. Qed.
Lemma smul_R a b : smul a b = a * b.                 Proof. reflexivity. Qed.
Lemma sdiv_R a b : sdiv a b = a / b.                 Proof. reflexivity. Qed.
Lemma spow_R a b : spow a b = Rpow a b.              Proof. reflexivity. Qed.
Lemma sexp_R a : sexp a = exp a.                     Proof. reflexivity. Qed.
Lemma slog_R a : slog a = ln a.                      Proof. reflexivity. Qed.
Lemma stanh_R a : stanh a = tanh a.                  Proof. reflexivity. Qed.
Lemma smax_R a b : smax a b = Rmax a b.              Proof. reflexivity. Qed.
Lemma smin_R a b : smin a b = Rmin a b.              Proof. reflexivity. Qed.
Lemma sofnat_R n : sofnat n = INR n.                 Proof. reflexivity. Qed.

Lemma fold_sadd_R xs a : fold_left sadd xs a = a + Rsum xs.
Proof. apply fold_left_Rplus. Qed.

(* all of them at once (rewriting with [sconst_R] twice in a row is fragile: the instance fields are
   convertible to their values) *)
Ltac inR := cbn [s0 s1 sadd ssub smul sdiv spow sexp slog stanh smax smin sofnat sconst RS R_scalar].

(* ---- C14  activation values ---- *)

Theorem relu_is_max0 e : reluF e = Rmax 0 e.
Proof.
  unfold reluF. inR. rewrite dec2R_0. f_equal. ring.
Qed.

Corollary relu_cases e : (0 <= e -> reluF e = e) /\ (e <= 0 -> reluF e = 0).
Proof.
  rewrite relu_is_max0. split; intros H; [apply Rmax_right|apply Rmax_left]; exact H.
Qed.

Theorem leaky_is m e : leakyF m e = Rmax 0 e + m * Rmin 0 e.
Proof.
  unfold leakyF. inR. rewrite dec2R_0.
  replace (0 * e) with 0 by ring. reflexivity.
Qed.

Corollary leaky_cases m e : (0 <= e -> leakyF m e = e) /\ (e <= 0 -> leakyF m e = m * e).
Proof.
  rewrite leaky_is. split; intros H.
  - rewrite Rmax_right, Rmin_left by exact H. ring.
  - rewrite Rmax_left, Rmin_right by exact H. ring.
Qed.

Theorem sigmoid_is_logistic e : sigmoidF e = / (1 + exp (- e)).
Proof.
  unfold sigmoidF. inR. rewrite dec2R_0, dec2R_m1.
  rewrite Rpow_0, Rpow_m1. do 3 f_equal. ring.
Qed.

Theorem sigmoid_range e : 0 < sigmoidF e < 1.
Proof.
  rewrite sigmoid_is_logistic. pose proof (exp_pos (- e)) as H.
  split.
  - apply Rinv_0_lt_compat. lra.
  - rewrite <- Rinv_1 at 2. apply Rinv_lt_contravar; lra.
Qed.

Theorem tanh_is_tanh e : stanh e = tanh e.
Proof. reflexivity. Qed.

(* heap level: the layers' outputs are these functions of the input's elements *)
Theorem relu_forward_real (h : heap) x name xv : valOf h x = Some xv -> wf xv ->
  exists r, produces h (relu_forward h [Some x] name) r name /\ pw1 (fun e => Rmax 0 e) xv r.
Proof. intros Hx W. exact (pw1_ext_ex _ _ _ _ relu_is_max0 (relu_forward_spec h x name xv Hx W)). Qed.

Theorem leaky_forward_real (h : heap) m x name xv : valOf h x = Some xv -> wf xv ->
  exists r, produces h (leaky_forward h m [Some x] name) r name /\
            pw1 (fun e => Rmax 0 e + m * Rmin 0 e) xv r.
Proof. intros Hx W. exact (pw1_ext_ex _ _ _ _ (leaky_is m) (leaky_forward_spec h m x name xv Hx W)). Qed.

Theorem sigmoid_forward_real (h : heap) x name xv : valOf h x = Some xv -> wf xv ->
  exists r, produces h (sigmoid_forward h [Some x] name) r name /\ pw1 (fun e => / (1 + exp (- e))) xv r.
Proof. intros Hx W. exact (pw1_ext_ex _ _ _ _ sigmoid_is_logistic (sigmoid_forward_spec h x name xv Hx W)). Qed.

Theorem tanh_forward_real (h : heap) x name xv : valOf h x = Some xv -> wf xv ->
  exists r, produces h (tanh_forward h [Some x] name) r name /\ pw1 tanh xv r.
Proof. exact (tanh_forward_spec h x name xv). Qed.

(* ---- C17  SGD ---- *)
Theorem sgd_is x lr gx : ssub x (smul lr gx) = x - lr * gx.
Proof. reflexivity. Qed.

Theorem sgd_update_real (h : heap) (lr : R) (w : nat) name (wv g : T) :
  valOf h w = Some wv -> gradOf h w = Some g -> wf wv -> wf g -> dims g = dims wv ->
  exists n, sgd_update h lr (Some w) name = (h ++ [n], Ok (length h)) /\
    dims (nval n) = dims wv /\ wf (nval n) /\
    forall idx, validIdx (dims wv) idx ->
      get (data (nval n)) idx =
      match get (data wv) idx, get (data g) idx with
      | Some x, Some gx => Some (x - lr * gx) | _, _ => None end.
Proof.
  intros Hw Hg Wwv Wg Ed.
  destruct (sgd_update_spec h lr w name wv g Hw Hg Wwv Wg Ed) as (n & E & _ & _ & _ & _ & _ & Hd & Wn & Hgn).
  exists n. split; [exact E|]. split; [exact Hd|]. split; [exact Wn|]. exact Hgn.
Qed.

(* ---- C12  loss values ---- *)

(* ---- clip ---- *)
Theorem clip_eq l u e : clipF l u e = Rmax l (Rmin e u).
Proof.
  unfold clipF. inR. rewrite dec2R_0, Rpow_0, !Rmult_1_r. reflexivity.
Qed.

Theorem clip_is l u e : l <= u -> clipF l u e = Rmax l (Rmin e u) /\ l <= clipF l u e <= u.
Proof. intros H. rewrite clip_eq. split; [reflexivity|apply clamp_range, H]. Qed.

Theorem clip_inside l u e : l <= e <= u -> clipF l u e = e.
Proof. intros H. rewrite clip_eq. apply clamp_id, H. Qed.

Corollary clip_below l u e : l <= u -> e <= l -> clipF l u e = l.
Proof. intros H1 H2. rewrite clip_eq. rewrite Rmin_left by lra. apply Rmax_left. exact H2. Qed.

Corollary clip_above l u e : l <= u -> u <= e -> clipF l u e = u.
Proof. intros H1 H2. rewrite clip_eq. rewrite Rmin_right by exact H2. apply Rmax_right. exact H1. Qed.

(* ---- MSE ---- *)
Lemma mseF_is p t : mseF p t = (t - p) ^ 2.
Proof. unfold mseF. inR. rewrite ReduceRP.Rpow_2. ring. Qed.

Lemma map2_ext (f g : R -> R -> R) xs ys : (forall x y, f x y = g x y) -> map2 f xs ys = map2 g xs ys.
Proof. intros E. unfold map2. apply map_ext. intros [x y]. apply E. Qed.

(* the mean of an element loss F over paired sequences, as computed (left fold from 0, then / n) *)
Lemma mean_is (F G : R -> R -> R) ps ts n : (forall p t, F p t = G p t) ->
  sdiv (fold_left sadd (map2 F ps ts) s0) (sofnat n) = Rsum (map2 G ps ts) / INR n.
Proof. intros E. rewrite fold_sadd_R. inR. rewrite Rplus_0_l, (map2_ext F G ps ts E). reflexivity. Qed.

Lemma mean_nonneg (F : R -> R -> R) ps ts n : (forall p t, 0 <= F p t) -> (0 < n)%nat ->
  0 <= sdiv (fold_left sadd (map2 F ps ts) s0) (sofnat n).
Proof.
  intros HF Hn. rewrite fold_sadd_R. inR. rewrite Rplus_0_l. apply Rmult_le_pos.
  - apply Rsum_nonneg. unfold map2. apply Forall_forall. intros v Hv. apply in_map_iff in Hv as ([p t] & <- & _).
    apply HF.
  - left. apply Rinv_0_lt_compat. apply lt_0_INR. exact Hn.
Qed.

(* what MSE.Compute / BCE.Compute return, given the exact expression of LossP.v and the reading of F *)
Lemma loss1_real (F G : R -> R -> R) (h : heap) hr name (pv tv : T) :
  (forall p t, F p t = G p t) -> (forall p t, 0 <= F p t) ->
  (exists n r, dims pv = [n] /\ dims tv = [n] /\ produces h hr r name /\ dims r = [] /\ wf r /\
     get (data r) [] = Some (sdiv (fold_left sadd (map2 F (flat (data pv)) (flat (data tv))) s0) (sofnat n))) ->
  exists n r v, dims pv = [n] /\ dims tv = [n] /\ produces h hr r name /\ dims r = [] /\ get (data r) [] = Some v /\
    v = Rsum (map2 G (flat (data pv)) (flat (data tv))) / INR n /\ ((0 < n)%nat -> 0 <= v).
Proof.
  intros E HF (n & r & Ep & Et & H & Hd & _ & Hg). exists n, r. eexists.
  split; [exact Ep|]. split; [exact Et|]. split; [exact H|]. split; [exact Hd|]. split; [exact Hg|].
  split; [apply mean_is, E|apply mean_nonneg, HF].
Qed.

Theorem mse_is ps ts n :
  sdiv (fold_left sadd (map2 mseF ps ts) s0) (sofnat n) = Rsum (map2 (fun p t => (t - p) ^ 2) ps ts) / INR n.
Proof. apply mean_is, mseF_is. Qed.

Lemma mseF_nonneg p t : 0 <= mseF p t.
Proof. rewrite mseF_is. apply pow2_ge_0. Qed.

Theorem mse_nonneg ps ts n : (0 < n)%nat ->
  0 <= sdiv (fold_left sadd (map2 mseF ps ts) s0) (sofnat n).
Proof. apply mean_nonneg, mseF_nonneg. Qed.

(* the mean is zero exactly when predictions and targets coincide position by position *)
Theorem mse_zero_iff ps ts n : (0 < n)%nat -> length ps = length ts ->
  (sdiv (fold_left sadd (map2 mseF ps ts) s0) (sofnat n) = 0 <-> ps = ts).
Proof.
  intros Hn Hl. rewrite mse_is.
  assert (Hi : 0 < / INR n) by (apply Rinv_0_lt_compat, lt_0_INR, Hn).
  assert (E : Rsum (map2 (fun p t => (t - p) ^ 2) ps ts) = 0 <-> ps = ts).
  { clear -Hl. revert ts Hl. induction ps as [|p ps IH]; intros [|t ts] Hl; cbn in Hl; try discriminate.
    - split; reflexivity.
    - unfold map2, Rsum in *. cbn [combine map fold_right fst snd].
      assert (Hs : 0 <= fold_right Rplus 0 (map (fun q => (snd q - fst q) ^ 2) (combine ps ts))).
      { apply (Rsum_nonneg (map _ _)). apply Forall_forall. intros v Hv. apply in_map_iff in Hv as (q & <- & _).
        apply pow2_ge_0. }
      pose proof (pow2_ge_0 (t - p)) as Hp. split.
      + intros H. assert (H1 : (t - p) ^ 2 = 0) by lra.
        assert (H2 : fold_right Rplus 0 (map (fun q => (snd q - fst q) ^ 2) (combine ps ts)) = 0) by lra.
        apply (IH ts ltac:(lia)) in H2. subst ts. f_equal.
        assert (t - p = 0) by (destruct (Req_dec (t - p) 0) as [Z|Z]; [exact Z|exfalso; apply (pow_nonzero _ 2) in Z; lra]).
        lra.
      + intros H. inversion H; subst. assert (H2 : ts = ts) by reflexivity.
        apply (IH ts ltac:(lia)) in H2. rewrite H2. replace (t - t) with 0 by ring. ring. }
  split.
  - intros H. apply E. apply Rmult_integral in H as [H|H]; [exact H|lra].
  - intros H. apply E in H. unfold Rdiv. rewrite H. ring.
Qed.

(* ---- BCE ---- *)
Section Eps.
Variables (eps ome : R).

Theorem bce_is p t :
  let pc := Rmax eps (Rmin p ome) in
  let tc := Rmax 0 (Rmin t 1) in
  bceF eps ome p t = - (tc * ln pc + (1 - tc) * ln (1 - pc)).
Proof.
  cbv zeta. unfold bceF. rewrite !clip_eq.
  inR. rewrite dec2R_0, dec2R_1, dec2R_m1, Rpow_0. ring.
Qed.

Theorem ce_is p t :
  let pc := Rmax eps (Rmin p ome) in
  let tc := Rmax 0 (Rmin t 1) in
  ceElF eps ome p t = tc * ln pc.
Proof.
  cbv zeta. unfold ceElF. rewrite !clip_eq. inR. rewrite dec2R_0, dec2R_1. reflexivity.
Qed.

Hypothesis eps_pos : 0 < eps.
Hypothesis eps_le_ome : eps <= ome.
Hypothesis ome_lt_1 : ome < 1.

(* the arguments of both logarithms are bounded away from 0 (and from 1), for EVERY real p *)
Theorem log_arguments_finite p :
  let pc := Rmax eps (Rmin p ome) in
  eps <= pc <= ome /\ 1 - ome <= 1 - pc <= 1 - eps /\ 0 < pc < 1 /\ 0 < 1 - pc < 1.
Proof.
  cbv zeta. pose proof (clamp_range eps ome p eps_le_ome) as [H1 H2]. repeat split; lra.
Qed.

Theorem target_clip_range t : 0 <= Rmax 0 (Rmin t 1) <= 1.
Proof. apply clamp_range. lra. Qed.

(* strictly positive: a clipped prediction never reaches 0 or 1 *)
Theorem bce_elem_pos p t : 0 < bceF eps ome p t.
Proof.
  rewrite bce_is. cbv zeta.
  destruct (log_arguments_finite p) as (_ & _ & [Hp0 Hp1] & [Hq0 Hq1]). cbv zeta in *.
  destruct (target_clip_range t) as [Ht0 Ht1].
  set (pc := Rmax eps (Rmin p ome)) in *. set (tc := Rmax 0 (Rmin t 1)) in *.
  pose proof (ln_lt_0 pc Hp0 Hp1) as L1. pose proof (ln_lt_0 (1 - pc) Hq0 Hq1) as L2.
  assert (A1 : tc * ln pc <= 0) by (rewrite <- (Rmult_0_r tc); apply Rmult_le_compat_l; lra).
  assert (A2 : (1 - tc) * ln (1 - pc) <= 0) by (rewrite <- (Rmult_0_r (1 - tc)); apply Rmult_le_compat_l; lra).
  destruct (Rle_lt_dec tc (/ 2)) as [Hs|Hs].
  - assert ((1 - tc) * ln (1 - pc) < 0); [|lra].
    rewrite <- (Rmult_0_r (1 - tc)). apply Rmult_lt_compat_l; lra.
  - assert (tc * ln pc < 0); [|lra].
    rewrite <- (Rmult_0_r tc). apply Rmult_lt_compat_l; lra.
Qed.

Corollary bce_elem_nonneg p t : 0 <= bceF eps ome p t.
Proof. left. apply bce_elem_pos. Qed.

Theorem bce_nonneg ps ts n : (0 < n)%nat ->
  0 <= sdiv (fold_left sadd (map2 (bceF eps ome) ps ts) s0) (sofnat n).
Proof. apply mean_nonneg, bce_elem_nonneg. Qed.

(* ---- CE ---- *)
Theorem ce_elem_nonpos p t : ceElF eps ome p t <= 0.
Proof.
  rewrite ce_is. cbv zeta.
  destruct (log_arguments_finite p) as (_ & _ & [Hp0 Hp1] & _). cbv zeta in *.
  destruct (target_clip_range t) as [Ht0 Ht1].
  pose proof (ln_lt_0 _ Hp0 Hp1) as L1.
  set (pc := Rmax eps (Rmin p ome)) in *. set (tc := Rmax 0 (Rmin t 1)) in *.
  assert (A1 : tc * ln pc <= tc * 0) by (apply Rmult_le_compat_l; lra). lra.
Qed.

(* the expression of [ce_compute_spec] *)
Definition ceExpr (m k : nat) (P Tm : nat -> nat -> R) : R :=
  sdiv (fold_left sadd
          (map (fun i => smul (sconst (-1) 0) (fold_left sadd (map (fun j => ceElF eps ome (P i j) (Tm i j)) (seq 0 k)) s0))
               (seq 0 m)) s0)
       (sofnat m).

Theorem ce_is_mean m k P Tm :
  ceExpr m k P Tm =
  Rsum (map (fun i => - Rsum (map (fun j => Rmax 0 (Rmin (Tm i j) 1) * ln (Rmax eps (Rmin (P i j) ome))) (seq 0 k)))
            (seq 0 m)) / INR m.
Proof.
  unfold ceExpr. rewrite fold_sadd_R. inR. rewrite Rplus_0_l. f_equal. apply Rsum_map_ext.
  intros i _. rewrite fold_sadd_R. inR. rewrite dec2R_m1, Rplus_0_l.
  rewrite (Rsum_map_ext (fun j => ceElF eps ome (P i j) (Tm i j))
             (fun j => Rmax 0 (Rmin (Tm i j) 1) * ln (Rmax eps (Rmin (P i j) ome)))).
  - ring.
  - intros j _. apply ce_is.
Qed.

Theorem ce_nonneg m k P Tm : 0 <= ceExpr m k P Tm.
Proof.
  unfold ceExpr. rewrite fold_sadd_R. inR. rewrite Rplus_0_l.
  destruct m as [|m].
  - cbn [seq map]. unfold Rsum. cbn [fold_right]. unfold Rdiv. rewrite Rmult_0_l. lra.
  - apply Rmult_le_pos.
    + apply Rsum_nonneg. apply Forall_forall. intros v Hv. apply in_map_iff in Hv as (i & <- & _).
      rewrite fold_sadd_R. inR. rewrite dec2R_m1, Rplus_0_l.
      assert (Rsum (map (fun j => ceElF eps ome (P i j) (Tm i j)) (seq 0 k)) <= 0); [|lra].
      apply Rsum_nonpos. apply Forall_forall. intros w Hw. apply in_map_iff in Hw as (j & <- & _).
      apply ce_elem_nonpos.
    + left. apply Rinv_0_lt_compat. apply lt_0_INR. lia.
Qed.

End Eps.

(* ---- with the constants of the Go sources ---- *)
Theorem bce_log_arguments_go p :
  let pc := clipF epsR omeR p in
  pc = Rmax epsR (Rmin p (1 - epsR)) /\ epsR <= pc <= 1 - epsR /\ epsR <= 1 - pc <= 1 - epsR.
Proof.
  cbv zeta. rewrite clip_eq. rewrite one_minus_epsilon_value. split; [reflexivity|].
  pose proof epsilon_order as [H1 H2].
  pose proof (clamp_range epsR (1 - epsR) p ltac:(lra)) as [H3 H4]. repeat split; lra.
Qed.

Theorem bce_nonneg_go ps ts n : (0 < n)%nat ->
  0 <= sdiv (fold_left sadd (map2 (bceF epsR omeR) ps ts) s0) (sofnat n).
Proof. destruct epsilon_lt_ome as (H1 & H2 & H3). apply bce_nonneg; lra. Qed.

Theorem ce_nonneg_go m k P Tm : 0 <= ceExpr epsR omeR m k P Tm.
Proof. destruct epsilon_lt_ome as (H1 & H2 & H3). apply ce_nonneg; lra. Qed.

(* heap level: what MSE.Compute / BCE.Compute / CE.Compute return on accepted arguments *)
Theorem mse_compute_real (h : heap) yp yt p t name pv tv :
  lossArgs1 h yp yt = Some (p, t) -> valOf h p = Some pv -> valOf h t = Some tv -> wf pv -> wf tv ->
  exists n r v, dims pv = [n] /\ dims tv = [n] /\
    produces h (mse_compute h yp yt name) r name /\ dims r = [] /\ get (data r) [] = Some v /\
    v = Rsum (map2 (fun p t => (t - p) ^ 2) (flat (data pv)) (flat (data tv))) / INR n /\
    ((0 < n)%nat -> 0 <= v).
Proof.
  intros E Hp Ht Wp Wt.
  exact (loss1_real _ _ _ _ _ _ _ mseF_is mseF_nonneg (mse_compute_spec h yp yt p t name pv tv E Hp Ht Wp Wt)).
Qed.

Theorem bce_compute_real (h : heap) yp yt p t name pv tv :
  lossArgs1 h yp yt = Some (p, t) -> valOf h p = Some pv -> valOf h t = Some tv -> wf pv -> wf tv ->
  exists n r v, dims pv = [n] /\ dims tv = [n] /\
    produces h (bce_compute epsR omeR h yp yt name) r name /\ dims r = [] /\ get (data r) [] = Some v /\
    v = Rsum (map2 (fun p t => let pc := Rmax epsR (Rmin p omeR) in let tc := Rmax 0 (Rmin t 1) in
                               - (tc * ln pc + (1 - tc) * ln (1 - pc))) (flat (data pv)) (flat (data tv))) / INR n /\
    ((0 < n)%nat -> 0 <= v).
Proof.
  intros E Hp Ht Wp Wt. destruct epsilon_lt_ome as (H1 & H2 & H3).
  refine (loss1_real _ _ _ _ _ _ _ (bce_is epsR omeR) (bce_elem_nonneg epsR omeR H1 _ H3)
            (bce_compute_spec epsR omeR h yp yt p t name pv tv E Hp Ht Wp Wt)). lra.
Qed.

Theorem ce_compute_real (h : heap) yp yt p t name pv tv m k (P Tm : nat -> nat -> R) :
  ceArgs h yp yt = Some (p, t) -> valOf h p = Some pv -> valOf h t = Some tv -> wf pv -> wf tv ->
  dims pv = [m; k] ->
  (forall i j, (i < m)%nat -> (j < k)%nat -> get (data pv) [i; j] = Some (P i j)) ->
  (forall i j, (i < m)%nat -> (j < k)%nat -> get (data tv) [i; j] = Some (Tm i j)) ->
  exists r v, produces h (ce_compute epsR omeR h yp yt name) r name /\ dims r = [] /\ get (data r) [] = Some v /\
    v = Rsum (map (fun i => - Rsum (map (fun j => Rmax 0 (Rmin (Tm i j) 1) * ln (Rmax epsR (Rmin (P i j) omeR)))
                                        (seq 0 k))) (seq 0 m)) / INR m /\
    0 <= v.
Proof.
  intros E Hp Ht Wp Wt Ep HP HT.
  destruct (ce_compute_spec epsR omeR h yp yt p t name pv tv m k P Tm E Hp Ht Wp Wt Ep HP HT) as (r & H & Hd & _ & Hg).
  exists r, (ceExpr epsR omeR m k P Tm). split; [exact H|]. split; [exact Hd|]. split; [exact Hg|].
  split; [apply ce_is_mean|apply ce_nonneg_go].
Qed.

End R.

(* ---- examples ---- *)
Section Examples.
Variables (thr : R) (draw : bool -> nat -> R).
Local Hint Extern 0 (Scalar R) => exact (R_scalar thr draw) : typeclass_instances.

Example relu_ex : reluF 3 = 3 /\ reluF (-3) = 0 /\ reluF 0 = 0.
Proof.
  repeat split; [apply relu_cases; lra|apply relu_cases; lra|apply relu_cases; lra].
Qed.

Example leaky_ex : leakyF (dec2R (fst c_leaky_m) (snd c_leaky_m)) (-3) = -0.03 /\
                   leakyF (dec2R (fst c_leaky_m) (snd c_leaky_m)) 3 = 3.
Proof.
  rewrite leaky_default_slope. split.
  - rewrite (proj2 (leaky_cases thr draw _ _)); lra.
  - apply leaky_cases; lra.
Qed.

Example sigmoid_ex : sigmoidF 0 = / 2.
Proof. rewrite sigmoid_is_logistic. rewrite Ropp_0, exp_0. f_equal. Qed.

(* predictions 0 and 1 (and anything outside [0,1]) are clipped: the logarithms see eps or 1 - eps *)
Example clip_ex :
  clipF epsR omeR 0 = epsR /\ clipF epsR omeR 1 = 1 - epsR /\ clipF epsR omeR (-7) = epsR /\
  clipF epsR omeR 7 = 1 - epsR /\ clipF epsR omeR (/ 2) = / 2.
Proof.
  destruct epsilon_lt_ome as (H1 & H2 & H3). pose proof one_minus_epsilon_value as E.
  pose proof epsilon_value as V.
  repeat split.
  - apply clip_below; lra.
  - rewrite <- E. apply clip_above; lra.
  - apply clip_below; lra.
  - rewrite <- E. apply clip_above; lra.
  - apply clip_inside. lra.
Qed.

(* a perfect confident prediction still has a (tiny) positive loss: -ln(1 - eps) *)
Example bce_ex : bceF epsR omeR 1 1 = - ln (1 - epsR).
Proof.
  destruct epsilon_lt_ome as (H1 & H2 & H3). rewrite bce_is. cbv zeta.
  rewrite (Rmin_right 1 omeR) by lra. rewrite (Rmax_right epsR omeR) by lra.
  rewrite (Rmin_left 1 1) by lra. rewrite (Rmax_right 0 1) by lra. rewrite one_minus_epsilon_value. ring.
Qed.

Example mse_ex : sdiv (fold_left sadd (map2 mseF [1; 5; 9] [2; 3; 3]) s0) (sofnat 3) = 41 / 3.
Proof. rewrite mse_is. unfold map2, Rsum. cbn. lra. Qed.

Example sgd_ex : ssub 30 (smul (dec2R (fst c_sgd_lr) (snd c_sgd_lr)) (-300)) = 33.
Proof. rewrite sgd_is, sgd_default_learning_rate. lra. Qed.

End Examples.

Print Assumptions epsilon_value.
Print Assumptions one_minus_epsilon_value.
Print Assumptions epsilon_order.
Print Assumptions leaky_default_slope.
Print Assumptions sgd_default_learning_rate.
Print Assumptions relu_is_max0.
Print Assumptions leaky_is.
Print Assumptions sigmoid_is_logistic.
Print Assumptions sigmoid_range.
Print Assumptions relu_forward_real.
Print Assumptions leaky_forward_real.
Print Assumptions sigmoid_forward_real.
Print Assumptions tanh_forward_real.
Print Assumptions sgd_is.
Print Assumptions sgd_update_real.
Print Assumptions clip_is.
Print Assumptions clip_inside.
Print Assumptions mse_is.
Print Assumptions mse_nonneg.
Print Assumptions mse_zero_iff.
Print Assumptions bce_is.
Print Assumptions log_arguments_finite.
Print Assumptions bce_elem_nonneg.
Print Assumptions bce_elem_pos.
Print Assumptions bce_nonneg.
Print Assumptions ce_is.
Print Assumptions ce_elem_nonpos.
Print Assumptions ce_is_mean.
Print Assumptions ce_nonneg.
Print Assumptions bce_log_arguments_go.
Print Assumptions bce_nonneg_go.
Print Assumptions ce_nonneg_go.
Print Assumptions mse_compute_real.
Print Assumptions bce_compute_real.
Print Assumptions ce_compute_real.
