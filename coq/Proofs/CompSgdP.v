(* CompSgdP.v — component/optimizers/sgd.go, SGD.Update, as translated by harness/gox into the DataIR program
   GoComp.c_SGD_Update and run with the LINKED oracle CompExt.cext (the call of the sibling c.toValidInputs runs the
   sibling's own translated program c_SGD_toValidInputs; g.Scale and w.Sub are the oracle entries "Scale" / "Sub" =
   Api.v_unary (UScale lr) / Api.v_arith BiSub on the VALUES).
   Representation: the receiver is the float [DF lr]; the pointer [wptr : *tensor.Tensor] is [dcell c] (CompValidP):
   [DNil] (nil pointer), [DL [DNil]] (the cell holds nil) or [DL [DI w]] (the cell holds the node w); the statement
   [*wptr, err = w.Sub(delta)] assigns slot 0 of the variable "wptr": the final value of "wptr" in the returned
   environment is the cell after the call.
   Results (all heaps, fuel, depth):
   - [Update_rejects]: nil pointer / nil cell / no gradient: error, the cell is what it was (C17 "replaces nothing");
   - [Update_ok]: otherwise the outcome follows  r = dor delta <- v_unary (UScale lr) g; v_arith BiSub wv delta,
     the very expression of Components.sgd_update:  Ok v -> nil error and the cell holds [embT v] (sgd_update
     allocates v); Err -> error and the cell holds NIL (sgd_update keeps the cell: (h, Err)); Panic -> panic;
   - [Update_heap_unchanged]: the model's heap is the same after every run;
   - [Update_same_shape]: with well-formed values of equal shape r is Ok: nil error, cell = w - lr*g element-wise. *)
From Coq Require Import String List ZArith Bool Lia Arith.
From Qeep Require Import Model.Scalar Model.Nd Model.Fill Model.Data Model.Valid Model.Api Model.Grad Model.Backprop
     Model.Components Model.DataIR Model.HeapExt Model.GoComp Model.CompExt
     Proofs.NdP Proofs.DataIRP Proofs.HeapAccP Proofs.CompBaseP Proofs.CompValidP Proofs.CompP.
From Qeep Require Model.GoIR.
Import ListNotations.
Local Open Scope string_scope.
Local Open Scope Z_scope.
Local Open Scope list_scope.

Section CompSgd.
Context {A : Type} {SA : Scalar A}.
Variables (fltb fleb : A -> A -> bool)
          (lib : string -> list (@dval A) -> @heap A -> option (list (@dval A) * @heap A)).
Notation T := (tensor A).
Notation heap := (@heap A).
Notation dval := (@dval A).
Notation denv := (@denv A).
Notation run0 p := (drun cfapp heap (cext0 fltb fleb lib) p).
Notation run p := (drun cfapp heap (cext fltb fleb lib) p).

(* ================= the oracle entries used, one equation each ================= *)

Lemma cext_Scale v a (h : heap) :
  cext fltb fleb lib "Scale" [v; DF a] h =
  do t <- tens h v; match v_unary (UScale a) t with Ok r => Some ([embT r], h) | _ => None end.
Proof. reflexivity. Qed.

Lemma cext_Sub a b (h : heap) :
  cext fltb fleb lib "Sub" [a; b] h =
  do x <- tens h a; do y <- tens h b; do r <- retT (v_arith BiSub x y); Some (r, h).
Proof. reflexivity. Qed.

(* the sibling name runs the sibling's program *)
Lemma cext_SGD_toValid_spec (h : heap) (lrv : dval) (c : option targ) :
  cellOk h c ->
  cext fltb fleb lib "SGD.toValidInputs" [lrv; dcell c] h = Some (sgdRet h c, h).
Proof.
  intros Hok. exact (cext_ret fltb fleb lib "SGD.toValidInputs" eq_refl (SGD_toValidInputs_spec fltb fleb lib _ _ h lrv c Hok)).
Qed.

(* Scale never answers Err: the method has no error result *)
Lemma v_unary_not_Err (u : unary) (t : T) : v_unary u t <> Err.
Proof. unfold v_unary, of_opt. destruct (apply1 _ _); discriminate. Qed.

(* ================= the model's step ================= *)

(* the expression inside Components.sgd_update *)
Definition sgdStep (lr : A) (wv g : T) : res T :=
  dor delta <- v_unary (UScale lr) g; v_arith BiSub wv delta.

Lemma sgd_update_step (h : heap) (lr : A) (w : nat) (wv g : T) (name : option nat) :
  valOf h w = Some wv -> gradOf h w = Some g ->
  sgd_update h lr (Some w) name =
  match sgdStep lr wv g with
  | Ok v => let '(h', id) := alloc h v (false, true, []) name in (h', Ok id)
  | Err => (h, Err)
  | Panic => (h, Panic)
  end.
Proof. intros Hw Hg. unfold sgd_update, sgdStep. rewrite Hw, Hg. reflexivity. Qed.

(* ================= 1. Update replaces nothing when the input is rejected ================= *)

(* not (a non-nil pointer to a cell holding a node that has a gradient) *)
Definition rejected (h : heap) (c : option targ) : Prop :=
  forall w g, ~ (c = Some (Some w) /\ gradOf h w = Some g).

Theorem Update_rejects fuel depth (h : heap) (lr : A) (c : option targ) :
  cellOk h c -> rejected h c ->
  exists g l, run c_SGD_Update fuel depth [DF lr; dcell c] h = DRet heap [DI 1] h g l /\
              vlookup g l "wptr" = Some (dcell c).
Proof.
  intros Hok Hrej. start c_SGD_Update.
  rewrite (cext_SGD_toValid_spec h (DF lr) c Hok). unfold sgdRet.
  destruct c as [[w|]|]; [destruct (gradOf h w) as [g|] eqn:Eg|..].
  1:{ exfalso. apply (Hrej w g). split; [reflexivity | exact Eg]. }
  all: go; do 2 eexists; split; reflexivity.
Qed.

(* ... and that is where the model answers Err on the unchanged heap *)
Lemma sgd_update_rejected (h : heap) (lr : A) (cell : targ) (name : option nat) :
  cellOk h (Some cell) -> rejected h (Some cell) -> sgd_update h lr cell name = (h, Err).
Proof.
  intros Hok Hrej. unfold sgd_update. destruct cell as [w|]; [|reflexivity].
  destruct (valOf_valid h w (Hok w eq_refl)) as [wv Hwv]. rewrite Hwv.
  destruct (gradOf h w) as [g|] eqn:Eg; [|reflexivity].
  exfalso. apply (Hrej w g). split; [reflexivity | exact Eg].
Qed.

(* ================= 2. Update on a tensor that has a gradient ================= *)

Theorem Update_ok fuel depth (h : heap) (lr : A) (w : nat) (wv gr : T) (name : option nat) :
  valOf h w = Some wv -> gradOf h w = Some gr ->
  let o := run c_SGD_Update fuel depth [DF lr; dcell (Some (Some w))] h in
  match (dor delta <- v_unary (UScale lr) gr; v_arith BiSub wv delta) with
  | Ok v =>
      (exists g l, o = DRet heap [DI 0] h g l /\ vlookup g l "wptr" = Some (DL [embT v])) /\
      sgd_update h lr (Some w) name = (let '(h', id) := alloc h v (false, true, []) name in (h', Ok id))
  | Err =>
      (exists g l, o = DRet heap [DI 1] h g l /\ vlookup g l "wptr" = Some (DL [DNil])) /\
      sgd_update h lr (Some w) name = (h, Err)
  | Panic =>
      o = DPanic heap /\ sgd_update h lr (Some w) name = (h, Panic)
  end.
Proof.
  intros Hwv Hgr o. subst o.
  assert (Hok : cellOk h (Some (Some w))).
  { intros w' E. injection E as <-. exact (valOf_length h w wv Hwv). }
  rewrite (sgd_update_step h lr w wv gr name Hwv Hgr). unfold sgdStep.
  start c_SGD_Update.
  rewrite (cext_SGD_toValid_spec h (DF lr) (Some (Some w)) Hok). unfold sgdRet. rewrite Hgr. go.
  rewrite cext_Scale, tens_embT. cbn [obind].
  destruct (v_unary (UScale lr) gr) as [delta| |] eqn:Ed; cbn [res_bind].
  3:{ split; reflexivity. }
  2:{ exfalso. exact (v_unary_not_Err _ _ Ed). }
  dxs.
  rewrite cext_Sub, (tens_node h w wv Hwv), tens_embT. cbn [obind].
  destruct (v_arith BiSub wv delta) as [v| |]; cbn [retT obind].
  3:{ split; reflexivity. }
  (* the assignment [*wptr, err = ...] stores both results, then the error test *)
  all: dxs; cbn [dcell dtarg]; go; split; [|reflexivity]; do 2 eexists; split; reflexivity.
Qed.

(* ================= 3. the heap is never changed ================= *)

(* the state in which a run ends, when it ends *)
Definition finalHeap (o : @doutcome A heap) : option heap :=
  match o with
  | DNormal _ s _ _ | DBreak _ s _ _ | DContinue _ s _ _ | DRet _ _ s _ _ => Some s
  | _ => None
  end.

Lemma reject_or_grad (h : heap) (c : option targ) :
  rejected h c \/ exists w g, c = Some (Some w) /\ gradOf h w = Some g.
Proof.
  destruct c as [[w|]|].
  - destruct (gradOf h w) as [g|] eqn:Eg.
    + right. exists w, g. split; [reflexivity | exact Eg].
    + left. intros w' g' [E1 E2]. injection E1 as E1. subst w'. congruence.
  - left. intros w' g' [E1 _]. discriminate.
  - left. intros w' g' [E1 _]. discriminate.
Qed.

(* every run returns (one value: the error flag) or panics: never falls off the end, never runs out of fuel *)
Theorem Update_returns_or_panics fuel depth (h : heap) (lr : A) (c : option targ) :
  cellOk h c ->
  let o := run c_SGD_Update fuel depth [DF lr; dcell c] h in
  (exists e g l, o = DRet heap [DI e] h g l /\ (e = 0 \/ e = 1)) \/ o = DPanic heap.
Proof.
  intros Hok o. subst o.
  destruct (reject_or_grad h c) as [Hrej | [w [gr [Ec Hgr]]]].
  - destruct (Update_rejects fuel depth h lr c Hok Hrej) as [g [l [E _]]]. left. exists 1, g, l. split; [exact E | right; reflexivity].
  - subst c. destruct (valOf_valid h w (Hok w eq_refl)) as [wv Hwv].
    pose proof (Update_ok fuel depth h lr w wv gr None Hwv Hgr) as H. cbv zeta in H.
    destruct (dor delta <- v_unary (UScale lr) gr; v_arith BiSub wv delta) as [v| |].
    + destruct H as [[g [l [E _]]] _]. left. exists 0, g, l. split; [exact E | left; reflexivity].
    + destruct H as [[g [l [E _]]] _]. left. exists 1, g, l. split; [exact E | right; reflexivity].
    + destruct H as [E _]. right. exact E.
Qed.

Theorem Update_heap_unchanged fuel depth (h h' : heap) (lr : A) (c : option targ) :
  cellOk h c ->
  finalHeap (run c_SGD_Update fuel depth [DF lr; dcell c] h) = Some h' -> h' = h.
Proof.
  intros Hok H.
  destruct (Update_returns_or_panics fuel depth h lr c Hok) as [[e [g [l [E _]]]] | E];
    rewrite E in H; cbn [finalHeap] in H; congruence.
Qed.

(* ================= 4. equal shapes: Sub cannot fail ================= *)

Theorem Update_same_shape fuel depth (h : heap) (lr : A) (w : nat) (wv gr : T) :
  valOf h w = Some wv -> gradOf h w = Some gr -> wf wv -> wf gr -> dims gr = dims wv ->
  exists v,
    (dor delta <- v_unary (UScale lr) gr; v_arith BiSub wv delta) = Ok v /\
    dims v = dims wv /\ wf v /\
    (forall idx, validIdx (dims wv) idx ->
       get (data v) idx =
       match get (data wv) idx, get (data gr) idx with
       | Some x, Some gx => Some (ssub x (smul lr gx)) | _, _ => None end) /\
    exists g l, run c_SGD_Update fuel depth [DF lr; dcell (Some (Some w))] h = DRet heap [DI 0] h g l /\
                vlookup g l "wptr" = Some (DL [embT v]).
Proof.
  intros Hwv Hgr Wwv Wgr Ed.
  destruct (sgd_update_spec h lr w None wv gr Hwv Hgr Wwv Wgr Ed) as (n & E & _ & _ & _ & _ & _ & Hd & Hwf & Hget).
  pose proof (Update_ok fuel depth h lr w wv gr None Hwv Hgr) as H. cbv zeta in H.
  destruct (dor delta <- v_unary (UScale lr) gr; v_arith BiSub wv delta) as [v| |].
  - destruct H as [Hrun Hm]. rewrite Hm in E. cbn [alloc] in E.
    assert (En : nval n = v).
    { injection E as E1. apply app_inv_head in E1. injection E1 as E1. subst n. reflexivity. }
    subst v. exists (nval n). split; [reflexivity|]. split; [exact Hd|]. split; [exact Hwf|]. split; [exact Hget | exact Hrun].
  - destruct H as [_ Hm]. rewrite Hm in E. discriminate.
  - destruct H as [_ Hm]. rewrite Hm in E. discriminate.
Qed.

End CompSgd.

Print Assumptions Update_rejects.
Print Assumptions sgd_update_rejected.
Print Assumptions Update_ok.
Print Assumptions Update_heap_unchanged.
Print Assumptions Update_returns_or_panics.
Print Assumptions Update_same_shape.

(* ================= concrete runs over the free term algebra ================= *)
Definition sgd_tb (a b : term) : bool := true.
Definition sgd_lib (f : string) (a : list (@dval term)) (h : @heap term) : option (list (@dval term) * @heap term) := None.
Definition sgd_vec (a b : Z) : tensor term := mkT [2%nat] (Vec [Sc (TConst a 0); Sc (TConst b 0)]).
Definition sgd_vec3 : tensor term := mkT [3%nat] (Vec [Sc (TConst 1 0); Sc (TConst 1 0); Sc (TConst 1 0)]).
(* node 0: [1, 2] without gradient; node 1: [1, 2] with gradient [3, 4]; node 2: [1, 2] with a gradient of shape [3] *)
Definition sgd_h : @heap term :=
  [mkNode (sgd_vec 1 2) false false None [] None;
   mkNode (sgd_vec 1 2) true false (Some (sgd_vec 3 4)) [] None;
   mkNode (sgd_vec 1 2) true false (Some sgd_vec3) [] None].
Definition sgd_lr : term := TConst 1 (-2).
(* error flag, final heap and final content of the variable "wptr" *)
Definition sgd_run (c : option targ) : option (list (@dval term) * @heap term * option (@dval term)) :=
  match drun cfapp (@heap term) (cext sgd_tb sgd_tb sgd_lib) c_SGD_Update 0 0 [DF sgd_lr; dcell c] sgd_h with
  | DRet _ vs h' g l => Some (vs, h', vlookup g l "wptr")
  | _ => None
  end.

(* w - lr * g, element by element, in the cell; nil error; heap unchanged *)
Example sgd_ex_ok :
  sgd_run (Some (Some 1%nat)) =
  Some ([DI 0], sgd_h,
        Some (DL [embT (mkT [2%nat] (Vec [Sc (ssub (TConst 1 0) (smul sgd_lr (TConst 3 0)));
                                          Sc (ssub (TConst 2 0) (smul sgd_lr (TConst 4 0)))]))])).
Proof. vm_compute. reflexivity. Qed.
(* no gradient / nil pointer / nil cell: error, the cell is what it was *)
Example sgd_ex_nograd : sgd_run (Some (Some 0%nat)) = Some ([DI 1], sgd_h, Some (dcell (Some (Some 0%nat)))).
Proof. vm_compute. reflexivity. Qed.
Example sgd_ex_nilptr : sgd_run None = Some ([DI 1], sgd_h, Some DNil).
Proof. vm_compute. reflexivity. Qed.
Example sgd_ex_nilcell : sgd_run (Some None) = Some ([DI 1], sgd_h, Some (DL [DNil])).
Proof. vm_compute. reflexivity. Qed.
(* Sub fails (shapes [2] and [3] do not broadcast): error, and the cell now holds NIL, while the model keeps it *)
Example sgd_ex_sub_err :
  sgd_run (Some (Some 2%nat)) = Some ([DI 1], sgd_h, Some (DL [DNil])) /\
  sgd_update sgd_h sgd_lr (Some 2%nat) None = (sgd_h, Err).
Proof. vm_compute. split; reflexivity. Qed.
