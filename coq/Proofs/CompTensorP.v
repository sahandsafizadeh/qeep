(* CompTensorP.v — the public constructors and entry points of package tensor (tensor/tensor.go,
   tensor/validators.go) as translated by harness/gox into the DataIR programs c_tensor_* of Model/GoComp.v, run
   with the oracle layers of Model/CompExt.v (sibling functions linked by running their own programs):
   1. validateConfig / prepareConfig: nil is the default (CPU, no tracking), device CPU is accepted, any other device
      gives the zero Config and the error;
   2. validateTensorDevice / validateTensorsDeviceUnity: a node is accepted, nil and foreign implementations are
      rejected; at least two tensors, all of them nodes;
   3. Full, Zeros, Ones, Eye, RandU, RandN, TensorOf, Concat, BackPropagate: error on invalid input, otherwise exactly
      the call of cputensor / gradtrack: the explicit "unreachable" panics are unreachable. *)
From Coq Require Import String List ZArith Bool Lia Arith.
From Qeep Require Import Model.Scalar Model.Nd Model.Fill Model.Data Model.Valid Model.Api Model.Grad Model.Backprop
     Model.Components Model.DataIR Model.HeapExt Model.GoComp Model.CompExt Proofs.DataIRP Proofs.CompBaseP.
From Qeep Require Model.GoIR.
Import ListNotations.
Local Open Scope string_scope.
Local Open Scope Z_scope.
Local Open Scope list_scope.

Section CompTensor.
Context {A : Type} {SA : Scalar A}.
Notation heap := (@heap A).
Notation dval := (@dval A).
Variables (fltb fleb : A -> A -> bool) (lib : string -> list dval -> heap -> option (list dval * heap)).
Notation run0 p := (drun cfapp heap (cext0 fltb fleb lib) p).   (* leaf functions *)
Notation run p := (drun cfapp heap (cext fltb fleb lib) p).     (* functions that call siblings *)
Notation run2 p := (drun cfapp heap (cext2 fltb fleb lib) p).   (* functions that call prepareConfig *)

Definition outcome (o : @doutcome A heap) : option (list dval * heap) :=
  match o with DRet _ vs s _ _ => Some (vs, s) | _ => None end.

Definition flag (ok : bool) : dval := DI (if ok then 0 else 1).

(* a *Config: nil or the list of the fields Device, GradTrack *)
Definition cfgOf (c : option (Z * dval)) : dval :=
  match c with None => DNil | Some (d, b) => DL [DI d; b] end.
(* the device is CPU (= iota + 1 = 1); nil means the default *)
Definition devOk (c : option (Z * dval)) : bool :=
  match c with None => true | Some (d, _) => d =? 1 end.
(* the GradTrack field that reaches the implementation *)
Definition gradOfCfg (c : option (Z * dval)) : dval :=
  match c with None => DB false | Some (_, b) => b end.

Theorem validateConfig_spec fuel depth (c : option (Z * dval)) (h : heap) :
  outcome (run0 c_tensor_validateConfig fuel depth [cfgOf c] h) = Some ([flag (devOk c)], h).
Proof.
  start c_tensor_validateConfig.
  destruct c as [[d b]|]; cbn [cfgOf devOk flag]; dxs; zb; dxs.
  - destruct (d =? 1); dxs; reflexivity.
  - reflexivity.
Qed.

(* the two shapes of the argument: a nil config, a config with device d *)
Corollary validateConfig_nil fuel depth (h : heap) :
  outcome (run0 c_tensor_validateConfig fuel depth [DNil] h) = Some ([DI 0], h).
Proof. exact (validateConfig_spec fuel depth None h). Qed.
Corollary validateConfig_conf fuel depth (d : Z) (b : dval) (h : heap) :
  outcome (run0 c_tensor_validateConfig fuel depth [DL [DI d; b]] h) = Some ([DI (if d =? 1 then 0 else 1)], h).
Proof. exact (validateConfig_spec fuel depth (Some (d, b)) h). Qed.

(* prepareConfig calls validateConfig: it runs with the linked oracle [cext] *)

(* the Config VALUE that prepareConfig returns: the default for nil, a copy of a valid config, the zero Config with
   the error *)
Definition prepared (c : option (Z * dval)) : list dval :=
  if devOk c then [DL [DI 1; gradOfCfg c]; DI 0] else [DL [DI 0; DB false]; DI 1].

Theorem prepareConfig_spec fuel depth (c : option (Z * dval)) (h : heap) :
  outcome (run c_tensor_prepareConfig fuel depth [cfgOf c] h) = Some (prepared c, h).
Proof.
  start c_tensor_prepareConfig.
  rewrite (cext_ret fltb fleb lib "validateConfig" eq_refl (validateConfig_spec _ _ c h)). unfold prepared.
  destruct c as [[d b]|]; cbn [cfgOf devOk flag gradOfCfg].
  - destruct (d =? 1) eqn:E; dxs; zb; dxs; [|reflexivity].
    apply Z.eqb_eq in E; subst d. reflexivity.
  - dxs; zb; dxs. reflexivity.
Qed.

Corollary prepareConfig_nil fuel depth (h : heap) :
  outcome (run c_tensor_prepareConfig fuel depth [DNil] h) = Some ([DL [DI 1; DB false]; DI 0], h).
Proof. exact (prepareConfig_spec fuel depth None h). Qed.
Corollary prepareConfig_cpu fuel depth (b : dval) (h : heap) :
  outcome (run c_tensor_prepareConfig fuel depth [DL [DI 1; b]] h) = Some ([DL [DI 1; b]; DI 0], h).
Proof. exact (prepareConfig_spec fuel depth (Some (1, b)) h). Qed.
Corollary prepareConfig_invalid fuel depth (d : Z) (b : dval) (h : heap) :
  d <> 1 ->
  outcome (run c_tensor_prepareConfig fuel depth [DL [DI d; b]] h) = Some ([DL [DI 0; DB false]; DI 1], h).
Proof.
  intros Hd. pose proof (prepareConfig_spec fuel depth (Some (d, b)) h) as E.
  unfold prepared in E; cbn [devOk cfgOf] in E. apply Z.eqb_neq in Hd. rewrite Hd in E. exact E.
Qed.
(* whenever the error flag is 0 the returned device is CPU *)
Corollary prepareConfig_ok_device fuel depth (c : option (Z * dval)) (cv : dval) (h h' : heap) :
  outcome (run c_tensor_prepareConfig fuel depth [cfgOf c] h) = Some ([cv; DI 0], h') ->
  exists b, cv = DL [DI 1; b].
Proof.
  rewrite prepareConfig_spec. unfold prepared. destruct (devOk c); intros E; inversion E. eauto.
Qed.

(* a tensor.Tensor interface value holding a *cputensor.CPUTensor: a node *)
Definition isNode (v : dval) : bool := match v with DI _ => true | _ => false end.

Theorem validateTensorDevice_spec fuel depth (v : dval) (h : heap) :
  outcome (run0 c_tensor_validateTensorDevice fuel depth [v] h) = Some ([flag (isNode v)], h).
Proof.
  start c_tensor_validateTensorDevice. rewrite cext0_typeof.
  destruct v; cbn [isNode flag]; dxs; zb; dxs; reflexivity.
Qed.

Corollary validateTensorDevice_node fuel depth (n : Z) (h : heap) :
  outcome (run0 c_tensor_validateTensorDevice fuel depth [DI n] h) = Some ([DI 0], h).
Proof. exact (validateTensorDevice_spec fuel depth (DI n) h). Qed.
Corollary validateTensorDevice_nil fuel depth (h : heap) :
  outcome (run0 c_tensor_validateTensorDevice fuel depth [DNil] h) = Some ([DI 1], h).
Proof. exact (validateTensorDevice_spec fuel depth DNil h). Qed.
Corollary validateTensorDevice_foreign fuel depth (v : dval) (h : heap) :
  (forall n, v <> DI n) ->
  outcome (run0 c_tensor_validateTensorDevice fuel depth [v] h) = Some ([DI 1], h).
Proof.
  intros Hv. rewrite validateTensorDevice_spec. destruct v; try reflexivity. now destruct (Hv z).
Qed.

(* at least two tensors, every one of them a node *)
Definition unityOk (vs : list dval) : bool := (2 <=? length vs)%nat && forallb isNode vs.

Lemma unityOk_iff (vs : list dval) :
  unityOk vs = true <-> (2 <= length vs)%nat /\ (forall v, In v vs -> exists n, v = DI n).
Proof.
  unfold unityOk. rewrite andb_true_iff, Nat.leb_le, forallb_forall.
  split; intros [Hl Hn]; (split; [exact Hl|]); intros v Hv.
  - specialize (Hn v Hv). destruct v; try discriminate. eauto.
  - destruct (Hn v Hv) as [n ->]. reflexivity.
Qed.

(* the variables of the function after the first iteration: dev = CPU, no error so far *)
Definition uenv (a x y z : dval) : @denv A :=
  [("ts", a); ("err", DI 0); ("dev", DI 1); ("_", x); ("t", y); ("$1", z)].

(* the loop from its second iteration on, for an abstract body: a node leaves the variables as they are, anything
   else returns the error *)
Lemma unity_loop (body : heap -> @denv A -> @denv A -> @doutcome A heap)
      (assign : @denv A -> @denv A -> Z -> dval -> @denv A * @denv A) :
  (forall a x y z k v, assign (uenv a x y z) [] k v = (uenv a (DI k) v z, [])) ->
  (forall a x v z h,
      if isNode v then body h (uenv a x v z) [] = DNormal heap h (uenv a x v (DI 0)) []
      else exists g l, body h (uenv a x v z) [] = DRet heap [DI 1] h g l) ->
  forall vs k a x y z h,
    if forallb isNode vs
    then exists x' y' z', drangeLoop heap body assign vs k h (uenv a x y z) [] = DNormal heap h (uenv a x' y' z') []
    else exists g l, drangeLoop heap body assign vs k h (uenv a x y z) [] = DRet heap [DI 1] h g l.
Proof.
  intros Hasg Hbody vs. induction vs as [|v vs IH]; intros k a x y z h; cbn [forallb drangeLoop].
  - eauto.
  - rewrite Hasg. specialize (Hbody a (DI k) v z h).
    destruct (isNode v); cbn [andb].
    + rewrite Hbody. apply IH.
    + destruct Hbody as [g [l Hb]]. rewrite Hb. eauto.
Qed.

Lemma dlen_ge2 (v0 v1 : dval) (vs : list dval) : (dlen (v0 :: v1 :: vs) <? 2) = false.
Proof. unfold dlen. cbn [length]. apply Z.ltb_ge. lia. Qed.

Theorem validateTensorsDeviceUnity_spec fuel depth (vs : list dval) (h : heap) :
  outcome (run0 c_tensor_validateTensorsDeviceUnity fuel depth [DL vs] h) = Some ([flag (unityOk vs)], h).
Proof.
  start c_tensor_validateTensorsDeviceUnity.
  destruct vs as [|v0 [|v1 vs]].
  - zb; dxs. reflexivity.
  - zb; dxs. reflexivity.
  - rewrite dlen_ge2. dxs.
    change (unityOk (v0 :: v1 :: vs)) with (isNode v0 && forallb isNode (v1 :: vs)).
    match goal with |- context [drangeLoop heap ?b ?asg _ _ _ _ _] => pose proof (unity_loop b asg) as HL end.
    match type of HL with ?P -> _ => assert (Hasg : P) end.
    { intros a x y z k v. reflexivity. }
    specialize (HL Hasg).
    match type of HL with ?P -> _ => assert (Hbody : P) end.
    { intros a x v z h0. unfold uenv. dxs. rewrite cext0_typeof.
      destruct v; cbn [isNode]; dxs; zb; dxs; eauto. }
    specialize (HL Hbody). clear Hasg Hbody.
    remember (v1 :: vs) as tl eqn:Etl.
    cbn [drangeLoop]. dxs. rewrite cext0_typeof.
    destruct v0; cbn [isNode andb flag]; dxs; zb; dxs; try reflexivity.
    match goal with |- context [drangeLoop heap _ _ tl ?k h (?e1 :: ?e2 :: ?e3 :: (_, ?x) :: (_, ?y) :: (_, ?w) :: nil) []] =>
      specialize (HL tl k (DL (DI z :: tl)) x y w h) end.
    unfold uenv in HL.
    destruct (forallb isNode tl).
    + destruct HL as [x' [y' [z' HL]]]. rewrite HL. dxs. reflexivity.
    + destruct HL as [g [l HL]]. rewrite HL. reflexivity.
Qed.

(* accepted exactly when there are at least two tensors and all are nodes, the error
   otherwise; in particular never a panic *)
Corollary validateTensorsDeviceUnity_accepts_iff fuel depth (vs : list dval) (h : heap) :
  outcome (run0 c_tensor_validateTensorsDeviceUnity fuel depth [DL vs] h) = Some ([DI 0], h)
  <-> (2 <= length vs)%nat /\ (forall v, In v vs -> exists n, v = DI n).
Proof.
  rewrite validateTensorsDeviceUnity_spec, <- unityOk_iff. unfold flag.
  destruct (unityOk vs); split; intros E; try reflexivity; discriminate.
Qed.
Corollary validateTensorsDeviceUnity_rejects_iff fuel depth (vs : list dval) (h : heap) :
  outcome (run0 c_tensor_validateTensorsDeviceUnity fuel depth [DL vs] h) = Some ([DI 1], h)
  <-> ~ ((2 <= length vs)%nat /\ (forall v, In v vs -> exists n, v = DI n)).
Proof.
  rewrite validateTensorsDeviceUnity_spec, <- unityOk_iff. unfold flag.
  destruct (unityOk vs); split; intros E; try reflexivity; try discriminate.
  now destruct E.
Qed.
Corollary validateTensorsDeviceUnity_total fuel depth (vs : list dval) (h : heap) :
  run0 c_tensor_validateTensorsDeviceUnity fuel depth [DL vs] h <> DPanic heap.
Proof.
  intros E. pose proof (validateTensorsDeviceUnity_spec fuel depth vs h) as S. rewrite E in S. discriminate.
Qed.

(* the constructors call prepareConfig: they run with the oracle [cext2], in which it is linked *)

(* the program's outcome is the library call's: its two results are returned as they are, with its final heap;
   the program panics when the call does (and when it does not return two results) — same shape as in CompInitP *)
Definition isCall (o : @doutcome A heap) (call : option (list dval * heap)) : Prop :=
  (forall r0 r1 h2, call = Some ([r0; r1], h2) -> outcome o = Some ([r0; r1], h2)) /\
  (call = None -> o = DPanic heap) /\
  (forall rs h2, call = Some (rs, h2) -> length rs <> 2%nat -> o = DPanic heap).
(* the same for a call with one result *)
Definition isCall1 (o : @doutcome A heap) (call : option (list dval * heap)) : Prop :=
  (forall r0 h2, call = Some ([r0], h2) -> outcome o = Some ([r0], h2)) /\
  (call = None -> o = DPanic heap) /\
  (forall rs h2, call = Some (rs, h2) -> length rs <> 1%nat -> o = DPanic heap).

(* the library call itself failed: no result, or not [n] results *)
Definition libFails (n : nat) (call : option (list dval * heap)) : Prop :=
  call = None \/ exists rs h2, call = Some (rs, h2) /\ length rs <> n.

Lemma isCall_panic o call : isCall o call -> o = DPanic heap -> libFails 2 call.
Proof.
  intros [H2 _] ->. destruct call as [[rs h2]|]; [right|left; reflexivity].
  exists rs, h2. split; [reflexivity|]. intros Hl.
  destruct rs as [|r0 [|r1 [|r2 rs]]]; try discriminate.
  specialize (H2 r0 r1 h2 eq_refl). discriminate.
Qed.
(* a call that is itself a linked program which hands over to a further call *)
Lemma isCall_trans o o' call : isCall o (outcome o') -> isCall o' call -> isCall o call.
Proof.
  intros [A2 [AN _]] [B2 [BN BL]]. split; [|split].
  - intros r0 r1 h2 Hc. apply A2, B2, Hc.
  - intros Hc. apply AN. rewrite (BN Hc). reflexivity.
  - intros rs h2 Hc Hl. apply AN. rewrite (BL rs h2 Hc Hl). reflexivity.
Qed.
Lemma isCall1_panic o call : isCall1 o call -> o = DPanic heap -> libFails 1 call.
Proof.
  intros [H1 _] ->. destruct call as [[rs h2]|]; [right|left; reflexivity].
  exists rs, h2. split; [reflexivity|]. intros Hl.
  destruct rs as [|r0 [|r1 rs]]; try discriminate.
  specialize (H1 r0 h2 eq_refl). discriminate.
Qed.

Ltac constructor_proof p :=
  start p; rewrite (cext2_ret fltb fleb lib "prepareConfig" eq_refl (prepareConfig_spec _ _ _ _)); unfold prepared;
  destruct (devOk _); go; [libcall; finish | reflexivity].

Theorem Full_spec fuel depth (dims value : dval) (c : option (Z * dval)) (h : heap) :
  if devOk c
  then isCall (run2 c_tensor_Full fuel depth [dims; value; cfgOf c] h)
              (lib "cputensor.Full" [dims; value; gradOfCfg c] h)
  else outcome (run2 c_tensor_Full fuel depth [dims; value; cfgOf c] h) = Some ([DNil; DI 1], h).
Proof. constructor_proof c_tensor_Full. Qed.

Theorem Zeros_spec fuel depth (dims : dval) (c : option (Z * dval)) (h : heap) :
  if devOk c
  then isCall (run2 c_tensor_Zeros fuel depth [dims; cfgOf c] h) (lib "cputensor.Zeros" [dims; gradOfCfg c] h)
  else outcome (run2 c_tensor_Zeros fuel depth [dims; cfgOf c] h) = Some ([DNil; DI 1], h).
Proof. constructor_proof c_tensor_Zeros. Qed.

Theorem Ones_spec fuel depth (dims : dval) (c : option (Z * dval)) (h : heap) :
  if devOk c
  then isCall (run2 c_tensor_Ones fuel depth [dims; cfgOf c] h) (lib "cputensor.Ones" [dims; gradOfCfg c] h)
  else outcome (run2 c_tensor_Ones fuel depth [dims; cfgOf c] h) = Some ([DNil; DI 1], h).
Proof. constructor_proof c_tensor_Ones. Qed.

Theorem Eye_spec fuel depth (n : dval) (c : option (Z * dval)) (h : heap) :
  if devOk c
  then isCall (run2 c_tensor_Eye fuel depth [n; cfgOf c] h) (lib "cputensor.Eye" [n; gradOfCfg c] h)
  else outcome (run2 c_tensor_Eye fuel depth [n; cfgOf c] h) = Some ([DNil; DI 1], h).
Proof. constructor_proof c_tensor_Eye. Qed.

Theorem RandU_spec fuel depth (dims l u : dval) (c : option (Z * dval)) (h : heap) :
  if devOk c
  then isCall (run2 c_tensor_RandU fuel depth [dims; l; u; cfgOf c] h)
              (lib "cputensor.RandU" [dims; l; u; gradOfCfg c] h)
  else outcome (run2 c_tensor_RandU fuel depth [dims; l; u; cfgOf c] h) = Some ([DNil; DI 1], h).
Proof. constructor_proof c_tensor_RandU. Qed.

Theorem RandN_spec fuel depth (dims u s : dval) (c : option (Z * dval)) (h : heap) :
  if devOk c
  then isCall (run2 c_tensor_RandN fuel depth [dims; u; s; cfgOf c] h)
              (lib "cputensor.RandN" [dims; u; s; gradOfCfg c] h)
  else outcome (run2 c_tensor_RandN fuel depth [dims; u; s; cfgOf c] h) = Some ([DNil; DI 1], h).
Proof. constructor_proof c_tensor_RandN. Qed.

Theorem TensorOf_spec fuel depth (data : dval) (c : option (Z * dval)) (h : heap) :
  if devOk c
  then isCall (run2 c_tensor_TensorOf fuel depth [data; cfgOf c] h)
              (lib "cputensor.TensorOf" [data; gradOfCfg c] h)
  else outcome (run2 c_tensor_TensorOf fuel depth [data; cfgOf c] h) = Some ([DNil; DI 1], h).
Proof. constructor_proof c_tensor_TensorOf. Qed.

(* the "unreachable" panic of the device switch is unreachable: for every config, the outcome is a panic only if the
   cputensor call itself did not return two results *)
Lemma spec_panic (ok : bool) o call r :
  (if ok then isCall o call else outcome o = Some r) -> o = DPanic heap -> libFails 2 call.
Proof. intros HS E. destruct ok; [exact (isCall_panic _ _ HS E) | rewrite E in HS; discriminate HS]. Qed.

Corollary Full_never_reaches_its_panic fuel depth (dims value : dval) (c : option (Z * dval)) (h : heap) :
  run2 c_tensor_Full fuel depth [dims; value; cfgOf c] h = DPanic heap ->
  libFails 2 (lib "cputensor.Full" [dims; value; gradOfCfg c] h).
Proof. exact (spec_panic _ _ _ _ (Full_spec fuel depth dims value c h)). Qed.
Corollary Zeros_never_reaches_its_panic fuel depth (dims : dval) (c : option (Z * dval)) (h : heap) :
  run2 c_tensor_Zeros fuel depth [dims; cfgOf c] h = DPanic heap ->
  libFails 2 (lib "cputensor.Zeros" [dims; gradOfCfg c] h).
Proof. exact (spec_panic _ _ _ _ (Zeros_spec fuel depth dims c h)). Qed.
Corollary Ones_never_reaches_its_panic fuel depth (dims : dval) (c : option (Z * dval)) (h : heap) :
  run2 c_tensor_Ones fuel depth [dims; cfgOf c] h = DPanic heap ->
  libFails 2 (lib "cputensor.Ones" [dims; gradOfCfg c] h).
Proof. exact (spec_panic _ _ _ _ (Ones_spec fuel depth dims c h)). Qed.
Corollary Eye_never_reaches_its_panic fuel depth (n : dval) (c : option (Z * dval)) (h : heap) :
  run2 c_tensor_Eye fuel depth [n; cfgOf c] h = DPanic heap ->
  libFails 2 (lib "cputensor.Eye" [n; gradOfCfg c] h).
Proof. exact (spec_panic _ _ _ _ (Eye_spec fuel depth n c h)). Qed.
Corollary RandU_never_reaches_its_panic fuel depth (dims l u : dval) (c : option (Z * dval)) (h : heap) :
  run2 c_tensor_RandU fuel depth [dims; l; u; cfgOf c] h = DPanic heap ->
  libFails 2 (lib "cputensor.RandU" [dims; l; u; gradOfCfg c] h).
Proof. exact (spec_panic _ _ _ _ (RandU_spec fuel depth dims l u c h)). Qed.
Corollary RandN_never_reaches_its_panic fuel depth (dims u s : dval) (c : option (Z * dval)) (h : heap) :
  run2 c_tensor_RandN fuel depth [dims; u; s; cfgOf c] h = DPanic heap ->
  libFails 2 (lib "cputensor.RandN" [dims; u; s; gradOfCfg c] h).
Proof. exact (spec_panic _ _ _ _ (RandN_spec fuel depth dims u s c h)). Qed.
Corollary TensorOf_never_reaches_its_panic fuel depth (data : dval) (c : option (Z * dval)) (h : heap) :
  run2 c_tensor_TensorOf fuel depth [data; cfgOf c] h = DPanic heap ->
  libFails 2 (lib "cputensor.TensorOf" [data; gradOfCfg c] h).
Proof. exact (spec_panic _ _ _ _ (TensorOf_spec fuel depth data c h)). Qed.

(* an accepted list starts with a node *)
Lemma unityOk_head (vs : list dval) : unityOk vs = true -> exists n tl, vs = DI n :: tl.
Proof.
  unfold unityOk. intros H. apply andb_true_iff in H. destruct H as [Hl H].
  destruct vs as [|v tl]; [discriminate Hl|].
  cbn [forallb] in H. apply andb_true_iff in H. destruct H as [H _]. destruct v; try discriminate. eauto.
Qed.

Theorem Concat_spec fuel depth (vs : list dval) (dim : dval) (h : heap) :
  if unityOk vs
  then isCall (run2 c_tensor_Concat fuel depth [DL vs; dim] h) (lib "cputensor.Concat" [DL vs; dim] h)
  else outcome (run2 c_tensor_Concat fuel depth [DL vs; dim] h) = Some ([DNil; DI 1], h).
Proof.
  start c_tensor_Concat.
  rewrite (cext2_below fltb fleb lib "validateTensorsDeviceUnity") by reflexivity.
  rewrite (cext_ret fltb fleb lib "validateTensorsDeviceUnity" eq_refl (validateTensorsDeviceUnity_spec _ _ vs h)).
  destruct (unityOk vs) eqn:E; unfold flag; go; [|reflexivity].
  destruct (unityOk_head vs E) as [n [tl ->]].
  go. rewrite (cext2_below fltb fleb lib "typeof"), (cext_leaf fltb fleb lib "typeof"), cext0_typeof by reflexivity.
  go. libcall. finish.
Qed.

Corollary Concat_never_reaches_its_panic fuel depth (vs : list dval) (dim : dval) (h : heap) :
  run2 c_tensor_Concat fuel depth [DL vs; dim] h = DPanic heap ->
  libFails 2 (lib "cputensor.Concat" [DL vs; dim] h).
Proof.
  exact (spec_panic _ _ _ _ (Concat_spec fuel depth vs dim h)).
Qed.

(* BackPropagate calls validateTensorDevice: it runs with the linked oracle [cext] *)

Theorem BackPropagate_spec fuel depth (v : dval) (h : heap) :
  if isNode v
  then isCall1 (run c_tensor_BackPropagate fuel depth [v] h) (lib "gradtrack.BackPropagate" [v] h)
  else outcome (run c_tensor_BackPropagate fuel depth [v] h) = Some ([DI 1], h).
Proof.
  start c_tensor_BackPropagate.
  rewrite (cext_ret fltb fleb lib "validateTensorDevice" eq_refl (validateTensorDevice_spec _ _ v h)).
  destruct (isNode v); unfold flag; go; [|reflexivity].
  libcall.
  split; [|split].
  - intros r0 h2 Hcall; rewrite Hcall; dxs; reflexivity.
  - intros Hcall; rewrite Hcall; reflexivity.
  - intros rs h2 Hcall Hl; rewrite Hcall.
    destruct rs as [|a0 [|a1 rs]]; cbn [length] in Hl; try lia; dxs; reflexivity.
Qed.

Corollary BackPropagate_node fuel depth (n : Z) (h : heap) :
  isCall1 (run c_tensor_BackPropagate fuel depth [DI n] h) (lib "gradtrack.BackPropagate" [DI n] h).
Proof. exact (BackPropagate_spec fuel depth (DI n) h). Qed.
Corollary BackPropagate_nil fuel depth (h : heap) :
  outcome (run c_tensor_BackPropagate fuel depth [DNil] h) = Some ([DI 1], h).
Proof. exact (BackPropagate_spec fuel depth DNil h). Qed.
Corollary BackPropagate_foreign fuel depth (v : dval) (h : heap) :
  (forall n, v <> DI n) ->
  outcome (run c_tensor_BackPropagate fuel depth [v] h) = Some ([DI 1], h).
Proof.
  intros Hv. pose proof (BackPropagate_spec fuel depth v h) as HS.
  destruct v; try exact HS. now destruct (Hv z).
Qed.

End CompTensor.

Print Assumptions Full_spec.
Print Assumptions Zeros_spec.
Print Assumptions Ones_spec.
Print Assumptions Eye_spec.
Print Assumptions RandU_spec.
Print Assumptions RandN_spec.
Print Assumptions TensorOf_spec.
Print Assumptions Concat_spec.
Print Assumptions BackPropagate_spec.
Print Assumptions Full_never_reaches_its_panic.
Print Assumptions Zeros_never_reaches_its_panic.
Print Assumptions Ones_never_reaches_its_panic.
Print Assumptions Eye_never_reaches_its_panic.
Print Assumptions RandU_never_reaches_its_panic.
Print Assumptions RandN_never_reaches_its_panic.
Print Assumptions TensorOf_never_reaches_its_panic.
Print Assumptions validateTensorsDeviceUnity_accepts_iff.
Print Assumptions Concat_never_reaches_its_panic.
Print Assumptions validateTensorsDeviceUnity_spec.
Print Assumptions validateConfig_spec.
Print Assumptions prepareConfig_spec.
Print Assumptions validateTensorDevice_spec.

Module Examples.
Definition tb (a b : term) : bool := true.
(* a library that echoes its name-independent arguments; BackPropagate returns one result *)
Definition elib (f : string) (args : list (@dval term)) (h : @heap term)
  : option (list (@dval term) * @heap term) :=
  if String.eqb f "gradtrack.BackPropagate" then Some ([DI 0], h)
  else if String.eqb f "cputensor.Eye" then None
  else if String.eqb f "cputensor.Ones" then Some ([DI 5], h)
  else Some ([DL (DI 7 :: args); DI 0], h).
Definition t1 : tensor term := mkT [2%nat] (Vec [Sc (TConst 1 0); Sc (TConst 2 0)]).
Definition h0 : @heap term := [].
Definition h1 := fst (leaf h0 t1 false None).
Definition h2 := fst (leaf h1 t1 false None).
Notation erun0 p := (drun cfapp (@heap term) (cext0 tb tb elib) p 0%nat 0%nat).
Notation erun p := (drun cfapp (@heap term) (cext tb tb elib) p 0%nat 0%nat).
Notation erun2 p := (drun cfapp (@heap term) (cext2 tb tb elib) p 0%nat 0%nat).

Example ex_validateConfig_bad : outcome (erun0 c_tensor_validateConfig [DL [DI 2; DB true]] h0) = Some ([DI 1], h0).
Proof. vm_compute. reflexivity. Qed.
Example ex_prepareConfig_nil : outcome (erun c_tensor_prepareConfig [DNil] h0) = Some ([DL [DI 1; DB false]; DI 0], h0).
Proof. vm_compute. reflexivity. Qed.
Example ex_prepareConfig_bad :
  outcome (erun c_tensor_prepareConfig [DL [DI 0; DB true]] h0) = Some ([DL [DI 0; DB false]; DI 1], h0).
Proof. vm_compute. reflexivity. Qed.
Example ex_unity_ok : outcome (erun0 c_tensor_validateTensorsDeviceUnity [DL [DI 0; DI 1; DI 0]] h2) = Some ([DI 0], h2).
Proof. vm_compute. reflexivity. Qed.
Example ex_unity_nil_inside :
  outcome (erun0 c_tensor_validateTensorsDeviceUnity [DL [DI 0; DI 1; DNil]] h2) = Some ([DI 1], h2).
Proof. vm_compute. reflexivity. Qed.
Example ex_unity_short : outcome (erun0 c_tensor_validateTensorsDeviceUnity [DL [DI 0]] h2) = Some ([DI 1], h2).
Proof. vm_compute. reflexivity. Qed.
Example ex_Full_nil :
  outcome (erun2 c_tensor_Full [DL [DI 2]; DF (TConst 3 0); DNil] h0)
  = Some ([DL [DI 7; DL [DI 2]; DF (TConst 3 0); DB false]; DI 0], h0).
Proof. vm_compute. reflexivity. Qed.
Example ex_Full_track :
  outcome (erun2 c_tensor_Full [DL [DI 2]; DF (TConst 3 0); DL [DI 1; DB true]] h0)
  = Some ([DL [DI 7; DL [DI 2]; DF (TConst 3 0); DB true]; DI 0], h0).
Proof. vm_compute. reflexivity. Qed.
Example ex_Full_bad_device :
  outcome (erun2 c_tensor_Full [DL [DI 2]; DF (TConst 3 0); DL [DI 2; DB true]] h0) = Some ([DNil; DI 1], h0).
Proof. vm_compute. reflexivity. Qed.
(* a panic comes from the library only: no result, or the wrong number of results *)
Example ex_Eye_lib_fails : erun2 c_tensor_Eye [DI 3; DNil] h0 = DPanic _.
Proof. vm_compute. reflexivity. Qed.
Example ex_Ones_lib_arity : erun2 c_tensor_Ones [DL [DI 3]; DNil] h0 = DPanic _.
Proof. vm_compute. reflexivity. Qed.
Example ex_Concat_ok :
  outcome (erun2 c_tensor_Concat [DL [DI 0; DI 1]; DI 0] h2) = Some ([DL [DI 7; DL [DI 0; DI 1]; DI 0]; DI 0], h2).
Proof. vm_compute. reflexivity. Qed.
Example ex_Concat_nil : outcome (erun2 c_tensor_Concat [DL [DI 0; DNil]; DI 0] h2) = Some ([DNil; DI 1], h2).
Proof. vm_compute. reflexivity. Qed.
Example ex_Concat_empty : outcome (erun2 c_tensor_Concat [DL []; DI 0] h2) = Some ([DNil; DI 1], h2).
Proof. vm_compute. reflexivity. Qed.
Example ex_BackPropagate_node : outcome (erun c_tensor_BackPropagate [DI 1] h2) = Some ([DI 0], h2).
Proof. vm_compute. reflexivity. Qed.
Example ex_BackPropagate_nil : outcome (erun c_tensor_BackPropagate [DNil] h2) = Some ([DI 1], h2).
Proof. vm_compute. reflexivity. Qed.
Example ex_BackPropagate_foreign : outcome (erun c_tensor_BackPropagate [DB true] h2) = Some ([DI 1], h2).
Proof. vm_compute. reflexivity. Qed.
End Examples.
