(* CompValidP.v — the INPUT VALIDATORS of the component layer (component/**.go, translated by harness/gox/comp.go into
   the DataIR programs GoComp.c_*_validateInputs / c_*_toValidInputs / c_FC_validateInitializedWeights), run over the
   model's heap with the leaf oracle CompExt.cext0, ARE the tests of the hand-written model (Model/Components.v):
   lossArgs1 (MSE, BCE, Accuracy), lossArgs2 (CE), oneInput (activations), oneInput + rank tests (Softmax, FC), the
   case analysis of sgd_update (SGD), and the shape test of NewFC.  For all heaps, fuel and depth, and all arguments
   whose node ids are below the length of the heap ([targOk] / [targsOk] / [cellOk]; [ex_dangling] shows that the
   hypothesis is needed). *)
From Coq Require Import String List ZArith Bool Lia Arith.
From Qeep Require Import Model.Scalar Model.Nd Model.Fill Model.Data Model.Valid Model.Api Model.Grad Model.Backprop
     Model.Components Model.DataIR Model.HeapExt Model.GoComp Model.CompExt Proofs.DataIRP Proofs.HeapAccP Proofs.CompBaseP.
From Qeep Require Model.GoIR.
Import ListNotations.
Local Open Scope string_scope.
Local Open Scope Z_scope.
Local Open Scope list_scope.

Section CompValid.
Context {A : Type} {SA : Scalar A}.
Variables (fltb fleb : A -> A -> bool).
Variable lib : string -> list (@dval A) -> @heap A -> option (list (@dval A) * @heap A).
Notation T := (tensor A).
Notation heap := (@heap A).
Notation dval := (@dval A).
Notation denv := (@denv A).
Notation run0 p := (drun cfapp heap (cext0 fltb fleb lib) p).

(* what a run returns: values and final heap; [None] = panic / out of fuel / fell off the end *)
Definition outcome (o : @doutcome A heap) : option (list dval * heap) :=
  match o with DRet _ vs s _ _ => Some (vs, s) | _ => None end.

(* the run neither panics nor runs out of fuel *)
Definition safe (o : @doutcome A heap) : Prop :=
  match o with DPanic _ => False | DFuel _ => False | _ => True end.

Lemma outcome_safe (o : @doutcome A heap) r : outcome o = Some r -> safe o.
Proof. destruct o; cbn; intros H; try discriminate; exact I. Qed.

(* a caller-side tensor argument whose node id (if any) is a node of the heap *)
Definition targOk (h : heap) (x : targ) : Prop := forall n, x = Some n -> (n < length h)%nat.

Lemma cext0_Gradient v (h : heap) :
  cext0 fltb fleb lib "Gradient" [v] h =
  do n <- nodeId h v; Some ([match gradOf h n with Some g => embT g | None => DNil end], h).
Proof. reflexivity. Qed.

Notation oracle := (string -> list dval -> heap -> option (list dval * heap)).

Ltac stepc := dxs; cbn [outcome].

(* MSE and Accuracy (after the two fields of its receiver) have the same body: the proof script is shared *)
Ltac lossArgs1_proof h yp yt Hyp Hyt :=
  destruct yp as [p|]; [|destruct yt; cbn [dtarg lossArgs1]; stepc; reflexivity];
  destruct yt as [t|]; [|cbn [dtarg lossArgs1]; stepc; reflexivity];
  destruct (valOf_valid h p (Hyp p eq_refl)) as [pv Hpv]; destruct (valOf_valid h t (Hyt t eq_refl)) as [tv Htv];
  unfold lossArgs1, rankOf, dim0Of; rewrite Hpv, Htv; cbn [dtarg];
  stepc;
  rewrite (cext0_Shape_node fltb fleb lib h p pv Hpv); stepc;
  rewrite (cext0_Shape_node fltb fleb lib h t tv Htv); stepc;
  rewrite !dlen_nats_eqb1;
  destruct (Nat.eqb (length (dims pv)) 1) eqn:E1; cbn [negb andb]; [|stepc; reflexivity];
  destruct (Nat.eqb (length (dims tv)) 1) eqn:E2; cbn [negb andb]; [|stepc; reflexivity];
  apply Nat.eqb_eq in E1, E2;
  stepc; rewrite didx_0, !nth_error_nats by lia; stepc;
  rewrite Zeqb_nat;
  destruct (Nat.eqb (nth 0 (dims pv) 0%nat) (nth 0 (dims tv) 0%nat)); cbn [negb]; stepc; reflexivity.

Theorem MSE_validateInputs_spec fuel depth (h : heap) (yp yt : targ) :
  targOk h yp -> targOk h yt ->
  outcome (run0 c_MSE_validateInputs fuel depth [dtarg yp; dtarg yt] h) =
  Some ([DI (if lossArgs1 h yp yt then 0 else 1)], h).
Proof. intros Hyp Hyt. start c_MSE_validateInputs. lossArgs1_proof h yp yt Hyp Hyt. Qed.

(* the translations of BCE.validateInputs and MSE.validateInputs are the same program *)
Theorem BCE_validateInputs_spec fuel depth (h : heap) (yp yt : targ) :
  targOk h yp -> targOk h yt ->
  outcome (run0 c_BCE_validateInputs fuel depth [dtarg yp; dtarg yt] h) =
  Some ([DI (if lossArgs1 h yp yt then 0 else 1)], h).
Proof. exact (MSE_validateInputs_spec fuel depth h yp yt). Qed.

Theorem Accuracy_validateInputs_spec fuel depth (h : heap) (ct cc : dval) (yp yt : targ) :
  targOk h yp -> targOk h yt ->
  outcome (run0 c_Accuracy_validateInputs fuel depth [ct; cc; dtarg yp; dtarg yt] h) =
  Some ([DI (if lossArgs1 h yp yt then 0 else 1)], h).
Proof. intros Hyp Hyt. start c_Accuracy_validateInputs. lossArgs1_proof h yp yt Hyp Hyt. Qed.

Theorem CE_validateInputs_spec fuel depth (h : heap) (yp yt : targ) :
  targOk h yp -> targOk h yt ->
  outcome (run0 c_CE_validateInputs fuel depth [dtarg yp; dtarg yt] h) =
  Some ([DI (if lossArgs2 h yp yt then 0 else 1)], h).
Proof.
  intros Hyp Hyt. start c_CE_validateInputs.
  destruct yp as [p|]; [|destruct yt; cbn [dtarg lossArgs2]; stepc; reflexivity].
  destruct yt as [t|]; [|cbn [dtarg lossArgs2]; stepc; reflexivity].
  destruct (valOf_valid h p (Hyp p eq_refl)) as [pv Hpv]. destruct (valOf_valid h t (Hyt t eq_refl)) as [tv Htv].
  unfold lossArgs2, rankOf, dim0Of, dim1Of. rewrite Hpv, Htv. cbn [dtarg].
  stepc.
  rewrite (cext0_Shape_node fltb fleb lib h p pv Hpv). stepc.
  rewrite (cext0_Shape_node fltb fleb lib h t tv Htv). stepc.
  rewrite !dlen_nats_eqb2.
  destruct (Nat.eqb (length (dims pv)) 2) eqn:E1; cbn [negb andb]; [|stepc; reflexivity].
  destruct (Nat.eqb (length (dims tv)) 2) eqn:E2; cbn [negb andb]; [|stepc; reflexivity].
  apply Nat.eqb_eq in E1, E2.
  stepc. rewrite didx_0, !nth_error_nats by lia. stepc.
  rewrite Zeqb_nat.
  destruct (Nat.eqb (nth 0 (dims pv) 0%nat) (nth 0 (dims tv) 0%nat)); cbn [negb andb]; [|stepc; reflexivity].
  stepc. rewrite didx_1, !nth_error_nats by lia. stepc.
  rewrite Zeqb_nat.
  destruct (Nat.eqb (nth 1 (dims pv) 0%nat) (nth 1 (dims tv) 0%nat)); cbn [negb]; stepc; reflexivity.
Qed.

(* what the four activations (and the first half of Softmax / FC) return *)
Definition oneInputRet (xs : list targ) : list dval :=
  match oneInput xs with Some x => [DI (Z.of_nat x); DI 0] | None => [DNil; DI 1] end.

(* the length test, then the nil test on element 0: what is left is the run on the one non-nil input [x], when the
   program goes on after the two tests *)
Ltac oneInput_cases xs :=
  stepc; rewrite dlen_eqb1;
  destruct xs as [|[x|] [|y r]]; cbn [map dtarg oneInput negb]; stepc; try reflexivity;
  rewrite didx_0; cbn [nth_error]; stepc; try reflexivity.

Theorem Relu_toValidInputs_spec fuel depth (h : heap) (xs : list targ) :
  outcome (run0 c_Relu_toValidInputs fuel depth [DL (map dtarg xs)] h) = Some (oneInputRet xs, h).
Proof. start c_Relu_toValidInputs. unfold oneInputRet. oneInput_cases xs. Qed.

(* Sigmoid.toValidInputs and Tanh.toValidInputs translate to the program of Relu.toValidInputs *)
Theorem Sigmoid_toValidInputs_spec fuel depth (h : heap) (xs : list targ) :
  outcome (run0 c_Sigmoid_toValidInputs fuel depth [DL (map dtarg xs)] h) = Some (oneInputRet xs, h).
Proof. exact (Relu_toValidInputs_spec fuel depth h xs). Qed.

Theorem Tanh_toValidInputs_spec fuel depth (h : heap) (xs : list targ) :
  outcome (run0 c_Tanh_toValidInputs fuel depth [DL (map dtarg xs)] h) = Some (oneInputRet xs, h).
Proof. exact (Relu_toValidInputs_spec fuel depth h xs). Qed.

Theorem LeakyRelu_toValidInputs_spec fuel depth (h : heap) (m : dval) (xs : list targ) :
  outcome (run0 c_LeakyRelu_toValidInputs fuel depth [m; DL (map dtarg xs)] h) = Some (oneInputRet xs, h).
Proof. start c_LeakyRelu_toValidInputs. unfold oneInputRet. oneInput_cases xs. Qed.

(* every node id of the list is a node of the heap *)
Definition targsOk (h : heap) (xs : list targ) : Prop := forall n, In (Some n) xs -> (n < length h)%nat.

(* only the one input is ever passed to Shape *)
Lemma targsOk_oneInput (h : heap) (xs : list targ) x : targsOk h xs -> oneInput xs = Some x -> (x < length h)%nat.
Proof.
  intros Hok Hx. destruct xs as [|[y|] [|? ?]]; try discriminate. injection Hx as ->. apply Hok. left. reflexivity.
Qed.

(* the exact returned list; the rank test is Go's  len(shape) <= c.dim  over int: when it fails Go returns the
   (non-nil) x together with the error *)
Definition softmaxRet (h : heap) (dim : Z) (xs : list targ) : list dval :=
  match oneInput xs with
  | Some x => [DI (Z.of_nat x); DI (if Z.of_nat (rankOf h x) <=? dim then 1 else 0)]
  | None => [DNil; DI 1]
  end.

Theorem Softmax_toValidInputs_run fuel depth (h : heap) (dim : Z) (xs : list targ) :
  (forall x, oneInput xs = Some x -> (x < length h)%nat) ->
  outcome (run0 c_Softmax_toValidInputs fuel depth [DI dim; DL (map dtarg xs)] h) = Some (softmaxRet h dim xs, h).
Proof.
  intros Hok. start c_Softmax_toValidInputs. unfold softmaxRet. oneInput_cases xs.
  destruct (valOf_valid h x (Hok x eq_refl)) as [v Hv].
  rewrite (cext0_Shape_node fltb fleb lib h x v Hv). stepc.
  unfold rankOf. rewrite Hv. rewrite dlen_map.
  destruct (Z.of_nat (length (dims v)) <=? dim); stepc; reflexivity.
Qed.

Theorem Softmax_toValidInputs_spec fuel depth (h : heap) (dim : Z) (xs : list targ) :
  targsOk h xs ->
  outcome (run0 c_Softmax_toValidInputs fuel depth [DI dim; DL (map dtarg xs)] h) = Some (softmaxRet h dim xs, h).
Proof. intros Hok. apply Softmax_toValidInputs_run. intros x. apply targsOk_oneInput, Hok. Qed.

(* in the terms of [softmax_forward]: for a dimension 0 <= dim the error flag is the test  rankOf h x <=? dim *)
Corollary Softmax_toValidInputs_model fuel depth (h : heap) (dim : Z) (xs : list targ) :
  0 <= dim -> targsOk h xs ->
  outcome (run0 c_Softmax_toValidInputs fuel depth [DI dim; DL (map dtarg xs)] h) =
  Some (match oneInput xs with
        | Some x => if (rankOf h x <=? Z.to_nat dim)%nat then [DI (Z.of_nat x); DI 1] else [DI (Z.of_nat x); DI 0]
        | None => [DNil; DI 1]
        end, h).
Proof.
  intros Hd Hok. rewrite (Softmax_toValidInputs_spec fuel depth h dim xs Hok). unfold softmaxRet.
  destruct (oneInput xs) as [x|]; [|reflexivity].
  destruct (Nat.leb (rankOf h x) (Z.to_nat dim)) eqn:E.
  - apply Nat.leb_le in E. destruct (Z.of_nat (rankOf h x) <=? dim) eqn:F; [reflexivity|]. apply Z.leb_gt in F. lia.
  - apply Nat.leb_gt in E. destruct (Z.of_nat (rankOf h x) <=? dim) eqn:F; [|reflexivity]. apply Z.leb_le in F. lia.
Qed.

(* error flag 0  iff  oneInput xs = Some x  and  dim < rank x *)
Corollary Softmax_toValidInputs_ok_iff fuel depth (h : heap) (dim : Z) (xs : list targ) :
  0 <= dim -> targsOk h xs ->
  forall vs h', outcome (run0 c_Softmax_toValidInputs fuel depth [DI dim; DL (map dtarg xs)] h) = Some (vs, h') ->
  (nth 1 vs DNil = DI 0 <-> exists x, oneInput xs = Some x /\ (Z.to_nat dim < rankOf h x)%nat).
Proof.
  intros Hd Hok vs h' H. rewrite (Softmax_toValidInputs_model fuel depth h dim xs Hd Hok) in H.
  injection H as Hvs _. subst vs.
  destruct (oneInput xs) as [x|].
  - destruct (Nat.leb (rankOf h x) (Z.to_nat dim)) eqn:E; cbn [nth].
    + apply Nat.leb_le in E. split; [discriminate|]. intros [x' [Hx' Hlt]]. inversion Hx'; subst. lia.
    + apply Nat.leb_gt in E. split; [|reflexivity]. intros _. exists x. split; [reflexivity | exact E].
  - cbn [nth]. split; [discriminate|]. intros [x' [Hx' _]]. discriminate.
Qed.

Definition fcRet (h : heap) (xs : list targ) : list dval :=
  match oneInput xs with
  | Some x => [DI (Z.of_nat x); DI (if Nat.eqb (rankOf h x) 2 then 0 else 1)]
  | None => [DNil; DI 1]
  end.

Theorem FC_toValidInputs_run fuel depth (h : heap) (w b : dval) (xs : list targ) :
  (forall x, oneInput xs = Some x -> (x < length h)%nat) ->
  outcome (run0 c_FC_toValidInputs fuel depth [w; b; DL (map dtarg xs)] h) = Some (fcRet h xs, h).
Proof.
  intros Hok. start c_FC_toValidInputs. unfold fcRet. oneInput_cases xs.
  destruct (valOf_valid h x (Hok x eq_refl)) as [v Hv].
  rewrite (cext0_Shape_node fltb fleb lib h x v Hv). stepc.
  unfold rankOf. rewrite Hv. rewrite dlen_nats_eqb2.
  destruct (Nat.eqb (length (dims v)) 2); cbn [negb]; stepc; reflexivity.
Qed.

Theorem FC_toValidInputs_spec fuel depth (h : heap) (w b : dval) (xs : list targ) :
  targsOk h xs ->
  outcome (run0 c_FC_toValidInputs fuel depth [w; b; DL (map dtarg xs)] h) = Some (fcRet h xs, h).
Proof. intros Hok. apply FC_toValidInputs_run. intros x. apply targsOk_oneInput, Hok. Qed.

Corollary FC_toValidInputs_ok_iff fuel depth (h : heap) (w b : dval) (xs : list targ) :
  targsOk h xs ->
  forall vs h', outcome (run0 c_FC_toValidInputs fuel depth [w; b; DL (map dtarg xs)] h) = Some (vs, h') ->
  (nth 1 vs DNil = DI 0 <-> exists x, oneInput xs = Some x /\ rankOf h x = 2%nat).
Proof.
  intros Hok vs h' H. rewrite (FC_toValidInputs_spec fuel depth h w b xs Hok) in H.
  injection H as Hvs _. subst vs. unfold fcRet.
  destruct (oneInput xs) as [x|].
  - destruct (Nat.eqb (rankOf h x) 2) eqn:E; cbn [nth].
    + apply Nat.eqb_eq in E. split; [|reflexivity]. intros _. exists x. split; [reflexivity | exact E].
    + apply Nat.eqb_neq in E. split; [discriminate|]. intros [x' [Hx' Hr]]. inversion Hx'; subst. contradiction.
  - cbn [nth]. split; [discriminate|]. intros [x' [Hx' _]]. discriminate.
Qed.

(* a *tensor.Tensor argument: nil pointer, or a cell holding nil / a node *)
Definition dcell (c : option targ) : dval := match c with None => DNil | Some w => DL [dtarg w] end.

Definition cellOk (h : heap) (c : option targ) : Prop := forall w, c = Some (Some w) -> (w < length h)%nat.

Definition sgdRet (h : heap) (c : option targ) : list dval :=
  match c with
  | Some (Some w) =>
      match gradOf h w with
      | Some g => [DI (Z.of_nat w); embT g; DI 0]
      | None => [DI (Z.of_nat w); DNil; DI 1]       (* "gradient is nil": Go returns the non-nil w with the error *)
      end
  | _ => [DNil; DNil; DI 1]                          (* nil pointer, or the cell holds nil *)
  end.

Theorem SGD_toValidInputs_spec fuel depth (h : heap) (lr : dval) (c : option targ) :
  cellOk h c ->
  outcome (run0 c_SGD_toValidInputs fuel depth [lr; dcell c] h) = Some (sgdRet h c, h).
Proof.
  intros Hok. unfold c_SGD_toValidInputs, drun. cbn [pmain dbody dparams plocals dbind]. unfold sgdRet.
  destruct c as [[w|]|]; cbn [dcell dtarg]; stepc; try reflexivity;
    rewrite didx_0; cbn [nth_error]; stepc; try reflexivity.
  assert (Hw : (w < length h)%nat) by (apply Hok; reflexivity).
  rewrite cext0_Gradient, (nodeId_nat h w Hw). cbn [obind]. stepc.
  destruct (gradOf h w) as [g|]; [unfold embT|]; stepc; reflexivity.
Qed.

(* returns  (w, g, nil)  iff the pointer is non-nil, holds the node w and w has the gradient g *)
Corollary SGD_toValidInputs_ok_iff fuel depth (h : heap) (lr : dval) (c : option targ) (w : nat) (g : T) :
  cellOk h c ->
  (outcome (run0 c_SGD_toValidInputs fuel depth [lr; dcell c] h) = Some ([DI (Z.of_nat w); embT g; DI 0], h)
   <-> c = Some (Some w) /\ gradOf h w = Some g).
Proof.
  intros Hok. rewrite (SGD_toValidInputs_spec fuel depth h lr c Hok). unfold sgdRet. split.
  - destruct c as [[w'|]|]; try discriminate.
    destruct (gradOf h w') as [g'|] eqn:Eg; [|discriminate].
    intros H. assert (Hw : Z.of_nat w' = Z.of_nat w) by congruence.
    assert (Hg : embT g' = embT g) by congruence. clear H. apply Nat2Z.inj in Hw. subst w'.
    assert (Hgg : unembT (embT g') = unembT (embT g)) by (rewrite Hg; reflexivity).
    rewrite !unembT_embT in Hgg. injection Hgg as Hgg. subst g'. split; [reflexivity | exact Eg].
  - intros [Hc Hg]. subst c. rewrite Hg. reflexivity.
Qed.

(* otherwise the error flag is 1, and that is exactly where the model's [sgd_update] answers Err *)
Corollary SGD_toValidInputs_err fuel depth (h : heap) (lr : dval) (c : option targ) :
  cellOk h c ->
  (forall w g, ~ (c = Some (Some w) /\ gradOf h w = Some g)) ->
  exists v1 v2, outcome (run0 c_SGD_toValidInputs fuel depth [lr; dcell c] h) = Some ([v1; v2; DI 1], h).
Proof.
  intros Hok Hno. rewrite (SGD_toValidInputs_spec fuel depth h lr c Hok). unfold sgdRet.
  destruct c as [[w|]|]; try (do 2 eexists; reflexivity).
  destruct (gradOf h w) as [g|] eqn:Eg; [|do 2 eexists; reflexivity].
  exfalso. apply (Hno w g). split; [reflexivity | exact Eg].
Qed.

(* the validator and the model's [sgd_update]: either the validator reports the error and [sgd_update] answers Err
   on the unchanged heap, or it returns (w, g) and [sgd_update] is the update computed from the value of w and g *)
Corollary SGD_toValidInputs_model fuel depth (h : heap) (lr : dval) (a : A) (cell : targ) (name : option nat) :
  targOk h cell ->
  (exists v1 v2,
     outcome (run0 c_SGD_toValidInputs fuel depth [lr; dcell (Some cell)] h) = Some ([v1; v2; DI 1], h) /\
     sgd_update h a cell name = (h, Err))
  \/
  (exists w wv g,
     cell = Some w /\ valOf h w = Some wv /\ gradOf h w = Some g /\
     outcome (run0 c_SGD_toValidInputs fuel depth [lr; dcell (Some cell)] h) = Some ([DI (Z.of_nat w); embT g; DI 0], h) /\
     sgd_update h a cell name =
     match (dor delta <- v_unary (UScale a) g; v_arith BiSub wv delta) with
     | Ok v => let '(h', id) := alloc h v (false, true, []) name in (h', Ok id)
     | Err => (h, Err)
     | Panic => (h, Panic)
     end).
Proof.
  intros Hok.
  assert (Hc : cellOk h (Some cell)).
  { intros w Hw. injection Hw as Hw. apply Hok. exact Hw. }
  rewrite (SGD_toValidInputs_spec fuel depth h lr (Some cell) Hc). unfold sgdRet, sgd_update.
  destruct cell as [w|]; [|left; do 2 eexists; split; reflexivity].
  destruct (valOf_valid h w (Hok w eq_refl)) as [wv Hwv]. rewrite Hwv.
  destruct (gradOf h w) as [g|] eqn:Eg; [|left; do 2 eexists; split; reflexivity].
  right. exists w, wv, g. repeat split; try reflexivity; assumption.
Qed.

(* both non-nil, both of rank 1, both of length [outputs] *)
Definition initWeightsOk (h : heap) (w b : targ) (outputs : Z) : bool :=
  match w, b with
  | Some wn, Some bn =>
      Nat.eqb (rankOf h wn) 1 && Nat.eqb (rankOf h bn) 1 &&
      (Z.of_nat (dim0Of h wn) =? outputs) && (Z.of_nat (dim0Of h bn) =? outputs)
  | _, _ => false
  end.

(* the callee of NewFC runs under a linked oracle: any oracle that answers Shape as the leaf oracle does *)
Theorem FC_validateInitializedWeights_run (ext : oracle) fuel depth (h : heap) (w b : targ) (inputs outputs : Z)
        (rest : dval) :
  (forall v, ext "Shape" [v] h = cext0 fltb fleb lib "Shape" [v] h) ->
  targOk h w -> targOk h b ->
  outcome (drun cfapp heap ext c_FC_validateInitializedWeights fuel depth
                [dtarg w; dtarg b; DL [DI inputs; DI outputs; rest]] h) =
  Some ([DI (if initWeightsOk h w b outputs then 0 else 1)], h).
Proof.
  intros Hext Hw Hb. start c_FC_validateInitializedWeights.
  destruct w as [wn|]; [|destruct b; cbn [dtarg initWeightsOk]; stepc; reflexivity].
  destruct b as [bn|]; [|cbn [dtarg initWeightsOk]; stepc; reflexivity].
  destruct (valOf_valid h wn (Hw wn eq_refl)) as [wv Hwv]. destruct (valOf_valid h bn (Hb bn eq_refl)) as [bv Hbv].
  unfold initWeightsOk, rankOf, dim0Of. rewrite Hwv, Hbv. cbn [dtarg].
  stepc.
  rewrite Hext, (cext0_Shape_node fltb fleb lib h wn wv Hwv). stepc.
  rewrite Hext, (cext0_Shape_node fltb fleb lib h bn bv Hbv). stepc.
  rewrite !dlen_nats_eqb1.
  destruct (Nat.eqb (length (dims wv)) 1) eqn:E1; cbn [negb andb]; [|stepc; reflexivity].
  destruct (Nat.eqb (length (dims bv)) 1) eqn:E2; cbn [negb andb]; [|stepc; reflexivity].
  apply Nat.eqb_eq in E1, E2.
  stepc. rewrite didx_0, didx_1, !nth_error_nats by lia. cbn [nth_error]. stepc.
  destruct (Z.of_nat (nth 0 (dims wv) 0%nat) =? outputs); cbn [negb andb]; stepc; [|reflexivity].
  rewrite didx_0, didx_1, !nth_error_nats by lia. cbn [nth_error]. stepc.
  destruct (Z.of_nat (nth 0 (dims bv) 0%nat) =? outputs); cbn [negb]; stepc; reflexivity.
Qed.

Theorem FC_validateInitializedWeights_spec fuel depth (h : heap) (w b : targ) (inputs outputs : Z) (rest : dval) :
  targOk h w -> targOk h b ->
  outcome (run0 c_FC_validateInitializedWeights fuel depth [dtarg w; dtarg b; DL [DI inputs; DI outputs; rest]] h) =
  Some ([DI (if initWeightsOk h w b outputs then 0 else 1)], h).
Proof. exact (FC_validateInitializedWeights_run _ fuel depth h w b inputs outputs rest (fun _ => eq_refl)). Qed.

Lemma initWeightsOk_true_iff (h : heap) (w b : targ) (outputs : Z) :
  initWeightsOk h w b outputs = true
  <-> exists wn bn, w = Some wn /\ b = Some bn /\ rankOf h wn = 1%nat /\ rankOf h bn = 1%nat /\
                    Z.of_nat (dim0Of h wn) = outputs /\ Z.of_nat (dim0Of h bn) = outputs.
Proof.
  unfold initWeightsOk. split.
  - destruct w as [wn|]; [|discriminate]. destruct b as [bn|]; [|discriminate].
    rewrite !andb_true_iff, !Nat.eqb_eq, !Z.eqb_eq. intros [[[R1 R2] D1] D2].
    exists wn, bn. repeat split; assumption.
  - intros [wn [bn [-> [-> [R1 [R2 [D1 D2]]]]]]].
    rewrite R1, R2, D1, D2, Z.eqb_refl. reflexivity.
Qed.

Corollary FC_validateInitializedWeights_ok_iff fuel depth (h : heap) (w b : targ) (inputs outputs : Z) (rest : dval) :
  targOk h w -> targOk h b ->
  (outcome (run0 c_FC_validateInitializedWeights fuel depth [dtarg w; dtarg b; DL [DI inputs; DI outputs; rest]] h) =
   Some ([DI 0], h)
   <-> exists wn bn, w = Some wn /\ b = Some bn /\ rankOf h wn = 1%nat /\ rankOf h bn = 1%nat /\
                     Z.of_nat (dim0Of h wn) = outputs /\ Z.of_nat (dim0Of h bn) = outputs).
Proof.
  intros Hw Hb. rewrite (FC_validateInitializedWeights_spec fuel depth h w b inputs outputs rest Hw Hb).
  rewrite <- initWeightsOk_true_iff. destruct (initWeightsOk h w b outputs); split; intros E; try reflexivity; discriminate.
Qed.

(* for all arguments of the shapes above the run is neither DPanic nor DFuel (it is a DRet: see the *_spec theorems) *)

Corollary MSE_validateInputs_never_panics fuel depth (h : heap) (yp yt : targ) :
  targOk h yp -> targOk h yt -> safe (run0 c_MSE_validateInputs fuel depth [dtarg yp; dtarg yt] h).
Proof. intros H1 H2. eapply outcome_safe, MSE_validateInputs_spec; assumption. Qed.

Corollary BCE_validateInputs_never_panics fuel depth (h : heap) (yp yt : targ) :
  targOk h yp -> targOk h yt -> safe (run0 c_BCE_validateInputs fuel depth [dtarg yp; dtarg yt] h).
Proof. intros H1 H2. eapply outcome_safe, BCE_validateInputs_spec; assumption. Qed.

Corollary Accuracy_validateInputs_never_panics fuel depth (h : heap) (ct cc : dval) (yp yt : targ) :
  targOk h yp -> targOk h yt -> safe (run0 c_Accuracy_validateInputs fuel depth [ct; cc; dtarg yp; dtarg yt] h).
Proof. intros H1 H2. eapply outcome_safe, Accuracy_validateInputs_spec; assumption. Qed.

Corollary CE_validateInputs_never_panics fuel depth (h : heap) (yp yt : targ) :
  targOk h yp -> targOk h yt -> safe (run0 c_CE_validateInputs fuel depth [dtarg yp; dtarg yt] h).
Proof. intros H1 H2. eapply outcome_safe, CE_validateInputs_spec; assumption. Qed.

Corollary Relu_toValidInputs_never_panics fuel depth (h : heap) (xs : list targ) :
  safe (run0 c_Relu_toValidInputs fuel depth [DL (map dtarg xs)] h).
Proof. eapply outcome_safe, Relu_toValidInputs_spec. Qed.

Corollary Sigmoid_toValidInputs_never_panics fuel depth (h : heap) (xs : list targ) :
  safe (run0 c_Sigmoid_toValidInputs fuel depth [DL (map dtarg xs)] h).
Proof. eapply outcome_safe, Sigmoid_toValidInputs_spec. Qed.

Corollary Tanh_toValidInputs_never_panics fuel depth (h : heap) (xs : list targ) :
  safe (run0 c_Tanh_toValidInputs fuel depth [DL (map dtarg xs)] h).
Proof. eapply outcome_safe, Tanh_toValidInputs_spec. Qed.

Corollary LeakyRelu_toValidInputs_never_panics fuel depth (h : heap) (m : dval) (xs : list targ) :
  safe (run0 c_LeakyRelu_toValidInputs fuel depth [m; DL (map dtarg xs)] h).
Proof. eapply outcome_safe, LeakyRelu_toValidInputs_spec. Qed.

Corollary Softmax_toValidInputs_never_panics fuel depth (h : heap) (dim : Z) (xs : list targ) :
  targsOk h xs -> safe (run0 c_Softmax_toValidInputs fuel depth [DI dim; DL (map dtarg xs)] h).
Proof. intros H1. eapply outcome_safe, Softmax_toValidInputs_spec; assumption. Qed.

Corollary FC_toValidInputs_never_panics fuel depth (h : heap) (w b : dval) (xs : list targ) :
  targsOk h xs -> safe (run0 c_FC_toValidInputs fuel depth [w; b; DL (map dtarg xs)] h).
Proof. intros H1. eapply outcome_safe, FC_toValidInputs_spec; assumption. Qed.

Corollary SGD_toValidInputs_never_panics fuel depth (h : heap) (lr : dval) (c : option targ) :
  cellOk h c -> safe (run0 c_SGD_toValidInputs fuel depth [lr; dcell c] h).
Proof. intros H1. eapply outcome_safe, SGD_toValidInputs_spec; assumption. Qed.

Corollary FC_validateInitializedWeights_never_panics fuel depth (h : heap) (w b : targ) (inputs outputs : Z) (rest : dval) :
  targOk h w -> targOk h b ->
  safe (run0 c_FC_validateInitializedWeights fuel depth [dtarg w; dtarg b; DL [DI inputs; DI outputs; rest]] h).
Proof. intros H1 H2. eapply outcome_safe, FC_validateInitializedWeights_spec; assumption. Qed.

End CompValid.

Print Assumptions MSE_validateInputs_spec.
Print Assumptions BCE_validateInputs_spec.
Print Assumptions Accuracy_validateInputs_spec.
Print Assumptions CE_validateInputs_spec.
Print Assumptions Relu_toValidInputs_spec.
Print Assumptions Sigmoid_toValidInputs_spec.
Print Assumptions Tanh_toValidInputs_spec.
Print Assumptions LeakyRelu_toValidInputs_spec.
Print Assumptions Softmax_toValidInputs_spec.
Print Assumptions Softmax_toValidInputs_model.
Print Assumptions Softmax_toValidInputs_ok_iff.
Print Assumptions FC_toValidInputs_spec.
Print Assumptions FC_toValidInputs_ok_iff.
Print Assumptions SGD_toValidInputs_spec.
Print Assumptions SGD_toValidInputs_ok_iff.
Print Assumptions SGD_toValidInputs_err.
Print Assumptions SGD_toValidInputs_model.
Print Assumptions FC_validateInitializedWeights_spec.
Print Assumptions FC_validateInitializedWeights_ok_iff.
Print Assumptions MSE_validateInputs_never_panics.
Print Assumptions BCE_validateInputs_never_panics.
Print Assumptions Accuracy_validateInputs_never_panics.
Print Assumptions CE_validateInputs_never_panics.
Print Assumptions Relu_toValidInputs_never_panics.
Print Assumptions Sigmoid_toValidInputs_never_panics.
Print Assumptions Tanh_toValidInputs_never_panics.
Print Assumptions LeakyRelu_toValidInputs_never_panics.
Print Assumptions Softmax_toValidInputs_never_panics.
Print Assumptions FC_toValidInputs_never_panics.
Print Assumptions SGD_toValidInputs_never_panics.
Print Assumptions FC_validateInitializedWeights_never_panics.

Section Examples.
Definition ex_lib (f : string) (a : list (@dval term)) (h : @heap term) : option (list (@dval term) * @heap term) := None.
Definition ex_tb (a b : term) := true.
Definition ex_vec : tensor term := mkT [2%nat] (Vec [Sc (TConst 1 0); Sc (TConst 2 0)]).
Definition ex_mat : tensor term := mkT [1%nat; 2%nat] (Vec [Vec [Sc (TConst 1 0); Sc (TConst 2 0)]]).
(* nodes 0, 1: vectors of length 2; node 2: a 1x2 matrix; node 3: a vector that has a gradient *)
Definition ex_h : @heap term :=
  [mkNode ex_vec false false None [] None; mkNode ex_vec false false None [] None;
   mkNode ex_mat false false None [] None; mkNode ex_vec true false (Some ex_vec) [] None].
Definition ex_run p args := outcome (drun cfapp (@heap term) (cext0 ex_tb ex_tb ex_lib) p 0 0 args ex_h).

Example ex_MSE_ok : ex_run c_MSE_validateInputs [dtarg (Some 0%nat); dtarg (Some 1%nat)] = Some ([DI 0], ex_h)
                    /\ lossArgs1 ex_h (Some 0%nat) (Some 1%nat) = Some (0%nat, 1%nat).
Proof. vm_compute. split; reflexivity. Qed.
Example ex_MSE_rank : ex_run c_MSE_validateInputs [dtarg (Some 0%nat); dtarg (Some 2%nat)] = Some ([DI 1], ex_h)
                      /\ lossArgs1 ex_h (Some 0%nat) (Some 2%nat) = None.
Proof. vm_compute. split; reflexivity. Qed.
Example ex_BCE_nil : ex_run c_BCE_validateInputs [dtarg None; dtarg (Some 1%nat)] = Some ([DI 1], ex_h).
Proof. vm_compute. reflexivity. Qed.
Example ex_Acc_ok : ex_run c_Accuracy_validateInputs [DI 7; DF (TConst 3 0); dtarg (Some 3%nat); dtarg (Some 1%nat)] = Some ([DI 0], ex_h).
Proof. vm_compute. reflexivity. Qed.
Example ex_CE_ok : ex_run c_CE_validateInputs [dtarg (Some 2%nat); dtarg (Some 2%nat)] = Some ([DI 0], ex_h)
                   /\ lossArgs2 ex_h (Some 2%nat) (Some 2%nat) = Some (2%nat, 2%nat).
Proof. vm_compute. split; reflexivity. Qed.
Example ex_CE_rank : ex_run c_CE_validateInputs [dtarg (Some 2%nat); dtarg (Some 0%nat)] = Some ([DI 1], ex_h).
Proof. vm_compute. reflexivity. Qed.
Example ex_Relu_ok : ex_run c_Relu_toValidInputs [DL (map dtarg [Some 1%nat])] = Some ([DI 1; DI 0], ex_h).
Proof. vm_compute. reflexivity. Qed.
Example ex_Tanh_nil : ex_run c_Tanh_toValidInputs [DL (map dtarg [None])] = Some ([DNil; DI 1], ex_h).
Proof. vm_compute. reflexivity. Qed.
Example ex_Sigmoid_two : ex_run c_Sigmoid_toValidInputs [DL (map dtarg [Some 0%nat; Some 1%nat])] = Some ([DNil; DI 1], ex_h).
Proof. vm_compute. reflexivity. Qed.
Example ex_Leaky_none : ex_run c_LeakyRelu_toValidInputs [DF (TConst 1 (-2)); DL (map dtarg [])] = Some ([DNil; DI 1], ex_h).
Proof. vm_compute. reflexivity. Qed.
Example ex_Softmax_ok : ex_run c_Softmax_toValidInputs [DI 1; DL (map dtarg [Some 2%nat])] = Some ([DI 2; DI 0], ex_h).
Proof. vm_compute. reflexivity. Qed.
Example ex_Softmax_rank : ex_run c_Softmax_toValidInputs [DI 2; DL (map dtarg [Some 2%nat])] = Some ([DI 2; DI 1], ex_h).
Proof. vm_compute. reflexivity. Qed.
Example ex_FC_ok : ex_run c_FC_toValidInputs [DI 0; DI 1; DL (map dtarg [Some 2%nat])] = Some ([DI 2; DI 0], ex_h).
Proof. vm_compute. reflexivity. Qed.
Example ex_FC_rank : ex_run c_FC_toValidInputs [DI 0; DI 1; DL (map dtarg [Some 0%nat])] = Some ([DI 0; DI 1], ex_h).
Proof. vm_compute. reflexivity. Qed.
Example ex_SGD_ok : ex_run c_SGD_toValidInputs [DF (TConst 1 (-2)); dcell (Some (Some 3%nat))] = Some ([DI 3; embT ex_vec; DI 0], ex_h).
Proof. vm_compute. reflexivity. Qed.
Example ex_SGD_nograd : ex_run c_SGD_toValidInputs [DF (TConst 1 (-2)); dcell (Some (Some 0%nat))] = Some ([DI 0; DNil; DI 1], ex_h).
Proof. vm_compute. reflexivity. Qed.
Example ex_SGD_nilptr : ex_run c_SGD_toValidInputs [DF (TConst 1 (-2)); dcell None] = Some ([DNil; DNil; DI 1], ex_h).
Proof. vm_compute. reflexivity. Qed.
Example ex_SGD_nilcell : ex_run c_SGD_toValidInputs [DF (TConst 1 (-2)); dcell (Some None)] = Some ([DNil; DNil; DI 1], ex_h).
Proof. vm_compute. reflexivity. Qed.
Example ex_Weights_ok : ex_run c_FC_validateInitializedWeights [dtarg (Some 0%nat); dtarg (Some 1%nat); DL [DI 5; DI 2; DNil]] = Some ([DI 0], ex_h).
Proof. vm_compute. reflexivity. Qed.
Example ex_Weights_len : ex_run c_FC_validateInitializedWeights [dtarg (Some 0%nat); dtarg (Some 1%nat); DL [DI 5; DI 3; DNil]] = Some ([DI 1], ex_h).
Proof. vm_compute. reflexivity. Qed.
(* the validity hypothesis on node ids is needed: a dangling id makes the Shape oracle (and Go: a nil receiver) panic *)
Example ex_dangling : ex_run c_MSE_validateInputs [dtarg (Some 9%nat); dtarg (Some 1%nat)] = None.
Proof. vm_compute. reflexivity. Qed.
End Examples.
