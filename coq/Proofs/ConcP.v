(* ConcP.v — C20, model part: in the shared-prefix model of Model/Conc.v a goroutine that only
   runs forward computations on shared tensors and back-propagates / resets / stores into its
   own private objects never writes a shared tensor or a shared API object. *)
From Coq Require Import List Arith ZArith Bool Lia.
From Qeep Require Import Model.Scalar Model.Nd Model.Fill Model.Data Model.Valid Model.Api Model.Grad
     Model.Backprop Model.Components Model.Scenario Model.Conc.
From Qeep Require Import Proofs.NdP Proofs.TrackP Proofs.DfsP Proofs.BpFlagsP Proofs.StepP.
Import ListNotations.

Lemma node_eq {A} (n n' : @node A) :
  nval n' = nval n -> ntracked n' = ntracked n -> ndirty n' = ndirty n -> ngrad n' = ngrad n ->
  nedges n' = nedges n -> nname n' = nname n -> n' = n.
Proof. destruct n, n'; cbn; intros; subst; reflexivity. Qed.

Section ConcP.
Context {A : Type} {SA : Scalar A}.
Notation T := (tensor A).
Notation heap := (@heap A).
Notation state := (@state A).
Notation cmd := (@cmd A).

Variable rd : bred.
Variable sealv : nat -> T -> T.
Variable sealg : nat -> option nat -> T -> T.
Variables (c_eps c_one_m_eps : A) (c_leaky c_sgd_lr dFull dUniL dUniU dNorM dNorS : dec) (c_softmax_dim : Z).
Notation step := (step rd sealv sealg c_eps c_one_m_eps c_leaky c_sgd_lr dFull dUniL dUniU dNorM dNorS c_softmax_dim).
Notation run_from := (run_from rd sealv sealg c_eps c_one_m_eps c_leaky c_sgd_lr dFull dUniL dUniU dNorM dNorS c_softmax_dim).
Notation exec := (exec rd sealv sealg c_eps c_one_m_eps c_leaky c_sgd_lr dFull dUniL dUniU dNorM dNorS c_softmax_dim).
Notation g_exec := (g_exec rd sealv sealg c_eps c_one_m_eps c_leaky c_sgd_lr dFull dUniL dUniU dNorM dNorS c_softmax_dim).
Notation run_safe := (run_safe rd sealv sealg c_eps c_one_m_eps c_leaky c_sgd_lr dFull dUniL dUniU dNorM dNorS c_softmax_dim).
Notation run_safeb := (run_safeb rd sealv sealg c_eps c_one_m_eps c_leaky c_sgd_lr dFull dUniL dUniU dNorM dNorS c_softmax_dim).
Notation sys_safe := (sys_safe rd sealv sealg c_eps c_one_m_eps c_leaky c_sgd_lr dFull dUniL dUniU dNorM dNorS c_softmax_dim).
Notation sys_obs := (sys_obs rd sealv sealg c_eps c_one_m_eps c_leaky c_sgd_lr dFull dUniL dUniU dNorM dNorS c_softmax_dim).
Notation step_rel := (step_rel rd sealv sealg c_eps c_one_m_eps c_leaky c_sgd_lr dFull dUniL dUniU dNorM dNorS c_softmax_dim).
Notation step_node := (step_node rd sealv sealg c_eps c_one_m_eps c_leaky c_sgd_lr dFull dUniL dUniU dNorM dNorS c_softmax_dim).

Lemma g_exec_exec (s : state) cs : g_exec s cs = exec s cs.
Proof. revert s. induction cs as [|c cs IH]; intros s; cbn; [reflexivity|apply IH]. Qed.

(* the proviso, read as a proposition *)
Theorem safe_spec n0 e0 (s : state) (c : cmd) :
  safe n0 e0 s c <->
  match c with
  | CBackprop (Some t) => forall x, lookupT s t = Some x -> Forall (fun i => n0 <= i) (topoOrder (st_heap s) x)
  | CReset t _ => forall x, lookupT s t = Some x -> n0 <= x
  | CFCSet fc _ _ => e0 <= fc
  | CSGDUpdate _ cell => forall k, cellTarget cell = Some k -> e0 <= k
  | CAccumulate acc _ _ => e0 <= acc
  | _ => True
  end.
Proof.
  unfold safe. destruct c; cbn [safeb]; try (split; [intros _; exact I|intros _; reflexivity]).
  - destruct t as [t|]; [|split; [intros _; exact I|intros _; reflexivity]].
    destruct (lookupT s t) as [x|].
    + rewrite forallb_forall. split.
      * intros H y Ey. inversion Ey; subst y. apply Forall_forall. intros i Hi. apply Nat.leb_le. apply H. exact Hi.
      * intros H i Hi. apply Nat.leb_le. specialize (H x eq_refl). rewrite Forall_forall in H. apply H. exact Hi.
    + split; [intros _ y Ey; discriminate|intros _; reflexivity].
  - destruct (lookupT s t) as [x|].
    + rewrite Nat.leb_le. split; [intros H y Ey; inversion Ey; subst; exact H|intros H; apply H; reflexivity].
    + split; [intros _ y Ey; discriminate|intros _; reflexivity].
  - apply Nat.leb_le.
  - destruct (cellTarget cell) as [k|].
    + rewrite Nat.leb_le. split; [intros H y Ey; inversion Ey; subst; exact H|intros H; apply H; reflexivity].
    + split; [intros _ y Ey; discriminate|intros _; reflexivity].
  - apply Nat.leb_le.
Qed.

Lemma run_safeb_spec n0 e0 (s : state) cs : run_safeb n0 e0 s cs = true <-> run_safe n0 e0 s cs.
Proof.
  revert s. induction cs as [|c cs IH]; intros s; cbn [Conc.run_safeb Conc.run_safe]; [split; auto|].
  rewrite andb_true_iff, IH. reflexivity.
Qed.

Lemma writes_safe n0 e0 (s : state) (c : cmd) k : safe n0 e0 s c -> writes c k -> e0 <= k.
Proof.
  unfold safe. destruct c; cbn [safeb writes]; try contradiction.
  - intros H ->. apply Nat.leb_le. exact H.
  - destruct cell as [fc|fc|cl|]; cbn [cellTarget]; try contradiction; intros H ->; apply Nat.leb_le; exact H.
  - intros H ->. apply Nat.leb_le. exact H.
Qed.

Theorem shared_heap_frame n0 e0 (s : state) (c : cmd) : wf_heap (st_heap s) -> safe n0 e0 s c ->
  let s' := fst (step s c) in
  (forall i n, i < n0 -> nth_error (st_heap s) i = Some n -> nth_error (st_heap s') i = Some n) /\
  (forall j o, j < e0 -> nth_error (st_env s) j = Some o -> nth_error (st_env s') j = Some o).
Proof.
  intros W Hs. cbv zeta. split.
  - intros i n Hi Hn. destruct (step_node s c i n Hn) as (n' & Hn' & [->|t b -> El _|t x log -> El Eb _ _ _ _]);
      unfold safe in Hs; cbn [safeb] in Hs; rewrite ?El in Hs.
    + exact Hn'.
    + apply Nat.leb_le in Hs. lia.
    + (* the proviso keeps [i] out of the visiting order, and back-propagation touches nothing else *)
      assert (Hni : ~ In i (topoOrder (st_heap s) x)).
      { intros Hin. rewrite forallb_forall in Hs. specialize (Hs i Hin). apply Nat.leb_le in Hs. lia. }
      destruct (trackedOf (st_heap s) x) eqn:Ht.
      * destruct (bp_topo_flags _ _ _ _ _ _ _ W Ht Eb) as (_ & Hf & _).
        destruct (Hf i n Hn) as (n1 & Hn1 & V1 & V2 & V3 & V4 & V5 & V6).
        rewrite Hn1. f_equal. apply node_eq; auto.
        rewrite V5. apply memb_false in Hni. rewrite Hni. apply orb_false_r.
      * rewrite bp_untracked_root in Eb by exact Ht. congruence.
  - intros j o Hj Ho. destruct (step_rel s c) as [_ (o1 & [E|(k & o' & Hw & E)])]; rewrite E.
    + apply nth_error_snoc_old. exact Ho.
    + apply nth_error_snoc_old. rewrite setNthObj_nth, Ho. cbn [option_map].
      pose proof (writes_safe _ _ _ _ _ Hs Hw) as Hk.
      assert (X : j =? k = false) by (apply Nat.eqb_neq; lia). rewrite X. reflexivity.
Qed.

Lemma run_safe_app n0 e0 (s : state) cs1 cs2 :
  run_safe n0 e0 s (cs1 ++ cs2) <-> run_safe n0 e0 s cs1 /\ run_safe n0 e0 (g_exec s cs1) cs2.
Proof.
  revert s. induction cs1 as [|c cs1 IH]; intros s; cbn [app Conc.run_safe Conc.g_exec]; [tauto|].
  rewrite IH. tauto.
Qed.

Lemma run_safe_firstn n0 e0 (s : state) cs k : run_safe n0 e0 s cs -> run_safe n0 e0 s (firstn k cs).
Proof.
  intros H. rewrite <- (firstn_skipn k cs) in H. apply run_safe_app in H. apply H.
Qed.

Theorem run_safe_shared n0 e0 (s : state) cs : hinv (st_heap s) -> run_safe n0 e0 s cs ->
  (forall i n, i < n0 -> nth_error (st_heap s) i = Some n -> nth_error (st_heap (g_exec s cs)) i = Some n) /\
  (forall j o, j < e0 -> nth_error (st_env s) j = Some o -> nth_error (st_env (g_exec s cs)) j = Some o).
Proof.
  revert s. induction cs as [|c cs IH]; intros s Hi Hs; cbn [Conc.g_exec]; [auto|].
  destruct Hs as [Hc Hs].
  destruct (shared_heap_frame n0 e0 s c (hinv_wf _ Hi) Hc) as [F1 F2].
  destruct (IH (fst (step s c)) (step_hinv _ _ _ _ _ _ _ _ _ _ _ _ _ _ _ Hi) Hs) as [G1 G2].
  split.
  - intros i n Hlt Hn. apply G1; [exact Hlt|]. apply F1; assumption.
  - intros j o Hlt Ho. apply G2; [exact Hlt|]. apply F2; assumption.
Qed.

Lemma firstn_same {X} (l l' : list X) k : k <= length l ->
  (forall i x, i < k -> nth_error l i = Some x -> nth_error l' i = Some x) -> firstn k l' = firstn k l.
Proof.
  revert l l'. induction k as [|k IH]; intros l l' Hk H; [reflexivity|].
  destruct l as [|a l]; [cbn in Hk; lia|].
  pose proof (H 0 a (Nat.lt_0_succ k) eq_refl) as H0. destruct l' as [|b l']; [discriminate|].
  cbn in H0. inversion H0; subst b. cbn [firstn]. f_equal. apply IH; [cbn in Hk; lia|].
  intros i x Hi Hx. apply (H (S i) x); [lia|exact Hx].
Qed.

(* the shared prefix is identical in EVERY state the goroutine reaches *)
Theorem run_safe_shared_prefix n0 e0 (s : state) cs k : hinv (st_heap s) ->
  n0 <= length (st_heap s) -> e0 <= length (st_env s) -> run_safe n0 e0 s cs ->
  shared_heap n0 (g_exec s (firstn k cs)) = shared_heap n0 s /\
  shared_env e0 (g_exec s (firstn k cs)) = shared_env e0 s.
Proof.
  intros Hi Hn He Hs. destruct (run_safe_shared n0 e0 s (firstn k cs) Hi (run_safe_firstn _ _ _ _ k Hs)) as [G1 G2].
  unfold shared_heap, shared_env. split; apply firstn_same; assumption.
Qed.

(* the system: nobody ever changes the state the goroutines were started in *)
Theorem system_shared_immutable (y : system) : hinv (st_heap (sys_start y)) -> sys_safe y ->
  forall j k,
    shared_heap (sys_n0 y) (g_exec (sys_start y) (firstn k (nth j (sys_progs y) []))) = st_heap (sys_start y) /\
    shared_env (sys_e0 y) (g_exec (sys_start y) (firstn k (nth j (sys_progs y) []))) = st_env (sys_start y).
Proof.
  intros Hi Hs j k. unfold Conc.sys_safe in Hs.
  assert (Hp : run_safe (sys_n0 y) (sys_e0 y) (sys_start y) (nth j (sys_progs y) [])).
  { destruct (nth_in_or_default j (sys_progs y) []) as [Hin|E].
    - rewrite Forall_forall in Hs. apply Hs. exact Hin.
    - rewrite E. exact I. }
  destruct (run_safe_shared_prefix (sys_n0 y) (sys_e0 y) (sys_start y) _ k Hi (le_n _) (le_n _) Hp) as [E1 E2].
  rewrite E1, E2. unfold shared_heap, shared_env, sys_n0, sys_e0. rewrite !firstn_all. auto.
Qed.

(* a goroutine's observables are a function of the start state and its own program only *)
Theorem private_determinism (s1 s2 : state) prog :
  st_heap s1 = st_heap s2 -> st_env s1 = st_env s2 -> st_rng s1 = st_rng s2 ->
  run_from s1 prog = run_from s2 prog.
Proof. destruct s1, s2; cbn; intros; subst; reflexivity. Qed.

Corollary system_obs_independent (y y' : system) j :
  sys_start y = sys_start y' -> nth j (sys_progs y) [] = nth j (sys_progs y') [] -> sys_obs y j = sys_obs y' j.
Proof. unfold Conc.sys_obs. intros -> ->. reflexivity. Qed.

End ConcP.

(* Example: two goroutines on a shared tracked tensor x and a shared constant c.  Forward use of x
   is safe; back-propagating a private result that depends on the shared tracked x is exactly what
   the proviso excludes — and it does write x's gradient. *)
Module ConcEx.
Import TrackEx StepEx.
#[local] Existing Instance Z_scalar.
Local Open Scope Z_scope.

Notation g_execZ := (g_exec RedSum idv idg 0 1 d0 d0 d0 d0 d0 d0 d0 0).
Notation run_safebZ := (run_safeb RedSum idv idg 0 1 d0 d0 d0 d0 d0 d0 d0 0).

(* shared: 0 x=[3;5] tracked, 1 c=[1;1] untracked *)
Definition s0 : @state Z := execZ init_state [CLeaf [2%nat] [3; 5] true; CLeaf [2%nat] [1; 1] false].

(* goroutine 1: forward on shared x, own tracked leaf w (name 3), z = w*c (name 4), back-propagate z, reset w *)
Definition prog1 : list (@cmd Z) :=
  [CScale 0 (2, 0); CLeaf [2%nat] [7; 7] true; CBin BiMul 3 (Some 1%nat); CBackprop (Some 4%nat); CGradOf 3; CReset 3 true].
(* goroutine 2: y = x*2 (private, but depending on the shared tracked x), back-propagate y *)
Definition prog2 : list (@cmd Z) := [CScale 0 (2, 0); CBackprop (Some 2%nat)].

Example ex_safe : run_safebZ 2%nat 2%nat s0 prog1 = true /\ run_safebZ 2%nat 2%nat s0 prog2 = false.
Proof. vm_compute. split; reflexivity. Qed.

Example ex_obs1 : runZ s0 prog1 =
  [ObTensor [2%nat] [6; 10]; ObTensor [2%nat] [7; 7]; ObTensor [2%nat] [7; 7];
   ObGrads 3 [(0%nat, None); (1%nat, None); (2%nat, None); (3%nat, Some ([2%nat], [1; 1])); (4%nat, Some ([2%nat], [1; 1]))];
   ObTensor [2%nat] [1; 1]; ObOk].
Proof. vm_compute. reflexivity. Qed.

(* the theorem on goroutine 1: the shared prefix is untouched in every reachable state *)
Example ex_shared1 : forall k, shared_heap 2 (g_execZ s0 (firstn k prog1)) = st_heap s0.
Proof.
  intros k.
  destruct (run_safe_shared_prefix RedSum idv idg 0 1 d0 d0 d0 d0 d0 d0 d0 0 2 2 s0 prog1 k) as [E _].
  - apply reachable_hinv.
  - vm_compute. lia.
  - vm_compute. lia.
  - apply run_safeb_spec. vm_compute. reflexivity.
  - rewrite E. reflexivity.
Qed.

(* the proviso is needed: goroutine 2 assigns a gradient to the shared x and spends it *)
Example ex_proviso_needed :
  gradOf (st_heap s0) 0 = None /\ dirtyOf (st_heap s0) 0 = false /\
  gradOf (st_heap (g_execZ s0 prog2)) 0 = Some (vec2 2 2) /\ dirtyOf (st_heap (g_execZ s0 prog2)) 0 = true.
Proof. vm_compute. repeat split. Qed.

Example ex_system : forall j k,
  shared_heap 2 (g_execZ s0 (firstn k (nth j [prog1; prog1] []))) = st_heap s0.
Proof.
  intros j k.
  destruct (system_shared_immutable RedSum idv idg 0 1 d0 d0 d0 d0 d0 d0 d0 0 (mkSystem s0 [prog1; prog1])) with (j := j) (k := k) as [E _].
  - apply reachable_hinv.
  - repeat constructor; apply run_safeb_spec; vm_compute; reflexivity.
  - exact E.
Qed.
End ConcEx.

Print Assumptions safe_spec.
Print Assumptions shared_heap_frame.
Print Assumptions run_safe_shared.
Print Assumptions run_safe_shared_prefix.
Print Assumptions system_shared_immutable.
Print Assumptions private_determinism.
