(* ConcatP.v — initConcatResultTensor.fillCat / concat: the result of concatenating
   well-formed tensors whose shapes agree off [dim] is well-formed, has the shape of
   [getConcatDims], and its element at an index whose component [dim] falls into the
   j-th piece is the j-th operand's element at the index shifted back by the sizes of the
   pieces before it. *)
From Coq Require Import List Arith ZArith Bool Lia.
From Qeep Require Import Model.Scalar Model.Nd Model.Fill Model.Data Model.Valid Model.Api
  Spec.ValidSpec Proofs.ValidP Proofs.NdP Proofs.ElemP Proofs.SliceP.
Import ListNotations.

Lemma Forall2_In_l {X Y} (R : X -> Y -> Prop) l1 l2 a :
  Forall2 R l1 l2 -> In a l1 -> exists b, In b l2 /\ R a b.
Proof.
  intros H. induction H as [|x y l1 l2 Hxy _ IH]; intros Hin; [destruct Hin|].
  destruct Hin as [->|Hin].
  - exists y. split; [left; reflexivity|exact Hxy].
  - destruct (IH Hin) as (b & Hb & Hr). exists b. split; [right; exact Hb|exact Hr].
Qed.

Lemma Forall2_nth_l {X Y} (R : X -> Y -> Prop) (dy : Y) l1 l2 :
  Forall2 R l1 l2 -> forall j a, nth_error l1 j = Some a -> R a (nth j l2 dy) /\ j < length l2.
Proof.
  intros H. induction H as [|x y l1 l2 Hxy _ IH]; intros j a Hj.
  - destruct j; discriminate.
  - destruct j as [|j]; cbn in Hj.
    + inversion Hj; subst. split; [exact Hxy|cbn; lia].
    + destruct (IH j a Hj) as [H1 H2]. split; [exact H1|cbn; lia].
Qed.

Lemma Forall2_map_l {X Y Z} (P : Z -> Y -> Prop) (g : X -> Z) l aux :
  Forall2 (fun x b => P (g x) b) l aux -> Forall2 P (map g l) aux.
Proof. intros H. induction H as [|x y l1 l2 Hxy _ IH]; cbn; constructor; assumption. Qed.

Lemma firstn_app_exact {X} (l1 l2 : list X) : firstn (length l1) (l1 ++ l2) = l1.
Proof. induction l1 as [|a l1 IH]; [reflexivity|]. cbn. rewrite IH. reflexivity. Qed.

Lemma setNth_app {X} (l1 : list X) a v l2 : setNth (l1 ++ a :: l2) (length l1) v = Some (l1 ++ v :: l2).
Proof. induction l1 as [|b l1 IH]; [reflexivity|]. cbn. rewrite IH. reflexivity. Qed.

Lemma nth_error_app_exact {X} (l1 : list X) a l2 : nth_error (l1 ++ a :: l2) (length l1) = Some a.
Proof. induction l1 as [|b l1 IH]; [reflexivity|exact IH]. Qed.

Section Concat.
Context {A : Type}.
Notation T := (tensor A).

(* the rows of a value (total version of [asV]) *)
Definition rowsOf (s : nd A) : list (nd A) := match s with Vec l => l | Sc _ => [] end.
Definition rowAt (i : nat) (s : nd A) : nd A := nth i (rowsOf s) (Vec []).

Lemma wf_row d sh s i : wfnd (d :: sh) s -> i < d ->
  wfnd sh (rowAt i s) /\
  (do l <- asV s; nth_error l i) = Some (rowAt i s) /\
  forall rest, get s (i :: rest) = get (rowAt i s) rest.
Proof.
  intros Hs Hi. apply wfnd_cons in Hs as (l & -> & Hl & Hf). unfold rowAt. cbn [rowsOf asV obind].
  destruct (wfnd_row d sh l i Hl Hf Hi) as (y & E & Hy). rewrite (nth_error_nth _ _ _ E).
  split; [exact Hy|]. split; [exact E|]. intros rest. rewrite get_cons, E. reflexivity.
Qed.

(* concatenating the row lists at the concatenation depth *)
Lemma concat_parts post seeds ns :
  Forall2 (fun s n => wfnd (n :: post) s) seeds ns ->
  length (concat (map rowsOf seeds)) = list_sum ns /\
  Forall (wfnd post) (concat (map rowsOf seeds)) /\
  forall j s x, nth_error seeds j = Some s -> x < nth j ns 0 ->
    nth_error (concat (map rowsOf seeds)) (list_sum (firstn j ns) + x) = nth_error (rowsOf s) x.
Proof.
  intros H. induction H as [|s n seeds ns Hs _ IH].
  - split; [reflexivity|]. split; [constructor|]. intros j s x Hj. destruct j; discriminate.
  - destruct IH as (IH1 & IH2 & IH3). apply wfnd_cons in Hs as (l & -> & Hl & Hf).
    cbn [map concat rowsOf list_sum fold_right]. split; [|split].
    + rewrite app_length, IH1. unfold list_sum. lia.
    + apply Forall_app. split; assumption.
    + intros j s x Hj Hx. destruct j as [|j]; cbn in Hj.
      * inversion Hj; subst s. cbn [firstn list_sum fold_right nth rowsOf] in *.
        apply nth_error_app1. lia.
      * cbn [firstn nth] in *. cbn [list_sum fold_right]. fold (list_sum (firstn j ns)).
        rewrite nth_error_app2 by lia.
        replace (n + list_sum (firstn j ns) + x - length l) with (list_sum (firstn j ns) + x) by lia.
        apply IH3; assumption.
Qed.

Theorem fillCat_spec (pre post : list nat) : forall (ds : list nat) (seeds : list (nd A)) (ns : list nat),
  firstn (length pre) ds = pre ->
  Forall2 (fun s n => wfnd (pre ++ n :: post) s) seeds ns ->
  exists r, fillCat (length pre) ds seeds = Some r /\
    wfnd (pre ++ list_sum ns :: post) r /\
    forall j s i1 x i2, nth_error seeds j = Some s ->
      validIdx pre i1 -> x < nth j ns 0 -> validIdx post i2 ->
      get r (i1 ++ (list_sum (firstn j ns) + x) :: i2) = get s (i1 ++ x :: i2).
Proof.
  induction pre as [|d pre IH]; intros ds seeds ns Hds Hseeds.
  - cbn [length app fillCat] in *.
    assert (Hall : forall s, In s seeds -> asV s = Some (rowsOf s)).
    { intros s Hs. destruct (Forall2_In_l _ _ _ _ Hseeds Hs) as (n & _ & Hw).
      apply wfnd_cons in Hw as (l & -> & _). reflexivity. }
    rewrite (mapM_all_some asV rowsOf seeds Hall). cbn [obind].
    destruct (concat_parts post seeds ns Hseeds) as (H1 & H2 & H3).
    eexists; split; [reflexivity|]. split; [split; assumption|].
    intros j s i1 x i2 Hj Hi1 Hx Hi2. apply validIdx_nil in Hi1; subst i1. cbn [app].
    rewrite get_cons, (H3 j s x Hj Hx).
    destruct (Forall2_nth_l _ 0 _ _ Hseeds j s Hj) as [Hw _].
    apply wfnd_cons in Hw as (l & -> & _). rewrite get_cons. reflexivity.
  - destruct ds as [|d' ds]; cbn [length firstn] in Hds; [discriminate|].
    inversion Hds as [[Hd Hds']]; subst d'. rewrite Hds'.
    cbn [length fillCat app].
    set (sr := fun i => map (rowAt i) seeds).
    assert (Hsr : forall i, i < d -> Forall2 (fun s n => wfnd (pre ++ n :: post) s) (sr i) ns).
    { intros i Hi. unfold sr. apply Forall2_map_l. eapply Forall2_weaken; [|exact Hseeds].
      intros s n Hs. cbn beta in Hs. apply (wf_row _ _ _ i Hs Hi). }
    assert (Hrows : forall i, i < d ->
              mapM (fun s => do l <- asV s; nth_error l i) seeds = Some (sr i)).
    { intros i Hi. apply mapM_all_some. intros s Hs.
      destruct (Forall2_In_l _ _ _ _ Hseeds Hs) as (n & _ & Hw). apply (wf_row _ _ _ i Hw Hi). }
    destruct (mapM_seq_build
                (fun i => do seedRows <- mapM (fun s => do l <- asV s; nth_error l i) seeds;
                          fillCat (length pre) ds seedRows) d
                (fun i r => wfnd (pre ++ list_sum ns :: post) r /\
                   forall j s i1 x i2, nth_error (sr i) j = Some s ->
                     validIdx pre i1 -> x < nth j ns 0 -> validIdx post i2 ->
                     get r (i1 ++ (list_sum (firstn j ns) + x) :: i2) = get s (i1 ++ x :: i2)))
      as (out & -> & Hlo & Hn).
    { intros i Hi. rewrite (Hrows i Hi). cbn [obind].
      destruct (IH ds (sr i) ns Hds' (Hsr i Hi)) as (r & Hr & Hw & He). exists r. auto. }
    cbn [obind]. eexists; split; [reflexivity|]. split.
    + split; [exact Hlo|]. apply Forall_nth_error. intros i y Hy.
      assert (Hi : i < d) by (rewrite <- Hlo; apply nth_error_Some; congruence).
      destruct (Hn i Hi) as (y' & Ey' & _ & Hwy & _). congruence.
    + intros j s i1 x i2 Hj Hi1 Hx Hi2.
      apply validIdx_cons in Hi1 as (i & r1 & -> & Hi & Hr1). cbn [app].
      rewrite get_cons. destruct (Hn i Hi) as (y & -> & _ & _ & He).
      rewrite (He j (rowAt i s) r1 x i2); [| |exact Hr1|exact Hx|exact Hi2].
      * destruct (Forall2_nth_l _ 0 _ _ Hseeds j s Hj) as [Hw _]. cbn [app] in Hw.
        symmetry. apply (wf_row _ _ _ i Hw Hi).
      * unfold sr. rewrite nth_error_map, Hj. reflexivity.
Qed.

Lemma getConcatDims_fold (pre post : list nat) (ts : list T) ns :
  Forall2 (fun t n => dims t = pre ++ n :: post) ts ns -> forall c,
  foldM (fun c t => do d <- nth_error (dims t) (length pre); Some (c + d)) ts c = Some (c + list_sum ns).
Proof.
  intros H. induction H as [|t n ts ns Ht _ IH]; intros c; cbn [foldM list_sum fold_right].
  - f_equal. lia.
  - rewrite Ht, nth_error_app_exact. cbn [obind]. rewrite IH. f_equal. unfold list_sum. lia.
Qed.

Lemma getConcatDims_spec (pre post : list nat) (ts : list T) ns :
  ts <> [] -> Forall2 (fun t n => dims t = pre ++ n :: post) ts ns ->
  getConcatDims ts (length pre) = Some (pre ++ list_sum ns :: post).
Proof.
  intros Hne H. unfold getConcatDims. rewrite (getConcatDims_fold pre post ts ns H). cbn [obind Nat.add].
  destruct H as [|t n ts ns Ht _]; [congruence|]. cbn [nth_error obind].
  rewrite Ht, setNth_app. reflexivity.
Qed.

Theorem concat_spec (pre post : list nat) (ts : list T) (ns : list nat) :
  ts <> [] ->
  Forall2 (fun t n => wf t /\ dims t = pre ++ n :: post) ts ns ->
  exists r, concatD ts (length pre) = Some r /\
    getConcatDims ts (length pre) = Some (dims r) /\
    dims r = pre ++ list_sum ns :: post /\
    wf r /\
    forall j t i1 x i2, nth_error ts j = Some t ->
      validIdx pre i1 -> x < nth j ns 0 -> validIdx post i2 ->
      get (data r) (i1 ++ (list_sum (firstn j ns) + x) :: i2) = get (data t) (i1 ++ x :: i2).
Proof.
  intros Hne H. unfold concatD.
  assert (Hcopies : mapM (fun t : T => do c <- slice t []; Some (data c)) ts = Some (map (@data A) ts)).
  { apply mapM_all_some. intros t Ht. destruct (Forall2_In_l _ _ _ _ H Ht) as (n & _ & [Hw _] & _).
    rewrite (slice_nil t Hw). reflexivity. }
  rewrite Hcopies. cbn [obind].
  assert (Hd : Forall2 (fun (t : T) n => dims t = pre ++ n :: post) ts ns).
  { eapply Forall2_weaken; [|exact H]. intros t n [_ E]. exact E. }
  rewrite (getConcatDims_spec pre post ts ns Hne Hd). cbn [obind].
  destruct (fillCat_spec pre post (pre ++ list_sum ns :: post) (map (@data A) ts) ns
              (firstn_app_exact _ _)) as (r & Hr & Hw & He).
  { apply Forall2_map_l. eapply Forall2_weaken; [|exact H]. intros t n [[Hw _] E]. cbn beta.
    rewrite <- E. exact Hw. }
  rewrite Hr. cbn [obind]. eexists; split; [reflexivity|]. cbn [dims data].
  split; [reflexivity|]. split; [reflexivity|]. split.
  - split; [exact Hw|]. cbn [dims].
    destruct H as [|t n ts ns [[_ Hp] Ht] _]; [congruence|]. rewrite Ht in Hp.
    apply Forall_app in Hp as [Hp1 Hp2]. inversion Hp2 as [|? ? Hn Hp3]; subst.
    apply Forall_app. split; [exact Hp1|]. constructor; [|exact Hp3].
    cbn [list_sum fold_right]. lia.
  - intros j t i1 x i2 Hj Hi1 Hx Hi2. apply (He j (data t) i1 x i2); try assumption.
    rewrite nth_error_map, Hj. reflexivity.
Qed.

End Concat.

(* every position below the total falls into exactly one piece (coverage of the element equation) *)
Lemma sum_split : forall ns x, x < list_sum ns ->
  exists j x', j < length ns /\ x' < nth j ns 0 /\ x = list_sum (firstn j ns) + x'.
Proof.
  induction ns as [|n ns IH]; intros x Hx; cbn [list_sum fold_right] in Hx; [lia|].
  destruct (Nat.lt_ge_cases x n) as [Hlt|Hge].
  - exists 0, x. cbn. repeat split; lia.
  - destruct (IH (x - n)) as (j & x' & Hj & Hx' & E); [fold (list_sum ns) in Hx; lia|].
    exists (S j), x'. cbn [length nth firstn list_sum fold_right]. fold (list_sum (firstn j ns)).
    repeat split; lia.
Qed.

Section ApiConcat.
Context {A : Type} {SA : Scalar A}.
Notation T := (tensor A).

(* the precondition of validateConcatTensorsDimsAlongDim: all operands have the same rank >= 1,
   0 <= dim < rank, and their shapes agree except at position dim *)
Definition concatPre (ts : list T) (dim : Z) : Prop :=
  exists pre post ns, dim = Z.of_nat (length pre) /\ Forall2 (fun t n => dims t = pre ++ n :: post) ts ns.

End ApiConcat.

Lemma list_split_nth : forall d (l l' : list nat), length l = length l' -> d < length l ->
  (forall i, i <> d -> nth i l 0 = nth i l' 0) ->
  l = firstn d l' ++ nth d l 0 :: skipn (S d) l'.
Proof.
  induction d as [|d IH]; intros [|a l] [|b l'] Hl Hd H; cbn in Hl, Hd; try lia.
  - cbn [firstn nth skipn app]. f_equal. apply (nth_ext _ _ 0 0); [lia|].
    intros i _. apply (H (S i)). lia.
  - cbn [firstn nth skipn app]. f_equal; [apply (H 0); lia|].
    apply IH; [lia|lia|]. intros i Hi. apply (H (S i)). lia.
Qed.

Lemma nth_app_off (pre post : list nat) n m i : i <> length pre ->
  nth i (pre ++ n :: post) 0 = nth i (pre ++ m :: post) 0.
Proof.
  intros Hi. destruct (Nat.lt_ge_cases i (length pre)) as [Hlt|Hge].
  - rewrite !app_nth1 by exact Hlt. reflexivity.
  - rewrite !app_nth2 by exact Hge. destruct (i - length pre) as [|k] eqn:E; [lia|reflexivity].
Qed.

(* [concatPre] in elementary terms: same rank, 0 <= dim < rank, entries agree off [dim] *)
Theorem concatPre_iff {A} (ts : list (tensor A)) (dim : Z) : ts <> [] ->
  concatPre ts dim <->
  (0 <= dim)%Z /\
  forall t u, In t ts -> In u ts ->
    length (dims t) = length (dims u) /\ (dim < Z.of_nat (length (dims t)))%Z /\
    forall i, i <> Z.to_nat dim -> nth i (dims t) 0 = nth i (dims u) 0.
Proof.
  intros Hne. split.
  - intros (pre & post & ns & Hd & H). split; [lia|]. intros t u Ht Hu.
    destruct (Forall2_In_l _ _ _ _ H Ht) as (n & _ & En).
    destruct (Forall2_In_l _ _ _ _ H Hu) as (m & _ & Em).
    rewrite En, Em, !app_length. cbn [length]. split; [reflexivity|]. split; [lia|].
    intros i Hi. apply nth_app_off. subst dim. rewrite Nat2Z.id in Hi. exact Hi.
  - intros [H0 H]. destruct ts as [|t0 ts]; [congruence|].
    set (d := Z.to_nat dim).
    exists (firstn d (dims t0)), (skipn (S d) (dims t0)), (map (fun t => nth d (dims t) 0) (t0 :: ts)).
    destruct (H t0 t0 (or_introl eq_refl) (or_introl eq_refl)) as (_ & Hlt & _).
    split; [rewrite firstn_length; unfold d; lia|].
    assert (G : forall l : list (tensor A), (forall t, In t l -> In t (t0 :: ts)) ->
              Forall2 (fun t n => dims t = firstn d (dims t0) ++ n :: skipn (S d) (dims t0))
                      l (map (fun t => nth d (dims t) 0) l)).
    { induction l as [|t l IHl]; intros Hin; cbn [map]; constructor.
      - destruct (H t t0 (Hin t (or_introl eq_refl)) (or_introl eq_refl)) as (Hl & Hlt' & Hnth).
        apply list_split_nth; [exact Hl|unfold d; lia|exact Hnth].
      - apply IHl. intros u Hu. apply Hin. right. exact Hu. }
    apply G. auto.
Qed.

Lemma nth_nth_error (l : list nat) i : nth i l 0 = match nth_error l i with Some x => x | None => 0 end.
Proof. revert i. induction l as [|a l IH]; intros [|i]; cbn; auto. Qed.

(* the precondition of ValidP.validateConcat_spec on the operands' shapes, read in naturals *)
Lemma concatShapePre_nat (base ds : list nat) dim :
  concatShapePre (map Z.of_nat base) dim (map Z.of_nat ds) ->
  length ds = length base /\ (0 <= dim < Z.of_nat (length base))%Z /\
  forall i, i <> Z.to_nat dim -> nth i ds 0 = nth i base 0.
Proof.
  unfold concatShapePre. rewrite !map_length. intros (Hl & _ & Hd & Hn). split; [exact Hl|]. split; [exact Hd|].
  intros i Hi. specialize (Hn i Hi). rewrite !nth_error_map in Hn. rewrite !nth_nth_error.
  destruct (nth_error ds i), (nth_error base i); cbn in Hn; try discriminate; [|reflexivity].
  inversion Hn. lia.
Qed.

Lemma concatShapePre_app (pre post : list nat) n0 n :
  concatShapePre (map Z.of_nat (pre ++ n0 :: post)) (Z.of_nat (length pre)) (map Z.of_nat (pre ++ n :: post)).
Proof.
  unfold concatShapePre. rewrite !map_length, !app_length. cbn [length]. repeat split; try lia.
  intros j Hj. rewrite Nat2Z.id in Hj. rewrite !map_app. cbn [map].
  destruct (Nat.lt_ge_cases j (length pre)) as [Hlt|Hge].
  - rewrite !nth_error_app1 by (rewrite map_length; exact Hlt). reflexivity.
  - rewrite !nth_error_app2 by (rewrite map_length; exact Hge). rewrite map_length.
    destruct (j - length pre) as [|k] eqn:E; [lia|reflexivity].
Qed.

Section VConcat.
Context {A : Type} {SA : Scalar A}.
Notation T := (tensor A).

Theorem validateConcat_iff (ts : list T) dim : ts <> [] ->
  (validateConcatTensorsDimsAlongDim (map zdims ts) dim = Some true <-> concatPre ts dim) /\
  (validateConcatTensorsDimsAlongDim (map zdims ts) dim <> None).
Proof.
  intros Hne. split; [|rewrite validateConcat_none; intros E; apply map_eq_nil in E; contradiction].
  destruct ts as [|t0 ts]; [congruence|]. cbn [map]. rewrite validateConcat_spec. unfold ValidSpec.concatPre.
  change (zdims t0 :: map zdims ts) with (map zdims (t0 :: ts)). rewrite Forall_map, Forall_forall. split.
  - intros HF. apply concatPre_iff; [discriminate|].
    destruct (concatShapePre_nat _ _ _ (HF t0 (or_introl eq_refl))) as (_ & D0 & _). split; [lia|].
    intros t u Ht Hu. destruct (concatShapePre_nat _ _ _ (HF t Ht)) as (Lt & _ & Nt).
    destruct (concatShapePre_nat _ _ _ (HF u Hu)) as (Lu & _ & Nu).
    split; [congruence|]. split; [rewrite Lt; lia|]. intros i Hi. rewrite Nt, Nu by exact Hi. reflexivity.
  - intros (pre & post & ns & -> & HF) t Ht.
    destruct (Forall2_In_l _ _ _ _ HF (or_introl eq_refl)) as (n0 & _ & E0).
    destruct (Forall2_In_l _ _ _ _ HF Ht) as (n & _ & En).
    unfold zdims. rewrite E0, En. apply concatShapePre_app.
Qed.

Theorem v_concat_spec (ts : list T) (dim : Z) : Forall wf ts ->
  (length ts < 2 -> v_concat ts dim = Err) /\
  (2 <= length ts ->
     (concatPre ts dim ->
        exists r, v_concat ts dim = Ok r /\ concatD ts (Z.to_nat dim) = Some r /\
                  getConcatDims ts (Z.to_nat dim) = Some (dims r) /\ wf r) /\
     (~ concatPre ts dim -> v_concat ts dim = Err)).
Proof.
  intros Hw. unfold v_concat. split.
  - intros Hl. replace (length ts <? 2) with true by (symmetry; apply Nat.ltb_lt; exact Hl). reflexivity.
  - intros Hl. replace (length ts <? 2) with false by (symmetry; apply Nat.ltb_ge; exact Hl).
    assert (Hne : ts <> []) by (intros ->; cbn in Hl; lia).
    destruct (validateConcat_iff ts dim Hne) as [Hiff Hnn]. split.
    + intros Hpre. rewrite (proj2 Hiff Hpre). destruct Hpre as (pre & post & ns & Hd & H).
      assert (H' : Forall2 (fun t n => wf t /\ dims t = pre ++ n :: post) ts ns).
      { clear Hl Hne Hiff Hnn. induction H as [|t n ts ns Ht _ IH]; [constructor|].
        inversion Hw; subst. constructor; [split; assumption|apply IH; assumption]. }
      destruct (concat_spec pre post ts ns Hne H') as (r & H1 & H2 & _ & H4 & _).
      subst dim. rewrite Nat2Z.id. exists r. rewrite H1. auto.
    + intros Hn. destruct (validateConcatTensorsDimsAlongDim (map zdims ts) dim) as [[|]|] eqn:E.
      * exfalso. apply Hn, Hiff. reflexivity.
      * reflexivity.
      * congruence.
Qed.

Corollary v_concat_never_panics (ts : list T) (dim : Z) : Forall wf ts -> v_concat ts dim <> Panic.
Proof.
  intros Hw. unfold v_concat. destruct (length ts <? 2) eqn:El; [discriminate|].
  apply Nat.ltb_ge in El. assert (Hne : ts <> []) by (intros ->; cbn in El; lia).
  destruct (validateConcat_iff ts dim Hne) as [Hiff Hnn].
  destruct (validateConcatTensorsDimsAlongDim (map zdims ts) dim) as [[|]|] eqn:E; [|discriminate|congruence].
  destruct (v_concat_spec ts dim Hw) as [_ H]. destruct (H El) as [H1 _].
  destruct (H1 (proj1 Hiff eq_refl)) as (r & _ & -> & _). discriminate.
Qed.

End VConcat.

Lemma list_sum_firstn_le : forall ns j, j < length ns -> list_sum (firstn j ns) + nth j ns 0 <= list_sum ns.
Proof.
  induction ns as [|n ns IH]; intros j Hj; cbn in Hj; [lia|].
  destruct j as [|j]; cbn [firstn nth list_sum fold_right]; [lia|].
  fold (list_sum (firstn j ns)). fold (list_sum ns). specialize (IH j ltac:(lia)). lia.
Qed.

Lemma list_sum_firstn_S : forall ns j, j < length ns ->
  list_sum (firstn (S j) ns) = list_sum (firstn j ns) + nth j ns 0.
Proof.
  induction ns as [|n ns IH]; intros j Hj; cbn in Hj; [lia|].
  destruct j as [|j]; [cbn; lia|].
  cbn [firstn nth list_sum fold_right] in *. fold (list_sum (firstn j ns)).
  specialize (IH j ltac:(lia)). cbn [firstn] in IH. unfold list_sum in *. lia.
Qed.

Section SliceConcat.
Context {A : Type}.
Notation T := (tensor A).

Lemma completeIndex_pre (pre : list nat) rest ds2 :
  completeIndex (repeat (0, 0) (length pre) ++ rest) (pre ++ ds2)
  = map (fun d => (0, d)) pre ++ completeIndex rest ds2.
Proof. induction pre as [|d pre IH]; [reflexivity|]. cbn [length repeat app completeIndex map]. rewrite IH. reflexivity. Qed.

Theorem slice_concat (pre post : list nat) (ts : list T) (ns : list nat) j t :
  ts <> [] ->
  Forall2 (fun t n => wf t /\ dims t = pre ++ n :: post) ts ns ->
  nth_error ts j = Some t ->
  exists r, concatD ts (length pre) = Some r /\
    slice r (repeat (0, 0) (length pre)
             ++ [(list_sum (firstn j ns), list_sum (firstn j ns) + nth j ns 0)]) = Some t.
Proof.
  intros Hne H Hj.
  destruct (concat_spec pre post ts ns Hne H) as (r & Hr & _ & Hdr & [Hwr Hposr] & He).
  exists r. split; [exact Hr|].
  destruct (Forall2_nth_l _ 0 _ _ H j t Hj) as [[[Hwt Hpost] Hdt] Hjl].
  set (off := list_sum (firstn j ns)) in *. set (n := nth j ns 0) in *.
  assert (Hn : 0 < n).
  { rewrite Hdt in Hpost. apply Forall_app in Hpost as [_ Hp]. inversion Hp; assumption. }
  unfold slice. rewrite Hdr, completeIndex_pre. cbn [completeIndex].
  replace ((off =? 0) && (off + n =? 0)) with false
    by (symmetry; apply andb_false_iff; right; apply Nat.eqb_neq; lia).
  rewrite completeIndex_nil.
  set (index := map (fun d => (0, d)) pre ++ (off, off + n) :: map (fun d => (0, d)) post).
  assert (Hsizes : sizes index = dims t).
  { unfold index. rewrite sizes_app, sizes_cons, !sizes_nil_index, Hdt. do 2 f_equal. lia. }
  assert (Hrng : Forall2 (fun (r : range) d => fst r <= snd r /\ snd r <= d) index (pre ++ list_sum ns :: post)).
  { apply Forall2_app; [apply full_ranges|constructor; [|apply full_ranges]].
    cbn [fst snd]. pose proof (list_sum_firstn_le ns j Hjl) as Hle. fold off n in Hle. lia. }
  rewrite Hdr in Hwr.
  destruct (sliceData_spec index _ (data r) Hwr Hrng) as (y & Hy & Hwy & Hey).
  unfold copiedSliceOf. rewrite Hy. cbn [obind]. f_equal.
  apply tensor_ext; cbn [dims data]; [exact Hsizes|exact Hwy|exact Hwt|].
  intros idx Hv. rewrite (Hey idx Hv). change (validIdx (sizes index) idx) in Hv. rewrite Hsizes, Hdt in Hv.
  apply Forall2_app_inv_r in Hv as (i1 & i2' & Hi1 & Hi2' & ->).
  inversion Hi2' as [|x ? i2 ? Hx Hi2]; subst.
  unfold index. rewrite shift_app by (rewrite map_length; apply (validIdx_length _ _ Hi1)).
  rewrite shift_nil_index by exact Hi1.
  rewrite shift_cons, shift_nil_index by exact Hi2.
  rewrite (Nat.add_comm x off). apply (He j t i1 x i2 Hj Hi1 Hx Hi2).
Qed.

End SliceConcat.

Module Ex.
Definition ta : tensor nat := mkT [2; 1; 2] (Vec [Vec [Vec [Sc 1; Sc 2]]; Vec [Vec [Sc 3; Sc 4]]]).
Definition tb : tensor nat := mkT [2; 2; 2] (Vec [Vec [Vec [Sc 5; Sc 6]; Vec [Sc 7; Sc 8]];
                                                  Vec [Vec [Sc 9; Sc 10]; Vec [Sc 11; Sc 12]]]).
Example ta_wf : wf ta. Proof. split; [apply wfndb_spec; reflexivity|repeat constructor]. Qed.
Example tb_wf : wf tb. Proof. split; [apply wfndb_spec; reflexivity|repeat constructor]. Qed.

Example ex_hyp : Forall2 (fun t n => wf t /\ dims t = [2] ++ n :: [2]) [ta; tb; ta] [1; 2; 1].
Proof. repeat constructor; try (apply wfndb_spec; reflexivity). Qed.

Example ex_concat :
  concatD [ta; tb; ta] 1
  = Some (mkT [2; 4; 2]
       (Vec [Vec [Vec [Sc 1; Sc 2]; Vec [Sc 5; Sc 6]; Vec [Sc 7; Sc 8]; Vec [Sc 1; Sc 2]];
             Vec [Vec [Sc 3; Sc 4]; Vec [Sc 9; Sc 10]; Vec [Sc 11; Sc 12]; Vec [Sc 3; Sc 4]]])) /\
  getConcatDims [ta; tb; ta] 1 = Some [2; 4; 2] /\
  v_concat [ta; tb; ta] 1 = of_opt (concatD [ta; tb; ta] 1) /\
  v_concat [ta] 1 = Err /\ v_concat [ta; tb] 0 = Err /\ v_concat [ta; tb] 3 = Err /\
  v_concat [ta; tb] (-1) = Err /\
  v_concat [ta; tb] 1 <> Err.
Proof. vm_compute. repeat split. discriminate. Qed.

Example ex_pre : concatPre [ta; tb; ta] 1.
Proof. exists [2], [2], [1; 2; 1]. split; [reflexivity|repeat constructor]. Qed.

Example ex_slice_concat :
  exists r, concatD [ta; tb; ta] 1 = Some r /\ slice r [(0, 0); (1, 3)] = Some tb.
Proof. apply (slice_concat [2] [2] [ta; tb; ta] [1; 2; 1] 1 tb ltac:(discriminate) ex_hyp eq_refl). Qed.

Example ex_elem :
  exists r, concatD [ta; tb; ta] 1 = Some r /\ get (data r) [1; 2; 0] = Some 11.
Proof.
  destruct (concat_spec [2] [2] [ta; tb; ta] [1; 2; 1] ltac:(discriminate) ex_hyp) as (r & Hr & _ & _ & _ & He).
  exists r. split; [exact Hr|].
  apply (He 1 tb [1] 1 [0] eq_refl); repeat constructor.
Qed.
End Ex.

Print Assumptions fillCat_spec.
Print Assumptions concat_spec.
Print Assumptions validateConcat_iff.
Print Assumptions concatPre_iff.
Print Assumptions v_concat_spec.
Print Assumptions v_concat_never_panics.
Print Assumptions slice_concat.
