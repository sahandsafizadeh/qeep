(* DataApplyP.v — applyUnaryFuncOnTensorElemWise / applyBinaryFuncOnTensorsElemWise
   (tensor/internal/cputensor/operators.go) as translated by harness/gox into the DataIR programs
   GoData.d_applyUnary / GoData.d_applyBinary compute Model/Data.v calc1/apply1 and calc2/apply2. *)
From Coq Require Import String List ZArith Bool Lia Arith.
From Qeep Require Import Model.Scalar Model.Nd Model.Fill Model.Data Model.DataIR Model.GoData
     Proofs.DataIRP Proofs.DataAtP.
From Qeep Require Model.GoIR.
Import ListNotations.
Local Open Scope string_scope.
Local Open Scope Z_scope.
Local Open Scope list_scope.

Section DataApply.
Context {A : Type} {SA : Scalar A}.
Variable fapp : string -> list A -> option A.
Variables (St : Type) (ext : string -> list (@dval A) -> St -> option (list (@dval A) * St)).
Notation dval := (@dval A).
Notation denv := (@denv A).

(* ---------- generic facts ---------- *)

(* an assignment inside a closure to an existing local goes to the local frame *)
Lemma vassign_local (g l : denv) x (v w : dval) :
  dlookup l x = Some w -> vassign false g l x v = (g, dupd l x v).
Proof. intros Hl. unfold vassign, dhas. rewrite Hl. reflexivity. Qed.

Lemma setSlot_local (g l : denv) x n (v : dval) m m' :
  dlookup l x = Some (DL m) -> setNthD m n v = Some m' ->
  setSlot false g l x n v = Some (g, dupd l x (DL m')).
Proof.
  intros Hl Hs. unfold setSlot, vlookup. rewrite Hl, Hs, (vassign_local g l x _ _ Hl). reflexivity.
Qed.

Lemma setNthD_lt (m : list dval) n v : (n < length m)%nat -> exists m', setNthD m n v = Some m'.
Proof.
  revert n; induction m as [|x m IH]; intros [|n] H; cbn in *; try lia; eauto.
  destruct (IH n ltac:(lia)) as [m' ->]. eauto.
Qed.

Lemma dcopyInto_same_len (dst src : list dval) : length dst = length src -> dcopyInto dst src = src.
Proof.
  revert src; induction dst as [|x dst IH]; intros [|y src] H; cbn in *; try discriminate; try reflexivity.
  f_equal. apply IH. lia.
Qed.

Lemma make_copy_dims (ds : list nat) :
  dcopyInto (repeat (@DI A 0) (Z.to_nat (dlen (map (fun n : nat => @DI A (Z.of_nat n)) ds))))
            (map (fun n : nat => DI (Z.of_nat n)) ds) = map (fun n : nat => DI (Z.of_nat n)) ds.
Proof. apply dcopyInto_same_len. rewrite dlen_map, Nat2Z.id, repeat_length, map_length. reflexivity. Qed.

(* dims[0] and dims[1:] on an embedded non-empty shape *)
Lemma dnats_cons n ds : @dnats A (n :: ds) = DL (DI (Z.of_nat n) :: map (fun k => DI (Z.of_nat k)) ds).
Proof. reflexivity. Qed.

Lemma sub1_ok (x : dval) m :
  ((0 <=? 1) && (1 <=? dlen (x :: m)) && (dlen (x :: m) <=? dlen (x :: m)))%bool = true.
Proof.
  unfold dlen; cbn [length]. rewrite !andb_true_iff. repeat split; apply Z.leb_le; lia.
Qed.

Lemma sub1_tail (x : dval) m : firstn (Z.to_nat (dlen (x :: m) - 1)) (skipn (Z.to_nat 1) (x :: m)) = m.
Proof.
  unfold dlen; cbn [length]. replace (Z.to_nat 1) with 1%nat by reflexivity. cbn [skipn].
  replace (Z.to_nat (Z.of_nat (S (length m)) - 1)) with (length m) by lia. apply firstn_all.
Qed.


Ltac dl := repeat rewrite dlookup_dupd; cbn [String.eqb Ascii.eqb Bool.eqb]; try eassumption; try reflexivity.

(* ================= unary ================= *)
Section Unary.
Variable f : A -> A.
Hypothesis Hsuf : forall a, fapp "suf" [a] = Some (f a).

Definition Inv1 (l : denv) (dv av rv : dval) (ar rr : list dval) : Prop :=
  dlookup l "dims" = Some dv /\ dlookup l "a" = Some av /\ dlookup l "r" = Some rv /\
  dlookup l "aRows" = Some (DL ar) /\ dlookup l "rRows" = Some (DL rr).

Definition row1 (ds : list nat) (rows : list (nd A)) (i : nat) : option (nd A) :=
  do ai <- nth_error rows i; calc1 f ds ai.

(* the loop of calcData for any body that behaves like  calcData(dims, &aRows[i], &rRows[i]) *)
Lemma calc1_loop (body : St -> denv -> denv -> @doutcome A St)
      (assign : denv -> denv -> Z -> dval -> denv * denv) (ds : list nat) (rows : list (nd A)) (dv av rv : dval) :
  (forall s g l (i : nat) v rr,
      Inv1 l dv av rv (map emb rows) rr -> (i < length rr)%nat ->
      let '(g0, l0) := assign g l (Z.of_nat i) v in
      match row1 ds rows i with
      | Some ri => exists l1 rr', body s g0 l0 = DNormal St s g l1 /\ setNthD rr i (emb ri) = Some rr' /\
                                  Inv1 l1 dv av rv (map emb rows) rr'
      | None => body s g0 l0 = DPanic St
      end) ->
  forall n i (done : list (nd A)) s g l,
  length done = i -> Inv1 l dv av rv (map emb rows) (map emb done ++ repeat DNil n) ->
  match mapM (row1 ds rows) (seq i n) with
  | Some outs => exists l1, drangeLoop St body assign (repeat DNil n) (Z.of_nat i) s g l = DNormal St s g l1 /\
                            Inv1 l1 dv av rv (map emb rows) (map emb (done ++ outs))
  | None => drangeLoop St body assign (repeat DNil n) (Z.of_nat i) s g l = DPanic St
  end.
Proof.
  intros Hb. induction n as [|n IH]; intros i done s g l Hlen HI.
  - cbn [seq mapM repeat drangeLoop]. exists l. split; [reflexivity|].
    cbn [repeat] in HI. rewrite !app_nil_r in *. exact HI.
  - cbn [seq mapM repeat drangeLoop].
    assert (Hi : (i < length (map emb done ++ repeat (@DNil A) (S n)))%nat).
    { rewrite app_length, map_length, repeat_length. lia. }
    pose proof (Hb s g l i DNil _ HI Hi) as H1.
    destruct (assign g l (Z.of_nat i) DNil) as [g0 l0].
    destruct (row1 ds rows i) as [ri|]; cbn [obind].
    + destruct H1 as [l1 [rr' [Hb1 [Hset HI1]]]]. rewrite Hb1.
      cbn [repeat] in Hset. rewrite <- Hlen, <- (map_length emb) in Hset.
      rewrite setNthD_app in Hset. inversion Hset; subst rr'; clear Hset.
      replace (Z.of_nat i + 1) with (Z.of_nat (S i)) by lia.
      specialize (IH (S i) (done ++ [ri]) s g l1).
      rewrite app_length, Hlen in IH. cbn [length] in IH. specialize (IH ltac:(lia)).
      rewrite map_app in IH. cbn [map] in IH. rewrite <- app_assoc in IH. cbn [app] in IH.
      specialize (IH HI1).
      destruct (mapM (row1 ds rows) (seq (S i) n)) as [outs|]; cbn [obind].
      * destruct IH as [l2 [HL HI2]]. exists l2. split; [exact HL|].
        rewrite <- app_assoc in HI2. exact HI2.
      * exact IH.
    + rewrite H1. reflexivity.
Qed.


Lemma calcData1 (ds : list nat) :
  forall d fuel (a : nd A) (r0 : dval) s g,
  (length ds <= d)%nat ->
  callLD fapp St ext (plocals d_applyUnary) fuel (S d) "calcData" [dnats ds; emb a; r0] s g =
  match calc1 f ds a with
  | Some r => CRet St [emb a; emb r] s g
  | None => CPanic St
  end.
Proof.
  induction ds as [|n ds IH]; intros d fuel a r0 s g Hd.
  - rewrite callLD_S. set (cl := callLD fapp St ext (plocals d_applyUnary) fuel d). unfold d_applyUnary.
    cbn [plocals dlookupFn String.eqb Ascii.eqb Bool.eqb dbind dparams dbody]. dxs. unfold dnats. cbn [map dlen length Z.of_nat Z.eqb].
    destruct a as [x|rows]; cbn [calc1 asF obind].
    + cbn [emb asFloats]. rewrite Hsuf. dxs. cbn [ptrOuts dlookup String.eqb Ascii.eqb Bool.eqb]. reflexivity.
    + rewrite emb_Vec. reflexivity.
  - destruct d as [|d]; [cbn in Hd; lia|].
    rewrite callLD_S. set (cl := callLD fapp St ext (plocals d_applyUnary) fuel (S d)).
    assert (Hcl : forall (a : nd A) (r0 : dval) s g,
              cl "calcData" [dnats ds; emb a; r0] s g =
              match calc1 f ds a with Some r => CRet St [emb a; emb r] s g | None => CPanic St end).
    { intros. apply IH. cbn in Hd; lia. }
    clearbody cl. clear IH.
    unfold d_applyUnary.
    cbn [plocals dlookupFn String.eqb Ascii.eqb Bool.eqb dbind dparams dbody]. dxs.
    rewrite dnats_cons. cbn [devalBin]. rewrite dlen_cons_eqb. dxs.
    destruct a as [x|rows]; cbn [calc1 asV obind]; [reflexivity|].
    rewrite emb_Vec.
    dxs. rewrite didx_nonneg by lia. cbn [Z.to_nat nth_error].
    replace (0 <=? Z.of_nat n) with true by (symmetry; apply Z.leb_le; lia).
    rewrite Nat2Z.id. dxs.
    rewrite sub1_ok, sub1_tail. dxs.
    match goal with |- context [drangeLoop St ?b ?asg _ _ _ _ _] =>
      pose proof (calc1_loop b asg ds rows (dnats ds) (DL (map emb rows)) r0) as HL
    end.
    match type of HL with ?P -> _ => assert (Hspec : P) end.
    { clear HL. intros s0 g0 l i v rr [HI1 [HI2 [HI3 [HI4 HI5]]]] Hi.
      cbn [vdefine].
      unfold row1. dxrs. unfold vlookup. rewrite !dlookup_dupd. cbn [String.eqb Ascii.eqb Bool.eqb].
      rewrite HI1, HI4, HI5, didx_nat, nth_error_map_emb.
      destruct (nth_error rows i) as [ai|] eqn:Ea; cbn [option_map obind]; [|reflexivity].
      destruct (nth_error rr i) as [x|] eqn:Er; [|apply nth_error_None in Er; lia].
      rewrite Hcl.
      destruct (calc1 f ds ai) as [ri|]; [|reflexivity].
      destruct (setNthD_lt rr i (emb ri) Hi) as [rr' Hrr].
      rewrite (setSlot_local g0 _ "aRows" i (emb ai) (map emb rows) (map emb rows));
        [ | dl | apply setNthD_same; rewrite nth_error_map_emb, Ea; reflexivity ].
      rewrite !dlookup_dupd. cbn [String.eqb Ascii.eqb Bool.eqb]. rewrite didx_nat.
      rewrite (setSlot_local g0 _ "rRows" i (emb ri) rr rr'); [ | dl | exact Hrr ].
      eexists; exists rr'. split; [reflexivity|]. split; [exact Hrr|].
      unfold Inv1. repeat split; dl. }
    match goal with |- context [drangeLoop St _ _ _ _ _ _ ?l0] =>
      specialize (HL Hspec n 0%nat [] s g l0 eq_refl)
    end.
    cbn [map app Z.of_nat] in HL.
    specialize (HL ltac:(unfold Inv1, dnats; cbn [dlookup String.eqb Ascii.eqb Bool.eqb]; repeat split; reflexivity)).
    change (fun i : nat => do ai <- nth_error rows i; calc1 f ds ai) with (row1 ds rows).
    destruct (mapM (row1 ds rows) (seq 0 n)) as [outs|]; cbn [obind].
    + destruct HL as [l1 [HL [HI1 [HI2 [HI3 [HI4 HI5]]]]]]. unfold dnats in HL. rewrite HL. dxrs.
      unfold vlookup. rewrite HI5. unfold vassign, dhas. rewrite HI3.
      cbn [ptrOuts]. rewrite !dlookup_dupd. cbn [String.eqb Ascii.eqb Bool.eqb]. rewrite HI2, emb_Vec. reflexivity.
    + unfold dnats in HL. rewrite HL. reflexivity.
Qed.

Theorem data_apply1_body fuel depth (ds : list nat) (x : nd A) (s : St) :
  (length ds < depth)%nat ->
  match apply1 f (mkT ds x) with
  | Some t' => exists g l,
      dexec fapp St ext (callLD fapp St ext (plocals d_applyUnary) fuel depth) fuel true (dbody (pmain d_applyUnary)) s
            [("t.dims", dnats ds); ("t.data", emb x)] [] = DRet St [dnats (dims t'); emb (data t')] s g l
  | None =>
      dexec fapp St ext (callLD fapp St ext (plocals d_applyUnary) fuel depth) fuel true (dbody (pmain d_applyUnary)) s
            [("t.dims", dnats ds); ("t.data", emb x)] [] = DPanic St
  end.
Proof.
  intros Hdep. destruct depth as [|d]; [lia|].
  pose proof (fun r0 g => calcData1 ds d fuel x r0 s g ltac:(lia)) as HC.
  set (cl := callLD fapp St ext (plocals d_applyUnary) fuel (S d)) in *. clearbody cl.
  assert (HE : dexec fapp St ext cl fuel true (dbody (pmain d_applyUnary)) s
                 [("t.dims", dnats ds); ("t.data", emb x)] [] =
               match calc1 f ds x with
               | Some r => DRet St [dnats ds; emb r] s
                             [("t.dims", dnats ds); ("t.data", emb x); ("o.dims", dnats ds); ("o.data", emb r)] []
               | None => DPanic St
               end).
  { unfold d_applyUnary. cbn [pmain dbody]. dxs. unfold dnats at 1. cbn iota.
    rewrite dlen_nonneg. dxs. unfold dnats at 1. cbn iota. rewrite make_copy_dims. dxs.
    fold (@dnats A ds).
    rewrite HC.
    destruct (calc1 f ds x) as [r|]; [|reflexivity]. dxs. reflexivity. }
  unfold apply1. cbn [dims data]. rewrite HE.
  destruct (calc1 f ds x) as [r|]; cbn [obind dims data]; eauto.
Qed.

Theorem data_apply1 fuel depth (t : tensor A) (s : St) :
  (length (dims t) < depth)%nat ->
  match apply1 f t with
  | Some t' => exists g l,
      drun fapp St ext d_applyUnary fuel depth [dnats (dims t); emb (data t)] s =
      DRet St [dnats (dims t'); emb (data t')] s g l
  | None => drun fapp St ext d_applyUnary fuel depth [dnats (dims t); emb (data t)] s = DPanic St
  end.
Proof. destruct t as [ds x]. cbn [dims data]. exact (data_apply1_body fuel depth ds x s). Qed.

End Unary.

(* ================= binary ================= *)
Section Binary.
Variable f : A -> A -> A.
Hypothesis Hsbf : forall a b, fapp "sbf" [a; b] = Some (f a b).

Definition Inv2 (l : denv) (dv av bv rv : dval) (ar br rr : list dval) : Prop :=
  dlookup l "dims" = Some dv /\ dlookup l "a" = Some av /\ dlookup l "b" = Some bv /\ dlookup l "r" = Some rv /\
  dlookup l "aRows" = Some (DL ar) /\ dlookup l "bRows" = Some (DL br) /\ dlookup l "rRows" = Some (DL rr).

Definition row2 (ds : list nat) (rowsA rowsB : list (nd A)) (i : nat) : option (nd A) :=
  do ai <- nth_error rowsA i; do bi <- nth_error rowsB i; calc2 f ds ai bi.

(* the loop of calcData for any body that behaves like  calcData(dims, &aRows[i], &bRows[i], &rRows[i]) *)
Lemma calc2_loop (body : St -> denv -> denv -> @doutcome A St)
      (assign : denv -> denv -> Z -> dval -> denv * denv) (ds : list nat) (rowsA rowsB : list (nd A))
      (dv av bv rv : dval) :
  (forall s g l (i : nat) v rr,
      Inv2 l dv av bv rv (map emb rowsA) (map emb rowsB) rr -> (i < length rr)%nat ->
      let '(g0, l0) := assign g l (Z.of_nat i) v in
      match row2 ds rowsA rowsB i with
      | Some ri => exists l1 rr', body s g0 l0 = DNormal St s g l1 /\ setNthD rr i (emb ri) = Some rr' /\
                                  Inv2 l1 dv av bv rv (map emb rowsA) (map emb rowsB) rr'
      | None => body s g0 l0 = DPanic St
      end) ->
  forall n i (done : list (nd A)) s g l,
  length done = i ->
  Inv2 l dv av bv rv (map emb rowsA) (map emb rowsB) (map emb done ++ repeat DNil n) ->
  match mapM (row2 ds rowsA rowsB) (seq i n) with
  | Some outs => exists l1, drangeLoop St body assign (repeat DNil n) (Z.of_nat i) s g l = DNormal St s g l1 /\
                            Inv2 l1 dv av bv rv (map emb rowsA) (map emb rowsB) (map emb (done ++ outs))
  | None => drangeLoop St body assign (repeat DNil n) (Z.of_nat i) s g l = DPanic St
  end.
Proof.
  intros Hb. induction n as [|n IH]; intros i done s g l Hlen HI.
  - cbn [seq mapM repeat drangeLoop]. exists l. split; [reflexivity|].
    cbn [repeat] in HI. rewrite !app_nil_r in *. exact HI.
  - cbn [seq mapM repeat drangeLoop].
    assert (Hi : (i < length (map emb done ++ repeat (@DNil A) (S n)))%nat).
    { rewrite app_length, map_length, repeat_length. lia. }
    pose proof (Hb s g l i DNil _ HI Hi) as H1.
    destruct (assign g l (Z.of_nat i) DNil) as [g0 l0].
    destruct (row2 ds rowsA rowsB i) as [ri|]; cbn [obind].
    + destruct H1 as [l1 [rr' [Hb1 [Hset HI1]]]]. rewrite Hb1.
      cbn [repeat] in Hset. rewrite <- Hlen, <- (map_length emb) in Hset.
      rewrite setNthD_app in Hset. inversion Hset; subst rr'; clear Hset.
      replace (Z.of_nat i + 1) with (Z.of_nat (S i)) by lia.
      specialize (IH (S i) (done ++ [ri]) s g l1).
      rewrite app_length, Hlen in IH. cbn [length] in IH. specialize (IH ltac:(lia)).
      rewrite map_app in IH. cbn [map] in IH. rewrite <- app_assoc in IH. cbn [app] in IH.
      specialize (IH HI1).
      destruct (mapM (row2 ds rowsA rowsB) (seq (S i) n)) as [outs|]; cbn [obind].
      * destruct IH as [l2 [HL HI2]]. exists l2. split; [exact HL|].
        rewrite <- app_assoc in HI2. exact HI2.
      * exact IH.
    + rewrite H1. reflexivity.
Qed.

Lemma calcData2 (ds : list nat) :
  forall d fuel (a b : nd A) (r0 : dval) s g,
  (length ds <= d)%nat ->
  callLD fapp St ext (plocals d_applyBinary) fuel (S d) "calcData" [dnats ds; emb a; emb b; r0] s g =
  match calc2 f ds a b with
  | Some r => CRet St [emb a; emb b; emb r] s g
  | None => CPanic St
  end.
Proof.
  induction ds as [|n ds IH]; intros d fuel a b r0 s g Hd.
  - rewrite callLD_S. set (cl := callLD fapp St ext (plocals d_applyBinary) fuel d). unfold d_applyBinary.
    cbn [plocals dlookupFn String.eqb Ascii.eqb Bool.eqb dbind dparams dbody]. dxs.
    unfold dnats. cbn [map dlen length Z.of_nat Z.eqb].
    destruct a as [x|rowsA]; cbn [calc2 asF obind].
    + destruct b as [y|rowsB]; cbn [asF obind].
      * cbn [emb asFloats]. rewrite Hsbf. dxs. cbn [ptrOuts dlookup String.eqb Ascii.eqb Bool.eqb]. reflexivity.
      * rewrite emb_Vec. reflexivity.
    + rewrite emb_Vec. reflexivity.
  - destruct d as [|d]; [cbn in Hd; lia|].
    rewrite callLD_S. set (cl := callLD fapp St ext (plocals d_applyBinary) fuel (S d)).
    assert (Hcl : forall (a b : nd A) (r0 : dval) s g,
              cl "calcData" [dnats ds; emb a; emb b; r0] s g =
              match calc2 f ds a b with Some r => CRet St [emb a; emb b; emb r] s g | None => CPanic St end).
    { intros. apply IH. cbn in Hd; lia. }
    clearbody cl. clear IH.
    unfold d_applyBinary.
    cbn [plocals dlookupFn String.eqb Ascii.eqb Bool.eqb dbind dparams dbody]. dxs.
    rewrite dnats_cons. cbn [devalBin]. rewrite dlen_cons_eqb. dxs.
    destruct a as [x|rowsA]; cbn [calc2 asV obind]; [reflexivity|].
    rewrite (emb_Vec rowsA).
    dxs.
    destruct b as [y|rowsB]; cbn [asV obind]; [reflexivity|].
    rewrite (emb_Vec rowsB). dxs.
    rewrite didx_nonneg by lia. cbn [Z.to_nat nth_error].
    replace (0 <=? Z.of_nat n) with true by (symmetry; apply Z.leb_le; lia).
    rewrite Nat2Z.id. dxs.
    rewrite sub1_ok, sub1_tail. dxs.
    match goal with |- context [drangeLoop St ?b ?asg _ _ _ _ _] =>
      pose proof (calc2_loop b asg ds rowsA rowsB (dnats ds) (DL (map emb rowsA)) (DL (map emb rowsB)) r0) as HL
    end.
    match type of HL with ?P -> _ => assert (Hspec : P) end.
    { clear HL. intros s0 g0 l i v rr [HI1 [HI2 [HI3 [HI4 [HI5 [HI6 HI7]]]]]] Hi.
      cbn [vdefine].
      unfold row2. dxrs. unfold vlookup. rewrite !dlookup_dupd. cbn [String.eqb Ascii.eqb Bool.eqb].
      rewrite HI1, HI5, HI6, HI7, didx_nat, !nth_error_map_emb.
      destruct (nth_error rowsA i) as [ai|] eqn:Ea; cbn [option_map obind]; [|reflexivity].
      destruct (nth_error rowsB i) as [bi|] eqn:Eb; cbn [option_map obind]; [|reflexivity].
      destruct (nth_error rr i) as [x|] eqn:Er; [|apply nth_error_None in Er; lia].
      rewrite Hcl.
      destruct (calc2 f ds ai bi) as [ri|]; [|reflexivity].
      destruct (setNthD_lt rr i (emb ri) Hi) as [rr' Hrr].
      rewrite (setSlot_local g0 _ "aRows" i (emb ai) (map emb rowsA) (map emb rowsA));
        [ | dl | apply setNthD_same; rewrite nth_error_map_emb, Ea; reflexivity ].
      rewrite !dlookup_dupd. cbn [String.eqb Ascii.eqb Bool.eqb]. rewrite didx_nat.
      rewrite (setSlot_local g0 _ "bRows" i (emb bi) (map emb rowsB) (map emb rowsB));
        [ | dl | apply setNthD_same; rewrite nth_error_map_emb, Eb; reflexivity ].
      rewrite !dlookup_dupd. cbn [String.eqb Ascii.eqb Bool.eqb]. rewrite didx_nat.
      rewrite (setSlot_local g0 _ "rRows" i (emb ri) rr rr'); [ | dl | exact Hrr ].
      eexists; exists rr'. split; [reflexivity|]. split; [exact Hrr|].
      unfold Inv2. repeat split; dl. }
    match goal with |- context [drangeLoop St _ _ _ _ _ _ ?l0] =>
      specialize (HL Hspec n 0%nat [] s g l0 eq_refl)
    end.
    cbn [map app Z.of_nat] in HL.
    specialize (HL ltac:(unfold Inv2, dnats; cbn [dlookup String.eqb Ascii.eqb Bool.eqb]; repeat split; reflexivity)).
    change (fun i : nat => do ai <- nth_error rowsA i; do bi <- nth_error rowsB i; calc2 f ds ai bi)
      with (row2 ds rowsA rowsB).
    destruct (mapM (row2 ds rowsA rowsB) (seq 0 n)) as [outs|]; cbn [obind].
    + destruct HL as [l1 [HL [HI1 [HI2 [HI3 [HI4 [HI5 [HI6 HI7]]]]]]]]. unfold dnats in HL. rewrite HL. dxrs.
      unfold vlookup. rewrite HI7. unfold vassign, dhas. rewrite HI4.
      cbn [ptrOuts]. rewrite !dlookup_dupd. cbn [String.eqb Ascii.eqb Bool.eqb].
      rewrite HI2, HI3, emb_Vec. reflexivity.
    + unfold dnats in HL. rewrite HL. reflexivity.
Qed.

Theorem data_apply2_body fuel depth (ds ds2 : list nat) (x y : nd A) (s : St) :
  (length ds < depth)%nat ->
  match apply2 f (mkT ds x) (mkT ds2 y) with
  | Some t' => exists g l,
      dexec fapp St ext (callLD fapp St ext (plocals d_applyBinary) fuel depth) fuel true (dbody (pmain d_applyBinary)) s
            [("t1.dims", dnats ds); ("t1.data", emb x); ("t2.dims", dnats ds2); ("t2.data", emb y)] [] =
      DRet St [dnats (dims t'); emb (data t')] s g l
  | None =>
      dexec fapp St ext (callLD fapp St ext (plocals d_applyBinary) fuel depth) fuel true (dbody (pmain d_applyBinary)) s
            [("t1.dims", dnats ds); ("t1.data", emb x); ("t2.dims", dnats ds2); ("t2.data", emb y)] [] = DPanic St
  end.
Proof.
  intros Hdep. destruct depth as [|d]; [lia|].
  pose proof (fun r0 g => calcData2 ds d fuel x y r0 s g ltac:(lia)) as HC.
  set (cl := callLD fapp St ext (plocals d_applyBinary) fuel (S d)) in *. clearbody cl.
  assert (HE : dexec fapp St ext cl fuel true (dbody (pmain d_applyBinary)) s
                 [("t1.dims", dnats ds); ("t1.data", emb x); ("t2.dims", dnats ds2); ("t2.data", emb y)] [] =
               match calc2 f ds x y with
               | Some r => DRet St [dnats ds; emb r] s
                             [("t1.dims", dnats ds); ("t1.data", emb x); ("t2.dims", dnats ds2); ("t2.data", emb y);
                              ("o.dims", dnats ds); ("o.data", emb r)] []
               | None => DPanic St
               end).
  { unfold d_applyBinary. cbn [pmain dbody]. dxs. unfold dnats at 1. cbn iota.
    rewrite dlen_nonneg. dxs. unfold dnats at 1. cbn iota. rewrite make_copy_dims. dxs.
    fold (@dnats A ds).
    rewrite HC.
    destruct (calc2 f ds x y) as [r|]; [|reflexivity]. dxs. reflexivity. }
  unfold apply2. cbn [dims data]. rewrite HE.
  destruct (calc2 f ds x y) as [r|]; cbn [obind dims data]; eauto.
Qed.

Theorem data_apply2 fuel depth (t1 t2 : tensor A) (s : St) :
  (length (dims t1) < depth)%nat ->
  match apply2 f t1 t2 with
  | Some t' => exists g l,
      drun fapp St ext d_applyBinary fuel depth [dnats (dims t1); emb (data t1); dnats (dims t2); emb (data t2)] s =
      DRet St [dnats (dims t'); emb (data t')] s g l
  | None =>
      drun fapp St ext d_applyBinary fuel depth [dnats (dims t1); emb (data t1); dnats (dims t2); emb (data t2)] s =
      DPanic St
  end.
Proof.
  destruct t1 as [ds x], t2 as [ds2 y]. cbn [dims data]. exact (data_apply2_body fuel depth ds ds2 x y s).
Qed.

End Binary.

End DataApply.

Print Assumptions calcData1.
Print Assumptions calcData2.
Print Assumptions data_apply1_body.
Print Assumptions data_apply1.
Print Assumptions data_apply2_body.
Print Assumptions data_apply2.

(* ---------- concrete runs over the free term algebra ---------- *)
Section Examples.
Let fappT (nm : string) (args : list term) : option term :=
  match args with
  | [a] => if String.eqb nm "suf" then Some (TUn UExp a) else None
  | [a; b] => if String.eqb nm "sbf" then Some (TBin BAdd a b) else None
  | _ => None
  end.
Let extT (_ : string) (_ : list (@dval term)) (_ : unit) : option (list (@dval term) * unit) := None.
Let v (k : nat) : nd term := Sc (TVal 0 k).
Let w (k : nat) : nd term := Sc (TVal 1 k).
Let X : nd term := Vec [Vec [v 0; v 1; v 2]; Vec [v 3; v 4; v 5]].
Let Y : nd term := Vec [Vec [w 0; w 1; w 2]; Vec [w 3; w 4; w 5]].

Example apply1_run :
  match drun fappT unit extT d_applyUnary 0 3 [dnats [2; 3]%nat; emb X] tt with
  | DRet _ vs _ _ _ => Some vs
  | _ => None
  end = option_map (fun t' => [dnats (dims t'); emb (data t')]) (apply1 (TUn UExp) (mkT [2; 3]%nat X)).
Proof. vm_compute. reflexivity. Qed.

(* dims say 3 rows, the data has 2: aRows[2] panics / the model returns None *)
Example apply1_panic :
  drun fappT unit extT d_applyUnary 0 3 [dnats [3; 3]%nat; emb X] tt = DPanic unit /\
  apply1 (TUn UExp) (mkT [3; 3]%nat X) = None.
Proof. vm_compute. split; reflexivity. Qed.

(* dims say 1 row, the data has 2: only the first row is visited, in Go and in the model *)
Example apply1_prefix :
  match drun fappT unit extT d_applyUnary 0 3 [dnats [1; 2]%nat; emb X] tt with
  | DRet _ vs _ _ _ => Some vs
  | _ => None
  end = Some [dnats [1; 2]%nat; emb (Vec [Vec [Sc (TUn UExp (TVal 0 0)); Sc (TUn UExp (TVal 0 1))]])].
Proof. vm_compute. reflexivity. Qed.

Example apply2_run :
  match drun fappT unit extT d_applyBinary 0 3 [dnats [2; 3]%nat; emb X; dnats [2; 3]%nat; emb Y] tt with
  | DRet _ vs _ _ _ => Some vs
  | _ => None
  end = option_map (fun t' => [dnats (dims t'); emb (data t')])
                   (apply2 (TBin BAdd) (mkT [2; 3]%nat X) (mkT [2; 3]%nat Y)).
Proof. vm_compute. reflexivity. Qed.

(* the second operand is too shallow: the assertion of b to []any panics / the model returns None *)
Example apply2_panic :
  drun fappT unit extT d_applyBinary 0 3 [dnats [2; 3]%nat; emb X; dnats [2]%nat; emb (Vec [w 0; w 1])] tt = DPanic unit /\
  apply2 (TBin BAdd) (mkT [2; 3]%nat X) (mkT [2]%nat (Vec [w 0; w 1])) = None.
Proof. vm_compute. split; reflexivity. Qed.
End Examples.
