(* DataAtP.v — CPUTensor.dataAt (tensor/internal/cputensor/accessors.go) as translated by harness/gox into the
   DataIR program GoData.d_dataAt computes Model/Nd.v dataAt: worked example of the DataIR proof style. *)
From Coq Require Import String List ZArith Bool Lia Arith.
From Qeep Require Import Model.Scalar Model.Nd Model.DataIR Model.GoData Proofs.DataIRP.
From Qeep Require Model.GoIR.
Import ListNotations.
Local Open Scope string_scope.
Local Open Scope Z_scope.
Local Open Scope list_scope.

Section DataAt.
Context {A : Type} {SA : Scalar A}.
Variable fapp : string -> list A -> option A.
Variables (St : Type) (ext : string -> list (@dval A) -> St -> option (list (@dval A) * St)).

(* the loop of dataAt (at main level: l = []) for any body that behaves like  data = data.([]any)[i]  *)
Lemma dataAt_loop (body : St -> denv -> denv -> @doutcome A St)
      (assign : denv -> denv -> Z -> @dval A -> denv * denv) :
  (forall s g k i (x : nd A),
      vlookup g [] "data" = Some (emb x) ->
      let '(g0, l0) := assign g [] k (DI (Z.of_nat i)) in
      match dataAt x [i] with
      | Some y => exists g1, body s g0 l0 = DNormal St s g1 [] /\ vlookup g1 [] "data" = Some (emb y)
      | None => body s g0 l0 = DPanic St
      end) ->
  forall (idx : list nat) (x : nd A) k s g,
  vlookup g [] "data" = Some (emb x) ->
  match dataAt x idx with
  | Some y => exists g1, drangeLoop St body assign (map (fun n => DI (Z.of_nat n)) idx) k s g [] = DNormal St s g1 [] /\
                         vlookup g1 [] "data" = Some (emb y)
  | None => drangeLoop St body assign (map (fun n => DI (Z.of_nat n)) idx) k s g [] = DPanic St
  end.
Proof.
  intros Hb. induction idx as [|i idx IH]; intros x k s g Hd.
  - cbn. eauto.
  - cbn [map drangeLoop].
    pose proof (Hb s g k i x Hd) as H1.
    destruct (assign g [] k (DI (Z.of_nat i))) as [g0 l0].
    cbn [dataAt] in H1 |- *.
    destruct x as [a|rows]; cbn [asV obind] in H1 |- *.
    + rewrite H1. reflexivity.
    + destruct (nth_error rows i) as [r|] eqn:En; cbn [obind] in H1 |- *.
      * cbn [dataAt] in H1. destruct H1 as [g1 [Hb1 Hd1]]. rewrite Hb1.
        apply IH. exact Hd1.
      * rewrite H1. reflexivity.
Qed.

Theorem data_dataAt (callL : string -> list dval -> St -> denv -> cres St) fuel
        (ds : @dval A) (x : nd A) (idx : list nat) (s : St) :
  match dataAt x idx with
  | Some y => exists g l, dexec fapp St ext callL fuel true (dbody (pmain d_dataAt)) s
                            [("t.dims", ds); ("t.data", emb x); ("index", dnats idx)] [] = DRet St [emb y] s g l
  | None => dexec fapp St ext callL fuel true (dbody (pmain d_dataAt)) s
                            [("t.dims", ds); ("t.data", emb x); ("index", dnats idx)] [] = DPanic St
  end.
Proof.
  unfold d_dataAt. cbn [pmain dbody]. dxs. unfold dnats.
  match goal with |- context [drangeLoop St ?b ?asg _ _ _ ?g0 ?l0] =>
    pose proof (dataAt_loop b asg) as HL
  end.
  match type of HL with ?P -> _ => assert (Hspec : P) end.
  { intros s0 g k i y Hd. cbv beta iota.
    (* the two range variables are new variables of the main frame: [dxs] has computed [vdefine true] to [dupd] *)
    unfold vlookup in Hd. cbn [dlookup] in Hd.
    autorewrite with dataexec. cbn [deval]. unfold vlookup. cbn [dlookup].
    rewrite !dlookup_dupd. cbn [String.eqb Ascii.eqb Bool.eqb]. rewrite Hd.
    cbn [dataAt]. destruct y as [a|rows]; cbn [asV obind].
    - cbn [emb]. reflexivity.
    - rewrite emb_Vec, didx_nat, nth_error_map_emb.
      destruct (nth_error rows i) as [r|]; cbn [option_map obind dataAt]; [|reflexivity].
      (* data = ... assigns the existing main variable *)
      unfold vassign. cbn [dhas dlookup]. unfold dhas. rewrite !dlookup_dupd. cbn [String.eqb Ascii.eqb Bool.eqb]. rewrite Hd.
      eexists. split; [reflexivity|]. cbn [dlookup]. rewrite dlookup_dupd. cbn [String.eqb Ascii.eqb Bool.eqb]. reflexivity. }
  specialize (HL Hspec idx x 0 s [("t.dims", ds); ("t.data", emb x); ("index", DL (map (fun n => DI (Z.of_nat n)) idx)); ("data", emb x)] eq_refl).
  destruct (dataAt x idx) as [y|].
  - destruct HL as [g1 [HL Hd]]. rewrite HL. dxs. unfold vlookup in Hd |- *. cbn [dlookup] in Hd |- *. rewrite Hd. eauto.
  - rewrite HL. reflexivity.
Qed.
End DataAt.
Print Assumptions data_dataAt.
