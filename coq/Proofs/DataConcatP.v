(* DataConcatP.v — initConcatResultTensor (tensor/internal/cputensor/initializers.go) with its recursive closure
   fillCat, as translated by harness/gox into the DataIR program GoData.d_initConcatResultTensor, against the model
   Data.fillCat / Data.concatD. *)
From Coq Require Import String List ZArith Bool Lia Arith.
From Qeep Require Import Model.Scalar Model.Nd Model.Fill Model.Data Model.DataIR Model.GoData Proofs.DataIRP.
From Qeep Require Model.GoIR.
Import ListNotations.
Local Open Scope string_scope.
Local Open Scope Z_scope.
Local Open Scope list_scope.

Section DataConcat.
Context {A : Type} {SA : Scalar A}.
Variable fapp : string -> list A -> option A.
Variables (St : Type) (ext : string -> list (@dval A) -> St -> option (list (@dval A) * St)).
Notation dval := (@dval A).
Notation denv := (@denv A).
Notation locals := (plocals d_initConcatResultTensor).

(* ---------- generic facts ---------- *)

Lemma dlookup_dupd_ne (e : denv) x y (v : dval) : y <> x -> dlookup (dupd e x v) y = dlookup e y.
Proof. intros H. rewrite dlookup_dupd. apply String.eqb_neq in H. now rewrite H. Qed.

Lemma dlookup_dupd_eq (e : denv) x (v : dval) : dlookup (dupd e x v) x = Some v.
Proof. rewrite dlookup_dupd. now rewrite String.eqb_refl. Qed.

(* assignment to an existing local inside a closure (atMain = false) *)
Lemma vassign_false_local (g l : denv) x (v w : dval) :
  dlookup l x = Some w -> vassign false g l x v = (g, dupd l x v).
Proof. intros H. unfold vassign, dhas. now rewrite H. Qed.

Definition frame (xs : list string) (l l1 : denv) : Prop := forall y, ~ In y xs -> dlookup l1 y = dlookup l y.

Lemma frame_refl xs l : frame xs l l.
Proof. intros y _. reflexivity. Qed.
Lemma frame_trans xs l l1 l2 : frame xs l l1 -> frame xs l1 l2 -> frame xs l l2.
Proof. intros H1 H2 y Hy. now rewrite H2, H1. Qed.
Lemma frame_dupd xs l x (v : dval) : In x xs -> frame xs l (dupd l x v).
Proof. intros Hx y Hy. apply dlookup_dupd_ne. intros ->. contradiction. Qed.

Lemma vlookup_frame xs (g l l1 : denv) y : frame xs l l1 -> ~ In y xs -> vlookup g l1 y = vlookup g l y.
Proof. intros Hf Hy. unfold vlookup. now rewrite (Hf y Hy). Qed.
Lemma vlookup_captured (g l : denv) x : dlookup l x = None -> vlookup g l x = dlookup g x.
Proof. intros H. unfold vlookup. now rewrite H. Qed.

Lemma mapM_nth {T U} (f : T -> option U) (l : list T) (out : list U) :
  mapM f l = Some out ->
  length out = length l /\
  forall i x, nth_error l i = Some x -> exists y, f x = Some y /\ nth_error out i = Some y.
Proof.
  revert out. induction l as [|a l IH]; intros out H; cbn [mapM] in H.
  - inversion H. split; [reflexivity|]. intros [|i] x Hx; discriminate.
  - destruct (f a) as [y|] eqn:Ea; cbn [obind] in H; [|discriminate].
    destruct (mapM f l) as [ys|] eqn:El; cbn [obind] in H; [|discriminate].
    inversion H; subst out. destruct (IH ys eq_refl) as [Hl Hn].
    split; [cbn; now rewrite Hl|].
    intros [|i] x Hx; cbn in Hx |- *.
    + inversion Hx; subst. eauto.
    + now apply Hn.
Qed.

Lemma nth_error_app_mid {T} (a b : list T) (x : T) j : length a = j -> nth_error (a ++ x :: b) j = Some x.
Proof. intros <-. induction a; cbn; auto. Qed.
Lemma setNthD_app' (a b : list dval) (x v : dval) j :
  length a = j -> setNthD (a ++ x :: b) j v = Some (a ++ v :: b).
Proof. intros <-. apply setNthD_app. Qed.

Lemma firstn_S_nth {T} (l : list T) k x : nth_error l k = Some x -> firstn (S k) l = firstn k l ++ [x].
Proof.
  revert k. induction l as [|a l IH]; intros [|k] H; cbn in H; try discriminate.
  - inversion H. reflexivity.
  - change (a :: firstn (S k) l = a :: (firstn k l ++ [x])). f_equal. now apply IH.
Qed.

Lemma nth_error_seq_lt a n j : (j < n)%nat -> nth_error (seq a n) j = Some (a + j)%nat.
Proof.
  revert a j. induction n as [|n IH]; intros a [|j] H; try lia; cbn [seq nth_error].
  - f_equal; lia.
  - rewrite IH by lia. f_equal; lia.
Qed.

Lemma nth_error_repeat_inv {T} (a v : T) n j : nth_error (repeat a n) j = Some v -> v = a /\ (j < n)%nat.
Proof.
  intros H. split.
  - apply nth_error_In in H. now apply repeat_spec in H.
  - rewrite <- (repeat_length a n). apply nth_error_Some. congruence.
Qed.

(* the slots of a slice being filled from the left: j done, the others still nil *)
Definition partial (done : list (nd A)) (n j : nat) : list dval := map emb (firstn j done) ++ repeat DNil (n - j).

Lemma partial_nth done n j : length done = n -> (j < n)%nat -> nth_error (partial done n j) j = Some DNil.
Proof.
  intros Hl Hj. unfold partial.
  replace (n - j)%nat with (S (n - S j)) by lia. cbn [repeat].
  assert (Ha : length (map emb (firstn j done)) = j) by (rewrite map_length, firstn_length; lia).
  now apply nth_error_app_mid.
Qed.

Lemma partial_set done n j y :
  length done = n -> nth_error done j = Some y ->
  setNthD (partial done n j) j (emb y) = Some (partial done n (S j)).
Proof.
  intros Hl Hy. assert (Hj : (j < n)%nat) by (rewrite <- Hl; apply nth_error_Some; congruence).
  unfold partial.
  replace (n - j)%nat with (S (n - S j)) by lia. cbn [repeat].
  assert (Ha : length (map emb (firstn j done)) = j) by (rewrite map_length, firstn_length; lia).
  rewrite (setNthD_app' _ _ _ _ j Ha). rewrite (firstn_S_nth done j y Hy), map_app. cbn [map].
  now rewrite <- app_assoc.
Qed.

Lemma partial_full done n : length done = n -> partial done n n = map emb done.
Proof. intros Hl. unfold partial. rewrite Nat.sub_diag. cbn [repeat]. rewrite app_nil_r. subst n. now rewrite firstn_all. Qed.

Lemma partial_0 done n : partial done n 0 = repeat DNil n.
Proof. unfold partial. cbn [firstn map app]. now rewrite Nat.sub_0_r. Qed.

Lemma sub1 (a : dval) (m : list dval) :
  (if (0 <=? 1) && (1 <=? dlen (a :: m)) && (dlen (a :: m) <=? dlen (a :: m))
   then Some (DL (firstn (Z.to_nat (dlen (a :: m) - 1)) (skipn (Z.to_nat 1) (a :: m))))
   else @None dval) = Some (DL m).
Proof.
  unfold dlen. cbn [length].
  replace (1 <=? Z.of_nat (S (length m))) with true by (symmetry; apply Z.leb_le; lia).
  rewrite Z.leb_refl. cbn [Z.leb Z.compare andb].
  replace (Z.to_nat 1) with 1%nat by reflexivity. cbn [skipn].
  replace (Z.to_nat (Z.of_nat (S (length m)) - 1)) with (length m) by lia.
  now rewrite firstn_all.
Qed.

Ltac names := cbn [In]; intuition discriminate.
(* solve  dlookup L x = ?v  for L a chain of updates / framed loop results over an environment with known slots *)
Ltac lk :=
  repeat first [ rewrite dlookup_dupd; cbn [String.eqb Ascii.eqb Bool.eqb]
               | match goal with Hf : frame _ _ ?l1 |- context [dlookup ?l1 ?x] => rewrite (Hf x) by names end ];
  first [eassumption | reflexivity].

(* ---------- loop of the base case:  catData = append(catData, seed.([]any)...) ---------- *)
Lemma cat_loop (g : denv) (body : St -> denv -> denv -> @doutcome A St)
      (assign : denv -> denv -> Z -> dval -> denv * denv) :
  (forall s l k (p : list (nd A)) acc,
      dlookup l "catData" = Some (DL acc) ->
      let '(g0, l0) := assign g l k (emb (Vec p)) in
      exists l1, body s g0 l0 = DNormal St s g l1 /\
                 dlookup l1 "catData" = Some (DL (acc ++ map emb p)) /\
                 frame ["catData"; "_"; "seed"] l l1) ->
  forall (seeds : list (nd A)) parts acc k s l,
  dlookup l "catData" = Some (DL acc) ->
  mapM asV seeds = Some parts ->
  exists l1, drangeLoop St body assign (map emb seeds) k s g l = DNormal St s g l1 /\
             dlookup l1 "catData" = Some (DL (acc ++ map emb (concat parts))) /\
             frame ["catData"; "_"; "seed"] l l1.
Proof.
  intros Hb. induction seeds as [|x seeds IH]; intros parts acc k s l Hc Hm; cbn [mapM] in Hm.
  - inversion Hm; subst parts. cbn. rewrite app_nil_r. exists l.
    split; [reflexivity|]. split; [exact Hc | apply frame_refl].
  - destruct x as [a|p]; cbn [asV obind] in Hm; [discriminate|].
    destruct (mapM asV seeds) as [ps|] eqn:Em; cbn [obind] in Hm; [|discriminate].
    inversion Hm; subst parts. cbn [map drangeLoop].
    pose proof (Hb s l k p acc Hc) as H1.
    destruct (assign g l k (emb (Vec p))) as [g0 l0].
    destruct H1 as [l1 [Hb1 [Hc1 Hf1]]]. rewrite Hb1.
    destruct (IH ps (acc ++ map emb p) (k + 1) s l1 Hc1 eq_refl) as [l2 [HL [Hc2 Hf2]]].
    exists l2. split; [exact HL|]. split.
    + rewrite Hc2. cbn [concat]. now rewrite map_app, app_assoc.
    + eapply frame_trans; eauto.
Qed.

(* ---------- inner loop of the recursive case:  seedRows = append(seedRows, seed.([]any)[i]) ---------- *)
Lemma rows_loop (g : denv) (i : nat) (body : St -> denv -> denv -> @doutcome A St)
      (assign : denv -> denv -> Z -> dval -> denv * denv) :
  (forall s l k (x y : nd A) acc,
      dlookup l "seedRows" = Some (DL acc) ->
      dlookup l "i" = Some (DI (Z.of_nat i)) ->
      (do p <- asV x; nth_error p i) = Some y ->
      let '(g0, l0) := assign g l k (emb x) in
      exists l1, body s g0 l0 = DNormal St s g l1 /\
                 dlookup l1 "seedRows" = Some (DL (acc ++ [emb y])) /\
                 frame ["seedRows"; "_"; "seed"] l l1) ->
  forall (seeds : list (nd A)) sr acc k s l,
  dlookup l "seedRows" = Some (DL acc) ->
  dlookup l "i" = Some (DI (Z.of_nat i)) ->
  mapM (fun x => do p <- asV x; nth_error p i) seeds = Some sr ->
  exists l1, drangeLoop St body assign (map emb seeds) k s g l = DNormal St s g l1 /\
             dlookup l1 "seedRows" = Some (DL (acc ++ map emb sr)) /\
             frame ["seedRows"; "_"; "seed"] l l1.
Proof.
  intros Hb. induction seeds as [|x seeds IH]; intros sr acc k s l Hc Hi Hm; cbn [mapM] in Hm.
  - inversion Hm; subst sr. cbn. rewrite app_nil_r. exists l.
    split; [reflexivity|]. split; [exact Hc | apply frame_refl].
  - destruct (do p <- asV x; nth_error p i) as [y|] eqn:Ex; cbn [obind] in Hm; [|discriminate].
    destruct (mapM (fun x => do p <- asV x; nth_error p i) seeds) as [ys|] eqn:Em; cbn [obind] in Hm; [|discriminate].
    inversion Hm; subst sr. cbn [map drangeLoop].
    pose proof (Hb s l k x y acc Hc Hi Ex) as H1.
    destruct (assign g l k (emb x)) as [g0 l0].
    destruct H1 as [l1 [Hb1 [Hc1 Hf1]]]. rewrite Hb1.
    assert (Hi1 : dlookup l1 "i" = Some (DI (Z.of_nat i))) by (rewrite (Hf1 "i") by names; exact Hi).
    destruct (IH ys (acc ++ [emb y]) (k + 1) s l1 Hc1 Hi1 eq_refl) as [l2 [HL [Hc2 Hf2]]].
    exists l2. split; [exact HL|]. split.
    + rewrite Hc2. now rewrite <- app_assoc.
    + eapply frame_trans; eauto.
Qed.

(* ---------- the closure fillCat ---------- *)
Variable dim : nat.

(* base case: depth = dim *)
Lemma fillCat_base fuel d (ds : list nat) (dv : dval) (seeds : list (nd A)) parts s g :
  dlookup g "dim" = Some (DI (Z.of_nat dim)) -> ds <> [] -> mapM asV seeds = Some parts ->
  callLD fapp St ext locals fuel (S d) "fillCat" [dnats ds; dv; DL (map emb seeds); DI (Z.of_nat dim)] s g =
  CRet St [emb (Vec (concat parts))] s g.
Proof.
  intros Hdim Hds Hm.
  destruct ds as [|d0 ds]; [congruence|].
  rewrite callLD_S.
  generalize (callLD fapp St ext locals fuel d) as cl. intros cl.
  cbn [plocals d_initConcatResultTensor dlookupFn String.eqb Ascii.eqb Bool.eqb dparams dbody dbind].
  dxs. rewrite Hdim. dxs. rewrite Z.eqb_refl. dxs.
  unfold dnats. cbn [map didx Z.leb Z.compare Z.to_nat nth_error].
  replace (0 <=? Z.of_nat d0) with true by (symmetry; apply Z.leb_le; lia).
  dxs.
  match goal with |- context [drangeLoop St ?b ?asg _ _ _ ?g0 ?l0] =>
    pose proof (cat_loop g b asg) as HL
  end.
  match type of HL with ?P -> _ => assert (Hspec : P) end.
  { intros s0 l k p acc Hc. cbv beta. cbn [vdefine].
    autorewrite with dataexec. cbn [deval].
    erewrite vlookup_local by lk. erewrite vlookup_local by lk. rewrite emb_Vec.
    erewrite vassign_false_local by lk.
    eexists. split; [reflexivity|]. split; [apply dlookup_dupd_eq|].
    eapply frame_trans; [|apply frame_dupd; names].
    eapply frame_trans; apply frame_dupd; names. }
  match goal with |- context [drangeLoop St _ _ _ _ _ g ?l0] =>
    destruct (HL Hspec seeds parts [] 0 s l0 eq_refl Hm) as [l1 [HL1 [Hc1 Hf1]]]
  end. clear HL Hspec.
  rewrite HL1. cbn [app] in Hc1.
  autorewrite with dataexec. cbn [deval devals].
  erewrite vlookup_local by lk.
  erewrite vassign_false_local by lk.
  autorewrite with dataexec. cbn [devals ptrOuts]. rewrite dlookup_dupd_eq. rewrite emb_Vec. reflexivity.
Qed.

(* (1) the closure is the model's fillCat; k = dim - depth.  [k < length ds]: Go reads dims[0] also when depth = dim *)
Lemma fillCat_call : forall k ds seeds r depth0 dv d fuel s g,
  (depth0 + k = dim)%nat -> (k < length ds)%nat -> (k <= d)%nat ->
  dlookup g "dim" = Some (DI (Z.of_nat dim)) ->
  Data.fillCat k ds seeds = Some r ->
  callLD fapp St ext locals fuel (S d) "fillCat"
         [dnats ds; dv; DL (map emb seeds); DI (Z.of_nat depth0)] s g = CRet St [emb r] s g.
Proof.
  induction k as [|k IH]; intros ds seeds r depth0 dv d fuel s g Hdk Hlen Hd Hdim Hf.
  - cbn [Data.fillCat] in Hf.
    destruct (mapM asV seeds) as [parts|] eqn:Em; cbn [obind] in Hf; [|discriminate].
    inversion Hf; subst r.
    replace depth0 with dim by lia.
    assert (Hne : ds <> []) by (destruct ds; cbn in Hlen; [lia|discriminate]).
    exact (fillCat_base fuel d ds dv seeds parts s g Hdim Hne Em).
  - cbn [Data.fillCat] in Hf. destruct ds as [|d0 ds]; [discriminate|].
    match type of Hf with (do rows <- mapM ?F0 _; _) = _ => set (F := F0) in * end.
    destruct (mapM F (seq 0 d0)) as [rows|] eqn:Em; cbn [obind] in Hf; [|discriminate].
    inversion Hf; subst r. clear Hf.
    destruct (mapM_nth F (seq 0 d0) rows Em) as [Hrl Hrn]. rewrite seq_length in Hrl.
    destruct d as [|d]; [lia|].
    assert (Hcl : forall seeds' r' dv' s',
              Data.fillCat k ds seeds' = Some r' ->
              callLD fapp St ext locals fuel (S d) "fillCat"
                [dnats ds; dv'; DL (map emb seeds'); DI (Z.of_nat depth0 + 1)] s' g = CRet St [emb r'] s' g).
    { intros seeds' r' dv' s' Hf1.
      replace (Z.of_nat depth0 + 1) with (Z.of_nat (S depth0)) by lia.
      apply IH; auto; try lia. cbn in Hlen; lia. }
    clear IH. rewrite callLD_S. revert Hcl.
    generalize (callLD fapp St ext locals fuel (S d)) as cl. intros cl Hcl.
    cbn [plocals d_initConcatResultTensor dlookupFn String.eqb Ascii.eqb Bool.eqb dparams dbody dbind].
    dxs. rewrite Hdim. dxs.
    replace (Z.of_nat depth0 =? Z.of_nat dim) with false by (symmetry; apply Z.eqb_neq; lia).
    dxs. unfold dnats. cbn [map didx Z.leb Z.compare Z.to_nat nth_error].
    replace (0 <=? Z.of_nat d0) with true by (symmetry; apply Z.leb_le; lia).
    dxs. rewrite sub1. dxs. rewrite Nat2Z.id.
    fold (@dnats A ds).
    pose (P := fun (j : nat) (s' : St) (gj lj : denv) =>
      s' = s /\ gj = g /\
      dlookup lj "rows" = Some (DL (partial rows d0 j)) /\
      dlookup lj "dims" = Some (dnats ds) /\
      dlookup lj "seeds" = Some (DL (map emb seeds)) /\
      dlookup lj "depth" = Some (DI (Z.of_nat depth0 + 1)) /\
      dlookup lj "data" = Some dv).
    pose (Q := fun o : @doutcome A St => exists l', o = DNormal St s g l' /\ P d0 s g l').
    match goal with |- context [drangeLoop St ?b ?asg ?m 0 s g ?l0] =>
      assert (HQ : Q (drangeLoop St b asg m 0 s g l0));
      [ refine (drangeLoop_rule St P Q b asg m _ _ 0%nat s g l0 _ _) | ]
    end.
    + (* one iteration *)
      intros j s' gj lj v (-> & -> & Hr & Hds & Hse & Hde & Hda) Hn.
      apply nth_error_repeat_inv in Hn. destruct Hn as [-> Hj].
      cbv beta. cbn [vdefine]. left.
      destruct (Hrn j j (nth_error_seq_lt 0 d0 j Hj)) as [y [HFj Hy]].
      unfold F in HFj.
      destruct (mapM (fun x => do p <- asV x; nth_error p j) seeds) as [sr|] eqn:Esr; cbn [obind] in HFj; [|discriminate].
      match goal with |- exists s1 g1 l1, (?b = _ \/ _) /\ _ =>
        assert (Hb : exists l5, b = DNormal St s g l5 /\ P (S j) s g l5)
      end.
      2:{ destruct Hb as [l5 [Hb HP]]. exists s, g, l5. split; [left; exact Hb | exact HP]. }
      autorewrite with dataexec. cbn [deval].
      erewrite vlookup_local by lk. cbn beta iota. rewrite dlen_nonneg. cbn [vdefine].
      autorewrite with dataexec. cbn [deval].
      erewrite vlookup_local by lk. cbn beta iota.
      match goal with |- context [drangeLoop St ?b ?asg _ _ _ g ?l0] =>
        pose proof (rows_loop g j b asg) as HL
      end.
      match type of HL with ?P0 -> _ => assert (Hspec : P0) end.
      { intros s0 l k0 x y0 acc Hc Hi Hx. cbv beta. cbn [vdefine].
        destruct x as [a|p]; cbn [asV obind] in Hx; [discriminate|].
        autorewrite with dataexec. cbn [deval].
        erewrite vlookup_local by lk. erewrite (vlookup_local _ _ "seed") by lk.
        erewrite (vlookup_local _ _ "i") by lk.
        rewrite emb_Vec. cbn beta iota. rewrite didx_nat, (map_nth_error emb _ _ Hx).
        erewrite vassign_false_local by lk.
        eexists. split; [reflexivity|]. split; [apply dlookup_dupd_eq|].
        eapply frame_trans; [|apply frame_dupd; names].
        eapply frame_trans; apply frame_dupd; names. }
      match goal with |- context [drangeLoop St _ _ _ _ _ g ?l0] =>
        destruct (HL Hspec seeds sr [] 0 s l0) as [l4 [HL4 [Hc4 Hf4]]]; [lk | lk | exact Esr |]
      end. clear HL Hspec.
      rewrite HL4. cbn [app] in Hc4.
      autorewrite with dataexec. cbn [argVals deval].
      erewrite (vlookup_local _ _ "dims") by lk. erewrite (vlookup_local _ _ "rows") by lk.
      erewrite (vlookup_local _ _ "i") by lk. erewrite (vlookup_local _ _ "seedRows") by lk.
      erewrite (vlookup_local _ _ "depth") by lk.
      cbn beta iota. rewrite didx_nat, (partial_nth rows d0 j Hrl Hj). cbn beta iota.
      rewrite (Hcl sr y DNil s HFj).
      cbn [copyOut deval].
      erewrite (vlookup_local _ _ "i") by lk. cbn beta iota. rewrite didx_nat.
      unfold setSlot. erewrite (vlookup_local _ _ "rows") by lk. cbn beta iota.
      rewrite (partial_set rows d0 j y Hrl Hy).
      erewrite vassign_false_local by lk.
      eexists. split; [reflexivity|].
      unfold P. repeat split; lk.
    + intros s0 g0 l HP. rewrite repeat_length in HP.
      assert (s0 = s /\ g0 = g) as [-> ->] by (destruct HP as (? & ? & _); auto).
      exists l. split; [reflexivity | exact HP].
    + lia.
    + unfold P. rewrite partial_0. repeat split; reflexivity.
    + destruct HQ as [l' [HQ (_ & _ & Hr & Hds & Hse & Hde & Hda)]]. rewrite HQ.
      rewrite (partial_full rows d0 Hrl) in Hr.
      autorewrite with dataexec. cbn [deval].
      erewrite vlookup_local by lk.
      erewrite vassign_false_local by lk.
      cbn [ptrOuts]. rewrite dlookup_dupd_eq. rewrite emb_Vec. reflexivity.
Qed.






(* ---------- the main function ---------- *)

(* a []*CPUTensor: every tensor value is the pair [dims; data] *)
Definition etensor (t : tensor A) : dval := DL [dnats (dims t); emb (data t)].
Definition etensors (ts : list (tensor A)) : dval := DL (map etensor ts).

(* the outside calls: t.slice(nil) and getConcatDims(ts, dim) are their models *)
Hypothesis ext_slice : forall (t c : tensor A) s,
  Data.slice t [] = Some c -> ext "slice" [etensor t; DL []] s = Some ([etensor c], s).
Hypothesis ext_getConcatDims : forall (ts : list (tensor A)) (dm : nat) r s,
  Data.getConcatDims ts dm = Some r -> ext "getConcatDims" [etensors ts; DI (Z.of_nat dm)] s = Some ([dnats r], s).

Lemma vlookup_main_eq (g : denv) x (v : dval) : dlookup g x = Some v -> vlookup g [] x = Some v.
Proof. intros H. unfold vlookup. cbn [dlookup]. exact H. Qed.

Lemma nth_error_map_inv {T U} (f : T -> U) (l : list T) j v :
  nth_error (map f l) j = Some v -> exists x, nth_error l j = Some x /\ v = f x.
Proof.
  revert j. induction l as [|a l IH]; intros [|j] H; cbn in H; try discriminate.
  - inversion H. exists a. split; reflexivity.
  - apply IH in H. exact H.
Qed.

Lemma setNth_length {X} (l : list X) i v r : setNth l i v = Some r -> (i < length r)%nat.
Proof.
  revert i r. induction l as [|a l IH]; intros [|i] r H; cbn [setNth] in H; try discriminate.
  - inversion H. cbn. lia.
  - destruct (setNth l i v) as [r'|] eqn:E; cbn [obind] in H; [|discriminate].
    inversion H. cbn. apply IH in E. lia.
Qed.

Lemma getConcatDims_length (ts : list (tensor A)) dm r : Data.getConcatDims ts dm = Some r -> (dm < length r)%nat.
Proof.
  unfold Data.getConcatDims. intros H.
  destruct (foldM _ ts 0%nat) as [c|]; cbn [obind] in H; [|discriminate].
  destruct (nth_error ts 0) as [t0|]; cbn [obind] in H; [|discriminate].
  destruct (setNth (dims t0) dm c) as [r'|] eqn:E; cbn [obind] in H; [|discriminate].
  inversion H; subst. eapply setNth_length; eauto.
Qed.

Theorem data_initConcatResultTensor (ts : list (tensor A)) (ds : list nat) (r : nd A) fuel depth (s : St) :
  (dim < depth)%nat ->
  Data.concatD ts dim = Some (mkT ds r) ->
  exists g l,
    dexec fapp St ext (callLD fapp St ext locals fuel depth) fuel true (dbody (pmain d_initConcatResultTensor)) s
          [("ts", etensors ts); ("dim", DI (Z.of_nat dim))] [] = DRet St [dnats ds; emb r] s g l.
Proof.
  intros Hdepth Hc. unfold Data.concatD in Hc.
  match type of Hc with (do copies <- mapM ?F0 _; _) = _ => set (F := F0) in * end.
  destruct (mapM F ts) as [copies|] eqn:Em; cbn [obind] in Hc; [|discriminate].
  destruct (Data.getConcatDims ts dim) as [ds'|] eqn:Eg; cbn [obind] in Hc; [|discriminate].
  destruct (Data.fillCat dim ds' copies) as [r'|] eqn:Ef; cbn [obind] in Hc; [|discriminate].
  inversion Hc; subst ds' r'. clear Hc.
  destruct (mapM_nth F ts copies Em) as [Hcl Hcn].
  destruct depth as [|d]; [lia|].
  generalize (fillCat_call dim ds copies r 0 DNil d fuel).
  generalize (callLD fapp St ext locals fuel (S d)) as cl. intros cl Hcall.
  unfold d_initConcatResultTensor. cbn [pmain dbody]. dxs.
  unfold etensors. rewrite dlen_nonneg. dxs. rewrite dlen_map, Nat2Z.id.
  set (n := length ts).
  pose (P := fun (j : nat) (s' : St) (gj lj : denv) =>
    s' = s /\ lj = [] /\
    dlookup gj "ts" = Some (DL (map etensor ts)) /\
    dlookup gj "dim" = Some (DI (Z.of_nat dim)) /\
    dlookup gj "o.data" = Some DNil /\
    dlookup gj "tsDataCopy" = Some (DL (partial copies n j))).
  pose (Q := fun o : @doutcome A St => exists g', o = DNormal St s g' [] /\ P n s g' []).
  match goal with |- context [drangeLoop St ?b ?asg ?m 0 s ?g0 []] =>
    assert (HQ : Q (drangeLoop St b asg m 0 s g0 []));
    [ refine (drangeLoop_rule St P Q b asg m _ _ 0%nat s g0 [] _ _) | ]
  end.
  - intros j s' gj lj v (-> & -> & Hts & Hdm & Hod & Htd) Hn.
    apply nth_error_map_inv in Hn. destruct Hn as [t [Ht ->]].
    destruct (Hcn j t Ht) as [y [HFt Hy]]. unfold F in HFt.
    destruct (Data.slice t []) as [c|] eqn:Es; cbn [obind] in HFt; [|discriminate].
    inversion HFt; subst y. clear HFt.
    cbv beta. left.
    match goal with |- exists s1 g1 l1, (?b = _ \/ _) /\ _ =>
      assert (Hb : exists g5, b = DNormal St s g5 [] /\ P (S j) s g5 [])
    end.
    2:{ destruct Hb as [g5 [Hb HP]]. exists s, g5, []. split; [left; exact Hb | exact HP]. }
    autorewrite with dataexec. cbn [devals deval].
    erewrite vlookup_main_eq by lk.
    rewrite (ext_slice t c s Es). cbn [dassignAll vdefine].
    autorewrite with dataexec. cbn [deval].
    erewrite (vlookup_main_eq _ "tc") by lk. erewrite (vlookup_main_eq _ "i") by lk.
    unfold etensor at 1. cbn beta iota.
    change (didx 1) with (Some 1%nat). cbn [nth_error]. rewrite didx_nat.
    unfold setSlot. erewrite (vlookup_main_eq _ "tsDataCopy") by lk. cbn beta iota.
    rewrite (partial_set copies n j (data c) Hcl Hy). rewrite vassign_main.
    eexists. split; [reflexivity|].
    unfold P. repeat split; lk.
  - intros s0 g0 l HP. rewrite map_length in HP. fold n in HP.
    assert (s0 = s /\ l = []) as [-> ->] by (destruct HP as (? & ? & _); auto).
    exists g0. split; [reflexivity | exact HP].
  - lia.
  - unfold P. rewrite partial_0. repeat split; reflexivity.
  - destruct HQ as [g1 [HQ (_ & _ & Hts & Hdm & Hod & Htd)]]. rewrite HQ. clear HQ P Q.
    rewrite (partial_full copies n Hcl) in Htd.
    autorewrite with dataexec. cbn [devals deval].
    erewrite (vlookup_main_eq _ "ts") by lk. erewrite (vlookup_main_eq _ "dim") by lk.
    fold (etensors ts). rewrite (ext_getConcatDims ts dim ds s Eg).
    cbn [dassignAll]. rewrite vassign_main.
    autorewrite with dataexec. cbn [argVals deval].
    erewrite (vlookup_main_eq _ "o.dims") by lk. erewrite (vlookup_main_eq _ "o.data") by lk.
    erewrite (vlookup_main_eq _ "tsDataCopy") by lk. cbn beta iota.
    change (@DI A 0) with (@DI A (Z.of_nat 0)).
    rewrite Hcall; [| lia | eapply getConcatDims_length; eauto | lia | lk | exact Ef].
    cbn [copyOut]. rewrite vassign_main.
    autorewrite with dataexec. cbn [devals deval].
    erewrite (vlookup_main_eq _ "o.dims") by lk. erewrite (vlookup_main_eq _ "o.data") by lk.
    eexists. eexists. reflexivity.
Qed.

(* the same through [drun] *)
Corollary drun_initConcatResultTensor (ts : list (tensor A)) (ds : list nat) (r : nd A) fuel depth (s : St) :
  (dim < depth)%nat ->
  Data.concatD ts dim = Some (mkT ds r) ->
  exists g l,
    drun fapp St ext d_initConcatResultTensor fuel depth [etensors ts; DI (Z.of_nat dim)] s =
    DRet St [dnats ds; emb r] s g l.
Proof. intros Hd Hc. unfold drun. cbn [pmain d_initConcatResultTensor dparams dbind]. exact (data_initConcatResultTensor ts ds r fuel depth s Hd Hc). Qed.




End DataConcat.

Check @fillCat_call.
Check @data_initConcatResultTensor.
Check @drun_initConcatResultTensor.
Print Assumptions fillCat_call.
Print Assumptions data_initConcatResultTensor.
Print Assumptions drun_initConcatResultTensor.

(* ---------- concrete runs over the free term algebra ---------- *)
Module ConcatExample.
Definition tt1 (n : nat) : tensor term :=
  mkT [2; 2; 1]%nat (Vec [Vec [Vec [Sc (TNat n)]; Vec [Sc (TNat (n + 1))]];
                          Vec [Vec [Sc (TNat (n + 2))]; Vec [Sc (TNat (n + 3))]]]).
(* toy oracle: slice(nil) of a well-formed tensor is a copy; getConcatDims answers with the model's value *)
Definition ext0 (cd : option (list nat)) (f : string) (vs : list (@dval term)) (s : unit)
  : option (list (@dval term) * unit) :=
  if String.eqb f "slice" then match vs with [t; _] => Some ([t], s) | _ => None end
  else if String.eqb f "getConcatDims" then match cd with Some ds => Some ([dnats ds], s) | None => None end
  else None.
Definition run (ts : list (tensor term)) (dm : nat) :=
  drun (fun _ _ => None) unit (ext0 (getConcatDims ts dm)) d_initConcatResultTensor 10 10
       [DL (map (fun t => DL [dnats (dims t); emb (data t)]) ts); DI (Z.of_nat dm)] tt.
Example concat_dim0 : exists g l, run [tt1 0; tt1 10] 0 =
  DRet unit (match concatD [tt1 0; tt1 10] 0 with Some t => [dnats (dims t); emb (data t)] | None => [] end) tt g l.
Proof. vm_compute. eauto. Qed.
Example concat_dim1 : exists g l, run [tt1 0; tt1 10] 1 =
  DRet unit (match concatD [tt1 0; tt1 10] 1 with Some t => [dnats (dims t); emb (data t)] | None => [] end) tt g l.
Proof. vm_compute. eauto. Qed.
Example concat_dim2 : exists g l, run [tt1 0; tt1 10] 2 =
  DRet unit (match concatD [tt1 0; tt1 10] 2 with Some t => [dnats (dims t); emb (data t)] | None => [] end) tt g l.
Proof. vm_compute. eauto. Qed.

(* model / Go discrepancy outside the reach of concatD: with depth = dim the Go closure reads dims[0]
   (make([]any, 0, dims[0])) and panics on empty dims, Data.fillCat 0 [] does not look at the dims *)
Example fillCat_empty_dims_model : fillCat (A := term) 0 [] [Vec []] = Some (Vec []).
Proof. reflexivity. Qed.
Example fillCat_empty_dims_go :
  callLD (fun _ _ => None) unit (ext0 None) (plocals d_initConcatResultTensor) 10 10 "fillCat"
         [dnats []; DNil; DL [DL []]; DI 0] tt [("dim", DI 0)] = CPanic unit.
Proof. vm_compute. reflexivity. Qed.
End ConcatExample.
