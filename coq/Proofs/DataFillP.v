(* DataFillP.v — CPUTensor.initWith (tensor/internal/cputensor/initializers.go) as translated by harness/gox into the
   DataIR program GoData.d_initWith computes Model/Fill.v fill / initWith.  The oracle state is the generator state. *)
From Coq Require Import String List ZArith Bool Lia Arith.
From Qeep Require Import Model.Scalar Model.Nd Model.Fill Model.DataIR Model.GoData Proofs.DataIRP Proofs.DataAtP.
From Qeep Require Model.GoIR.
Import ListNotations.
Local Open Scope string_scope.
Local Open Scope Z_scope.
Local Open Scope list_scope.

Section DataFill.
Context {A : Type} {SA : Scalar A}.
Variable fapp : string -> list A -> option A.
Variable G : Type.
Variable gen : G -> option (nd A * G).
Variable ext : string -> list (@dval A) -> G -> option (list (@dval A) * G).
Hypothesis ext_initFunc :
  forall s, ext "initFunc" [] s = match gen s with Some (e, s') => Some ([emb e], s') | None => None end.

Notation denv := (@denv A).
Notation dval := (@dval A).

(* assignment to an existing local of the closure invocation *)
Lemma vassign_local (g l : denv) x (v : dval) :
  dhas l x = true -> vassign false g l x v = (g, dupd l x v).
Proof. unfold vassign. now intros ->. Qed.

Lemma dhas_true (l : denv) x (v : dval) : dlookup l x = Some v -> dhas l x = true.
Proof. unfold dhas. now intros ->. Qed.

Lemma setNthD_mid (pre post : list dval) (v0 v : dval) :
  setNthD (pre ++ v0 :: post) (length pre) v = Some (pre ++ v :: post).
Proof. induction pre as [|a pre IH]; cbn; [reflexivity | now rewrite IH]. Qed.

Lemma nth_error_mid (pre post : list dval) (v0 : dval) : nth_error (pre ++ v0 :: post) (length pre) = Some v0.
Proof. induction pre as [|a pre IH]; cbn; [reflexivity | exact IH]. Qed.

(* ---------- the loop  for i := range rows { fill(dims, &rows[i]) }  for an abstract body ---------- *)
Section Loop.
Variable r : list nat.
Variable body : G -> denv -> denv -> @doutcome A G.
Variable assign : denv -> denv -> Z -> dval -> denv * denv.
Hypothesis Hassign : forall g l k v, assign g l k v = (g, dupd (dupd l "i" (DI k)) "_" v).
Hypothesis Hbody : forall s g l (pre : list (nd A)) (post : list dval) v0,
  dlookup l "dims" = Some (dnats r) ->
  dlookup l "rows" = Some (DL (map emb pre ++ v0 :: post)) ->
  dlookup l "i" = Some (DI (Z.of_nat (length pre))) ->
  body s g l = match fill r gen s with
               | Some (x, s') => DNormal G s' g (dupd l "rows" (DL (map emb pre ++ emb x :: post)))
               | None => DPanic G
               end.

Lemma fill_loop : forall n (pre : list (nd A)) s g l,
  dlookup l "dims" = Some (dnats r) -> dhas l "data" = true ->
  dlookup l "rows" = Some (DL (map emb pre ++ repeat DNil n)) ->
  match rep n (fill r gen) s with
  | Some (xs, s') =>
      exists l', drangeLoop G body assign (repeat DNil n) (Z.of_nat (length pre)) s g l = DNormal G s' g l' /\
                 dlookup l' "rows" = Some (DL (map emb (pre ++ xs))) /\ dhas l' "data" = true
  | None => drangeLoop G body assign (repeat DNil n) (Z.of_nat (length pre)) s g l = DPanic G
  end.
Proof.
  induction n as [|n IH]; intros pre s g l Hd Hdat Hr.
  - cbn [rep repeat drangeLoop]. exists l. rewrite app_nil_r in *. auto.
  - cbn [rep repeat drangeLoop]. rewrite Hassign.
    set (l0 := dupd (dupd l "i" (DI (Z.of_nat (length pre)))) "_" DNil).
    assert (Hd0 : dlookup l0 "dims" = Some (dnats r)).
    { unfold l0. rewrite !dlookup_dupd. cbn [String.eqb Ascii.eqb Bool.eqb]. exact Hd. }
    assert (Hr0 : dlookup l0 "rows" = Some (DL (map emb pre ++ DNil :: repeat DNil n))).
    { unfold l0. rewrite !dlookup_dupd. cbn [String.eqb Ascii.eqb Bool.eqb]. exact Hr. }
    assert (Hi0 : dlookup l0 "i" = Some (DI (Z.of_nat (length pre)))).
    { unfold l0. rewrite !dlookup_dupd. cbn [String.eqb Ascii.eqb Bool.eqb]. reflexivity. }
    assert (Hdat0 : dhas l0 "data" = true).
    { unfold l0. rewrite !dhas_dupd. cbn [String.eqb Ascii.eqb Bool.eqb]. exact Hdat. }
    rewrite (Hbody s g l0 pre (repeat DNil n) DNil Hd0 Hr0 Hi0).
    destruct (fill r gen s) as [[x s1]|]; cbn [obind]; [|reflexivity].
    set (l1 := dupd l0 "rows" (DL (map emb pre ++ emb x :: repeat DNil n))).
    specialize (IH (pre ++ [x]) s1 g l1).
    replace (Z.of_nat (length (pre ++ [x]))) with (Z.of_nat (length pre) + 1) in IH
      by (rewrite app_length; cbn [length]; lia).
    assert (Hd1 : dlookup l1 "dims" = Some (dnats r)).
    { unfold l1. rewrite dlookup_dupd. cbn [String.eqb Ascii.eqb Bool.eqb]. exact Hd0. }
    assert (Hdat1 : dhas l1 "data" = true).
    { unfold l1. rewrite dhas_dupd. cbn [String.eqb Ascii.eqb Bool.eqb]. exact Hdat0. }
    assert (Hr1 : dlookup l1 "rows" = Some (DL (map emb (pre ++ [x]) ++ repeat DNil n))).
    { unfold l1. rewrite dlookup_dupd. cbn [String.eqb Ascii.eqb Bool.eqb].
      rewrite map_app, <- app_assoc. reflexivity. }
    specialize (IH Hd1 Hdat1 Hr1).
    destruct (rep n (fill r gen) s1) as [[xs s2]|]; cbn [obind].
    + destruct IH as [l' [H1 [H2 H3]]]. exists l'. rewrite <- app_assoc in H2. auto.
    + exact IH.
Qed.
End Loop.

Lemma sub_tail (x : dval) (m : list dval) :
  (if (0 <=? 1) && (1 <=? dlen (x :: m)) && (dlen (x :: m) <=? dlen (x :: m))
   then Some (DL (firstn (Z.to_nat (dlen (x :: m) - 1)) (skipn (Z.to_nat 1) (x :: m))))
   else None) = Some (DL m).
Proof.
  unfold dlen. cbn [length].
  replace ((0 <=? 1) && (1 <=? Z.of_nat (S (length m))) && (Z.of_nat (S (length m)) <=? Z.of_nat (S (length m)))) with true.
  2:{ symmetry. rewrite !andb_true_iff, !Z.leb_le. lia. }
  replace (Z.to_nat (Z.of_nat (S (length m)) - 1)) with (length m) by lia.
  change (Z.to_nat 1) with 1%nat. cbn [skipn]. now rewrite firstn_all.
Qed.

Lemma map_length_nth_mid (pre : list (nd A)) (post : list dval) (v0 : dval) :
  nth_error (map emb pre ++ v0 :: post) (length pre) = Some v0.
Proof. rewrite <- (map_length emb pre). apply nth_error_mid. Qed.

Lemma map_length_set_mid (pre : list (nd A)) (post : list dval) (v0 v : dval) :
  setNthD (map emb pre ++ v0 :: post) (length pre) v = Some (map emb pre ++ v :: post).
Proof. rewrite <- (map_length emb pre). apply setNthD_mid. Qed.

Lemma fill_closure : forall (ds : list nat) (d fuel : nat) (v : dval) (s : G) (g : denv),
  (length ds <= d)%nat ->
  callLD fapp G ext (plocals d_initWith) fuel (S d) "fill" [dnats ds; v] s g =
  match fill ds gen s with
  | Some (x, s') => CRet G [emb x] s' g
  | None => CPanic G
  end.
Proof.
  induction ds as [|d0 r IH]; intros d fuel v s g Hd.
  - unfold d_initWith. cbn [callLD dlookupFn plocals String.eqb Ascii.eqb Bool.eqb dbind dparams dbody].
    set (cl := callLD fapp G ext _ fuel d). cbn [tseq].
    rewrite dexec_TSeq, dexec_TIf. unfold dnats.
    cbn [deval vlookup dlookup String.eqb Ascii.eqb Bool.eqb map dlen length Z.of_nat devalBin Z.eqb].
    rewrite dexec_TSeq, dexec_TExt. cbn [devals]. rewrite ext_initFunc. cbn [fill].
    destruct (gen s) as [[e s']|]; [|reflexivity].
    cbn [dassignAll]. rewrite vassign_local by reflexivity.
    rewrite dexec_TRet. cbn [devals dupd String.eqb Ascii.eqb Bool.eqb ptrOuts dlookup].
    reflexivity.
  - unfold d_initWith. cbn [callLD dlookupFn plocals String.eqb Ascii.eqb Bool.eqb dbind dparams dbody].
    set (cl := callLD fapp G ext _ fuel d).
    assert (Hcl : forall v s g,
              cl "fill" [dnats r; v] s g =
              match fill r gen s with Some (x, s') => CRet G [emb x] s' g | None => CPanic G end).
    { intros v1 s1 g1. subst cl. destruct d as [|d]; [cbn [length] in Hd; lia|].
      apply IH. cbn [length] in Hd; lia. }
    clearbody cl. cbn [tseq].
    rewrite dexec_TSeq, dexec_TIf. unfold dnats at 1.
    cbn [deval vlookup dlookup String.eqb Ascii.eqb Bool.eqb map dlen length Z.of_nat devalBin Z.eqb].
    rewrite dexec_TSkip.
    rewrite dexec_TSeq, dexec_TDef.
    cbn [deval vlookup dlookup String.eqb Ascii.eqb Bool.eqb map].
    unfold dnats at 1. cbn [map]. change (didx 0) with (Some 0%nat). cbn [nth_error].
    rewrite Zle0_nat, Nat2Z.id. unfold vdefine.
    cbn [dupd String.eqb Ascii.eqb Bool.eqb].
    rewrite dexec_TSeq, dexec_TSet.
    cbn [deval vlookup dlookup String.eqb Ascii.eqb Bool.eqb].
    unfold dnats at 1. cbn [map]. rewrite sub_tail.
    change (DL (map (fun n : nat => @DI A (Z.of_nat n)) r)) with (@dnats A r).
    rewrite vassign_local by reflexivity.
    cbn [dupd String.eqb Ascii.eqb Bool.eqb].
    rewrite dexec_TSeq, dexec_TRange.
    cbn [deval vlookup dlookup String.eqb Ascii.eqb Bool.eqb].
    match goal with |- context [drangeLoop G ?b ?asg _ _ _ _ _] =>
      pose proof (fill_loop r b asg) as HL
    end.
    match type of HL with ?P -> _ => assert (Hassign : P) end.
    { intros g1 l1 k v1. reflexivity. }
    specialize (HL Hassign).
    match type of HL with ?P -> _ => assert (Hbody : P) end.
    { intros s1 g1 l1 pre post v0 Hdims Hrows Hi.
      rewrite dexec_TCall. cbn [argVals deval].
      rewrite (vlookup_local g1 l1 _ _ Hdims), (vlookup_local g1 l1 _ _ Hrows), (vlookup_local g1 l1 _ _ Hi).
      rewrite didx_nat, map_length_nth_mid, (Hcl v0 s1 g1).
      destruct (fill r gen s1) as [[x s2]|]; [|reflexivity].
      cbn [copyOut deval]. rewrite (vlookup_local g1 l1 _ _ Hi), didx_nat.
      unfold setSlot. rewrite (vlookup_local g1 l1 _ _ Hrows), map_length_set_mid.
      rewrite vassign_local by (eapply dhas_true; exact Hrows). reflexivity. }
    match goal with |- context [drangeLoop G _ _ _ _ s g ?l0] =>
      specialize (HL Hbody d0 [] s g l0 eq_refl eq_refl eq_refl)
    end.
    cbn [length Z.of_nat] in HL. cbn [fill].
    destruct (rep d0 (fill r gen) s) as [[xs s2]|]; cbn [obind].
    + destruct HL as [l' [HL1 [HL2 HL3]]]. rewrite HL1.
      rewrite dexec_TSet. cbn [deval]. rewrite (vlookup_local g l' _ _ HL2).
      rewrite vassign_local by exact HL3.
      cbn [ptrOuts]. rewrite dlookup_dupd. cbn [String.eqb Ascii.eqb Bool.eqb app].
      rewrite emb_Vec. reflexivity.
    + rewrite HL. reflexivity.
Qed.


(* ---------- the top-level function ---------- *)
Theorem data_initWith_body (fuel depth : nat) (ds : list nat) (v0 : dval) (s : G) :
  (length ds < depth)%nat ->
  dexec fapp G ext (callLD fapp G ext (plocals d_initWith) fuel depth) fuel true (dbody (pmain d_initWith)) s
        [("t.dims", dnats ds); ("t.data", v0)] [] =
  match fill ds gen s with
  | Some (r, s') => DNormal G s' [("t.dims", dnats ds); ("t.data", emb r)] []
  | None => DPanic G
  end.
Proof.
  intros Hd. destruct depth as [|d]; [lia|].
  set (locs := plocals d_initWith).
  unfold d_initWith. cbn [pmain dbody tseq].
  rewrite dexec_TSeq, dexec_TSkip, dexec_TCall.
  cbn [argVals deval vlookup dlookup String.eqb Ascii.eqb Bool.eqb].
  subst locs. rewrite fill_closure by lia.
  destruct (fill ds gen s) as [[r s']|]; [|reflexivity].
  cbn [copyOut vassign dhas dlookup dupd String.eqb Ascii.eqb Bool.eqb]. reflexivity.
Qed.

Theorem data_initWith_run (fuel depth : nat) (ds : list nat) (v0 : dval) (s : G) :
  (length ds < depth)%nat ->
  drun fapp G ext d_initWith fuel depth [dnats ds; v0] s =
  match fill ds gen s with
  | Some (r, s') => DNormal G s' [("t.dims", dnats ds); ("t.data", emb r)] []
  | None => DPanic G
  end.
Proof.
  intros Hd. unfold drun.
  change (dbind (dparams (pmain d_initWith)) [dnats ds; v0]) with (Some [("t.dims", dnats ds); ("t.data", v0)]).
  apply data_initWith_body; exact Hd.
Qed.

(* in the terms of the task: unset t.data, model result Fill.initWith *)
Corollary data_initWith (fuel depth : nat) (ds : list nat) (s : G) (r : nd A) :
  (length ds < depth)%nat ->
  initWith ds gen s = Some r ->
  exists s' g',
    fill ds gen s = Some (r, s') /\
    dexec fapp G ext (callLD fapp G ext (plocals d_initWith) fuel depth) fuel true (dbody (pmain d_initWith)) s
          [("t.dims", dnats ds); ("t.data", DNil)] [] = DNormal G s' g' [] /\
    dlookup g' "t.data" = Some (emb r) /\ dlookup g' "t.dims" = Some (dnats ds).
Proof.
  intros Hd Hi. unfold initWith in Hi.
  pose proof (data_initWith_body fuel depth ds DNil s Hd) as HB.
  destruct (fill ds gen s) as [[r' s']|]; cbn [obind fst] in Hi; [|discriminate].
  inversion Hi; subst r'. exists s', [("t.dims", dnats ds); ("t.data", emb r)].
  repeat split; [exact HB].
Qed.

Corollary data_initWith_panic (fuel depth : nat) (ds : list nat) (v0 : dval) (s : G) :
  (length ds < depth)%nat ->
  initWith ds gen s = None ->
  drun fapp G ext d_initWith fuel depth [dnats ds; v0] s = DPanic G.
Proof.
  intros Hd Hi. rewrite data_initWith_run by exact Hd. unfold initWith in Hi.
  destruct (fill ds gen s) as [[r' s']|]; cbn [obind] in Hi; [discriminate | reflexivity].
Qed.

End DataFill.

(* ---------- concrete runs (scalars = the free term algebra of Model/Scalar.v) ---------- *)
Definition ext_of {A G} (gen : G -> option (nd A * G)) : string -> list (@dval A) -> G -> option (list (@dval A) * G) :=
  fun f vs s =>
    if String.eqb f "initFunc"
    then match vs with
         | [] => match gen s with Some (e, s') => Some ([emb e], s') | None => None end
         | _ => None
         end
    else None.

Lemma ext_of_spec {A G} (gen : G -> option (nd A * G)) s :
  ext_of gen "initFunc" [] s = match gen s with Some (e, s') => Some ([emb e], s') | None => None end.
Proof. reflexivity. Qed.

(* eyeMatrix(2): the generator state counts the elements produced; fuel 0 suffices (no for loop), depth = rank + 1 *)
Example initWith_eye2 :
  drun (fun _ _ => None) nat (ext_of (@eyeGen term _ 2)) d_initWith 0 3 [dnats [2; 2]%nat; DNil] 0%nat =
  DNormal nat 4%nat [("t.dims", dnats [2; 2]%nat);
                     ("t.data", emb (Vec [Vec [Sc s1; Sc s0]; Vec [Sc s0; Sc s1]]))] [].
Proof. vm_compute. reflexivity. Qed.

(* a dimension of size 0: the generator is never called *)
Example initWith_empty :
  drun (fun _ _ => None) nat (ext_of (@eyeGen term _ 2)) d_initWith 0 3 [dnats [0; 3]%nat; DNil] 0%nat =
  DNormal nat 0%nat [("t.dims", dnats [0; 3]%nat); ("t.data", emb (Vec []))] [].
Proof. vm_compute. reflexivity. Qed.

(* a generator that fails on its 4th call: panic, as Fill.fill = None *)
Example initWith_panics :
  drun (fun _ _ => None) nat
       (ext_of (fun k : nat => if (k <? 3)%nat then Some (Sc (s0 : term), S k) else None))
       d_initWith 0 3 [dnats [2; 2]%nat; DNil] 0%nat = DPanic nat.
Proof. vm_compute. reflexivity. Qed.

(* too little closure depth is reported as DFuel, not as a result *)
Example initWith_depth :
  drun (fun _ _ => None) nat (ext_of (@eyeGen term _ 2)) d_initWith 0 2 [dnats [2; 2]%nat; DNil] 0%nat = DFuel nat.
Proof. vm_compute. reflexivity. Qed.

Print Assumptions fill_closure.
Print Assumptions data_initWith_body.
Print Assumptions data_initWith_run.
Print Assumptions data_initWith.
Print Assumptions data_initWith_panic.
