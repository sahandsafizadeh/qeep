(* DataIRP.v — infrastructure for reasoning about DataIR programs (Model/DataIR.v): environment facts, one-step
   unfolding of [dexec], loop rules.  Mirrors Proofs/GoIRP.v. *)
From Coq Require Import String List ZArith Bool Lia Arith.
From Qeep Require Import Model.Scalar Model.Nd Model.DataIR.
From Qeep Require Model.GoIR.
Import ListNotations.
Local Open Scope Z_scope.

Section DataIRP.
Context {A : Type} {SA : Scalar A}.
Notation dval := (@dval A).
Notation denv := (@denv A).
Notation cres := (@cres A).

Lemma dlookup_dupd (e : denv) (x y : string) (v : dval) :
  dlookup (dupd e x v) y = if String.eqb y x then Some v else dlookup e y.
Proof.
  induction e as [|[z w] e IH]; cbn.
  - reflexivity.
  - destruct (String.eqb x z) eqn:Exz; cbn.
    + apply String.eqb_eq in Exz; subst z. destruct (String.eqb y x); reflexivity.
    + rewrite IH. destruct (String.eqb y z) eqn:Eyz; [|reflexivity].
      apply String.eqb_eq in Eyz; subst z.
      destruct (String.eqb y x) eqn:Eyx; [|reflexivity].
      apply String.eqb_eq in Eyx; subst y. rewrite String.eqb_refl in Exz. discriminate.
Qed.

Lemma dhas_dupd (e : denv) (x y : string) (v : dval) :
  dhas (dupd e x v) y = if String.eqb y x then true else dhas e y.
Proof. unfold dhas. rewrite dlookup_dupd. destruct (String.eqb y x); reflexivity. Qed.

(* lookup after an assignment, whichever environment received it *)
Lemma vlookup_vassign (atMain : bool) (g l : denv) (x y : string) (v : dval) :
  let '(g1, l1) := vassign atMain g l x v in
  vlookup g1 l1 y = if String.eqb y x then Some v else vlookup g l y.
Proof.
  unfold vassign, vlookup.
  destruct (dhas l x) eqn:Hl.
  - rewrite dlookup_dupd. destruct (String.eqb y x); reflexivity.
  - assert (Hlx : dlookup l x = None) by (unfold dhas in Hl; destruct (dlookup l x); [discriminate|reflexivity]).
    destruct (dhas g x) eqn:Hg.
    + rewrite dlookup_dupd. destruct (String.eqb y x) eqn:E.
      * apply String.eqb_eq in E; subst y. now rewrite Hlx.
      * reflexivity.
    + destruct atMain.
      * rewrite dlookup_dupd. destruct (String.eqb y x) eqn:E.
        -- apply String.eqb_eq in E; subst y. now rewrite Hlx.
        -- reflexivity.
      * rewrite dlookup_dupd. destruct (String.eqb y x); reflexivity.
Qed.

Lemma vlookup_vdefine_local (g l : denv) (x y : string) (v : dval) :
  let '(g1, l1) := vdefine false g l x v in
  g1 = g /\ vlookup g1 l1 y = if String.eqb y x then Some v else vlookup g l y.
Proof.
  unfold vdefine, vlookup. split; [reflexivity|]. rewrite dlookup_dupd. destruct (String.eqb y x); reflexivity.
Qed.

Lemma vlookup_vdefine_main (g : denv) (x y : string) (v : dval) :
  let '(g1, l1) := vdefine true g [] x v in
  l1 = [] /\ vlookup g1 l1 y = if String.eqb y x then Some v else vlookup g [] y.
Proof.
  unfold vdefine, vlookup. split; [reflexivity|]. cbn [dlookup]. rewrite dlookup_dupd. reflexivity.
Qed.

Lemma Zle0_nat (n : nat) : (0 <=? Z.of_nat n) = true.
Proof. apply Z.leb_le. lia. Qed.

Lemma didx_nat (n : nat) : didx (Z.of_nat n) = Some n.
Proof. unfold didx. destruct (0 <=? Z.of_nat n) eqn:E; [now rewrite Nat2Z.id | apply Z.leb_gt in E; lia]. Qed.
Lemma didx_nonneg (z : Z) : 0 <= z -> didx z = Some (Z.to_nat z).
Proof. unfold didx; intros H. destruct (0 <=? z) eqn:E; [reflexivity | apply Z.leb_gt in E; lia]. Qed.
Lemma didx_neg (z : Z) : z < 0 -> didx z = None.
Proof. unfold didx; intros H. destruct (0 <=? z) eqn:E; [apply Z.leb_le in E; lia | reflexivity]. Qed.

Lemma dlen_map {T} (f : T -> dval) (l : list T) : dlen (map f l) = Z.of_nat (length l).
Proof. unfold dlen; now rewrite map_length. Qed.
Lemma dlen_nonneg (m : list dval) : (0 <=? dlen m) = true.
Proof. apply Z.leb_le. unfold dlen. lia. Qed.
Lemma dlen_cons_eqb (x : dval) m : (dlen (x :: m) =? 0) = false.
Proof. unfold dlen. cbn [length]. apply Z.eqb_neq. lia. Qed.

Lemma vlookup_local (g l : denv) x (v : dval) : dlookup l x = Some v -> vlookup g l x = Some v.
Proof. unfold vlookup. now intros ->. Qed.

(* at main level (no local frame) every assignment goes to the frame of the function *)
Lemma vassign_main (g : denv) x (v : dval) : vassign true g [] x v = (dupd g x v, []).
Proof. unfold vassign. cbn [dhas dlookup]. destruct (dhas g x); reflexivity. Qed.
Lemma vdefine_main (g : denv) x (v : dval) : vdefine true g [] x v = (dupd g x v, []).
Proof. reflexivity. Qed.

Lemma setNthD_same (m : list dval) n v : nth_error m n = Some v -> setNthD m n v = Some m.
Proof.
  revert n; induction m as [|x m IH]; intros [|n] H; cbn in *; try discriminate.
  - now inversion H.
  - now rewrite (IH n H).
Qed.
Lemma setNthD_app (pre : list dval) a tl v : setNthD (pre ++ a :: tl) (length pre) v = Some (pre ++ v :: tl).
Proof. induction pre as [|p pre IH]; cbn; [reflexivity | now rewrite IH]. Qed.

(* the embedding of the model's nested data *)
Lemma emb_Vec (l : list (nd A)) : emb (Vec l) = DL (map emb l).
Proof. cbn [emb]. apply f_equal. induction l as [|y r IH]; cbn [map]; [reflexivity | f_equal; exact IH]. Qed.
Lemma nth_error_map_emb (l : list (nd A)) n : nth_error (map emb l) n = option_map emb (nth_error l n).
Proof. revert n; induction l as [|a l IH]; intros [|n]; cbn; auto. Qed.

Section ExecEq.
Variable fapp : string -> list A -> option A.
Variables (St : Type) (ext : string -> list dval -> St -> option (list dval * St)).
Variables (callL : string -> list dval -> St -> denv -> cres St) (fuel : nat) (atMain : bool).
Notation ex := (dexec fapp St ext callL fuel atMain).
Notation ev := (deval fapp).

Lemma dexec_TSkip s g l : ex TSkip s g l = DNormal St s g l. Proof. reflexivity. Qed.
Lemma dexec_TDef x e s g l :
  ex (TDef x e) s g l = match ev g l e with
                        | Some v => let '(g1, l1) := vdefine atMain g l x v in DNormal St s g1 l1
                        | None => DPanic St
                        end.
Proof. reflexivity. Qed.
Lemma dexec_TSet x e s g l :
  ex (TSet x e) s g l = match ev g l e with
                        | Some v => let '(g1, l1) := vassign atMain g l x v in DNormal St s g1 l1
                        | None => DPanic St
                        end.
Proof. reflexivity. Qed.
Lemma dexec_TSetIdx x i e s g l :
  ex (TSetIdx x i e) s g l =
  match ev g l e, ev g l i with
  | Some v, Some (DI z) =>
      match didx z with
      | Some n => match setSlot atMain g l x n v with Some (g1, l1) => DNormal St s g1 l1 | None => DPanic St end
      | None => DPanic St
      end
  | _, _ => DPanic St
  end.
Proof. reflexivity. Qed.
Lemma dexec_TCopy x e s g l :
  ex (TCopy x e) s g l =
  match vlookup g l x, ev g l e with
  | Some (DL d), Some (DL src) => let '(g1, l1) := vassign atMain g l x (DL (dcopyInto d src)) in DNormal St s g1 l1
  | _, _ => DPanic St
  end.
Proof. reflexivity. Qed.
Lemma dexec_TSeq a b s g l :
  ex (TSeq a b) s g l = match ex a s g l with DNormal _ s1 g1 l1 => ex b s1 g1 l1 | o => o end.
Proof. reflexivity. Qed.
Lemma dexec_TIf c a b s g l :
  ex (TIf c a b) s g l = match ev g l c with
                         | Some (DB true) => ex a s g l
                         | Some (DB false) => ex b s g l
                         | _ => DPanic St
                         end.
Proof. reflexivity. Qed.
Lemma dexec_TFor c post body s g l :
  ex (TFor c post body) s g l = dforLoop St fuel (fun g' l' => ev g' l' c) (ex body) (ex post) s g l.
Proof. reflexivity. Qed.
Lemma dexec_TRange i x a body s g l :
  ex (TRange i x a body) s g l =
  match ev g l a with
  | Some (DL m) =>
      drangeLoop St (ex body)
                 (fun g' l' k v => let '(g1, l1) := vdefine atMain g' l' i (DI k) in vdefine atMain g1 l1 x v)
                 m 0 s g l
  | _ => DPanic St
  end.
Proof. reflexivity. Qed.
Lemma dexec_TBreak s g l : ex TBreak s g l = DBreak St s g l. Proof. reflexivity. Qed.
Lemma dexec_TContinue s g l : ex TContinue s g l = DContinue St s g l. Proof. reflexivity. Qed.
Lemma dexec_TRet es s g l :
  ex (TRet es) s g l = match devals fapp g l es with Some vs => DRet St vs s g l | None => DPanic St end.
Proof. reflexivity. Qed.
Lemma dexec_TCall f args s g l :
  ex (TCall f args) s g l =
  match argVals fapp g l args with
  | Some vs =>
      match callL f vs s g with
      | CRet _ outs s1 g1 =>
          match copyOut fapp atMain g1 l args outs with
          | Some (g2, l2) => DNormal St s1 g2 l2
          | None => DPanic St
          end
      | CPanic _ => DPanic St
      | CFuel _ => DFuel St
      end
  | None => DPanic St
  end.
Proof. reflexivity. Qed.
Lemma dexec_TExt def xs f args s g l :
  ex (TExt def xs f args) s g l =
  match devals fapp g l args with
  | Some vs =>
      match ext f vs s with
      | Some (rs, s1) =>
          match dassignAll def atMain g l xs rs with
          | Some (g1, l1) => DNormal St s1 g1 l1
          | None => DPanic St
          end
      | None => DPanic St
      end
  | None => DPanic St
  end.
Proof. reflexivity. Qed.

(* straight-line code one statement at a time: the head statement runs in a goal of its own, so that no rewriting
   happens on a goal that holds the rest of the program *)
Lemma dexec_TSeq_normal a b s g l s1 g1 l1 o :
  ex a s g l = DNormal St s1 g1 l1 -> ex b s1 g1 l1 = o -> ex (TSeq a b) s g l = o.
Proof. intros Ha Hb. rewrite dexec_TSeq, Ha. exact Hb. Qed.
Lemma dexec_TSeq_panic a b s g l : ex a s g l = DPanic St -> ex (TSeq a b) s g l = DPanic St.
Proof. intros Ha. rewrite dexec_TSeq, Ha. reflexivity. Qed.
Lemma dexec_TSeq_assoc a b c s g l : ex (TSeq (TSeq a b) c) s g l = ex (TSeq a (TSeq b c)) s g l.
Proof. rewrite !dexec_TSeq. destruct (ex a s g l); reflexivity. Qed.
Lemma dexec_TExt_ok def xs f args s g l vs rs s1 g1 l1 :
  devals fapp g l args = Some vs -> ext f vs s = Some (rs, s1) ->
  dassignAll def atMain g l xs rs = Some (g1, l1) -> ex (TExt def xs f args) s g l = DNormal St s1 g1 l1.
Proof. intros Hv He Ha. rewrite dexec_TExt, Hv, He, Ha. reflexivity. Qed.
Lemma dexec_TExt_none def xs f args s g l vs :
  devals fapp g l args = Some vs -> ext f vs s = None -> ex (TExt def xs f args) s g l = DPanic St.
Proof. intros Hv He. rewrite dexec_TExt, Hv, He. reflexivity. Qed.
End ExecEq.

(* one layer of a closure call *)
Lemma callLD_S fapp St ext locals fuel d fn vs (s : St) (g : denv) :
  callLD fapp St ext locals fuel (S d) fn vs s g =
  match dlookupFn locals fn with
  | Some fd =>
      match dbind (dparams fd) vs with
      | Some l0 =>
          match dexec fapp St ext (callLD fapp St ext locals fuel d) fuel false (dbody fd) s g l0 with
          | DNormal _ s1 g1 l1 | DRet _ _ s1 g1 l1 =>
              match ptrOuts (dparams fd) l1 with Some outs => CRet St outs s1 g1 | None => CPanic St end
          | DFuel _ => CFuel St
          | _ => CPanic St
          end
      | None => CPanic St
      end
  | None => CPanic St
  end.
Proof. reflexivity. Qed.

Section Loops.
Variable St : Type.
Notation doutcome := (@DataIR.doutcome A St).

Lemma dforLoop_rule (P : St -> denv -> denv -> Prop) (Q : doutcome -> Prop) (m : St -> denv -> denv -> nat)
      (cond : denv -> denv -> option dval) (body post : St -> denv -> denv -> doutcome) :
  (forall s g l, P s g l ->
     (cond g l = Some (DB false) /\ Q (DNormal St s g l)) \/
     (cond g l = Some (DB true) /\
        ((exists s1 g1 l1, body s g l = DBreak St s1 g1 l1 /\ Q (DNormal St s1 g1 l1)) \/
         (exists vs s1 g1 l1, body s g l = DRet St vs s1 g1 l1 /\ Q (DRet St vs s1 g1 l1)) \/
         (exists s1 g1 l1 s2 g2 l2,
            (body s g l = DNormal St s1 g1 l1 \/ body s g l = DContinue St s1 g1 l1) /\
            post s1 g1 l1 = DNormal St s2 g2 l2 /\ P s2 g2 l2 /\ (m s2 g2 l2 < m s g l)%nat)))) ->
  forall s g l, P s g l -> forall fuel, (m s g l < fuel)%nat -> Q (dforLoop St fuel cond body post s g l).
Proof.
  intros Hstep s g l HP fuel. revert s g l HP.
  induction fuel as [|fuel IH]; intros s g l HP Hm; [lia|].
  cbn [dforLoop].
  destruct (Hstep s g l HP) as [[Hc HQ] | [Hc [[s1 [g1 [l1 [Hb HQ]]]] | [[vs [s1 [g1 [l1 [Hb HQ]]]]] |
     [s1 [g1 [l1 [s2 [g2 [l2 [Hb [Hp [HP2 Hlt]]]]]]]]]]]]]; rewrite Hc; auto.
  - now rewrite Hb.
  - now rewrite Hb.
  - assert (Hgo : Q (dforLoop St fuel cond body post s2 g2 l2)) by (apply IH; [exact HP2 | lia]).
    destruct Hb as [Hb | Hb]; rewrite Hb, Hp; exact Hgo.
Qed.

(* range: invariant P k before iteration k (k counts from [k0]) *)
Lemma drangeLoop_rule (P : nat -> St -> denv -> denv -> Prop) (Q : doutcome -> Prop)
      (body : St -> denv -> denv -> doutcome) (assign : denv -> denv -> Z -> dval -> denv * denv) (m : list dval) :
  (forall k s g l v, P k s g l -> nth_error m k = Some v ->
     let '(g0, l0) := assign g l (Z.of_nat k) v in
     (exists s1 g1 l1, (body s g0 l0 = DNormal St s1 g1 l1 \/ body s g0 l0 = DContinue St s1 g1 l1) /\ P (S k) s1 g1 l1) \/
     (exists s1 g1 l1, body s g0 l0 = DBreak St s1 g1 l1 /\ Q (DNormal St s1 g1 l1)) \/
     (exists vs s1 g1 l1, body s g0 l0 = DRet St vs s1 g1 l1 /\ Q (DRet St vs s1 g1 l1)) \/
     (body s g0 l0 = DPanic St /\ Q (DPanic St)) \/
     (body s g0 l0 = DFuel St /\ Q (DFuel St))) ->
  (forall s g l, P (length m) s g l -> Q (DNormal St s g l)) ->
  forall k s g l, (k <= length m)%nat -> P k s g l ->
  Q (drangeLoop St body assign (skipn k m) (Z.of_nat k) s g l).
Proof.
  intros Hstep Hend k s g l Hk HP.
  remember (length m - k)%nat as r eqn:Hr.
  revert k s g l Hk HP Hr. induction r as [|r IH]; intros k s g l Hk HP Hr.
  - assert (k = length m) by lia. subst k. rewrite skipn_all. cbn. now apply Hend.
  - destruct (nth_error m k) as [v|] eqn:Hn.
    2:{ apply nth_error_None in Hn. lia. }
    assert (Hs : skipn k m = v :: skipn (S k) m).
    { clear -Hn. revert k Hn. induction m as [|a m IHm]; intros [|k] Hn; cbn in *; try discriminate.
      - now inversion Hn.
      - now apply IHm. }
    rewrite Hs. cbn [drangeLoop].
    pose proof (Hstep k s g l v HP Hn) as Hst.
    destruct (assign g l (Z.of_nat k) v) as [g0 l0].
    destruct Hst as [[s1 [g1 [l1 [Hb HP1]]]] | [[s1 [g1 [l1 [Hb HQ]]]] | [[vs [s1 [g1 [l1 [Hb HQ]]]]] | [[Hb HQ] | [Hb HQ]]]]].
    + assert (Hgo : Q (drangeLoop St body assign (skipn (S k) m) (Z.of_nat (S k)) s1 g1 l1)).
      { apply IH; [ | exact HP1 | lia ].
        assert (k < length m)%nat by (apply nth_error_Some; congruence). lia. }
      replace (Z.of_nat k + 1) with (Z.of_nat (S k)) by lia.
      destruct Hb as [Hb | Hb]; rewrite Hb; exact Hgo.
    + now rewrite Hb.
    + now rewrite Hb.
    + now rewrite Hb.
    + now rewrite Hb.
Qed.
End Loops.

End DataIRP.

#[export] Hint Rewrite @dexec_TSkip @dexec_TDef @dexec_TSet @dexec_TSetIdx @dexec_TCopy @dexec_TSeq @dexec_TIf @dexec_TFor @dexec_TRange
  @dexec_TBreak @dexec_TContinue @dexec_TRet @dexec_TCall @dexec_TExt : dataexec.

#[global] Arguments dexec {A SA} fapp St ext callL fuel atMain !t s g !l /.

(* unfold the statement structure where [dexec] is applied to a concrete statement and a concrete environment,
   compute expressions over concrete names; never unfolds [dexec] under a loop or under a binder *)
Ltac dx := cbn [dexec tseq deval devals devalBin negb andb orb vlookup dlookup dupd dhas vassign vdefine String.eqb Ascii.eqb Bool.eqb
                argVals copyOut dassignAll setSlot fopF].
Ltac dxs := repeat (progress dx).

(* the same by rewriting with the equations above: for an environment that is a variable known through lookup
   hypotheses, where [cbn] does not fire *)
Ltac dxr := autorewrite with dataexec;
            cbn [tseq deval devals devalBin negb andb orb vlookup dlookup dupd dhas vassign vdefine String.eqb Ascii.eqb Bool.eqb
                 argVals copyOut dassignAll setSlot fopF].
Ltac dxrs := repeat (progress dxr).
