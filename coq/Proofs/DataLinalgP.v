(* DataLinalgP.v — dotProductOf1DInputs and matMulDataOf2DInputs (tensor/internal/cputensor/operators.go) as
   translated by harness/gox into the DataIR programs GoData.d_dotProductOf1DInputs / GoData.d_matMulDataOf2DInputs
   compute Model/Data.v dot1d / matmul2d (and panic exactly where the model returns None), for a scalar instance
   whose literal 0 is the model's zero (sconst 0 0 = s0) and with fuel above the longest loop. *)
From Coq Require Import String List ZArith Bool Lia Arith.
From Qeep Require Import Model.Scalar Model.Nd Model.Fill Model.Data Model.DataIR Model.GoData Proofs.DataIRP.
From Qeep Require Model.GoIR.
Import ListNotations.
Local Open Scope string_scope.
Local Open Scope Z_scope.
Local Open Scope list_scope.

(* stepping without unfolding [vlookup]/[vassign]: the captured environment is a variable, the local one is [[]] *)
Ltac dy := cbn [dexec tseq deval devals devalBin negb andb orb String.eqb Ascii.eqb Bool.eqb fopF].

Section Linalg.
Context {A : Type} {SA : Scalar A}.
Variable fapp : string -> list A -> option A.
Variables (St : Type) (ext : string -> list (@dval A) -> St -> option (list (@dval A) * St)).
Notation dval := (@dval A).
Notation denv := (@denv A).
Notation doutcome := (@DataIR.doutcome A St).

(* an assignment / a definition in the main frame (l = []), seen through lookups only *)
Lemma vassign_main (g : denv) (x : string) (v : dval) :
  let '(g1, l1) := vassign true g [] x v in
  l1 = [] /\ forall y, vlookup g1 l1 y = if String.eqb y x then Some v else vlookup g [] y.
Proof.
  pose proof (fun y => vlookup_vassign true g [] x y v) as H.
  assert (Hl : snd (vassign true g [] x v) = []).
  { unfold vassign. cbn [dhas dlookup]. destruct (dhas g x); reflexivity. }
  destruct (vassign true g [] x v) as [g1 l1]. cbn [snd] in Hl. split; assumption.
Qed.

Lemma vdefine_main (g : denv) (x : string) (v : dval) :
  let '(g1, l1) := vdefine true g [] x v in
  l1 = [] /\ forall y, vlookup g1 l1 y = if String.eqb y x then Some v else vlookup g [] y.
Proof.
  pose proof (fun y => vlookup_vdefine_main g x y v) as H.
  destruct (vdefine true g [] x v) as [g1 l1]. split; [exact (proj1 (H x)) | intros y; exact (proj2 (H y))].
Qed.

(* a counting loop  for i = i0; i < n; i++  is a foldM over seq *)
Section CountLoop.
Variables (T : Type) (f : T -> nat -> option T) (n : nat).
Variable Inv : nat -> T -> denv -> denv -> Prop.
Variables (cond : denv -> denv -> option dval) (body post : St -> denv -> denv -> doutcome).
Hypothesis Hcond : forall i acc g l, Inv i acc g l -> cond g l = Some (DB (Z.of_nat i <? Z.of_nat n)).
Hypothesis Hstep : forall i acc s g l, Inv i acc g l -> (i < n)%nat ->
  match f acc i with
  | Some acc' => exists g1 l1, body s g l = DNormal St s g1 l1 /\
                 exists g2 l2, post s g1 l1 = DNormal St s g2 l2 /\ Inv (S i) acc' g2 l2
  | None => body s g l = DPanic St
  end.

Lemma count_loop : forall r i acc s g l fuel, (i + r = n)%nat -> Inv i acc g l -> (r < fuel)%nat ->
  match foldM f (seq i r) acc with
  | Some res => exists g' l', dforLoop St fuel cond body post s g l = DNormal St s g' l' /\ Inv n res g' l'
  | None => dforLoop St fuel cond body post s g l = DPanic St
  end.
Proof.
  induction r as [|r IH]; intros i acc s g l fuel Hn HI Hf; (destruct fuel as [|fuel]; [lia|]);
    cbn [dforLoop]; rewrite (Hcond i acc g l HI).
  - replace (Z.of_nat i <? Z.of_nat n) with false by (symmetry; apply Z.ltb_ge; lia).
    cbn [seq foldM]. assert (i = n) by lia. subst i. eauto.
  - replace (Z.of_nat i <? Z.of_nat n) with true by (symmetry; apply Z.ltb_lt; lia).
    cbn [seq foldM]. pose proof (Hstep i acc s g l HI ltac:(lia)) as Hs.
    destruct (f acc i) as [acc'|]; cbn [obind].
    + destruct Hs as [g1 [l1 [Hb [g2 [l2 [Hp HI2]]]]]]. rewrite Hb, Hp.
      apply IH; [lia | exact HI2 | lia].
    + rewrite Hs. reflexivity.
Qed.
End CountLoop.

(* mapM as a foldM that appends *)
Lemma foldM_mapM {U} (h : nat -> option U) (l : list nat) (acc : list U) :
  foldM (fun a i => do y <- h i; Some (a ++ [y])) l acc = do ys <- mapM h l; Some (acc ++ ys).
Proof.
  revert acc; induction l as [|x l IH]; intros acc; cbn [foldM mapM obind].
  - now rewrite app_nil_r.
  - destruct (h x) as [y|]; cbn [obind]; [|reflexivity].
    rewrite IH. destruct (mapM h l) as [ys|]; cbn [obind]; [|reflexivity].
    now rewrite <- app_assoc.
Qed.

Definition ndlen (x : nd A) : nat := match x with Vec l => List.length l | Sc _ => 0%nat end.
Definition ndlen0 (x : nd A) : nat := match x with Vec (r :: _) => ndlen r | _ => 0%nat end.

Ltac vstep :=
  let H := fresh "HV" in let E := fresh "El" in let g1 := fresh "g" in let l1 := fresh "l" in
  match goal with
  | |- context [vassign true ?g [] ?x ?v] =>
      pose proof (vassign_main g x v) as H; destruct (vassign true g [] x v) as [g1 l1]; destruct H as [E H]; subst l1
  | |- context [vdefine true ?g [] ?x ?v] =>
      pose proof (vdefine_main g x v) as H; destruct (vdefine true g [] x v) as [g1 l1]; destruct H as [E H]; subst l1
  end.
Ltac lk :=
  repeat first
    [ match goal with H : vlookup ?g ?l ?x = _ |- context [vlookup ?g ?l ?x] => rewrite H end
    | match goal with H : forall y, vlookup ?g ?l y = _ |- context [vlookup ?g ?l _] =>
        rewrite H; cbn [String.eqb Ascii.eqb Bool.eqb] end ].

Definition dotInv (v1 v2 : list (nd A)) (i : nat) (acc : A) (g l : denv) : Prop :=
  l = [] /\ vlookup g l "v1" = Some (DL (map emb v1)) /\ vlookup g l "v2" = Some (DL (map emb v2)) /\
  vlookup g l "n" = Some (DI (Z.of_nat (List.length v1))) /\
  vlookup g l "s" = Some (DF acc) /\ vlookup g l "i" = Some (DI (Z.of_nat i)).

Definition dotStep (v1 v2 : list (nd A)) (s : A) (i : nat) : option A :=
  do e1 <- nth_error v1 i; do x1 <- asF e1; do e2 <- nth_error v2 i; do x2 <- asF e2; Some (sadd s (smul x1 x2)).

Theorem data_dot1d (callL : string -> list dval -> St -> denv -> cres St) fuel (a b : nd A) (s : St) :
  sconst 0 0 = s0 -> (S (ndlen a) <= fuel)%nat ->
  match dot1d a b with
  | Some r => exists g l, dexec fapp St ext callL fuel true (dbody (pmain d_dotProductOf1DInputs)) s
                            [("a", emb a); ("b", emb b)] [] = DRet St [emb r] s g l
  | None => dexec fapp St ext callL fuel true (dbody (pmain d_dotProductOf1DInputs)) s
                            [("a", emb a); ("b", emb b)] [] = DPanic St
  end.
Proof.
  intros Hz Hf. unfold d_dotProductOf1DInputs, dot1d. cbn [pmain dbody].
  destruct a as [x|v1]; [cbn [asV obind emb]; dxs; reflexivity|].
  destruct b as [y|v2]; [cbn [asV obind]; rewrite emb_Vec; cbn [emb]; dxs; reflexivity|].
  cbn [asV obind ndlen] in *. rewrite !emb_Vec. dxs. rewrite Hz. unfold dlen. rewrite map_length.
  match goal with |- context [dforLoop St fuel ?c ?bd ?p s ?g0 ?l0] =>
    pose proof (count_loop A (dotStep v1 v2) (List.length v1) (dotInv v1 v2) c bd p) as HL
  end. unfold dotStep in HL.
  match type of HL with ?P -> ?Q -> _ => assert (Hc : P); [|assert (Hs : Q)] end.
  { intros i acc g l [El [H1 [H2 [H3 [H4 H5]]]]]. subst l. dy. lk. reflexivity. }
  { intros i acc s0' g l [El [H1 [H2 [H3 [H4 H5]]]]] Hi. subst l. dy. lk. rewrite didx_nat, !nth_error_map_emb.
    destruct (nth_error v1 i) as [e1|] eqn:E1; [|apply nth_error_None in E1; lia].
    cbn [option_map obind]. destruct e1 as [x1|?]; cbn [emb asF obind]; [|reflexivity].
    vstep. dy. lk. rewrite didx_nat, !nth_error_map_emb.
    destruct (nth_error v2 i) as [e2|]; cbn [option_map obind]; [|reflexivity].
    destruct e2 as [x2|?]; cbn [emb asF obind]; [|reflexivity].
    vstep. dy. lk. vstep. dy. do 2 eexists. split; [reflexivity|].
    dy. lk. dy. vstep. do 2 eexists. split; [reflexivity|].
    unfold dotInv. lk. repeat split; try reflexivity. do 2 f_equal. lia. }
  specialize (HL Hc Hs (List.length v1) 0%nat s0 s).
  match goal with |- context [dforLoop St fuel _ _ _ s ?g0 ?l0] => specialize (HL g0 l0 fuel) end.
  cbn [seq] in HL.
  specialize (HL eq_refl).
  match type of HL with ?P -> _ => assert (HI : P) by (unfold dotInv; repeat split; reflexivity) end.
  specialize (HL HI ltac:(lia)).
  destruct (foldM _ (seq 0 (List.length v1)) s0) as [res|]; cbn [obind].
  - destruct HL as [g' [l' [HL [-> [_ [_ [_ [H4 _]]]]]]]]. rewrite HL. dy. rewrite H4. cbn [emb]. eauto.
  - rewrite HL. reflexivity.
Qed.

Lemma setNthD_app (xs ys : list dval) (y v : dval) (n : nat) :
  List.length xs = n -> setNthD (xs ++ y :: ys) n v = Some (xs ++ v :: ys).
Proof.
  intros <-. induction xs as [|x xs IH]; cbn [List.length app setNthD]; [reflexivity | now rewrite IH].
Qed.

Definition snocM {U} (h : nat -> option U) (a : list U) (i : nat) : option (list U) := do y <- h i; Some (a ++ [y]).

Definition pStep (m1 m2 : list (nd A)) (i j : nat) (eij : A) (p : nat) : option A :=
  do mi <- nth_error m1 i; do rim1 <- asV mi;
  do mp <- nth_error m2 p; do rpm2 <- asV mp;
  do e1 <- nth_error rim1 p; do x1 <- asF e1;
  do e2 <- nth_error rpm2 j; do x2 <- asF e2;
  Some (sadd eij (smul x1 x2)).
Definition elemOf (m1 m2 : list (nd A)) (n i j : nat) : option (nd A) :=
  do e <- foldM (pStep m1 m2 i j) (seq 0 n) s0; Some (Sc e).
Definition rowOf (m1 m2 : list (nd A)) (n k i : nat) : option (nd A) :=
  do row <- mapM (elemOf m1 m2 n i) (seq 0 k); Some (Vec row).

Lemma matmul2d_eq (a b : nd A) :
  matmul2d a b =
  (do m1 <- asV a; do m2 <- asV b;
   do r01 <- nth_error m1 0; do r0m1 <- asV r01;
   do r02 <- nth_error m2 0; do r0m2 <- asV r02;
   do rows <- mapM (rowOf m1 m2 (List.length r0m1) (List.length r0m2)) (seq 0 (List.length m1));
   Some (Vec rows)).
Proof. reflexivity. Qed.

Section MM.
Variables (m1 m2 : list (nd A)) (n k : nat).
Notation m := (List.length m1).

Definition mmBase (g l : denv) : Prop :=
  l = [] /\ vlookup g l "m1" = Some (DL (map emb m1)) /\ vlookup g l "m2" = Some (DL (map emb m2)) /\
  vlookup g l "m" = Some (DI (Z.of_nat m)) /\ vlookup g l "n" = Some (DI (Z.of_nat n)) /\
  vlookup g l "k" = Some (DI (Z.of_nat k)).

Definition iInv (i : nat) (acc : list (nd A)) (g l : denv) : Prop :=
  mmBase g l /\ List.length acc = i /\
  vlookup g l "cRows" = Some (DL (map emb acc ++ repeat DNil (m - i))) /\
  vlookup g l "i" = Some (DI (Z.of_nat i)).

Definition jInv (i : nat) (crv : dval) (j : nat) (acc : list (nd A)) (g l : denv) : Prop :=
  mmBase g l /\ List.length acc = j /\
  vlookup g l "cRows" = Some crv /\ vlookup g l "i" = Some (DI (Z.of_nat i)) /\
  vlookup g l "row" = Some (DL (map emb acc ++ repeat DNil (k - j))) /\
  vlookup g l "j" = Some (DI (Z.of_nat j)).

Definition pInv (i j : nat) (crv rowv : dval) (p : nat) (acc : A) (g l : denv) : Prop :=
  mmBase g l /\
  vlookup g l "cRows" = Some crv /\ vlookup g l "i" = Some (DI (Z.of_nat i)) /\
  vlookup g l "row" = Some rowv /\ vlookup g l "j" = Some (DI (Z.of_nat j)) /\
  vlookup g l "eij" = Some (DF acc) /\ vlookup g l "p" = Some (DI (Z.of_nat p)).
End MM.

Ltac inv_intro H := unfold iInv, jInv, pInv, mmBase in H; decompose [and] H; clear H;
  repeat match goal with E : ?l = [] |- _ => is_var l; subst l end.
Ltac inv_solve := unfold iInv, jInv, pInv, mmBase; repeat split; lk; try reflexivity.

Theorem data_matmul2d (callL : string -> list dval -> St -> denv -> cres St) fuel (a b : nd A) (s : St) :
  sconst 0 0 = s0 -> (S (Nat.max (ndlen a) (Nat.max (ndlen0 a) (ndlen0 b))) <= fuel)%nat ->
  match matmul2d a b with
  | Some r => exists g l, dexec fapp St ext callL fuel true (dbody (pmain d_matMulDataOf2DInputs)) s
                            [("a", emb a); ("b", emb b)] [] = DRet St [emb r] s g l
  | None => dexec fapp St ext callL fuel true (dbody (pmain d_matMulDataOf2DInputs)) s
                            [("a", emb a); ("b", emb b)] [] = DPanic St
  end.
Proof.
  intros Hz Hf. rewrite matmul2d_eq. unfold d_matMulDataOf2DInputs. cbn [pmain dbody].
  destruct a as [x|m1]; [cbn [asV obind emb]; dxs; reflexivity|].
  destruct b as [y|m2]; [cbn [asV obind]; rewrite emb_Vec; cbn [emb]; dxs; reflexivity|].
  cbn [asV obind]. rewrite !emb_Vec. dxs.
  change (didx 0) with (Some 0%nat). cbv beta iota. rewrite !nth_error_map_emb.
  assert (Hn : ndlen0 (Vec m1) = match nth_error m1 0 with Some r => ndlen r | None => 0%nat end)
    by (destruct m1; reflexivity).
  assert (Hk : ndlen0 (Vec m2) = match nth_error m2 0 with Some r => ndlen r | None => 0%nat end)
    by (destruct m2; reflexivity).
  rewrite Hn, Hk in Hf. clear Hn Hk. cbn [ndlen] in Hf.
  destruct (nth_error m1 0) as [r01|]; cbn [option_map obind]; [|reflexivity].
  destruct r01 as [?|r0m1]; [cbn [emb asV obind]; dxs; reflexivity|].
  rewrite emb_Vec. cbn [asV obind]. dxs.
  change (didx 0) with (Some 0%nat). cbv beta iota. rewrite !nth_error_map_emb.
  destruct (nth_error m2 0) as [r02|]; cbn [option_map obind]; [|reflexivity].
  destruct r02 as [?|r0m2]; [cbn [emb asV obind]; dxs; reflexivity|].
  rewrite emb_Vec. cbn [asV obind ndlen] in *. dxs.
  unfold dlen. rewrite !map_length. rewrite Zle0_nat, Nat2Z.id. dxs.
  set (n := List.length r0m1) in *. set (k := List.length r0m2) in *.
  (* the i loop *)
  match goal with |- context [dforLoop St fuel ?c ?bd ?p s ?g0 ?l0] =>
    pose proof (count_loop (list (nd A)) (snocM (rowOf m1 m2 n k)) (List.length m1) (iInv m1 m2 n k) c bd p) as HL
  end.
  match type of HL with ?P -> ?Q -> _ => assert (Hc : P); [|assert (Hs : Q)] end.
  { intros i acc g l HI. inv_intro HI. dy. lk. reflexivity. }
  { intros i acc s' g l HI Hi. inv_intro HI. dy. lk. rewrite Zle0_nat, Nat2Z.id. vstep. dy. vstep. dy.
    (* the j loop *)
    match goal with |- context [dforLoop St fuel ?c ?bd ?p s' ?g0 ?l0] =>
      pose proof (count_loop (list (nd A)) (snocM (elemOf m1 m2 n i)) k
                    (jInv m1 m2 n k i (DL (map emb acc ++ repeat DNil (List.length m1 - i)))) c bd p) as HJ
    end.
    match type of HJ with ?P -> ?Q -> _ => assert (Hcj : P); [|assert (Hsj : Q)] end.
    { intros j accj g' l' HI. inv_intro HI. dy. lk. reflexivity. }
    { intros j accj s'' g' l' HI Hj. inv_intro HI. dy. rewrite Hz. vstep. dy. vstep. dy.
      (* the p loop *)
      match goal with |- context [dforLoop St fuel ?c ?bd ?p s'' ?g0 ?l0] =>
        pose proof (count_loop A (pStep m1 m2 i j) n
                      (pInv m1 m2 n k i j (DL (map emb acc ++ repeat DNil (List.length m1 - i)))
                            (DL (map emb accj ++ repeat DNil (k - j)))) c bd p) as HP
      end.
      match type of HP with ?P -> ?Q -> _ => assert (Hcp : P); [|assert (Hsp : Q)] end.
      { intros p accp g'' l'' HI. inv_intro HI. dy. lk. reflexivity. }
      { intros p accp s3 g'' l'' HI Hp. inv_intro HI. unfold pStep. dy. lk.
        rewrite didx_nat, nth_error_map_emb.
        destruct (nth_error m1 i) as [mi|]; cbn [option_map obind]; [|reflexivity].
        destruct mi as [?|rim1]; [cbn [emb asV obind]; reflexivity|].
        rewrite emb_Vec. cbn [asV obind]. vstep. dy. lk.
        rewrite didx_nat, nth_error_map_emb.
        destruct (nth_error m2 p) as [mp|]; cbn [option_map obind]; [|reflexivity].
        destruct mp as [?|rpm2]; [cbn [emb asV obind]; reflexivity|].
        rewrite emb_Vec. cbn [asV obind]. vstep. dy. lk.
        rewrite didx_nat, nth_error_map_emb.
        destruct (nth_error rim1 p) as [e1|]; cbn [option_map obind]; [|reflexivity].
        destruct e1 as [x1|?]; [|rewrite emb_Vec; cbn [asF obind]; reflexivity].
        cbn [emb asF obind]. vstep. dy. lk.
        rewrite didx_nat, nth_error_map_emb.
        destruct (nth_error rpm2 j) as [e2|]; cbn [option_map obind]; [|reflexivity].
        destruct e2 as [x2|?]; [|rewrite emb_Vec; cbn [asF obind]; reflexivity].
        cbn [emb asF obind]. vstep. dy. lk. vstep. dy.
        do 2 eexists. split; [reflexivity|]. dy. lk. dy. vstep.
        do 2 eexists. split; [reflexivity|]. inv_solve. do 2 f_equal. lia. }
      specialize (HP Hcp Hsp n 0%nat s0 s'').
      match goal with |- context [dforLoop St fuel _ _ _ s'' ?g0 ?l0] => specialize (HP g0 l0 fuel) end.
      specialize (HP eq_refl). 
      match type of HP with ?P -> _ => assert (HI0 : P) by inv_solve end.
      specialize (HP HI0 ltac:(lia)). clear HI0.
      unfold snocM, elemOf.
      destruct (foldM (pStep m1 m2 i j) (seq 0 n) s0) as [e|]; cbn [obind].
      - destruct HP as [gf [lf [HP HI3]]]. rewrite HP. inv_intro HI3. dy. lk. rewrite didx_nat.
        unfold setSlot. lk.
        replace (k - j)%nat with (S (k - S j)) by lia. cbn [repeat].
        rewrite (setNthD_app _ _ _ _ j) by (now rewrite map_length).
        vstep. do 2 eexists. split; [reflexivity|]. dy. lk. dy. vstep.
        do 2 eexists. split; [reflexivity|]. inv_solve.
        + rewrite app_length. cbn [List.length]. lia.
        + rewrite map_app, <- app_assoc. reflexivity.
        + do 2 f_equal. lia.
      - rewrite HP. reflexivity. }
    specialize (HJ Hcj Hsj k 0%nat [] s').
    match goal with |- context [dforLoop St fuel _ _ _ s' ?g0 ?l0] => specialize (HJ g0 l0 fuel) end.
    specialize (HJ eq_refl).
    match type of HJ with ?P -> _ => assert (HI0 : P) by (inv_solve; now rewrite Nat.sub_0_r) end.
    specialize (HJ HI0 ltac:(lia)). clear HI0.
    fold (snocM (elemOf m1 m2 n i)) in HJ. unfold snocM in HJ at 1.
    rewrite foldM_mapM in HJ. unfold snocM, rowOf.
    destruct (mapM (elemOf m1 m2 n i) (seq 0 k)) as [row|]; cbn [obind app] in HJ |- *.
    - destruct HJ as [gf [lf [HJ HI3]]]. rewrite HJ. inv_intro HI3. dy. lk. rewrite didx_nat.
      unfold setSlot. lk.
      replace (List.length m1 - i)%nat with (S (List.length m1 - S i)) by lia. cbn [repeat].
      rewrite (setNthD_app _ _ _ _ i) by (now rewrite map_length).
      vstep. do 2 eexists. split; [reflexivity|]. dy. lk. dy. vstep.
      do 2 eexists. split; [reflexivity|]. inv_solve.
      + rewrite app_length. cbn [List.length]. lia.
      + rewrite map_app, <- app_assoc. cbn [map app]. rewrite emb_Vec, Nat.sub_diag. cbn [repeat].
        now rewrite app_nil_r.
      + do 2 f_equal. lia.
    - rewrite HJ. reflexivity. }
  specialize (HL Hc Hs (List.length m1) 0%nat [] s).
  match goal with |- context [dforLoop St fuel _ _ _ s ?g0 ?l0] => specialize (HL g0 l0 fuel) end.
  specialize (HL eq_refl).
  match type of HL with ?P -> _ =>
    assert (HI0 : P) by (unfold iInv, mmBase; repeat split; try reflexivity; now rewrite Nat.sub_0_r) end.
  specialize (HL HI0 ltac:(lia)). clear HI0.
  unfold snocM in HL at 1. rewrite foldM_mapM in HL.
  destruct (mapM (rowOf m1 m2 n k) (seq 0 (List.length m1))) as [rows|]; cbn [obind app] in HL |- *.
  - destruct HL as [gf [lf [HL HI3]]]. rewrite HL. inv_intro HI3. dy. lk.
    rewrite Nat.sub_diag. cbn [repeat]. rewrite app_nil_r, emb_Vec. eauto.
  - rewrite HL. reflexivity.
Qed.

(* the same at the level of [drun] (no closures: any depth) *)
Corollary drun_dot1d fuel depth (a b : nd A) (s : St) :
  sconst 0 0 = s0 -> (S (ndlen a) <= fuel)%nat ->
  match dot1d a b with
  | Some r => exists g l, drun fapp St ext d_dotProductOf1DInputs fuel depth [emb a; emb b] s = DRet St [emb r] s g l
  | None => drun fapp St ext d_dotProductOf1DInputs fuel depth [emb a; emb b] s = DPanic St
  end.
Proof. intros Hz Hf. unfold drun. cbn [d_dotProductOf1DInputs pmain dparams dbind]. now apply data_dot1d. Qed.

Corollary drun_matmul2d fuel depth (a b : nd A) (s : St) :
  sconst 0 0 = s0 -> (S (Nat.max (ndlen a) (Nat.max (ndlen0 a) (ndlen0 b))) <= fuel)%nat ->
  match matmul2d a b with
  | Some r => exists g l, drun fapp St ext d_matMulDataOf2DInputs fuel depth [emb a; emb b] s = DRet St [emb r] s g l
  | None => drun fapp St ext d_matMulDataOf2DInputs fuel depth [emb a; emb b] s = DPanic St
  end.
Proof. intros Hz Hf. unfold drun. cbn [d_matMulDataOf2DInputs pmain dparams dbind]. now apply data_matmul2d. Qed.

End Linalg.

(* the hypothesis holds for the free term instance; the programs run *)
Example term_zero : @sconst term _ 0 0 = s0.
Proof. reflexivity. Qed.

Definition retVals {A St} (o : @doutcome A St) : option (list (@dval A)) :=
  match o with DRet _ vs _ _ _ => Some vs | _ => None end.
Definition tv (n k : nat) : nd term := Sc (TVal n k).
Definition noF : string -> list term -> option term := fun _ _ => None.
Definition noExt : string -> list (@dval term) -> unit -> option (list (@dval term) * unit) := fun _ _ _ => None.

Example ex_dot :
  retVals (drun noF unit noExt d_dotProductOf1DInputs 4 0
             [emb (Vec [tv 0 0; tv 0 1; tv 0 2]); emb (Vec [tv 1 0; tv 1 1; tv 1 2])] tt)
  = option_map (fun r => [emb r]) (dot1d (Vec [tv 0 0; tv 0 1; tv 0 2]) (Vec [tv 1 0; tv 1 1; tv 1 2]))
  /\ dot1d (Vec [tv 0 0; tv 0 1; tv 0 2]) (Vec [tv 1 0; tv 1 1; tv 1 2]) <> None.
Proof. split; [vm_compute; reflexivity | vm_compute; discriminate]. Qed.

(* second vector too short: v2[2] is out of range *)
Example ex_dot_panic :
  drun noF unit noExt d_dotProductOf1DInputs 4 0 [emb (Vec [tv 0 0; tv 0 1; tv 0 2]); emb (Vec [tv 1 0; tv 1 1])] tt
  = DPanic unit
  /\ dot1d (Vec [tv 0 0; tv 0 1; tv 0 2]) (Vec [tv 1 0; tv 1 1]) = None.
Proof. split; vm_compute; reflexivity. Qed.

(* 2x3 times 3x2 *)
Definition exA : nd term := Vec [Vec [tv 0 0; tv 0 1; tv 0 2]; Vec [tv 0 3; tv 0 4; tv 0 5]].
Definition exB : nd term := Vec [Vec [tv 1 0; tv 1 1]; Vec [tv 1 2; tv 1 3]; Vec [tv 1 4; tv 1 5]].
Example ex_matmul :
  retVals (drun noF unit noExt d_matMulDataOf2DInputs 4 0 [emb exA; emb exB] tt)
  = option_map (fun r => [emb r]) (matmul2d exA exB)
  /\ matmul2d exA exB <> None.
Proof. split; [vm_compute; reflexivity | vm_compute; discriminate]. Qed.

(* inner sizes disagree (2x3 times 2x2): m2[2] is out of range *)
Example ex_matmul_panic :
  drun noF unit noExt d_matMulDataOf2DInputs 4 0 [emb exA; emb (Vec [Vec [tv 1 0; tv 1 1]; Vec [tv 1 2; tv 1 3]])] tt
  = DPanic unit
  /\ matmul2d exA (Vec [Vec [tv 1 0; tv 1 1]; Vec [tv 1 2; tv 1 3]]) = None.
Proof. split; vm_compute; reflexivity. Qed.

Print Assumptions data_dot1d.
Print Assumptions data_matmul2d.
Print Assumptions drun_dot1d.
Print Assumptions drun_matmul2d.
