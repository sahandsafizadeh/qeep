(* DataPatchP.v — CPUTensor.copiedWithPatchOf (tensor/internal/cputensor/accessors.go) as translated by harness/gox
   into the DataIR program GoData.d_copiedWithPatchOf computes Model/Data.v patchData / the body of Data.patch.

   NOTE (history; why the closure ends with the write-back [TSet "dst" (XVar "dstRows")]).
   In Go, the local [dstRows], obtained from the pointer parameter dst by a type assertion to []any, ALIASES the
   slice held in the pointed-to slot: the writes [dstRows[i+idx.From] = ...] made through the recursive calls are
   visible there.  DataIR has value semantics: [TSet "dstRows" (XAssertL (XVar "dst"))]
   copies.  A first version of the translation had no write-back, and then the closure returned dst UNCHANGED for
   every non-empty index, e.g. (checked by vm_compute on that old program, over [term])
       callLD ... "copyData" [dranges [(1,2)]; emb (Vec [Sc 1]); emb (Vec [Sc 2; Sc 3])]
         = CRet [DL [DF 1]; DL [DF 2; DF 3]]     whereas
       patchData [(1,2)] (Vec [Sc 1]) (Vec [Sc 2; Sc 3]) = Some (Vec [Sc 2; Sc 1])   (= what Go computes).
   The translator now recognises the idiom and emits the write-back at the end of the closure body; the theorems
   below are about that (current) generated program. *)
From Coq Require Import String List ZArith Bool Lia Arith.
From Qeep Require Import Model.Scalar Model.Nd Model.Fill Model.Data Model.DataIR Model.GoData Proofs.DataIRP Proofs.DataAtP.
From Qeep Require Model.GoIR.
Import ListNotations.
Local Open Scope string_scope.
Local Open Scope Z_scope.
Local Open Scope list_scope.

Section DataPatch.
Context {A : Type} {SA : Scalar A}.
Variable fapp : string -> list A -> option A.
Variables (St : Type) (ext : string -> list (@dval A) -> St -> option (list (@dval A) * St)).
Notation dval := (@dval A).
Notation denv := (@denv A).

(* ---------- environments: assignments inside a closure frame (atMain = false) ---------- *)

Lemma vassign_inl (g l : denv) x (v w : dval) : dlookup l x = Some w -> vassign false g l x v = (g, dupd l x v).
Proof. intros H. unfold vassign, dhas. rewrite H. reflexivity. Qed.

(* ---------- slots ---------- *)

Lemma setNthD_map_emb (l : list (nd A)) i (v : nd A) :
  setNthD (map emb l) i (emb v) = option_map (map emb) (setNth l i v).
Proof.
  revert i; induction l as [|a l IH]; intros [|i]; cbn [map setNthD setNth option_map obind]; try reflexivity.
  rewrite IH. destruct (setNth l i v); reflexivity.
Qed.

Lemma sub1_cons (x : dval) (m : list dval) :
  (0 <=? 1) && (1 <=? dlen (x :: m)) && (dlen (x :: m) <=? dlen (x :: m)) = true /\
  firstn (Z.to_nat (dlen (x :: m) - 1)) (skipn (Z.to_nat 1) (x :: m)) = m.
Proof.
  unfold dlen. cbn [length]. split.
  - rewrite Z.leb_refl, andb_true_r. cbn [Z.leb Z.compare andb]. apply Z.leb_le. lia.
  - replace (Z.to_nat (Z.of_nat (S (length m)) - 1)) with (length m) by lia.
    change (Z.to_nat 1) with 1%nat. cbn [skipn]. apply firstn_all.
Qed.

(* ---------- the model's fold step, for an arbitrary row function P ---------- *)

Definition stepF (P : nd A -> nd A -> option (nd A)) (f : nat) (acc : list (nd A)) (ir : nat * nd A)
  : option (list (nd A)) :=
  let '(i, srow) := ir in
  do drow <- nth_error acc (i + f); do nrow <- P srow drow; setNth acc (i + f) nrow.

Lemma patchData_cons f t index' (src dst : nd A) :
  patchData ((f, t) :: index') src dst =
  do srows <- asV src; do drows <- asV dst;
  do out <- foldM (stepF (patchData index') f) (combine (seq 0 (length srows)) srows) drows;
  Some (Vec out).
Proof. reflexivity. Qed.

(* the loop  for i := range srcRows { body }  for any body that behaves like one step of the fold *)
Lemma patch_loop (P : nd A -> nd A -> option (nd A)) (f : nat)
      (body : St -> denv -> denv -> @doutcome A St) (assign : denv -> denv -> Z -> dval -> denv * denv)
      (g : denv) (inv : denv -> list (nd A) -> Prop) (srows : list (nd A)) :
  (forall s l i srow acc, inv l acc -> nth_error srows i = Some srow ->
     let '(g0, l0) := assign g l (Z.of_nat i) (emb srow) in
     match stepF P f acc (i, srow) with
     | Some acc' => exists l1, body s g0 l0 = DNormal St s g l1 /\ inv l1 acc'
     | None => body s g0 l0 = DPanic St
     end) ->
  forall rest pre s l acc, srows = pre ++ rest -> inv l acc ->
  match foldM (stepF P f) (combine (seq (length pre) (length rest)) rest) acc with
  | Some out => exists l1, drangeLoop St body assign (map emb rest) (Z.of_nat (length pre)) s g l = DNormal St s g l1 /\
                           inv l1 out
  | None => drangeLoop St body assign (map emb rest) (Z.of_nat (length pre)) s g l = DPanic St
  end.
Proof.
  intros Hb. induction rest as [|srow rest IH]; intros pre s l acc Hs Hi.
  - cbn. eauto.
  - cbn [length seq combine foldM map drangeLoop].
    assert (Hn : nth_error srows (length pre) = Some srow).
    { subst srows. rewrite nth_error_app2 by lia. now rewrite Nat.sub_diag. }
    pose proof (Hb s l (length pre) srow acc Hi Hn) as H1.
    destruct (assign g l (Z.of_nat (length pre)) (emb srow)) as [g0 l0].
    destruct (stepF P f acc (length pre, srow)) as [acc'|]; cbn [obind].
    + destruct H1 as [l1 [H1 Hi1]]. rewrite H1.
      specialize (IH (pre ++ [srow]) s l1 acc').
      rewrite app_length in IH. cbn [length] in IH.
      replace (length pre + 1)%nat with (S (length pre)) in IH by lia.
      replace (Z.of_nat (length pre) + 1) with (Z.of_nat (S (length pre))) by lia.
      apply IH; [|exact Hi1]. rewrite <- app_assoc. exact Hs.
    + rewrite H1. reflexivity.
Qed.

(* ---------- the closure copyData ---------- *)

Definition loop_inv (index' : list (nat * nat)) (f t : nat) (srows : list (nd A)) (srcv dstv : dval)
           (l : denv) (acc : list (nd A)) : Prop :=
  dlookup l "index" = Some (dranges index') /\
  dlookup l "idx" = Some (DR (Z.of_nat f) (Z.of_nat t)) /\
  dlookup l "srcRows" = Some (DL (map emb srows)) /\
  dlookup l "dstRows" = Some (DL (map emb acc)) /\
  dlookup l "src" = Some srcv /\
  dlookup l "dst" = Some dstv.

Ltac lk := rewrite ?dlookup_dupd; cbn [String.eqb Ascii.eqb Bool.eqb]; try assumption; try reflexivity.

Theorem copyData_patchData (index : list (nat * nat)) :
  forall (src dst : nd A) (d fuel : nat) (s : St) (g : denv),
  (length index <= d)%nat ->
  callLD fapp St ext (plocals d_copiedWithPatchOf) fuel (S d) "copyData" [dranges index; emb src; emb dst] s g =
  match patchData index src dst with
  | Some r => CRet St [emb src; emb r] s g
  | None => CPanic St
  end.
Proof.
  induction index as [|[f t] index' IH]; intros src dst d fuel s g Hd.
  - (* index = [] *)
    cbn [callLD dlookupFn plocals d_copiedWithPatchOf String.eqb Ascii.eqb Bool.eqb dbind dparams dbody].
    dxs. unfold dranges. cbn [map]. unfold dlen. cbn [length Z.of_nat Z.eqb].
    dxs. cbn [patchData]. destruct src as [a|rows]; cbn [asF obind emb].
    + dxs. cbn [ptrOuts dlookup String.eqb Ascii.eqb Bool.eqb]. reflexivity.
    + reflexivity.
  - (* index = (f,t) :: index' *)
    cbn [length] in Hd. destruct d as [|d']; [lia|]. assert (Hd' : (length index' <= d')%nat) by lia.
    rewrite callLD_S. set (callL := callLD fapp St ext (plocals d_copiedWithPatchOf) fuel (S d')).
    cbn [dlookupFn plocals d_copiedWithPatchOf String.eqb Ascii.eqb Bool.eqb dbind dparams dbody].
    rewrite patchData_cons.
    dxs. unfold dranges. cbn [map fst snd]. unfold dlen at 1. cbn [length]. dxs.
    match goal with |- context [Z.of_nat (S ?n) =? 0] =>
      replace (Z.of_nat (S n) =? 0) with false by (symmetry; apply Z.eqb_neq; lia) end.
    dxs. unfold didx. cbn [Z.leb Z.compare Z.to_nat nth_error].
    dxs.
    destruct src as [a|srows]; [reflexivity|]. rewrite emb_Vec. dxs.
    destruct dst as [b|drows]; [reflexivity|]. rewrite emb_Vec. dxs.
    match goal with |- context [dlen (?x :: ?m)] => destruct (sub1_cons x m) as [E1 E2]; rewrite E1, E2 end.
    fold (@dranges A index'). dxs. cbn [asV obind].
    match goal with |- context [drangeLoop St ?b ?asg _ _ _ _ ?l0] =>
      pose proof (patch_loop (patchData index') f b asg g
                    (loop_inv index' f t srows (DL (map emb srows)) (DL (map emb drows))) srows) as HL;
      set (l00 := l0)
    end.
    match type of HL with ?P -> _ => assert (Hspec : P) end.
    { intros s0 l i srow acc (Hx & Hd0 & Hs & Hr & Hsrc & Hdst) Hn.
      cbn [vdefine].
      set (l0 := dupd (dupd l "i" (DI (Z.of_nat i))) "_" (emb srow)).
      assert (H0i : dlookup l0 "i" = Some (DI (Z.of_nat i))) by (unfold l0; lk).
      assert (H0x : dlookup l0 "index" = Some (dranges index')) by (unfold l0; lk).
      assert (H0d : dlookup l0 "idx" = Some (DR (Z.of_nat f) (Z.of_nat t))) by (unfold l0; lk).
      assert (H0s : dlookup l0 "srcRows" = Some (DL (map emb srows))) by (unfold l0; lk).
      assert (H0r : dlookup l0 "dstRows" = Some (DL (map emb acc))) by (unfold l0; lk).
      assert (H0src : dlookup l0 "src" = Some (DL (map emb srows))) by (unfold l0; lk).
      assert (H0dst : dlookup l0 "dst" = Some (DL (map emb drows))) by (unfold l0; lk).
      clearbody l0.
      assert (Hcall : forall drow, callL "copyData" [dranges index'; emb srow; emb drow] s0 g =
                match patchData index' srow drow with
                | Some r => CRet St [emb srow; emb r] s0 g | None => CPanic St end).
      { intros drow. unfold callL. apply IH; exact Hd'. }
      assert (Hn' : nth_error (map emb srows) i = Some (emb srow)) by (now rewrite nth_error_map_emb, Hn).
      rewrite dexec_TCall. cbn [argVals deval]. unfold vlookup.
      rewrite H0x, H0s, H0i, H0r, H0d. cbn [devalBin].
      rewrite <- Nat2Z.inj_add, !didx_nat, Hn', nth_error_map_emb.
      unfold stepF.
      destruct (nth_error acc (i + f)) as [drow|] eqn:Ea; cbn [option_map obind]; [|reflexivity].
      rewrite Hcall.
      destruct (patchData index' srow drow) as [nrow|]; cbn [obind]; [|reflexivity].
      cbn [copyOut deval]. unfold vlookup. rewrite H0i, didx_nat. unfold setSlot, vlookup. rewrite H0s.
      rewrite (setNthD_same _ _ _ Hn'), (vassign_inl g l0 "srcRows" _ _ H0s).
      rewrite !dlookup_dupd. cbn [String.eqb Ascii.eqb Bool.eqb].
      rewrite H0i, H0d, H0r. cbn [devalBin]. rewrite <- Nat2Z.inj_add, didx_nat, setNthD_map_emb.
      destruct (setNth acc (i + f) nrow) as [acc'|]; cbn [option_map]; [|reflexivity].
      rewrite (vassign_inl g _ "dstRows" (DL (map emb acc')) (DL (map emb acc))) by lk.
      eexists; split; [reflexivity|]. unfold loop_inv. repeat split; lk. }
    specialize (HL Hspec srows [] s l00 drows eq_refl).
    cbn [length] in HL. change (Z.of_nat 0) with 0 in HL.
    match type of HL with ?P -> _ => assert (Hinv : P) by (unfold loop_inv, l00; repeat split; lk) end.
    specialize (HL Hinv).
    destruct (foldM (stepF (patchData index') f) (combine (seq 0 (length srows)) srows) drows) as [out|];
      cbn [obind].
    + destruct HL as [l1 [HL (Hx & Hd0 & Hs & Hr & Hsrc & Hdst)]]. rewrite HL.
      rewrite dexec_TSet. cbn [deval]. unfold vlookup. rewrite Hr.
      rewrite (vassign_inl g l1 "dst" _ _ Hdst).
      cbn [ptrOuts]. rewrite !dlookup_dupd. cbn [String.eqb Ascii.eqb Bool.eqb]. rewrite Hsrc.
      rewrite emb_Vec. reflexivity.
    + rewrite HL. reflexivity.
Qed.

(* ---------- the function copiedWithPatchOf ---------- *)

(* main body, given what the outside call  t.slice(nil)  returns *)
Theorem data_copiedWithPatchOf_body (ds ds' uds : list nat) (x x' ux : nd A) (cidx : list (nat * nat))
        (fuel depth : nat) (s : St) :
  ext "slice" [dnats ds; emb x; DL []] s = Some ([dnats ds'; emb x'], s) ->
  (length cidx < depth)%nat ->
  match patchData cidx ux x' with
  | Some r => exists g l,
      dexec fapp St ext (callLD fapp St ext (plocals d_copiedWithPatchOf) fuel depth) fuel true
            (dbody (pmain d_copiedWithPatchOf)) s
            [("t.dims", dnats ds); ("t.data", emb x); ("index", dranges cidx); ("u.dims", dnats uds); ("u.data", emb ux)] []
      = DRet St [dnats ds'; emb r] s g l
  | None =>
      dexec fapp St ext (callLD fapp St ext (plocals d_copiedWithPatchOf) fuel depth) fuel true
            (dbody (pmain d_copiedWithPatchOf)) s
            [("t.dims", dnats ds); ("t.data", emb x); ("index", dranges cidx); ("u.dims", dnats uds); ("u.data", emb ux)] []
      = DPanic St
  end.
Proof.
  intros Hext Hdep. destruct depth as [|d]; [lia|]. assert (Hd : (length cidx <= d)%nat) by lia.
  set (locals := plocals d_copiedWithPatchOf).
  unfold d_copiedWithPatchOf. cbn [pmain dbody]. dxs. rewrite Hext. dxs.
  unfold locals. rewrite (copyData_patchData cidx ux x' d fuel s _ Hd).
  destruct (patchData cidx ux x') as [r|]; [|reflexivity].
  dxs. eauto.
Qed.

Lemma completeIndex_length (index : list (nat * nat)) (ds : list nat) : length (completeIndex index ds) = length ds.
Proof.
  revert index; induction ds as [|d ds IH]; intros index; [reflexivity|].
  destruct index as [|[f t] index]; cbn [completeIndex length]; now rewrite IH.
Qed.

(* the whole function, run from its parameters, is the body of the model's Data.patch:
     do o <- slice t []; do d <- patchData cidx (data u) (data o); Some (mkT (dims o) d)
   provided the outside call  t.slice(nil)  behaves like the model's [slice t []] *)
Theorem data_copiedWithPatchOf (t u : tensor A) (cidx : list (nat * nat)) (fuel depth : nat) (s : St) :
  ext "slice" [dnats (dims t); emb (data t); DL []] s =
    match slice t [] with Some o => Some ([dnats (dims o); emb (data o)], s) | None => None end ->
  (length cidx < depth)%nat ->
  match (do o <- slice t []; do d <- patchData cidx (data u) (data o); Some (mkT (dims o) d)) with
  | Some o' => exists g l,
      drun fapp St ext d_copiedWithPatchOf fuel depth
           [dnats (dims t); emb (data t); dranges cidx; dnats (dims u); emb (data u)] s
      = DRet St [dnats (dims o'); emb (data o')] s g l
  | None =>
      drun fapp St ext d_copiedWithPatchOf fuel depth
           [dnats (dims t); emb (data t); dranges cidx; dnats (dims u); emb (data u)] s
      = DPanic St
  end.
Proof.
  intros Hext Hdep.
  change (drun fapp St ext d_copiedWithPatchOf fuel depth
               [dnats (dims t); emb (data t); dranges cidx; dnats (dims u); emb (data u)] s)
    with (dexec fapp St ext (callLD fapp St ext (plocals d_copiedWithPatchOf) fuel depth) fuel true
            (dbody (pmain d_copiedWithPatchOf)) s
            [("t.dims", dnats (dims t)); ("t.data", emb (data t)); ("index", dranges cidx);
             ("u.dims", dnats (dims u)); ("u.data", emb (data u))] []).
  destruct (slice t []) as [[ds' x']|]; cbn [obind dims data].
  - pose proof (data_copiedWithPatchOf_body (dims t) ds' (dims u) (data t) x' (data u) cidx fuel depth s Hext Hdep) as H.
    destruct (patchData cidx (data u) x') as [r|]; cbn [obind dims data]; exact H.
  - set (locals := plocals d_copiedWithPatchOf).
    unfold d_copiedWithPatchOf. cbn [pmain dbody]. dxs. rewrite Hext. reflexivity.
Qed.

(* with the index completed by the exported caller (Patch): exactly Data.patch *)
Corollary data_patch (t u : tensor A) (index : list (nat * nat)) (fuel depth : nat) (s : St) :
  ext "slice" [dnats (dims t); emb (data t); DL []] s =
    match slice t [] with Some o => Some ([dnats (dims o); emb (data o)], s) | None => None end ->
  (length (dims u) < depth)%nat ->
  match patch t index u with
  | Some o' => exists g l,
      drun fapp St ext d_copiedWithPatchOf fuel depth
           [dnats (dims t); emb (data t); dranges (completeIndex index (dims u)); dnats (dims u); emb (data u)] s
      = DRet St [dnats (dims o'); emb (data o')] s g l
  | None =>
      drun fapp St ext d_copiedWithPatchOf fuel depth
           [dnats (dims t); emb (data t); dranges (completeIndex index (dims u)); dnats (dims u); emb (data u)] s
      = DPanic St
  end.
Proof.
  intros Hext Hdep. apply (data_copiedWithPatchOf t u (completeIndex index (dims u)) fuel depth s Hext).
  now rewrite completeIndex_length.
Qed.

End DataPatch.

Print Assumptions copyData_patchData.
Print Assumptions data_copiedWithPatchOf_body.
Print Assumptions data_copiedWithPatchOf.
Print Assumptions data_patch.

(* a concrete run over the free term algebra: t = [[1,2,3],[4,5,6]], u = [[7,8]] patched at rows 1:2, columns 1:3;
   the outside call slice(nil) returns a copy of t *)
Definition ex_ext : string -> list (@dval term) -> unit -> option (list (@dval term) * unit) :=
  fun f vs s => match vs with [d; x; _] => Some ([d; x], s) | _ => None end.
Definition ex_c (n : Z) : nd term := Sc (sconst n 0).
Example data_patch_example :
  drun (fun _ _ => None) unit ex_ext d_copiedWithPatchOf 0 3
       [dnats [2; 3]%nat; emb (Vec [Vec [ex_c 1; ex_c 2; ex_c 3]; Vec [ex_c 4; ex_c 5; ex_c 6]]);
        dranges [(1, 2); (1, 3)]%nat; dnats [1; 2]%nat; emb (Vec [Vec [ex_c 7; ex_c 8]])] tt
  = DRet unit [dnats [2; 3]%nat; emb (Vec [Vec [ex_c 1; ex_c 2; ex_c 3]; Vec [ex_c 4; ex_c 7; ex_c 8]])] tt
         [("t.dims", dnats [2; 3]%nat); ("t.data", emb (Vec [Vec [ex_c 1; ex_c 2; ex_c 3]; Vec [ex_c 4; ex_c 5; ex_c 6]]));
          ("index", dranges [(1, 2); (1, 3)]%nat); ("u.dims", dnats [1; 2]%nat); ("u.data", emb (Vec [Vec [ex_c 7; ex_c 8]]));
          ("o.dims", dnats [2; 3]%nat); ("o.data", emb (Vec [Vec [ex_c 1; ex_c 2; ex_c 3]; Vec [ex_c 4; ex_c 7; ex_c 8]]))] [].
Proof. vm_compute. reflexivity. Qed.
Example data_patch_example_model :
  patch (mkT [2; 3]%nat (Vec [Vec [ex_c 1; ex_c 2; ex_c 3]; Vec [ex_c 4; ex_c 5; ex_c 6]])) [(1, 2); (1, 3)]%nat
        (mkT [1; 2]%nat (Vec [Vec [ex_c 7; ex_c 8]]))
  = Some (mkT [2; 3]%nat (Vec [Vec [ex_c 1; ex_c 2; ex_c 3]; Vec [ex_c 4; ex_c 7; ex_c 8]])).
Proof. vm_compute. reflexivity. Qed.
(* out of range: the patch does not fit -> panic, as the model's None *)
Example data_patch_example_panic :
  drun (fun _ _ => None) unit ex_ext d_copiedWithPatchOf 0 3
       [dnats [2; 3]%nat; emb (Vec [Vec [ex_c 1; ex_c 2; ex_c 3]; Vec [ex_c 4; ex_c 5; ex_c 6]]);
        dranges [(2, 3); (1, 3)]%nat; dnats [1; 2]%nat; emb (Vec [Vec [ex_c 7; ex_c 8]])] tt
  = DPanic unit.
Proof. vm_compute. reflexivity. Qed.
