(* DataRandP.v — the random-tensor wrappers of tensor/internal/cputensor/initializers.go (uniformRandomTensor,
   normalRandomTensor) as translated by harness/gox into Model/GoWrap.v, run with the oracle Model/RandExt.v ([rext]:
   the state is the position in the stream of raw draws), return the model's tensor (Model/Data.v) AND consume exactly
   prod(dims) draws, starting at the current position, in row-major order.
   The decoding lemmas ([unnatsV_nats], [dcopyInto_nats], ...) are those of Proofs/DataWrapP.v. *)
From Coq Require Import String List ZArith Bool Lia Arith.
From Qeep Require Import Model.Scalar Model.Nd Model.Fill Model.Data Model.DataIR Model.HeapExt Model.DataExt
     Model.RandExt Model.GoWrap Proofs.NdP Proofs.FillP Proofs.DataIRP Proofs.DataWrapP.
From Qeep Require Model.GoIR.
Import ListNotations.
Local Open Scope string_scope.
Local Open Scope Z_scope.
Local Open Scope list_scope.

Section DataRand.
Context {A : Type} {SA : Scalar A}.
Variable fapp : string -> list A -> option A.
Notation T := (tensor A).
Notation dval := (@dval A).
Notation denv := (@denv A).
Notation NL l := (@DL A (map (fun n : nat => @DI A (Z.of_nat n)) l)).

(* ================= the fill of a counting generator ================= *)

Lemma iter_S (k : nat) : forall p : nat, iter nat S k p = (p + k)%nat.
Proof. induction k as [|k IH]; intros p; cbn [iter]; [lia | rewrite IH; lia]. Qed.

(* a generator that emits [outA p] at position p and moves to position p+1 *)
Lemma fill_counting (outA : nat -> A) (ds : list nat) (pos : nat) :
  fill ds (fun p : nat => Some (Sc (outA p), S p)) pos =
  Some (tab ds (fun idx => outA (pos + flatIdx ds idx)%nat), (pos + prodn ds)%nat).
Proof.
  rewrite (fill_spec A nat (fun p : nat => Some (Sc (outA p), S p)) (fun p => Sc (outA p)) S (fun _ => True));
    [ | intros; reflexivity | auto | exact I].
  rewrite iter_S. f_equal. f_equal.
  rewrite (tabS_tab A nat (fun p => Sc (outA p)) S outA); [|reflexivity].
  apply tab_ext. intros idx _. rewrite iter_S. reflexivity.
Qed.

(* ---- row-major reading of such a tabulation: its k-th flattened element is [f (pos + k)] ---- *)

Lemma map_seq_shift {B : Type} (m : nat) :
  forall (G : nat -> B) (a : nat), map G (seq a m) = map (fun j => G (a + j)%nat) (seq 0 m).
Proof.
  induction m as [|m IH]; intros G a; [reflexivity|].
  cbn [seq map]. f_equal; [f_equal; lia|].
  rewrite (IH G (S a)), (IH (fun j => G (a + j)%nat) 1%nat). apply map_ext. intros j. f_equal. lia.
Qed.

Lemma flat_list_blocks (h : nat -> nd A) (G : nat -> A) (m : nat) :
  (forall k, flat (h k) = map (fun j => G (k * m + j)%nat) (seq 0 m)) ->
  forall d, flat_list A (map h (seq 0 d)) = map G (seq 0 (d * m)).
Proof.
  intros Hh d. induction d as [|d IH]; [reflexivity|].
  rewrite seq_S, map_app. cbn [Nat.add map].
  assert (Happ : forall l1 l2 : list (nd A), flat_list A (l1 ++ l2) = flat_list A l1 ++ flat_list A l2).
  { intros l1 l2. induction l1 as [|y l1 IH1]; [reflexivity|]. cbn [app flat_list]. rewrite IH1, app_assoc. reflexivity. }
  rewrite Happ, IH. cbn [flat_list]. rewrite app_nil_r, Hh.
  replace (S d * m)%nat with (d * m + m)%nat by lia.
  rewrite seq_app, map_app. cbn [Nat.add]. f_equal.
  symmetry. apply map_seq_shift.
Qed.

Lemma flat_tab_rowmajor (f : nat -> A) (ds : list nat) :
  forall pos : nat,
  flat (tab ds (fun idx => f (pos + flatIdx ds idx)%nat)) = map (fun k => f (pos + k)%nat) (seq 0 (prodn ds)).
Proof.
  induction ds as [|d r IH]; intros pos.
  - cbn. reflexivity.
  - cbn [tab]. rewrite flat_Vec. cbn [prodn fold_right]. fold (prodn r).
    apply (flat_list_blocks (fun k => tab r (fun i => f (pos + flatIdx (d :: r) (k :: i))%nat))
                            (fun k => f (pos + k)%nat) (prodn r)).
    intros k.
    rewrite (tab_ext A r (fun i => f (pos + flatIdx (d :: r) (k :: i))%nat)
                       (fun i => f ((pos + k * prodn r) + flatIdx r i)%nat)).
    2:{ intros idx _. cbn [flatIdx]. f_equal. lia. }
    rewrite IH. apply map_ext. intros j. f_equal. lia.
Qed.

(* ================= TASK 1: value and final state of the two fills ================= *)

Theorem fill_uniform_state (l u : A) (ds : list nat) (pos : nat) :
  fill ds (uniformGen l u) pos =
  Some (tab ds (fun idx => sadd (smul (srnd false (pos + flatIdx ds idx)%nat) (ssub u l)) l), (pos + prodn ds)%nat).
Proof. exact (fill_counting (fun p => sadd (smul (srnd false p) (ssub u l)) l) ds pos). Qed.

Theorem fill_normal_state (u s : A) (ds : list nat) (pos : nat) :
  fill ds (normalGen u s) pos =
  Some (tab ds (fun idx => sadd (smul (srnd true (pos + flatIdx ds idx)%nat) s) u), (pos + prodn ds)%nat).
Proof. exact (fill_counting (fun p => sadd (smul (srnd true p) s) u) ds pos). Qed.

(* the same, read in row-major order: element k of the flattened value is made from draw number pos + k, and there
   are exactly prodn ds of them *)
Theorem fill_uniform_rowmajor (l u : A) (ds : list nat) (pos : nat) :
  exists d, fill ds (uniformGen l u) pos = Some (d, (pos + prodn ds)%nat) /\ wfnd ds d /\
            flat d = map (fun k => sadd (smul (srnd false (pos + k)%nat) (ssub u l)) l) (seq 0 (prodn ds)).
Proof.
  eexists. split; [apply fill_uniform_state|]. split; [apply wfnd_tab|].
  apply (flat_tab_rowmajor (fun p => sadd (smul (srnd false p) (ssub u l)) l)).
Qed.

Theorem fill_normal_rowmajor (u s : A) (ds : list nat) (pos : nat) :
  exists d, fill ds (normalGen u s) pos = Some (d, (pos + prodn ds)%nat) /\ wfnd ds d /\
            flat d = map (fun k => sadd (smul (srnd true (pos + k)%nat) s) u) (seq 0 (prodn ds)).
Proof.
  eexists. split; [apply fill_normal_state|]. split; [apply wfnd_tab|].
  apply (flat_tab_rowmajor (fun p => sadd (smul (srnd true p) s) u)).
Qed.

(* the model's constructors are these fills *)
Lemma uniformRandomTensor_eq (l u : A) (ds : list nat) (pos : nat) :
  uniformRandomTensor l u ds pos =
  Some (mkT ds (tab ds (fun idx => sadd (smul (srnd false (pos + flatIdx ds idx)%nat) (ssub u l)) l))).
Proof. unfold uniformRandomTensor, initWith. rewrite fill_uniform_state. reflexivity. Qed.

Lemma normalRandomTensor_eq (u s : A) (ds : list nat) (pos : nat) :
  normalRandomTensor u s ds pos =
  Some (mkT ds (tab ds (fun idx => sadd (smul (srnd true (pos + flatIdx ds idx)%nat) s) u))).
Proof. unfold normalRandomTensor, initWith. rewrite fill_normal_state. reflexivity. Qed.

Lemma unnatsV_dnats (l : list nat) : unnatsV (@dnats A l) = Some l.
Proof. apply unnatsV_nats. Qed.

(* ================= the oracle entries, one equation each ================= *)

Lemma rext_uniGen (l u : A) (pos : nat) :
  rext "func() any { return distuv.Uniform{Min: l, Max: u}.Rand() }" [DF l; DF u] pos =
  Some ([DL [DI 8; DF l; DF u]], pos).
Proof. reflexivity. Qed.

(* the translator passes the free variables of the literal in alphabetical order: s, then u *)
Lemma rext_norGen (u s : A) (pos : nat) :
  rext "func() any { return distuv.Normal{Mu: u, Sigma: s}.Rand() }" [DF s; DF u] pos =
  Some ([DL [DI 9; DF u; DF s]], pos).
Proof. reflexivity. Qed.

Lemma rext_initWith_uni (ds : list nat) (l u : A) (pos : nat) :
  rext "initWith" [NL ds; DL [DI 8; DF l; DF u]] pos =
  do r <- fill ds (uniformGen l u) pos; Some ([emb (fst r)], snd r).
Proof.
  change (rext "initWith" [NL ds; DL [DI 8; DF l; DF u]] pos)
    with (do ds' <- unnatsV (NL ds); do r <- fill ds' (uniformGen l u) pos; Some ([emb (fst r)], snd r)).
  rewrite unnatsV_nats. reflexivity.
Qed.

Lemma rext_initWith_nor (ds : list nat) (u s : A) (pos : nat) :
  rext "initWith" [NL ds; DL [DI 9; DF u; DF s]] pos =
  do r <- fill ds (normalGen u s) pos; Some ([emb (fst r)], snd r).
Proof.
  change (rext "initWith" [NL ds; DL [DI 9; DF u; DF s]] pos)
    with (do ds' <- unnatsV (NL ds); do r <- fill ds' (normalGen u s) pos; Some ([emb (fst r)], snd r)).
  rewrite unnatsV_nats. reflexivity.
Qed.

Ltac rlen :=
  match goal with
  | |- context [dlen (map _ _)] => rewrite !dlen_map, ?Zle0_nat, ?Nat2Z.id
  | |- context [dcopyInto _ _] => rewrite dcopyInto_nats
  end.
Ltac rxt :=
  lazymatch goal with
  | |- context [rext "func() any { return distuv.Uniform{Min: l, Max: u}.Rand() }" _ _] => rewrite rext_uniGen
  | |- context [rext "func() any { return distuv.Normal{Mu: u, Sigma: s}.Rand() }" _ _] => rewrite rext_norGen
  | |- context [rext "initWith" [_; DL [DI 8; _; _]] _] => rewrite rext_initWith_uni, fill_uniform_state
  | |- context [rext "initWith" [_; DL [DI 9; _; _]] _] => rewrite rext_initWith_nor, fill_normal_state
  end.
Ltac rx := repeat (progress (dxs; try unfold dnats; repeat rlen; try rxt; cbn [obind fst snd dims data app])).

(* ================= TASK 2, 3: the wrappers ================= *)

(* the explicit form: value, dims and final state *)
Lemma w_uniformRandomTensor_run_tab fuel depth (l u : A) (ds : list nat) (pos : nat) :
  exists g l0,
    drun fapp nat rext w_uniformRandomTensor fuel depth [DF l; DF u; dnats ds] pos =
    DRet nat [dnats ds; emb (tab ds (fun idx => sadd (smul (srnd false (pos + flatIdx ds idx)%nat) (ssub u l)) l))]
         (pos + prodn ds)%nat g l0.
Proof.
  unfold drun, w_uniformRandomTensor. cbn [pmain dbody plocals dparams dbind]. rx. eauto.
Qed.

Lemma w_normalRandomTensor_run_tab fuel depth (u s : A) (ds : list nat) (pos : nat) :
  exists g l0,
    drun fapp nat rext w_normalRandomTensor fuel depth [DF u; DF s; dnats ds] pos =
    DRet nat [dnats ds; emb (tab ds (fun idx => sadd (smul (srnd true (pos + flatIdx ds idx)%nat) s) u))]
         (pos + prodn ds)%nat g l0.
Proof.
  unfold drun, w_normalRandomTensor. cbn [pmain dbody plocals dparams dbind]. rx. eauto.
Qed.

Theorem w_uniformRandomTensor_run fuel depth (l u : A) (ds : list nat) (pos : nat) :
  exists t, uniformRandomTensor l u ds pos = Some t /\ dims t = ds /\
            data t = tab ds (fun idx => sadd (smul (srnd false (pos + flatIdx ds idx)%nat) (ssub u l)) l) /\
  exists g l0,
    drun fapp nat rext w_uniformRandomTensor fuel depth [DF l; DF u; dnats ds] pos =
    DRet nat [dnats (dims t); emb (data t)] (pos + prodn ds)%nat g l0.
Proof.
  eexists. split; [apply uniformRandomTensor_eq|]. cbn [dims data]. split; [reflexivity|]. split; [reflexivity|].
  apply w_uniformRandomTensor_run_tab.
Qed.

Theorem w_normalRandomTensor_run fuel depth (u s : A) (ds : list nat) (pos : nat) :
  exists t, normalRandomTensor u s ds pos = Some t /\ dims t = ds /\
            data t = tab ds (fun idx => sadd (smul (srnd true (pos + flatIdx ds idx)%nat) s) u) /\
  exists g l0,
    drun fapp nat rext w_normalRandomTensor fuel depth [DF u; DF s; dnats ds] pos =
    DRet nat [dnats (dims t); emb (data t)] (pos + prodn ds)%nat g l0.
Proof.
  eexists. split; [apply normalRandomTensor_eq|]. cbn [dims data]. split; [reflexivity|]. split; [reflexivity|].
  apply w_normalRandomTensor_run_tab.
Qed.

(* ================= TASK 4: sequencing ================= *)

(* whatever state the first run returns, it is pos + prodn ds1; the second run, started there, returns the model's
   tensor drawn from that position and ends at pos + prodn ds1 + prodn ds2: the two runs read the disjoint draw
   ranges [pos, pos + prodn ds1) and [pos + prodn ds1, pos + prodn ds1 + prodn ds2). *)
Theorem uniform_then_normal_draws fuel1 depth1 fuel2 depth2 (l u m s : A) (ds1 ds2 : list nat) (pos : nat) :
  exists t1 g1 l1,
    uniformRandomTensor l u ds1 pos = Some t1 /\
    drun fapp nat rext w_uniformRandomTensor fuel1 depth1 [DF l; DF u; dnats ds1] pos =
      DRet nat [dnats (dims t1); emb (data t1)] (pos + prodn ds1)%nat g1 l1 /\
    forall vs pos1 g1' l1',
      drun fapp nat rext w_uniformRandomTensor fuel1 depth1 [DF l; DF u; dnats ds1] pos = DRet nat vs pos1 g1' l1' ->
      pos1 = (pos + prodn ds1)%nat /\
      exists t2 g2 l2,
        normalRandomTensor m s ds2 pos1 = Some t2 /\
        drun fapp nat rext w_normalRandomTensor fuel2 depth2 [DF m; DF s; dnats ds2] pos1 =
          DRet nat [dnats (dims t2); emb (data t2)] (pos + prodn ds1 + prodn ds2)%nat g2 l2 /\
        flat (data t1) = map (fun k => sadd (smul (srnd false (pos + k)%nat) (ssub u l)) l) (seq 0 (prodn ds1)) /\
        flat (data t2) = map (fun k => sadd (smul (srnd true (pos + prodn ds1 + k)%nat) s) m) (seq 0 (prodn ds2)).
Proof.
  destruct (w_uniformRandomTensor_run fuel1 depth1 l u ds1 pos) as (t1 & Ht1 & Hd1 & Hx1 & g1 & l1 & Hrun1).
  exists t1, g1, l1. split; [exact Ht1|]. split; [exact Hrun1|].
  intros vs pos1 g1' l1' Hrun. rewrite Hrun1 in Hrun. inversion Hrun; subst pos1. split; [reflexivity|].
  destruct (w_normalRandomTensor_run fuel2 depth2 m s ds2 (pos + prodn ds1)%nat) as (t2 & Ht2 & Hd2 & Hx2 & g2 & l2 & Hrun2).
  exists t2, g2, l2. split; [exact Ht2|]. split; [exact Hrun2|]. split.
  - rewrite Hx1. apply (flat_tab_rowmajor (fun p => sadd (smul (srnd false p) (ssub u l)) l)).
  - rewrite Hx2. apply (flat_tab_rowmajor (fun p => sadd (smul (srnd true p) s) m)).
Qed.

End DataRand.

Print Assumptions fill_uniform_state.
Print Assumptions fill_normal_state.
Print Assumptions fill_uniform_rowmajor.
Print Assumptions fill_normal_rowmajor.
Print Assumptions w_uniformRandomTensor_run.
Print Assumptions w_normalRandomTensor_run.
Print Assumptions uniform_then_normal_draws.

(* ---- concrete runs over the free term algebra ---- *)
Definition rx_fapp : string -> list term -> option term := fun _ _ => None.
Definition rx_l : term := TVal 0 0.
Definition rx_u : term := TVal 0 1.
Definition rx_uni (k : nat) : term := TBin BAdd (TBin BMul (TRnd false k) (TBin BSub rx_u rx_l)) rx_l.
Definition rx_nor (k : nat) : term := TBin BAdd (TBin BMul (TRnd true k) rx_u) rx_l.

(* dims [2;2] from position 3: the four draws TRnd false 3..6, row-major, final state 7 *)
Example uniform_example :
  match drun rx_fapp nat rext w_uniformRandomTensor 0 0 [DF rx_l; DF rx_u; dnats [2; 2]%nat] 3%nat with
  | DRet _ [d; v] p _ _ =>
      d = dnats [2; 2]%nat /\
      v = emb (Vec [Vec [Sc (rx_uni 3); Sc (rx_uni 4)]; Vec [Sc (rx_uni 5); Sc (rx_uni 6)]]) /\
      p = 7%nat
  | _ => False
  end.
Proof. vm_compute. repeat split; reflexivity. Qed.

(* normalRandomTensor(u = rx_l, s = rx_u, [3]) from the state 7 the first run returned: draws TRnd true 7..9, state 10 *)
Example normal_after_uniform_example :
  match drun rx_fapp nat rext w_uniformRandomTensor 0 0 [DF rx_l; DF rx_u; dnats [2; 2]%nat] 3%nat with
  | DRet _ _ p _ _ =>
      match drun rx_fapp nat rext w_normalRandomTensor 0 0 [DF rx_l; DF rx_u; dnats [3]%nat] p with
      | DRet _ [d; v] q _ _ =>
          d = dnats [3]%nat /\ v = emb (Vec [Sc (rx_nor 7); Sc (rx_nor 8); Sc (rx_nor 9)]) /\ q = 10%nat
      | _ => False
      end
  | _ => False
  end.
Proof. vm_compute. repeat split; reflexivity. Qed.
