(* DataReduceP.v — CPUTensor.reduceByAssociativeFunc (tensor/internal/cputensor/reducers.go) as translated by
   harness/gox into the DataIR program GoData.d_reduceByAssociativeFunc computes Model/Data.v trav / reduceBy.
   The recursive closure [trav] updates the CAPTURED variable [value], which lives in the environment g. *)
From Coq Require Import String List ZArith Bool Lia Arith.
From Qeep Require Import Model.Scalar Model.Nd Model.Data Model.DataIR Model.GoData Proofs.DataIRP.
From Qeep Require Model.GoIR.
Import ListNotations.
Local Open Scope string_scope.
Local Open Scope Z_scope.
Local Open Scope list_scope.

Section DataReduce.
Context {A : Type} {SA : Scalar A}.
Variable fapp : string -> list A -> option A.
Variables (St : Type) (ext : string -> list (@dval A) -> St -> option (list (@dval A) * St)).
Variable af : A -> A -> A.
Hypothesis fapp_af : forall v a, fapp "af" [v; a] = Some (af v a).

Notation locals := (plocals d_reduceByAssociativeFunc).

(* The captured environment: [value] holds a float.  Nothing else is required of g: the parameters dims, data and
   the closure's own locals rows, i, _ (defined with TDef / range variables) shadow whatever g holds under these
   names. *)
Definition gok (g : @denv A) (v0 : A) : Prop := dlookup g "value" = Some (DF v0).

(* g' is g with value := v *)
Definition gpost (g g' : @denv A) (v : A) : Prop :=
  dlookup g' "value" = Some (DF v) /\ forall y, y <> "value" -> dlookup g' y = dlookup g y.

Lemma gpost_refl g v0 : gok g v0 -> gpost g g v0.
Proof. intros H. split; auto. Qed.

Lemma gpost_ok g g' v0 v : gok g v0 -> gpost g g' v -> gok g' v.
Proof.
  intros _ [Hv Hy]. exact Hv.
Qed.

Lemma gpost_trans g g1 g2 v1 v2 : gpost g g1 v1 -> gpost g1 g2 v2 -> gpost g g2 v2.
Proof.
  intros [_ H1] [Hv H2]. split; [exact Hv|]. intros y Hy. rewrite H2, H1; auto.
Qed.

(* the loop  for i := range rows { trav(dims, rows[i]) }  for any body behaving like the call *)
Lemma trav_loop (body : St -> denv -> denv -> @doutcome A St)
      (assign : denv -> denv -> Z -> @dval A -> denv * denv) (ds' : list nat) :
  (forall g l k v, assign g l k v = (g, dupd (dupd l "i" (DI k)) "_" v)) ->
  (forall s g l k (r : nd A) v0 m,
      dlookup l "dims" = Some (dnats ds') -> dlookup l "rows" = Some (DL m) ->
      dlookup l "i" = Some (DI (Z.of_nat k)) -> nth_error m k = Some (emb r) -> gok g v0 ->
      match trav af ds' r v0 with
      | Some v => exists g', body s g l = DNormal St s g' l /\ gpost g g' v
      | None => body s g l = DPanic St
      end) ->
  forall (rest pre : list (nd A)) s g l v0,
  dlookup l "dims" = Some (dnats ds') -> dlookup l "rows" = Some (DL (map emb (pre ++ rest))) -> gok g v0 ->
  match foldM (fun v r => trav af ds' r v) rest v0 with
  | Some v => exists g' l', drangeLoop St body assign (map emb rest) (Z.of_nat (length pre)) s g l = DNormal St s g' l' /\
                            gpost g g' v
  | None => drangeLoop St body assign (map emb rest) (Z.of_nat (length pre)) s g l = DPanic St
  end.
Proof.
  intros Hasg Hbody. induction rest as [|a rest IH]; intros pre s g l v0 Hd Hr Hg.
  - cbn. exists g, l. split; [reflexivity | now apply gpost_refl].
  - cbn [map drangeLoop foldM].
    rewrite (Hasg g l _ _).
    set (l0 := dupd (dupd l "i" (DI (Z.of_nat (length pre)))) "_" (emb a)).
    assert (Hd0 : dlookup l0 "dims" = Some (dnats ds')).
    { unfold l0. rewrite !dlookup_dupd. cbn [String.eqb Ascii.eqb Bool.eqb]. exact Hd. }
    assert (Hr0 : dlookup l0 "rows" = Some (DL (map emb (pre ++ a :: rest)))).
    { unfold l0. rewrite !dlookup_dupd. cbn [String.eqb Ascii.eqb Bool.eqb]. exact Hr. }
    assert (Hi0 : dlookup l0 "i" = Some (DI (Z.of_nat (length pre)))).
    { unfold l0. rewrite !dlookup_dupd. cbn [String.eqb Ascii.eqb Bool.eqb]. reflexivity. }
    assert (Hn : nth_error (map emb (pre ++ a :: rest)) (length pre) = Some (emb a)).
    { rewrite nth_error_map, nth_error_app2, Nat.sub_diag by lia. reflexivity. }
    pose proof (Hbody s g l0 (length pre) a v0 _ Hd0 Hr0 Hi0 Hn Hg) as Hb.
    destruct (trav af ds' a v0) as [v1|]; cbn [obind].
    + destruct Hb as [g1 [Hb Hp]]. rewrite Hb.
      assert (Hr1 : dlookup l0 "rows" = Some (DL (map emb ((pre ++ [a]) ++ rest)))).
      { rewrite <- app_assoc. exact Hr0. }
      pose proof (IH (pre ++ [a]) s g1 l0 v1 Hd0 Hr1 (gpost_ok _ _ _ _ Hg Hp)) as H1.
      rewrite app_length in H1. cbn [length] in H1.
      replace (Z.of_nat (length pre + 1)) with (Z.of_nat (length pre) + 1) in H1 by lia.
      destruct (foldM (fun v r => trav af ds' r v) rest v1) as [v|].
      * destruct H1 as [g' [l' [H1 Hp']]]. exists g', l'. split; [exact H1 | exact (gpost_trans _ _ _ _ _ Hp Hp')].
      * exact H1.
    + rewrite Hb. reflexivity.
Qed.

Lemma sub1_cons (a : @dval A) m :
  (if (0 <=? 1) && (1 <=? dlen (a :: m)) && (dlen (a :: m) <=? dlen (a :: m))
   then Some (DL (firstn (Z.to_nat (dlen (a :: m) - 1)) (skipn (Z.to_nat 1) (a :: m))))
   else @None (@dval A)) = Some (DL m).
Proof.
  assert (H1 : (1 <=? dlen (a :: m)) = true) by (apply Z.leb_le; unfold dlen; cbn [length]; lia).
  rewrite H1, Z.leb_refl. cbn [Z.leb Z.compare andb].
  replace (Z.to_nat (dlen (a :: m) - 1)) with (length m) by (unfold dlen; cbn [length]; lia).
  change (Z.to_nat 1) with 1%nat. cbn [skipn]. now rewrite firstn_all.
Qed.

Definition trav_spec (callL : string -> list (@dval A) -> St -> @denv A -> @cres A St) (ds : list nat) : Prop :=
  forall (x : nd A) v0 s g, gok g v0 ->
  match trav af ds x v0 with
  | Some v => exists g', callL "trav" [dnats ds; emb x] s g = CRet St [] s g' /\ gpost g g' v
  | None => callL "trav" [dnats ds; emb x] s g = CPanic St
  end.

Lemma trav_closure fuel (ds : list nat) : forall d, (length ds <= d)%nat ->
  trav_spec (callLD fapp St ext locals fuel (S d)) ds.
Proof.
  induction ds as [|n ds' IH]; intros d Hd x v0 s g Hg.
  - rewrite callLD_S. set (cl := callLD fapp St ext locals fuel d).
    cbn [dlookupFn plocals d_reduceByAssociativeFunc String.eqb Ascii.eqb Bool.eqb dbind dparams dbody].
    unfold dnats. cbn [map]. dxs.
    pose proof Hg as Hv. unfold gok in Hv.
    unfold dhas. rewrite Hv. cbn [dlen length Z.of_nat Z.eqb].
    destruct x as [a|rows]; cbn [trav asF obind].
    + cbn [emb asFloats]. rewrite fapp_af. dxs. cbn [ptrOuts].
      eexists. split; [reflexivity|]. split.
      * rewrite dlookup_dupd. rewrite String.eqb_refl. reflexivity.
      * intros y Hy. rewrite dlookup_dupd. apply String.eqb_neq in Hy. rewrite Hy. reflexivity.
    + rewrite emb_Vec. reflexivity.
  - assert (Hcl : trav_spec (callLD fapp St ext locals fuel d) ds').
    { destruct d as [|d']; [cbn in Hd; lia|]. apply IH. cbn in Hd. lia. }
    clear IH.
    rewrite callLD_S. set (cl := callLD fapp St ext locals fuel d) in *.
    cbn [dlookupFn plocals d_reduceByAssociativeFunc String.eqb Ascii.eqb Bool.eqb dbind dparams dbody].
    unfold dnats. cbn [map]. dxs.
    rewrite dlen_cons_eqb. dxs.
    rewrite sub1_cons. dxs.
    destruct x as [a|rows]; cbn [trav asV obind].
    { cbn [emb]. reflexivity. }
    rewrite emb_Vec. dxs.
    match goal with |- context [drangeLoop St ?b ?asg _ _ _ _ ?l0] =>
      pose proof (trav_loop b asg ds') as HL; set (lstart := l0) in *
    end.
    match type of HL with ?P -> _ => assert (Hasg : P) end.
    { intros g1 l1 k v. reflexivity. }
    specialize (HL Hasg).
    match type of HL with ?P -> _ => assert (Hbody : P) end.
    { intros s1 g1 l1 k r v1 m Hld Hlr Hli Hn Hg1. dxrs.
      unfold vlookup. rewrite Hld, Hlr, Hli, didx_nat, Hn.
      pose proof (Hcl r v1 s1 g1 Hg1) as Hc.
      destruct (trav af ds' r v1) as [v|].
      - destruct Hc as [g' [Hc Hp]]. rewrite Hc. exists g'. split; [reflexivity | exact Hp].
      - rewrite Hc. reflexivity. }
    specialize (HL Hbody rows [] s g lstart v0 eq_refl eq_refl Hg).
    cbn [length Z.of_nat] in HL.
    destruct (foldM (fun v r => trav af ds' r v) rows v0) as [v|].
    + destruct HL as [g' [l' [HL Hp]]]. rewrite HL. cbn [ptrOuts]. exists g'. split; [reflexivity | exact Hp].
    + rewrite HL. reflexivity.
Qed.

(* (1) the closure: trav(dims, data) run on a captured environment g whose [value] is v0 computes the model's
   [trav]: it returns with no pointer results, value := v in g and every other variable of g unchanged; it panics
   exactly when the model fails.  Nothing else is assumed about g: the parameters dims, data and the closure's
   own locals rows, i, _ shadow whatever g holds under these names. *)
Theorem data_trav fuel (ds : list nat) (x : nd A) (v0 : A) (d : nat) (s : St) (g : @denv A) :
  (length ds <= d)%nat ->
  dlookup g "value" = Some (DF v0) ->
  match trav af ds x v0 with
  | Some v => exists g',
      callLD fapp St ext (plocals d_reduceByAssociativeFunc) fuel (S d) "trav" [dnats ds; emb x] s g = CRet St [] s g' /\
      dlookup g' "value" = Some (DF v) /\
      (forall y, y <> "value" -> dlookup g' y = dlookup g y)
  | None => callLD fapp St ext (plocals d_reduceByAssociativeFunc) fuel (S d) "trav" [dnats ds; emb x] s g = CPanic St
  end.
Proof.
  intros Hd Hv.
  exact (trav_closure fuel ds d Hd x v0 s g Hv).
Qed.

(* (2) the main body *)
Theorem data_reduceBy fuel depth (ds : list nat) (x : nd A) (idv : A) (s : St) :
  (length ds < depth)%nat ->
  match reduceBy af idv (mkT ds x) with
  | Some v => exists g l,
      dexec fapp St ext (callLD fapp St ext (plocals d_reduceByAssociativeFunc) fuel depth) fuel true
            (dbody (pmain d_reduceByAssociativeFunc)) s
            [("t.dims", dnats ds); ("t.data", emb x); ("identity", DF idv)] [] = DRet St [DF v] s g l
  | None =>
      dexec fapp St ext (callLD fapp St ext (plocals d_reduceByAssociativeFunc) fuel depth) fuel true
            (dbody (pmain d_reduceByAssociativeFunc)) s
            [("t.dims", dnats ds); ("t.data", emb x); ("identity", DF idv)] [] = DPanic St
  end.
Proof.
  intros Hd. destruct depth as [|d]; [lia|].
  unfold reduceBy. cbn [dims data].
  set (g0 := [("t.dims", dnats ds); ("t.data", emb x); ("identity", DF idv); ("value", DF idv)] : @denv A).
  assert (Hg : gok g0 idv) by (unfold gok, g0; cbn; auto).
  pose proof (trav_closure fuel ds d ltac:(lia) x idv s g0 Hg) as Hc.
  set (cl := callLD fapp St ext locals fuel (S d)) in *.
  cbn [pmain dbody d_reduceByAssociativeFunc]. dxs. fold g0.
  destruct (trav af ds x idv) as [v|].
  - destruct Hc as [g' [Hc [Hv _]]]. rewrite Hc. dxs. rewrite Hv. eauto.
  - rewrite Hc. reflexivity.
Qed.

Corollary drun_reduceBy fuel depth (ds : list nat) (x : nd A) (idv : A) (s : St) :
  (length ds < depth)%nat ->
  match reduceBy af idv (mkT ds x) with
  | Some v => exists g l,
      drun fapp St ext d_reduceByAssociativeFunc fuel depth [dnats ds; emb x; DF idv] s = DRet St [DF v] s g l
  | None => drun fapp St ext d_reduceByAssociativeFunc fuel depth [dnats ds; emb x; DF idv] s = DPanic St
  end.
Proof. intros Hd. exact (data_reduceBy fuel depth ds x idv s Hd). Qed.

End DataReduce.

Print Assumptions data_trav.
Print Assumptions data_reduceBy.
Print Assumptions drun_reduceBy.

(* a concrete run over the free term algebra: sum of a 2x2 tensor, left to right, starting from the identity *)
Example reduce_example :
  let fapp := fun (f : string) (args : list term) =>
                match args with [a; b] => if String.eqb f "af" then Some (TBin BAdd a b) else None | _ => None end in
  let ext := fun (_ : string) (_ : list (@dval term)) (_ : unit) => @None (list (@dval term) * unit) in
  match drun fapp unit ext d_reduceByAssociativeFunc 5 5
             [dnats [2; 2]%nat;
              emb (Vec [Vec [Sc (TVal 0 0); Sc (TVal 0 1)]; Vec [Sc (TVal 0 2); Sc (TVal 0 3)]]);
              DF (TConst 0 0)] tt with
  | DRet _ [DF v] _ _ _ =>
      v = TBin BAdd (TBin BAdd (TBin BAdd (TBin BAdd (TConst 0 0) (TVal 0 0)) (TVal 0 1)) (TVal 0 2)) (TVal 0 3)
  | _ => False
  end.
Proof. vm_compute. reflexivity. Qed.

(* a ragged tensor (a scalar where dims promises a vector): the model fails and the program panics *)
Example reduce_example_panic :
  let fapp := fun (f : string) (args : list term) =>
                match args with [a; b] => if String.eqb f "af" then Some (TBin BAdd a b) else None | _ => None end in
  let ext := fun (_ : string) (_ : list (@dval term)) (_ : unit) => @None (list (@dval term) * unit) in
  drun fapp unit ext d_reduceByAssociativeFunc 5 5
       [dnats [2; 2]%nat; emb (Vec [Vec [Sc (TVal 0 0)]; Sc (TVal 0 1)]); DF (TConst 0 0)] tt = DPanic unit
  /\ reduceBy (TBin BAdd) (TConst 0 0) (mkT [2; 2]%nat (Vec [Vec [Sc (TVal 0 0)]; Sc (TVal 0 1)])) = None.
Proof. vm_compute. split; reflexivity. Qed.
