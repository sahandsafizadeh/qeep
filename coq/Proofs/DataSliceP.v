(* DataSliceP.v — CPUTensor.copiedSliceOf (tensor/internal/cputensor/accessors.go) with its recursive closure
   copyData, as translated by harness/gox into the DataIR program GoData.d_copiedSliceOf, against
   Model/Data.v sliceData / copiedSliceOf.
   Main results: [copyData_sliceData] (the closure is Data.sliceData, both directions, captured variables untouched),
   [data_copiedSliceOf_run] / [data_copiedSliceOf] (the function is Data.copiedSliceOf).  All need From <= To for
   every range (see [ex_slice_from_gt_to] for why); nothing else is assumed (any fuel, any captured environment,
   closure nesting depth > length index). *)
From Coq Require Import String List ZArith Bool Lia Arith.
From Qeep Require Import Model.Scalar Model.Nd Model.Fill Model.Data Model.DataIR Model.GoData Proofs.DataIRP.
From Qeep Require Model.GoIR.
Import ListNotations.
Local Open Scope string_scope.
Local Open Scope Z_scope.
Local Open Scope list_scope.

Section DataSlice.
Context {A : Type} {SA : Scalar A}.
Variable fapp : string -> list A -> option A.
Variables (St : Type) (ext : string -> list (@dval A) -> St -> option (list (@dval A) * St)).
Notation dval := (@dval A).
Notation denv := (@denv A).

(* an assignment to a variable of the local frame stays in the local frame *)
Lemma vassign_local (atMain : bool) (g l : denv) x (w v : dval) :
  dlookup l x = Some w -> vassign atMain g l x v = (g, dupd l x v).
Proof. intros Hl. unfold vassign, dhas. now rewrite Hl. Qed.

Lemma nth_error_app_len (pre : list dval) a tl : nth_error (pre ++ a :: tl) (length pre) = Some a.
Proof. induction pre as [|p pre IH]; cbn; auto. Qed.

Lemma tail_sub (a : dval) m : firstn (Z.to_nat (dlen (a :: m) - 1)) (skipn (Z.to_nat 1) (a :: m)) = m.
Proof.
  unfold dlen. cbn [length]. replace (Z.to_nat (Z.of_nat (S (length m)) - 1)) with (length m) by lia.
  change (Z.to_nat 1) with 1%nat. cbn [skipn]. apply firstn_all.
Qed.

Section Layer.
Variables (f t : nat) (index' : list (nat * nat)) (rows : list (nd A)) (src : nd A).

(* what the local frame of a copyData invocation holds while its loop runs *)
Definition LInv (l : denv) (drows : list dval) : Prop :=
  dlookup l "index" = Some (dranges index') /\ dlookup l "idx" = Some (DR (Z.of_nat f) (Z.of_nat t)) /\
  dlookup l "srcRows" = Some (DL (map emb rows)) /\ dlookup l "src" = Some (emb src) /\
  dlookup l "dstRows" = Some (DL drows) /\ dhas l "dst" = true.

(* row k of the result *)
Definition rowAt (k : nat) : option (nd A) := do r <- nth_error rows (k + f); sliceData index' r.

(* the loop for any body that behaves like  copyData(index, &srcRows[i+idx.From], &dstRows[i])  and leaves the
   captured variables alone *)
Lemma copyData_loop (body : St -> denv -> denv -> @doutcome A St)
      (assign : denv -> denv -> Z -> dval -> denv * denv) :
  (forall s g l (done : list (nd A)) (rest : list dval),
      LInv l (map emb done ++ DNil :: rest) ->
      let '(g0, l0) := assign g l (Z.of_nat (length done)) DNil in
      match rowAt (length done) with
      | Some r' => exists l1, body s g0 l0 = DNormal St s g l1 /\ LInv l1 (map emb (done ++ [r']) ++ rest)
      | None => body s g0 l0 = DPanic St
      end) ->
  forall (todo : nat) (done : list (nd A)) s g l,
  LInv l (map emb done ++ repeat DNil todo) ->
  match mapM rowAt (seq (length done) todo) with
  | Some out => exists l1, drangeLoop St body assign (repeat DNil todo) (Z.of_nat (length done)) s g l = DNormal St s g l1 /\
                           LInv l1 (map emb (done ++ out))
  | None => drangeLoop St body assign (repeat DNil todo) (Z.of_nat (length done)) s g l = DPanic St
  end.
Proof.
  intros Hb. induction todo as [|todo IH]; intros done s g l Hl.
  - cbn. exists l. split; [reflexivity|]. now rewrite !app_nil_r in *.
  - cbn [repeat seq mapM drangeLoop] in *.
    pose proof (Hb s g l done (repeat DNil todo) Hl) as H1.
    destruct (assign g l (Z.of_nat (length done)) DNil) as [g0 l0].
    destruct (rowAt (length done)) as [r'|]; cbn [obind].
    + destruct H1 as [l1 [Hb1 Hl1]]. rewrite Hb1.
      specialize (IH (done ++ [r']) s g l1 Hl1).
      rewrite app_length in IH. cbn [length] in IH.
      replace (length done + 1)%nat with (S (length done)) in IH by lia.
      replace (Z.of_nat (length done) + 1) with (Z.of_nat (S (length done))) by lia.
      destruct (mapM rowAt (seq (S (length done)) todo)) as [out|]; cbn [obind].
      * destruct IH as [l2 [H2 Hl2]]. exists l2. split; [exact H2|]. now rewrite <- app_assoc in Hl2.
      * exact IH.
    + rewrite H1. reflexivity.
Qed.
End Layer.

Definition runLocal (locals : list (string * dfn)) (callL : string -> list dval -> St -> denv -> cres St)
           (fuel : nat) (fn : string) (vs : list dval) (s : St) (g : denv) : cres St :=
  match dlookupFn locals fn with
  | Some fd =>
      match dbind (dparams fd) vs with
      | Some l0 =>
          match dexec fapp St ext callL fuel false (dbody fd) s g l0 with
          | DNormal _ s1 g1 l1 | DRet _ _ s1 g1 l1 =>
              match ptrOuts (dparams fd) l1 with Some outs => CRet St outs s1 g1 | None => CPanic St end
          | DFuel _ => CFuel St
          | _ => CPanic St
          end
      | None => CPanic St
      end
  | None => CPanic St
  end.

Lemma callLD_S locals fuel d fn vs s g :
  callLD fapp St ext locals fuel (S d) fn vs s g = runLocal locals (callLD fapp St ext locals fuel d) fuel fn vs s g.
Proof. reflexivity. Qed.

(* the expected result of copyData(index, &src, &dst): src is written back unchanged, dst receives the slice;
   the captured variables [g] are untouched *)
Definition sliceRes (index : list (nat * nat)) (src : nd A) (s : St) (g : denv) : cres St :=
  match sliceData index src with Some r => CRet St [emb src; emb r] s g | None => CPanic St end.

Lemma copyData_base callL fuel (src : nd A) v s g :
  runLocal (plocals d_copiedSliceOf) callL fuel "copyData" [dranges []; emb src; v] s g = sliceRes [] src s g.
Proof.
  unfold runLocal, sliceRes, d_copiedSliceOf, dranges.
  cbn [plocals dlookupFn String.eqb Ascii.eqb Bool.eqb dparams dbody dbind map].
  dxs. change (dlen (@nil dval) =? 0) with true. cbn iota.
  destruct src as [a|rows0].
  - cbn [emb]. dxs. cbn [ptrOuts dlookup String.eqb Ascii.eqb Bool.eqb sliceData asF obind emb]. reflexivity.
  - rewrite emb_Vec. cbn [sliceData asF obind]. reflexivity.
Qed.

Lemma copyData_layer callL fuel (f t : nat) (index' : list (nat * nat)) :
  (f <= t)%nat ->
  (forall (r : nd A) v s g, callL "copyData" [dranges index'; emb r; v] s g = sliceRes index' r s g) ->
  forall (src : nd A) v s g,
  runLocal (plocals d_copiedSliceOf) callL fuel "copyData" [dranges ((f, t) :: index'); emb src; v] s g =
  sliceRes ((f, t) :: index') src s g.
Proof.
  intros Hft Hin src v s g.
  unfold runLocal, sliceRes, d_copiedSliceOf, dranges.
  cbn [plocals dlookupFn String.eqb Ascii.eqb Bool.eqb dparams dbody dbind map fst snd].
  assert (Hlen : forall (a : dval) m, (dlen (a :: m) =? 0) = false).
  { intros a m. unfold dlen. cbn [length]. apply Z.eqb_neq. lia. }
  dxs. rewrite Hlen. cbn iota. dxs.
  change (didx 0) with (Some 0%nat). cbn [nth_error]. dxs.
  destruct src as [a|rows].
  { cbn [emb sliceData asV obind]. reflexivity. }
  rewrite emb_Vec. dxs.
  assert (Hsub : Z.of_nat t - Z.of_nat f = Z.of_nat (t - f)) by lia.
  rewrite Hsub.
  rewrite Zle0_nat, Nat2Z.id. dxs.
  assert (Hcond : forall (a : dval) m, (0 <=? 1) && (1 <=? dlen (a :: m)) && (dlen (a :: m) <=? dlen (a :: m)) = true).
  { intros a0 m. unfold dlen. cbn [length]. rewrite !andb_true_iff, !Z.leb_le. lia. }
  rewrite Hcond, tail_sub. dxs.
  match goal with |- context [drangeLoop St ?b ?asg _ _ _ ?g0 ?l0] =>
    pose proof (copyData_loop f t index' rows (Vec rows) b asg) as HL
  end.
  match type of HL with ?P -> _ => assert (Hspec : P) end.
  { clear HL. intros s0 g0 l done rest Hl.
    destruct Hl as (L1 & L2 & L3 & L4 & L5 & L6).
    remember (length done) as k eqn:Ek.
    cbn [vdefine].
    remember (dupd (dupd l "i" (DI (Z.of_nat k))) "_" DNil) as l0 eqn:El0.
    assert (F : forall y, dlookup l0 y = if String.eqb y "_" then Some DNil else
                          if String.eqb y "i" then Some (DI (Z.of_nat k)) else dlookup l y).
    { intros y. subst l0. now rewrite !dlookup_dupd. }
    pose proof (F "index") as F1. pose proof (F "idx") as F2. pose proof (F "srcRows") as F3.
    pose proof (F "src") as F4. pose proof (F "dstRows") as F5. pose proof (F "i") as F6.
    cbn [String.eqb Ascii.eqb Bool.eqb] in F1, F2, F3, F4, F5, F6.
    rewrite L1 in F1. rewrite L2 in F2. rewrite L3 in F3. rewrite L4 in F4. rewrite L5 in F5.
    pose proof (fun g => vlookup_local g _ _ _ F1) as V1. pose proof (fun g => vlookup_local g _ _ _ F2) as V2.
    pose proof (fun g => vlookup_local g _ _ _ F3) as V3. pose proof (fun g => vlookup_local g _ _ _ F5) as V5.
    pose proof (fun g => vlookup_local g _ _ _ F6) as V6.
    unfold rowAt.
    dxrs. rewrite !V1, !V3, !V6, !V2, !V5. dxrs.
    rewrite <- Nat2Z.inj_add, !didx_nat, nth_error_map_emb.
    assert (Hk : k = length (map emb done)) by (subst k; now rewrite map_length).
    assert (Hn : nth_error (map emb done ++ DNil :: rest) k = Some DNil) by (rewrite Hk; apply nth_error_app_len).
    assert (Hset : forall v, setNthD (map emb done ++ DNil :: rest) k v = Some (map emb done ++ v :: rest))
      by (intros; rewrite Hk; apply setNthD_app).
    rewrite Hn.
    destruct (nth_error rows (k + f)) as [r|] eqn:Er; cbn [option_map obind]; [|reflexivity].
    rewrite (Hin r DNil s0 g0). unfold sliceRes.
    destruct (sliceData index' r) as [r'|]; [|reflexivity].
    dxs. rewrite V6, V2. dxs. rewrite <- Nat2Z.inj_add, didx_nat.
    unfold setSlot at 1. rewrite V3.
    rewrite (setNthD_same (map emb rows) (k + f) (emb r)) by (now rewrite nth_error_map_emb, Er).
    rewrite (vassign_local false g0 l0 "srcRows" _ _ F3).
    unfold setSlot, vlookup. rewrite !dlookup_dupd. cbn [String.eqb Ascii.eqb Bool.eqb].
    rewrite F6, didx_nat, F5, Hset.
    erewrite (vassign_local false g0 _ "dstRows") by (rewrite dlookup_dupd; cbn [String.eqb Ascii.eqb Bool.eqb]; exact F5).
    eexists. split; [reflexivity|].
    pose proof (F "dst") as F7. cbn [String.eqb Ascii.eqb Bool.eqb] in F7.
    unfold LInv, dhas in *. rewrite !dlookup_dupd. cbn [String.eqb Ascii.eqb Bool.eqb].
    rewrite F1, F2, F4, F7, map_app, <- app_assoc. cbn [map app]. repeat split; auto. }
  specialize (HL Hspec (t - f)%nat [] s g).
  match goal with |- context [drangeLoop St _ _ _ _ _ _ ?l0] => specialize (HL l0) end.
  match type of HL with ?P -> _ => assert (Hl0 : P) end.
  { unfold LInv, dhas. cbn [dlookup String.eqb Ascii.eqb Bool.eqb map app]. rewrite emb_Vec. repeat split; reflexivity. }
  specialize (HL Hl0). cbn [length map app Z.of_nat] in HL.
  cbn [sliceData asV obind]. fold (rowAt f index' rows).
  destruct (mapM (rowAt f index' rows) (seq 0 (t - f))) as [out|]; cbn [obind].
  - destruct HL as [l1 [HL (L1 & L2 & L3 & L4 & L5 & L6)]]. rewrite HL. dxrs.
    rewrite (vlookup_local g l1 _ _ L5). unfold vassign. rewrite L6.
    cbn [ptrOuts]. rewrite !dlookup_dupd. cbn [String.eqb Ascii.eqb Bool.eqb]. rewrite L4, !emb_Vec. reflexivity.
  - rewrite HL. reflexivity.
Qed.

(* From <= To is needed for every range: Go's make([]any, idx.To-idx.From) panics on a negative length, the model's
   natural subtraction yields an empty vector. *)
Theorem copyData_sliceData fuel (index : list (nat * nat)) :
  Forall (fun r => fst r <= snd r)%nat index ->
  forall (d : nat) (src : nd A) (v : dval) (s : St) (g : denv),
  (length index <= d)%nat ->
  callLD fapp St ext (plocals d_copiedSliceOf) fuel (S d) "copyData" [dranges index; emb src; v] s g =
  match sliceData index src with
  | Some r => CRet St [emb src; emb r] s g
  | None => CPanic St
  end.
Proof.
  induction index as [|[f t] index' IH]; intros HF d src v s g Hd.
  - rewrite callLD_S. apply copyData_base.
  - inversion HF as [|? ? Hft HF']; subst. cbn [fst snd] in Hft.
    destruct d as [|d]; [cbn [length] in Hd; lia|].
    rewrite callLD_S. apply copyData_layer; [exact Hft|].
    intros r v0 s0 g0. apply (IH HF'). cbn [length] in Hd. lia.
Qed.

Definition Keep (g g1 : denv) : Prop :=
  dlookup g1 "index" = dlookup g "index" /\ dlookup g1 "t.data" = dlookup g "t.data" /\
  dlookup g1 "o.data" = dlookup g "o.data".

Definition zdim (r : nat * nat) : dval := DI (Z.of_nat (snd r) - Z.of_nat (fst r)).

Lemma dims_loop (body : St -> denv -> denv -> @doutcome A St)
      (assign : denv -> denv -> Z -> dval -> denv * denv) :
  (forall s g (pre tl : list dval) (r : nat * nat),
      dlookup g "dims" = Some (DL (pre ++ DI 0 :: tl)) ->
      let '(g0, l0) := assign g [] (Z.of_nat (length pre)) (DR (Z.of_nat (fst r)) (Z.of_nat (snd r))) in
      exists g1, body s g0 l0 = DNormal St s g1 [] /\
                 dlookup g1 "dims" = Some (DL (pre ++ zdim r :: tl)) /\ Keep g g1) ->
  forall (rest : list (nat * nat)) (pre : list dval) s g,
  dlookup g "dims" = Some (DL (pre ++ repeat (DI 0) (length rest))) ->
  exists g1, drangeLoop St body assign (map (fun r => DR (Z.of_nat (fst r)) (Z.of_nat (snd r))) rest)
                        (Z.of_nat (length pre)) s g [] = DNormal St s g1 [] /\
             dlookup g1 "dims" = Some (DL (pre ++ map zdim rest)) /\ Keep g g1.
Proof.
  intros Hb. induction rest as [|r rest IH]; intros pre s g Hd.
  - cbn. exists g. repeat split; auto.
  - cbn [map drangeLoop length repeat] in *.
    pose proof (Hb s g pre (repeat (DI 0) (length rest)) r Hd) as H1.
    destruct (assign g [] (Z.of_nat (length pre)) (DR (Z.of_nat (fst r)) (Z.of_nat (snd r)))) as [g0 l0].
    destruct H1 as [g1 [Hb1 [Hd1 (K1 & K2 & K3)]]]. rewrite Hb1.
    specialize (IH (pre ++ [zdim r]) s g1).
    rewrite <- app_assoc in IH. cbn [app] in IH. specialize (IH Hd1).
    rewrite app_length in IH. cbn [length] in IH.
    replace (Z.of_nat (length pre) + 1) with (Z.of_nat (length pre + 1)) by lia.
    destruct IH as [g2 [H2 [Hd2 (K4 & K5 & K6)]]]. exists g2. split; [exact H2|].
    rewrite <- app_assoc in Hd2. cbn [app] in Hd2. split; [exact Hd2|].
    unfold Keep. rewrite K4, K5, K6. auto.
Qed.

Theorem data_copiedSliceOf_run fuel depth (ds : list nat) (x : nd A) (index : list (nat * nat)) (s : St) :
  Forall (fun r => fst r <= snd r)%nat index ->
  (length index < depth)%nat ->
  match sliceData index x with
  | Some r => exists g l, drun fapp St ext d_copiedSliceOf fuel depth [dnats ds; emb x; dranges index] s =
                          DRet St [dnats (map (fun r => snd r - fst r)%nat index); emb r] s g l
  | None => drun fapp St ext d_copiedSliceOf fuel depth [dnats ds; emb x; dranges index] s = DPanic St
  end.
Proof.
  intros HF Hdepth.
  destruct depth as [|d]; [lia|].
  assert (Hd : (length index <= d)%nat) by lia.
  pose proof (fun v s g => copyData_sliceData fuel index HF d x v s g Hd) as Hcall.
  unfold drun.
  remember (plocals d_copiedSliceOf) as locals eqn:Eloc.
  unfold d_copiedSliceOf. cbn [pmain dparams dbody dbind].
  unfold dranges in *.
  dxs. rewrite !dlen_map.
  rewrite !Zle0_nat, !Nat2Z.id. dxs.
  match goal with |- context [drangeLoop St ?b ?asg _ _ _ ?g0 ?l0] =>
    pose proof (dims_loop b asg) as HL
  end.
  match type of HL with ?P -> _ => assert (Hspec : P) end.
  { clear HL. intros s0 g pre tl r Hdm. cbn [vdefine].
    autorewrite with dataexec. cbn [deval devalBin]. unfold vlookup. cbn [dlookup].
    rewrite !dlookup_dupd. cbn [String.eqb Ascii.eqb Bool.eqb]. rewrite didx_nat.
    unfold setSlot, vlookup. cbn [dlookup]. rewrite !dlookup_dupd. cbn [String.eqb Ascii.eqb Bool.eqb].
    rewrite Hdm. cbn [devalBin]. rewrite setNthD_app, vassign_main.
    eexists. split; [reflexivity|]. unfold Keep. rewrite !dlookup_dupd. cbn [String.eqb Ascii.eqb Bool.eqb].
    repeat split; reflexivity. }
  specialize (HL Hspec index [] s).
  match goal with |- context [drangeLoop St _ _ _ _ _ ?g0 _] => specialize (HL g0) end.
  match type of HL with ?P -> _ => assert (H0 : P) end.
  { cbn [dlookup String.eqb Ascii.eqb Bool.eqb app]. reflexivity. }
  specialize (HL H0). cbn [length Z.of_nat app] in HL.
  destruct HL as [g1 [HL [Hdims (K1 & K2 & K3)]]]. rewrite !HL.
  cbn [dlookup String.eqb Ascii.eqb Bool.eqb] in K1, K2, K3.
  clear HL Hspec H0.
  assert (if_same : forall (b : bool) (X : Type) (a : X), (if b then a else a) = a) by (intros [|]; reflexivity).
  dxs. rewrite !Hdims, !if_same. dxs.
  rewrite !dlookup_dupd. cbn [String.eqb Ascii.eqb Bool.eqb]. rewrite !K1, !K2, !K3. cbn iota.
  rewrite !Hcall.
  destruct (sliceData index x) as [r|]; [|reflexivity].
  repeat (progress (rewrite ?if_same; dxs)).
  rewrite !dlookup_dupd. cbn [String.eqb Ascii.eqb Bool.eqb].
  (* dims[i] = idx.To - idx.From over Z is the model's natural subtraction because From <= To *)
  assert (Hz : map zdim index = map (fun n => DI (Z.of_nat n)) (map (fun r0 => (snd r0 - fst r0)%nat) index)).
  { clear -HF. induction HF as [|r0 rest Hr _ IH]; cbn [map]; [reflexivity|].
    rewrite IH. unfold zdim. do 2 f_equal. lia. }
  rewrite Hz. unfold dnats. eauto.
Qed.

(* the same, stated with Data.copiedSliceOf on the tensor (ds, x) *)
Corollary data_copiedSliceOf fuel depth (ds : list nat) (x : nd A) (index : list (nat * nat)) (s : St) :
  Forall (fun r => fst r <= snd r)%nat index ->
  (length index < depth)%nat ->
  match copiedSliceOf (mkT ds x) index with
  | Some o => exists g l, drun fapp St ext d_copiedSliceOf fuel depth [dnats ds; emb x; dranges index] s =
                          DRet St [dnats (dims o); emb (data o)] s g l
  | None => drun fapp St ext d_copiedSliceOf fuel depth [dnats ds; emb x; dranges index] s = DPanic St
  end.
Proof.
  intros HF Hdepth. pose proof (data_copiedSliceOf_run fuel depth ds x index s HF Hdepth) as H.
  unfold copiedSliceOf. cbn [data].
  destruct (sliceData index x) as [r|]; cbn [obind dims data]; exact H.
Qed.


End DataSlice.

Print Assumptions copyData_sliceData.
Print Assumptions data_copiedSliceOf_run.
Print Assumptions data_copiedSliceOf.


Section Examples.
Let fa : string -> list term -> option term := fun _ _ => None.
Let ex : string -> list (@dval term) -> unit -> option (list (@dval term) * unit) := fun _ _ _ => None.
Let c (n : Z) : nd term := Sc (TConst n 0).
Let x22 : nd term := Vec [Vec [c 1; c 2]; Vec [c 3; c 4]].
Let outs (o : @doutcome term unit) : option (list (@dval term)) :=
  match o with DRet _ vs _ _ _ => Some vs | _ => None end.

(* rank 2 (the recursive closure shadows the loop variables i, idx of the main function) *)
Example ex_slice_rank2 :
  outs (drun fa unit ex d_copiedSliceOf 0 3 [dnats [2; 2]%nat; emb x22; dranges [(0, 2); (1, 2)]%nat] tt) =
  Some [dnats [2; 1]%nat; emb (Vec [Vec [c 2]; Vec [c 4]])]
  /\ sliceData [(0, 2); (1, 2)]%nat x22 = Some (Vec [Vec [c 2]; Vec [c 4]]).
Proof. split; vm_compute; reflexivity. Qed.

(* out of range: both panic *)
Example ex_slice_oob :
  drun fa unit ex d_copiedSliceOf 0 3 [dnats [2; 2]%nat; emb x22; dranges [(0, 3); (0, 2)]%nat] tt = DPanic unit
  /\ sliceData [(0, 3); (0, 2)]%nat x22 = None.
Proof. split; vm_compute; reflexivity. Qed.

(* the hypothesis From <= To is necessary: for From > To the Go code (make([]any, -1)) panics, the model's natural
   subtraction gives an empty vector *)
Example ex_slice_from_gt_to :
  drun fa unit ex d_copiedSliceOf 0 3 [dnats [2; 2]%nat; emb x22; dranges [(2, 1)]%nat] tt = DPanic unit
  /\ copiedSliceOf (mkT [2; 2]%nat x22) [(2, 1)]%nat = Some (mkT [0]%nat (Vec [])).
Proof. split; vm_compute; reflexivity. Qed.
End Examples.
