(* DataWrapP.v — the WRAPPERS of tensor/internal/cputensor (shape helper + element generator + initWith, or a
   shape helper + a sibling function) as translated by harness/gox into the straight-line DataIR programs of
   Model/GoWrap.v, run with the oracle Model/DataExt.v ([dext red]), return exactly the model's operation
   (Model/Data.v): transpose, reshape, broadcast, unSqueeze, squeeze, flatten, slice, patch, dot, matMul,
   reduceAlong, constTensor, eyeMatrix. *)
From Coq Require Import String List ZArith Bool Lia Arith.
From Qeep Require Import Model.Scalar Model.Nd Model.Fill Model.Data Model.Valid Model.Api Model.Grad
     Model.DataIR Model.HeapExt Model.DataExt Model.GoWrap Proofs.NdP Proofs.DataIRP Proofs.HeapExtP.
From Qeep Require Model.GoIR.
Import ListNotations.
Local Open Scope string_scope.
Local Open Scope Z_scope.
Local Open Scope list_scope.

Section DataWrap.
Context {A : Type} {SA : Scalar A}.
Variable fapp : string -> list A -> option A.
Variable red : reducer.
Notation T := (tensor A).
Notation dval := (@dval A).
Notation denv := (@denv A).
Notation NL l := (@DL A (map (fun n : nat => @DI A (Z.of_nat n)) l)).
Notation RL l := (@DL A (map (fun r : nat * nat => @DR A (Z.of_nat (fst r)) (Z.of_nat (snd r))) l)).

(* the outcome of a wrapper against the model's result *)
Definition returns (o : @doutcome A unit) (m : option T) : Prop :=
  match m with
  | Some t => exists g l, o = DRet unit [dnats (dims t); emb (data t)] tt g l
  | None => o = DPanic unit
  end.

Lemma unnatsV_nats (l : list nat) : unnatsV (NL l) = Some l.
Proof. cbn [unnatsV]. apply unnats_nats. Qed.

Lemma unnatsV_dnats (l : list nat) : unnatsV (@dnats A l) = Some l.
Proof. apply unnatsV_nats. Qed.

Lemma unranges_ranges (l : list (nat * nat)) :
  unranges (map (fun r : nat * nat => @DR A (Z.of_nat (fst r)) (Z.of_nat (snd r))) l) = Some l.
Proof.
  induction l as [|[f t] l IH]; [reflexivity|].
  cbn [map unranges fst snd]. rewrite !Zle0_nat. cbn [andb]. rewrite IH, !Nat2Z.id. reflexivity.
Qed.

Lemma unrangesV_ranges (l : list (nat * nat)) : unrangesV (RL l) = Some l.
Proof. cbn [unrangesV]. apply unranges_ranges. Qed.

Lemma unrangesV_dranges (l : list (nat * nat)) : unrangesV (@dranges A l) = Some l.
Proof. apply unrangesV_ranges. Qed.

Lemma unnatV_nat (n : nat) : unnatV (@DI A (Z.of_nat n)) = Some n.
Proof. cbn [unnatV]. rewrite Zle0_nat, Nat2Z.id. reflexivity. Qed.

Lemma unnatV_neg (z : Z) : z < 0 -> unnatV (@DI A z) = None.
Proof. intros H. cbn [unnatV]. destruct (0 <=? z) eqn:E; [apply Z.leb_le in E; lia | reflexivity]. Qed.

Lemma dcopyInto_full (v : dval) (src : list dval) : dcopyInto (repeat v (length src)) src = src.
Proof. induction src as [|a src IH]; [reflexivity|]. cbn [length repeat dcopyInto]. now rewrite IH. Qed.

Lemma dcopyInto_nats (v : dval) (l : list nat) :
  dcopyInto (repeat v (length l)) (map (fun n : nat => @DI A (Z.of_nat n)) l) = map (fun n : nat => @DI A (Z.of_nat n)) l.
Proof. rewrite <- (map_length (fun n : nat => @DI A (Z.of_nat n)) l) at 1. apply dcopyInto_full. Qed.

Lemma dext_linGen tdv xv s : dext red "linearElemGenerator" [tdv; xv] s = Some ([DL [DI 0; tdv; xv]], tt).
Proof. reflexivity. Qed.
Lemma dext_trGen tdv xv s : dext red "transposeElemGenerator" [tdv; xv] s = Some ([DL [DI 1; tdv; xv]], tt).
Proof. reflexivity. Qed.
Lemma dext_bcGen tdv xv shv s : dext red "broadcastElemGenerator" [tdv; xv; shv] s = Some ([DL [DI 2; tdv; xv; shv]], tt).
Proof. reflexivity. Qed.
Lemma dext_redGen tdv xv dv trf s :
  dext red "linearElemGeneratorWithReducedDim" [tdv; xv; dv; trf] s = Some ([DL [DI 3; tdv; xv; dv]], tt).
Proof. reflexivity. Qed.
Lemma dext_dotGen tdv x1v d2v x2v s :
  dext red "linearLastDimDotProductElemGenerator" [tdv; x1v; d2v; x2v] s = Some ([DL [DI 4; tdv; x1v; x2v]], tt).
Proof. reflexivity. Qed.
Lemma dext_mmGen tdv x1v d2v x2v s :
  dext red "linearLast2DimsMatMulElemGenerator" [tdv; x1v; d2v; x2v] s = Some ([DL [DI 5; tdv; x1v; x2v]], tt).
Proof. reflexivity. Qed.
Lemma dext_eyeGen nv s : dext red "eyeElemGenerator" [nv] s = Some ([DL [DI 6; nv]], tt).
Proof. reflexivity. Qed.
Lemma dext_constGen (v : A) s : dext red "func() any { return value }" [DF v] s = Some ([DL [DI 7; DF v]], tt).
Proof. reflexivity. Qed.
Lemma dext_initWith dsv hd s :
  dext red "initWith" [dsv; hd] s = do ds <- unnatsV dsv; do d <- initWithHandle red ds hd; Some ([emb d], tt).
Proof. reflexivity. Qed.
Lemma dext_transposeDims dsv s :
  dext red "transposeDims" [dsv] s =
  do ds <- unnatsV dsv; if Nat.leb 2 (length ds) then Some ([dnats (transposeDims ds)], tt) else None.
Proof. reflexivity. Qed.
Lemma dext_unsqueezeDims dv dsv s :
  dext red "unsqueezeDims" [dv; dsv] s =
  do dim <- unnatV dv; do ds <- unnatsV dsv;
  if Nat.leb dim (length ds) then Some ([dnats (unsqueezeDims dim ds)], tt) else None.
Proof. reflexivity. Qed.
Lemma dext_squeezeDims dv dsv s :
  dext red "squeezeDims" [dv; dsv] s =
  do dim <- unnatV dv; do ds <- unnatsV dsv;
  if Nat.leb dim (length ds) then Some ([dnats (squeezeDims dim ds)], tt) else None.
Proof. reflexivity. Qed.
Lemma dext_flattenDims dv dsv s :
  dext red "flattenDims" [dv; dsv] s =
  do dim <- unnatV dv; do ds <- unnatsV dsv;
  if Nat.leb dim (length ds) then Some ([dnats (flattenDims dim ds)], tt) else None.
Proof. reflexivity. Qed.
Lemma dext_dotDims dsv s :
  dext red "dotDims" [dsv] s =
  do ds <- unnatsV dsv; if Nat.leb 1 (length ds) then Some ([dnats (dotDims ds)], tt) else None.
Proof. reflexivity. Qed.
Lemma dext_matMulDims d1v d2v s :
  dext red "matMulDims" [d1v; d2v] s =
  do d1 <- unnatsV d1v; do d2 <- unnatsV d2v;
  if Nat.leb 2 (length d1) then do r <- matMulDims d1 d2; Some ([dnats r], tt) else None.
Proof. reflexivity. Qed.
Lemma dext_completeIndex iv dsv s :
  dext red "completeIndex" [iv; dsv] s =
  do idx <- unrangesV iv; do ds <- unnatsV dsv; Some ([dranges (completeIndex idx ds)], tt).
Proof. reflexivity. Qed.
Lemma dext_copiedSliceOf dsv xv iv s :
  dext red "copiedSliceOf" [dsv; xv; iv] s =
  do ds <- unnatsV dsv; do x <- unemb xv; do idx <- unrangesV iv;
  if forallb (fun r => Nat.leb (fst r) (snd r)) idx then retTensor (copiedSliceOf (mkT ds x) idx) else None.
Proof. reflexivity. Qed.
Lemma dext_copiedWithPatchOf dsv xv iv udv uxv s :
  dext red "copiedWithPatchOf" [dsv; xv; iv; udv; uxv] s =
  do ds <- unnatsV dsv; do x <- unemb xv; do idx <- unrangesV iv; do uds <- unnatsV udv; do ux <- unemb uxv;
  retTensor (do o <- slice (mkT ds x) []; do d <- patchData idx ux (data o); Some (mkT (dims o) d)).
Proof. reflexivity. Qed.
Lemma dext_reshape dsv xv shv s :
  dext red "reshape" [dsv; xv; shv] s =
  do ds <- unnatsV dsv; do x <- unemb xv; do sh <- unnatsV shv; retTensor (reshape (mkT ds x) sh).
Proof. reflexivity. Qed.

Lemma iwh_lin ds tds (x : nd A) :
  initWithHandle red ds (DL [DI 0; NL tds; emb x]) = initWith ds (linGen tds x) (linInit tds).
Proof. cbn [initWithHandle]. rewrite unnatsV_nats, unemb_emb. reflexivity. Qed.
Lemma iwh_tr ds tds (x : nd A) :
  initWithHandle red ds (DL [DI 1; NL tds; emb x]) = initWith ds (trGen tds x) (linInit tds).
Proof. cbn [initWithHandle]. rewrite unnatsV_nats, unemb_emb. reflexivity. Qed.
Lemma iwh_bc ds tds (x : nd A) sh :
  initWithHandle red ds (DL [DI 2; NL tds; emb x; NL sh]) = initWith ds (bcGen x) (bcInit tds sh).
Proof. cbn [initWithHandle]. rewrite !unnatsV_nats, unemb_emb. reflexivity. Qed.
Lemma iwh_red ds tds (x : nd A) dim :
  initWithHandle red ds (DL [DI 3; NL tds; emb x; DI (Z.of_nat dim)]) =
  initWith ds (redGen red dim (mkT tds x)) (linInit tds).
Proof. cbn [initWithHandle]. rewrite unnatsV_nats, unemb_emb, unnatV_nat. reflexivity. Qed.
Lemma iwh_dot ds tds (x1 x2 : nd A) :
  initWithHandle red ds (DL [DI 4; NL tds; emb x1; emb x2]) =
  initWith ds (batchGen dot1d (dotDims tds) x1 x2) (linInit (dotDims tds)).
Proof. cbn [initWithHandle]. rewrite unnatsV_nats, !unemb_emb. reflexivity. Qed.
Lemma iwh_mm ds tds (x1 x2 : nd A) :
  initWithHandle red ds (DL [DI 5; NL tds; emb x1; emb x2]) =
  initWith ds (batchGen matmul2d (firstn (length tds - 2) tds) x1 x2) (linInit (firstn (length tds - 2) tds)).
Proof. cbn [initWithHandle]. rewrite unnatsV_nats, !unemb_emb. reflexivity. Qed.
Lemma iwh_eye ds n :
  initWithHandle red ds (DL [DI 6; DI (Z.of_nat n)]) = initWith ds (@eyeGen A SA n) 0%nat.
Proof. cbn [initWithHandle]. rewrite unnatV_nat. reflexivity. Qed.
Lemma iwh_const ds (v : A) :
  initWithHandle red ds (DL [DI 7; DF v]) = initWith ds (constGen v) tt.
Proof. reflexivity. Qed.

Lemma unnatsV_2 (n m : nat) : unnatsV (@DL A [DI (Z.of_nat n); DI (Z.of_nat m)]) = Some [n; m].
Proof. apply (unnatsV_nats [n; m]). Qed.

Lemma returns_seq cl fu a b s g l s1 g1 l1 m :
  dexec fapp unit (dext red) cl fu true a s g l = DNormal unit s1 g1 l1 ->
  returns (dexec fapp unit (dext red) cl fu true b s1 g1 l1) m ->
  returns (dexec fapp unit (dext red) cl fu true (TSeq a b) s g l) m.
Proof. intros Ha. rewrite dexec_TSeq, Ha. trivial. Qed.

(* one oracle call [dext red f vs s = _]: its equation, then the decoding of its (embedded) arguments *)
Ltac wdec := unfold dnats, dranges; rewrite ?unnatsV_nats, ?unnatsV_2, ?unemb_emb, ?unrangesV_ranges, ?unnatV_nat.
Ltac wext :=
  lazymatch goal with
  | |- dext _ ?f _ _ = _ =>
    lazymatch f with
    | "linearElemGenerator" => rewrite dext_linGen
    | "transposeElemGenerator" => rewrite dext_trGen
    | "broadcastElemGenerator" => rewrite dext_bcGen
    | "linearElemGeneratorWithReducedDim" => rewrite dext_redGen
    | "linearLastDimDotProductElemGenerator" => rewrite dext_dotGen
    | "linearLast2DimsMatMulElemGenerator" => rewrite dext_mmGen
    | "eyeElemGenerator" => rewrite dext_eyeGen
    | "func() any { return value }" => rewrite dext_constGen
    | "initWith" =>
        rewrite dext_initWith; wdec; cbn [obind];
        rewrite ?iwh_lin, ?iwh_tr, ?iwh_bc, ?iwh_red, ?iwh_dot, ?iwh_mm, ?iwh_eye, ?iwh_const
    | "transposeDims" => rewrite dext_transposeDims; wdec
    | "unsqueezeDims" => rewrite dext_unsqueezeDims; wdec
    | "squeezeDims" => rewrite dext_squeezeDims; wdec
    | "flattenDims" => rewrite dext_flattenDims; wdec
    | "dotDims" => rewrite dext_dotDims; wdec
    | "matMulDims" => rewrite dext_matMulDims; wdec
    | "completeIndex" => rewrite dext_completeIndex; wdec
    | "copiedSliceOf" => rewrite dext_copiedSliceOf; wdec
    | "copiedWithPatchOf" => rewrite dext_copiedWithPatchOf; wdec
    | "reshape" => rewrite dext_reshape; wdec
    end
  end; cbn [obind].
(* make([]int, len(shape)); copy(dims, shape) *)
Ltac wlen :=
  match goal with
  | |- context [dlen (map _ _)] => rewrite !dlen_map, ?Zle0_nat, ?Nat2Z.id
  | |- context [dcopyInto _ _] => rewrite dcopyInto_nats
  end.

(* The wrappers are straight-line code, run one statement at a time.  [whead tac] closes the goal of the head
   statement, [dexec .. a s g l = DNormal _ _ _ _] (or [= DPanic _] for the exit through a failing oracle call);
   [tac] rewrites with what is known about the oracle's answer.  It fails where the answer depends on a case the
   proof has not yet distinguished, which is where [wrun] stops. *)
Ltac wcomp :=
  lazy beta iota zeta delta [dexec tseq deval devals devalBin vlookup dlookup dupd dhas vassign vdefine
                             String.eqb Ascii.eqb Bool.eqb dassignAll app].
Ltac whead tac :=
  lazymatch goal with
  | |- dexec _ _ _ _ _ _ (TExt _ _ _ _) _ _ _ = DNormal _ _ _ _ =>
      eapply dexec_TExt_ok; [ wcomp; reflexivity | wext; tac; reflexivity | wcomp; reflexivity ]
  | |- dexec _ _ _ _ _ _ (TExt _ _ _ _) _ _ _ = DPanic _ =>
      eapply dexec_TExt_none; [ wcomp; reflexivity | wext; tac; reflexivity ]
  | |- _ => wcomp; repeat wlen; tac; wcomp; reflexivity
  end.
Ltac wassoc :=
  repeat lazymatch goal with
         | |- returns (dexec _ _ _ _ _ _ (TSeq (TSeq _ _) _) _ _ _) _ => rewrite dexec_TSeq_assoc
         | |- dexec _ _ _ _ _ _ (TSeq (TSeq _ _) _) _ _ _ = _ => rewrite dexec_TSeq_assoc
         end.
Ltac wstep tac :=
  wassoc;
  lazymatch goal with
  | |- returns (dexec _ _ _ _ _ _ (TSeq _ _) _ _ _) _ => eapply returns_seq; [ whead tac | ]
  | |- dexec _ _ _ _ _ _ (TSeq _ _) _ _ _ = _ => eapply dexec_TSeq_normal; [ whead tac | ]
  end.
Tactic Notation "wrun" "by" tactic3(tac) := repeat (wstep tac).
Tactic Notation "wrun" "with" constr(H) := wrun by (rewrite ?H).
Tactic Notation "wrun" := wrun by idtac.
Tactic Notation "wpanic" "by" tactic3(tac) := cbn [returns obind]; wassoc; eapply dexec_TSeq_panic; whead tac.
Tactic Notation "wpanic" "with" constr(H) := wpanic by (rewrite ?H).
Ltac wstart p := unfold drun, p, dnats, dranges; cbn [pmain dbody plocals dparams dbind tseq].
Ltac wret := cbn [returns obind]; wcomp; eauto.
(* the model's result is an [initWith], [reshape] or [copiedSliceOf]: both cases, from the oracle call that makes it *)
Tactic Notation "wfin" "with" constr(H) :=
  let E := fresh "E" in
  match goal with
  | |- context [@initWith ?X ?S ?a ?b ?c] => destruct (@initWith X S a b c) eqn:E
  | |- context [reshape ?a ?b] => destruct (reshape a b) eqn:E
  | |- context [copiedSliceOf ?a ?b] => destruct (copiedSliceOf a b) eqn:E
  end; [ wrun by (rewrite ?H, ?E); wret | wpanic by (rewrite ?H, ?E) ].
Tactic Notation "wfin" := wfin with (@eq_refl unit tt).

(* the oracle's guard (transposeDims indexes dims[n-1], dims[n-2]): 2 <= rank *)
Theorem w_transpose_run fuel depth (ds : list nat) (x : nd A) :
  (2 <= length ds)%nat ->
  returns (drun fapp unit (dext red) w_transpose fuel depth [dnats ds; emb x] tt) (transpose (mkT ds x)).
Proof.
  intros H. apply Nat.leb_le in H. wstart w_transpose. wrun with H.
  unfold transpose. cbn [dims data]. wfin.
Qed.

Theorem w_transpose_outside fuel depth (ds : list nat) (x : nd A) :
  (length ds < 2)%nat ->
  drun fapp unit (dext red) w_transpose fuel depth [dnats ds; emb x] tt = DPanic unit.
Proof. intros H. apply Nat.leb_gt in H. wstart w_transpose. wrun. wpanic with H. Qed.

Theorem w_reshape_run fuel depth (ds : list nat) (x : nd A) (shape : list nat) :
  returns (drun fapp unit (dext red) w_reshape fuel depth [dnats ds; emb x; dnats shape] tt)
          (reshape (mkT ds x) shape).
Proof. wstart w_reshape. wrun. unfold reshape. cbn [dims data]. wfin. Qed.

Theorem w_broadcast_run fuel depth (ds : list nat) (x : nd A) (shape : list nat) :
  returns (drun fapp unit (dext red) w_broadcast fuel depth [dnats ds; emb x; dnats shape] tt)
          (broadcast (mkT ds x) shape).
Proof. wstart w_broadcast. wrun. unfold broadcast. cbn [dims data]. wfin. Qed.

Theorem w_unSqueeze_run fuel depth (ds : list nat) (x : nd A) (dim : nat) :
  (dim <= length ds)%nat ->
  returns (drun fapp unit (dext red) w_unSqueeze fuel depth [dnats ds; emb x; DI (Z.of_nat dim)] tt)
          (unSqueeze (mkT ds x) dim).
Proof.
  intros H. apply Nat.leb_le in H. wstart w_unSqueeze. wrun with H.
  unfold unSqueeze. cbn [dims data]. wfin.
Qed.

Theorem w_squeeze_run fuel depth (ds : list nat) (x : nd A) (dim : nat) :
  (dim <= length ds)%nat ->
  returns (drun fapp unit (dext red) w_squeeze fuel depth [dnats ds; emb x; DI (Z.of_nat dim)] tt)
          (squeeze (mkT ds x) dim).
Proof.
  intros H. apply Nat.leb_le in H. wstart w_squeeze. wrun with H.
  unfold squeeze. cbn [dims data]. wfin.
Qed.

Theorem w_flatten_run fuel depth (ds : list nat) (x : nd A) (dim : nat) :
  (dim <= length ds)%nat ->
  returns (drun fapp unit (dext red) w_flatten fuel depth [dnats ds; emb x; DI (Z.of_nat dim)] tt)
          (flatten (mkT ds x) dim).
Proof.
  intros H. apply Nat.leb_le in H. wstart w_flatten. wrun with H.
  unfold flatten. cbn [dims data]. wfin.
Qed.

(* outside the guard of the shape helper (dim > rank, or a negative dim) the three programs panic *)
Theorem w_unSqueeze_outside fuel depth (ds : list nat) (x : nd A) (dim : nat) :
  (length ds < dim)%nat ->
  drun fapp unit (dext red) w_unSqueeze fuel depth [dnats ds; emb x; DI (Z.of_nat dim)] tt = DPanic unit.
Proof. intros H. apply Nat.leb_gt in H. wstart w_unSqueeze. wrun. wpanic with H. Qed.
Theorem w_squeeze_outside fuel depth (ds : list nat) (x : nd A) (dim : nat) :
  (length ds < dim)%nat ->
  drun fapp unit (dext red) w_squeeze fuel depth [dnats ds; emb x; DI (Z.of_nat dim)] tt = DPanic unit.
Proof. intros H. apply Nat.leb_gt in H. wstart w_squeeze. wrun. wpanic with H. Qed.
Theorem w_flatten_outside fuel depth (ds : list nat) (x : nd A) (dim : nat) :
  (length ds < dim)%nat ->
  drun fapp unit (dext red) w_flatten fuel depth [dnats ds; emb x; DI (Z.of_nat dim)] tt = DPanic unit.
Proof. intros H. apply Nat.leb_gt in H. wstart w_flatten. wrun. wpanic with H. Qed.

Theorem w_unSqueeze_negative fuel depth (dsv xv : dval) (z : Z) :
  z < 0 -> drun fapp unit (dext red) w_unSqueeze fuel depth [dsv; xv; DI z] tt = DPanic unit.
Proof. intros H. wstart w_unSqueeze. wrun. wpanic with (unnatV_neg _ H). Qed.
Theorem w_squeeze_negative fuel depth (dsv xv : dval) (z : Z) :
  z < 0 -> drun fapp unit (dext red) w_squeeze fuel depth [dsv; xv; DI z] tt = DPanic unit.
Proof. intros H. wstart w_squeeze. wrun. wpanic with (unnatV_neg _ H). Qed.
Theorem w_flatten_negative fuel depth (dsv xv : dval) (z : Z) :
  z < 0 -> drun fapp unit (dext red) w_flatten fuel depth [dsv; xv; DI z] tt = DPanic unit.
Proof. intros H. wstart w_flatten. wrun. wpanic with (unnatV_neg _ H). Qed.

Lemma forallb_le (l : list (nat * nat)) :
  Forall (fun r => (fst r <= snd r)%nat) l -> forallb (fun r => Nat.leb (fst r) (snd r)) l = true.
Proof. induction 1 as [|r l Hr Hl IH]; [reflexivity|]. cbn [forallb]. apply Nat.leb_le in Hr. now rewrite Hr, IH. Qed.

(* the oracle entry copiedSliceOf checks From <= To for every range of the completed index *)
Theorem w_slice_run fuel depth (ds : list nat) (x : nd A) (index : list (nat * nat)) :
  Forall (fun r => (fst r <= snd r)%nat) (completeIndex index ds) ->
  returns (drun fapp unit (dext red) w_slice fuel depth [dnats ds; emb x; dranges index] tt)
          (slice (mkT ds x) index).
Proof.
  intros H. apply forallb_le in H. wstart w_slice. wrun.
  unfold slice. cbn [dims data]. wfin with H.
Qed.

Theorem w_slice_outside fuel depth (ds : list nat) (x : nd A) (index : list (nat * nat)) :
  forallb (fun r => Nat.leb (fst r) (snd r)) (completeIndex index ds) = false ->
  drun fapp unit (dext red) w_slice fuel depth [dnats ds; emb x; dranges index] tt = DPanic unit.
Proof. intros H. wstart w_slice. wrun. wpanic with H. Qed.

Theorem w_patch_run fuel depth (ds : list nat) (x : nd A) (index : list (nat * nat)) (uds : list nat) (ux : nd A) :
  returns (drun fapp unit (dext red) w_patch fuel depth [dnats ds; emb x; dranges index; dnats uds; emb ux] tt)
          (patch (mkT ds x) index (mkT uds ux)).
Proof.
  wstart w_patch. wrun. unfold patch. cbn [dims data].
  destruct (slice (mkT ds x) []) as [o|] eqn:Eo; cbn [obind]; [|wpanic with Eo].
  destruct (patchData (completeIndex index uds) ux (data o)) as [d|] eqn:Ed.
  - wrun by (rewrite ?Eo; cbn [obind]; rewrite ?Ed). wret.
  - wpanic by (rewrite ?Eo; cbn [obind]; rewrite ?Ed).
Qed.

Theorem w_dot_run fuel depth (d1 : list nat) (x1 : nd A) (d2 : list nat) (x2 : nd A) :
  (1 <= length d1)%nat ->
  returns (drun fapp unit (dext red) w_dot fuel depth [dnats d1; emb x1; dnats d2; emb x2] tt)
          (dot (mkT d1 x1) (mkT d2 x2)).
Proof.
  intros H. apply Nat.leb_le in H. wstart w_dot. wrun with H.
  unfold dot. cbn [dims data]. wfin.
Qed.

Theorem w_dot_outside fuel depth (x1 : nd A) (d2 : list nat) (x2 : nd A) :
  drun fapp unit (dext red) w_dot fuel depth [dnats []; emb x1; dnats d2; emb x2] tt = DPanic unit.
Proof. wstart w_dot. wrun. wpanic by idtac. Qed.

Theorem w_reduceDimUsingFunc_run fuel depth (ds : list nat) (x : nd A) (dim : nat) (trf : dval) :
  (dim <= length ds)%nat ->
  returns (drun fapp unit (dext red) w_reduceDimUsingFunc fuel depth [dnats ds; emb x; DI (Z.of_nat dim); trf] tt)
          (reduceAlong red (mkT ds x) dim).
Proof.
  intros H. apply Nat.leb_le in H. wstart w_reduceDimUsingFunc. wrun with H.
  unfold reduceAlong. cbn [dims data]. wfin.
Qed.

Theorem w_reduceDimUsingFunc_outside fuel depth (ds : list nat) (x : nd A) (dim : nat) (trf : dval) :
  (length ds < dim)%nat ->
  drun fapp unit (dext red) w_reduceDimUsingFunc fuel depth [dnats ds; emb x; DI (Z.of_nat dim); trf] tt = DPanic unit.
Proof. intros H. apply Nat.leb_gt in H. wstart w_reduceDimUsingFunc. wrun. wpanic with H. Qed.

Theorem w_constTensor_run fuel depth (v : A) (ds : list nat) :
  returns (drun fapp unit (dext red) w_constTensor fuel depth [DF v; dnats ds] tt) (constTensor v ds).
Proof. wstart w_constTensor. wrun. unfold constTensor. wfin. Qed.

Theorem w_eyeMatrix_run fuel depth (n : nat) :
  returns (drun fapp unit (dext red) w_eyeMatrix fuel depth [DI (Z.of_nat n)] tt) (eyeMatrix n).
Proof. wstart w_eyeMatrix. wrun. unfold eyeMatrix. wfin. Qed.

(* dims[:td-2] of the result of matMulDims are the batch dimensions of t1 *)
Lemma matMul_sub (d1 d2 r : list nat) :
  (2 <= length d1)%nat -> matMulDims d1 d2 = Some r ->
  (if (0 <=? 0) && (0 <=? Z.of_nat (length d1) - 2) && (Z.of_nat (length d1) - 2 <=? Z.of_nat (length r))
   then Some (@DL A (firstn (Z.to_nat (Z.of_nat (length d1) - 2 - 0))
                            (skipn (Z.to_nat 0) (map (fun n : nat => @DI A (Z.of_nat n)) r))))
   else None)
  = Some (NL (firstn (length d1 - 2) d1)).
Proof.
  intros H Er. unfold matMulDims in Er.
  destruct (nth_error d1 (length d1 - 2)) as [m|]; cbn [obind] in Er; [|discriminate].
  destruct (nth_error d2 (length d1 - 1)) as [k|]; cbn [obind] in Er; [|discriminate].
  inversion Er; subst r; clear Er.
  assert (Hl : length (firstn (length d1 - 2) d1) = (length d1 - 2)%nat) by (rewrite firstn_length; lia).
  rewrite app_length, Hl. cbn [length].
  replace ((0 <=? 0) && (0 <=? Z.of_nat (length d1) - 2) &&
           (Z.of_nat (length d1) - 2 <=? Z.of_nat (length d1 - 2 + 2))) with true.
  2:{ symmetry. rewrite !andb_true_iff. repeat split; apply Z.leb_le; lia. }
  replace (Z.to_nat (Z.of_nat (length d1) - 2 - 0)) with (length d1 - 2)%nat by lia.
  change (Z.to_nat 0) with 0%nat. cbn [skipn].
  rewrite firstn_map, firstn_app, Hl, Nat.sub_diag. cbn [firstn]. rewrite app_nil_r, firstn_firstn, Nat.min_id.
  reflexivity.
Qed.

Theorem w_matMul_run fuel depth (d1 : list nat) (x1 : nd A) (d2 : list nat) (x2 : nd A) :
  (2 <= length d1)%nat ->
  returns (drun fapp unit (dext red) w_matMul fuel depth [dnats d1; emb x1; dnats d2; emb x2] tt)
          (matMul (mkT d1 x1) (mkT d2 x2)).
Proof.
  intros H. pose proof H as Hb. apply Nat.leb_le in Hb. wstart w_matMul. wrun.
  unfold matMul. cbn [dims data].
  destruct (matMulDims d1 d2) as [r|] eqn:Er; cbn [obind]; [|wpanic by (rewrite Hb, Er)].
  wrun by (rewrite ?Hb, ?Er, ?(matMul_sub _ _ _ H Er)). wfin.
Qed.

Theorem w_matMul_outside fuel depth (d1 : list nat) (x1 : nd A) (d2 : list nat) (x2 : nd A) :
  (length d1 < 2)%nat ->
  drun fapp unit (dext red) w_matMul fuel depth [dnats d1; emb x1; dnats d2; emb x2] tt = DPanic unit.
Proof. intros H. apply Nat.leb_gt in H. wstart w_matMul. wrun. wpanic with H. Qed.

End DataWrap.

Print Assumptions w_transpose_run.
Print Assumptions w_reshape_run.
Print Assumptions w_broadcast_run.
Print Assumptions w_unSqueeze_run.
Print Assumptions w_squeeze_run.
Print Assumptions w_flatten_run.
Print Assumptions w_slice_run.
Print Assumptions w_patch_run.
Print Assumptions w_dot_run.
Print Assumptions w_matMul_run.
Print Assumptions w_reduceDimUsingFunc_run.
Print Assumptions w_constTensor_run.
Print Assumptions w_eyeMatrix_run.
Print Assumptions w_transpose_outside.
Print Assumptions w_unSqueeze_outside.
Print Assumptions w_squeeze_outside.
Print Assumptions w_flatten_outside.
Print Assumptions w_unSqueeze_negative.
Print Assumptions w_squeeze_negative.
Print Assumptions w_flatten_negative.
Print Assumptions w_slice_outside.
Print Assumptions w_dot_outside.
Print Assumptions w_matMul_outside.
Print Assumptions w_reduceDimUsingFunc_outside.
Print Assumptions unemb_emb.
Print Assumptions unrangesV_dranges.
Print Assumptions unnatsV_dnats.

Definition ex_fapp : string -> list term -> option term := fun _ _ => None.
Definition ex_m : nd term := Vec [Vec [Sc (TVal 0 0); Sc (TVal 0 1); Sc (TVal 0 2)]; Vec [Sc (TVal 0 3); Sc (TVal 0 4); Sc (TVal 0 5)]].

Example transpose_example :
  match drun ex_fapp unit (dext RdSum) w_transpose 1 1 [dnats [2; 3]%nat; emb ex_m] tt with
  | DRet _ [d; v] _ _ _ =>
      d = dnats [3; 2]%nat /\
      v = emb (Vec [Vec [Sc (TVal 0 0); Sc (TVal 0 3)]; Vec [Sc (TVal 0 1); Sc (TVal 0 4)]; Vec [Sc (TVal 0 2); Sc (TVal 0 5)]])
  | _ => False
  end.
Proof. vm_compute. split; reflexivity. Qed.

Example slice_matMul_reduce_example :
  (match drun ex_fapp unit (dext RdSum) w_slice 1 1 [dnats [2; 3]%nat; emb ex_m; dranges [(1, 2); (0, 2)]%nat] tt with
   | DRet _ [d; v] _ _ _ => d = dnats [1; 2]%nat /\ v = emb (Vec [Vec [Sc (TVal 0 3); Sc (TVal 0 4)]])
   | _ => False
   end) /\
  (match drun ex_fapp unit (dext RdSum) w_matMul 1 1 [dnats [2; 3]%nat; emb ex_m; dnats [2; 3]%nat; emb ex_m] tt,
         matMul (mkT [2; 3]%nat ex_m) (mkT [2; 3]%nat ex_m) with
   | DPanic _, None => True      (* inner dimensions 3 and 2: the Go code indexes out of range *)
   | _, _ => False
   end) /\
  (match drun ex_fapp unit (dext RdSum) w_reduceDimUsingFunc 1 1 [dnats [2; 3]%nat; emb ex_m; DI 0; DNil] tt,
         reduceAlong RdSum (mkT [2; 3]%nat ex_m) 0 with
   | DRet _ [d; v] _ _ _, Some o => d = dnats [3]%nat /\ d = dnats (dims o) /\ v = emb (data o)
   | _, _ => False
   end).
Proof. vm_compute. repeat split; reflexivity. Qed.

(* outside the guards the programs panic although the model's data-layer function (which assumes validated
   arguments) still returns a value: a rank-1 transpose and an unSqueeze at dim > rank *)
Example outside_examples :
  let v : nd term := Vec [Sc (TVal 0 0); Sc (TVal 0 1)] in
  (drun ex_fapp unit (dext RdSum) w_transpose 1 1 [dnats [2]%nat; emb v] tt = DPanic unit /\
   transpose (mkT [2]%nat v) = Some (mkT [2]%nat v)) /\
  (drun ex_fapp unit (dext RdSum) w_unSqueeze 1 1 [dnats [2]%nat; emb v; DI 5] tt = DPanic unit /\
   unSqueeze (mkT [2]%nat v) 5 = Some (mkT [2; 1]%nat (Vec [Vec [Sc (TVal 0 0)]; Vec [Sc (TVal 0 1)]]))).
Proof. vm_compute. repeat split; reflexivity. Qed.
