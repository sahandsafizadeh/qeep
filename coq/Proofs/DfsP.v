(* DfsP.v — the depth-first search of back-propagation (topologicalOrder.visit).
   [topoOrder h root] is duplicate-free, is exactly the set of tensors reachable from a tracked
   root through back edges with tracked targets, and is [ordered]: every member's tracked edge
   targets occur later in the list (consumers are processed before their operands). *)
From Coq Require Import List Arith ZArith Bool Lia.
From Qeep Require Import Model.Scalar Model.Nd Model.Fill Model.Data Model.Valid Model.Api Model.Grad Model.Backprop.
From Qeep Require Import Proofs.NdP Proofs.TrackP.
Import ListNotations.

Section DfsP.
Context {A : Type} {SA : Scalar A}.
Notation T := (tensor A).
Notation heap := (@heap A).
Notation node := (@node A).
Notation rule := (@rule A).

(* every element's tracked edge targets occur later in the list *)
Fixpoint ordered (h : heap) (p : list nat) : Prop :=
  match p with
  | [] => True
  | n :: r => (forall e, In e (edgesOf h n) -> trackedOf h (fst e) = true -> In (fst e) r) /\ ordered h r
  end.

(* reachable from a tracked root through back edges whose targets are tracked *)
Inductive treach (h : heap) (root : nat) : nat -> Prop :=
| tr_root : trackedOf h root = true -> treach h root root
| tr_step n e : treach h root n -> In e (edgesOf h n) -> trackedOf h (fst e) = true -> treach h root (fst e).

Lemma treach_tracked h root x : treach h root x -> trackedOf h x = true.
Proof. intros H. destruct H as [H|n e _ _ H]; exact H. Qed.

Lemma treach_root_tracked h root x : treach h root x -> trackedOf h root = true.
Proof. intros H. induction H as [H|n e _ IH _ _]; [exact H|exact IH]. Qed.

Lemma edgesOf_wf h n : wf_heap h -> Forall (fun e : nat * rule => fst e < n) (edgesOf h n).
Proof.
  intros W. unfold edgesOf. destruct (nth_error h n) as [nd|] eqn:En; [eapply W; eauto|constructor].
Qed.

Lemma treach_le h root x : wf_heap h -> treach h root x -> x <= root.
Proof.
  intros W H. induction H as [H|n e _ IH He _]; [lia|].
  pose proof (edgesOf_wf h n W) as F. rewrite Forall_forall in F. specialize (F e He). lia.
Qed.

(* a non-root member has a tracked predecessor in the set *)
Lemma treach_pred h root x : treach h root x -> x = root \/
  exists p e, treach h root p /\ In e (edgesOf h p) /\ fst e = x.
Proof.
  intros H. destruct H as [H|n e Hn He Ht]; [left; reflexivity|right]. exists n, e. auto.
Qed.

Lemma treach_under h n e x : trackedOf h n = true -> In e (edgesOf h n) -> treach h (fst e) x -> treach h n x.
Proof.
  intros Hn He H. induction H as [H|m e' _ IH He' Ht'].
  - apply tr_step with (n := n); [apply tr_root; exact Hn|exact He|exact H].
  - eapply tr_step; eauto.
Qed.

Lemma ordered_closed h : forall l n e, ordered h l -> In n l -> In e (edgesOf h n) -> trackedOf h (fst e) = true ->
  In (fst e) l.
Proof.
  induction l as [|a l IH]; intros n e Ho Hn He Ht; [contradiction|].
  cbn in Ho. destruct Ho as [Ha Hl]. destruct Hn as [->|Hn].
  - right. apply Ha; assumption.
  - right. eapply IH; eauto.
Qed.

Lemma ordered_app_inv h : forall l1 l2, ordered h (l1 ++ l2) -> ordered h l2.
Proof.
  induction l1 as [|a l1 IH]; intros l2 H; [exact H|]. cbn in H. apply IH. apply H.
Qed.

(* [ordered] only looks at tracking flags and edges *)
Lemma ordered_ext (h1 h2 : heap) : (forall i, trackedOf h1 i = trackedOf h2 i) -> (forall i, edgesOf h1 i = edgesOf h2 i) ->
  forall l, ordered h1 l -> ordered h2 l.
Proof.
  intros Et Ee. induction l as [|a l IH]; intros H; [exact I|]. cbn in *. destruct H as [Ha Hl].
  split; [|apply IH; exact Hl]. intros e He Ht. rewrite <- Ee in He. rewrite <- Et in Ht. apply Ha; assumption.
Qed.

(* invariant: post ⊆ visited; post is ordered, duplicate-free and all tracked; every open node (visited, not in post) is > bound *)
Definition inv (h : heap) (b : nat) (st : list nat * list nat) :=
  incl (snd st) (fst st) /\ ordered h (snd st) /\ NoDup (snd st) /\
  (forall o, In o (fst st) -> ~ In o (snd st) -> b < o) /\ (forall x, In x (snd st) -> trackedOf h x = true).

Definition foldinv (h : heap) (n : nat) (s : list nat * list nat) :=
  incl (snd s) (fst s) /\ ordered h (snd s) /\ NoDup (snd s) /\ (forall x, In x (snd s) -> trackedOf h x = true) /\
  (forall o, In o (fst s) -> ~ In o (snd s) -> n <= o) /\ In n (fst s) /\ ~ In n (snd s).

Lemma dfs_spec h (W : wf_heap h) fuel : forall n st, n < fuel -> inv h n st ->
  let st' := dfs fuel h n st in
  inv h n st' /\
  (exists new, snd st' = new ++ snd st /\ forall x, In x new -> ~ In x (fst st) /\ treach h n x) /\
  incl (fst st) (fst st') /\
  (forall o, In o (fst st') -> ~ In o (snd st') -> In o (fst st) /\ ~ In o (snd st)) /\
  (trackedOf h n = true -> In n (snd st')).
Proof.
  induction fuel as [|f IH]; intros n st Hn Hinv; [lia|]. cbn [dfs].
  destruct (negb (trackedOf h n) || memb n (fst st)) eqn:E.
  - cbn zeta. split; [assumption|]. split; [exists []; split; [reflexivity|intros ? []]|].
    split; [apply incl_refl|]. split; [tauto|].
    intros Ht. rewrite Ht in E. cbn in E. apply memb_in in E.
    destruct Hinv as (_ & _ & _ & Hopen & _). destruct (in_dec Nat.eq_dec n (snd st)) as [Hi|Hni]; [assumption|].
    specialize (Hopen n E Hni). lia.
  - apply orb_false_iff in E. destruct E as [Et Em]. apply negb_false_iff in Et.
    assert (Hnv : ~ In n (fst st)) by (intro X; apply memb_in in X; congruence).
    pose proof (edgesOf_wf h n W) as Hs.
    assert (Hfold : forall es s, Forall (fun e : nat * rule => fst e < n) es -> incl es (edgesOf h n) -> foldinv h n s ->
       let s' := fold_left (fun s e => dfs f h (fst e) s) es s in
       foldinv h n s' /\
       (exists new, snd s' = new ++ snd s /\ forall x, In x new -> ~ In x (fst s) /\ treach h n x) /\
       incl (fst s) (fst s') /\
       (forall o, In o (fst s') -> ~ In o (snd s') -> In o (fst s) /\ ~ In o (snd s)) /\
       (forall e, In e es -> trackedOf h (fst e) = true -> In (fst e) (snd s'))).
    { induction es as [|e es IHes]; intros s Hes Hincl Hs0; cbn [fold_left].
      - split; [assumption|]. split; [exists []; split; [reflexivity|intros ? []]|].
        split; [apply incl_refl|]. split; [tauto|]. intros ? [].
      - inversion Hes as [|? ? Hm Hes']; subst.
        assert (Hein : In e (edgesOf h n)) by (apply Hincl; left; reflexivity).
        assert (Hincl' : incl es (edgesOf h n)) by (intros y Hy; apply Hincl; right; exact Hy).
        destruct Hs0 as (A1 & A2 & A3 & A4 & A5 & A6 & A7).
        assert (Hi : inv h (fst e) s).
        { repeat split; auto. intros o Ho Hno. specialize (A5 o Ho Hno). lia. }
        destruct (IH (fst e) s ltac:(lia) Hi) as (J & (new & Jn & Jf) & Jv & Jo & Jm). cbn zeta in *.
        set (s1 := dfs f h (fst e) s) in *. destruct J as (B1 & B2 & B3 & B4 & B5).
        assert (Hs1 : foldinv h n s1).
        { repeat split; auto.
          - intros o Ho Hno. destruct (Jo o Ho Hno) as [X Y]. apply A5; auto.
          - intros X. rewrite Jn in X. apply in_app_or in X. destruct X as [X|X]; [|tauto].
            apply (proj1 (Jf n X) A6). }
        destruct (IHes s1 Hes' Hincl' Hs1) as (K & (new2 & Kn & Kf) & Kv & Ko & Km). cbn zeta in *.
        split; [assumption|]. split.
        { exists (new2 ++ new). split; [rewrite Kn, Jn, app_assoc; reflexivity|].
          intros x Hx. apply in_app_or in Hx. destruct Hx as [Hx|Hx].
          - destruct (Kf x Hx) as [K1 K2]. split; [|exact K2]. intro Y; apply K1; auto.
          - destruct (Jf x Hx) as [J1 J2]. split; [exact J1|]. eapply treach_under; eauto. }
        split; [eapply incl_tran; eauto|]. split.
        + intros o Ho Hno. destruct (Ko o Ho Hno) as [X Y]. apply Jo; auto.
        + intros e' [<-|He'] Ht'.
          * rewrite Kn. apply in_or_app. right. apply Jm. exact Ht'.
          * apply Km; assumption. }
    destruct Hinv as (I1 & I2 & I3 & I4 & I5).
    assert (H0 : foldinv h n (n :: fst st, snd st)).
    { unfold foldinv; cbn [fst snd]. repeat split; auto.
      - intros x Hx; right; auto.
      - intros o [->|Ho] Hno; [lia|]. specialize (I4 o Ho Hno). lia.
      - left; reflexivity. }
    destruct (Hfold (edgesOf h n) _ Hs (incl_refl _) H0) as (K & (new & Kn & Kf) & Kv & Ko & Km). cbn zeta in *.
    set (st2 := fold_left (fun s e => dfs f h (fst e) s) (edgesOf h n) (n :: fst st, snd st)) in *.
    destruct K as (K1 & K2 & K3 & K4 & K5 & K6 & K7). cbn [fst snd] in *.
    split.
    { unfold inv; cbn [fst snd]. repeat split.
      - intros x [->|Hx]; auto.
      - intros e He Ht. apply Km; auto.
      - assumption.
      - constructor; assumption.
      - intros o Ho Hno. assert (o <> n) by (intro; subst; apply Hno; left; reflexivity).
        assert (n <= o) by (apply K5; auto; intro; apply Hno; right; assumption). lia.
      - intros x [->|Hx]; auto. }
    split.
    { exists (n :: new). split; [cbn; rewrite Kn; reflexivity|].
      intros x [->|Hx].
      - split; [assumption|apply tr_root; exact Et].
      - destruct (Kf x Hx) as [Kf1 Kf2]. split; [|exact Kf2]. intro Y. apply Kf1. right; assumption. }
    split; [intros x Hx; apply Kv; right; assumption|]. split.
    + intros o Ho Hno. assert (o <> n) by (intro; subst; apply Hno; left; reflexivity).
      destruct (Ko o Ho) as [X Y]; [intro; apply Hno; right; assumption|].
      destruct X as [X|X]; [congruence|]. split; assumption.
    + intros _. left; reflexivity.
Qed.

Theorem topoOrder_spec (h : heap) root : wf_heap h ->
  NoDup (topoOrder h root) /\ ordered h (topoOrder h root) /\
  (forall x, In x (topoOrder h root) <-> treach h root x).
Proof.
  intros W. unfold topoOrder.
  assert (I0 : inv h root ([], [])).
  { unfold inv; cbn [fst snd]. split; [intros ? []|]. split; [exact I|]. split; [constructor|].
    split; [intros o []|intros x []]. }
  destruct (dfs_spec h W (S root) root ([], []) ltac:(lia) I0) as (J & (new & Jn & Jf) & _ & _ & Jr).
  cbn zeta in *. destruct J as (_ & Jo & Jd & _ & _).
  split; [exact Jd|]. split; [exact Jo|]. intros x. split.
  - intros Hx. rewrite Jn in Hx. cbn [snd] in Hx. rewrite app_nil_r in Hx. apply (Jf x Hx).
  - intros Hx. induction Hx as [Ht|n e _ IHn He Ht]; [apply Jr; exact Ht|].
    eapply ordered_closed; eauto.
Qed.

Corollary topoOrder_NoDup (h : heap) root : wf_heap h -> NoDup (topoOrder h root).
Proof. intros W. apply (topoOrder_spec h root W). Qed.

Corollary topoOrder_ordered (h : heap) root : wf_heap h -> ordered h (topoOrder h root).
Proof. intros W. apply (topoOrder_spec h root W). Qed.

Corollary topoOrder_tracked (h : heap) root x : wf_heap h -> In x (topoOrder h root) -> trackedOf h x = true.
Proof. intros W Hx. apply (topoOrder_spec h root W) in Hx. eapply treach_tracked; eauto. Qed.

Corollary topoOrder_le (h : heap) root x : wf_heap h -> In x (topoOrder h root) -> x <= root.
Proof. intros W Hx. apply (topoOrder_spec h root W) in Hx. eapply treach_le; eauto. Qed.

Corollary topoOrder_root (h : heap) root : wf_heap h -> trackedOf h root = true -> In root (topoOrder h root).
Proof. intros W Ht. apply (topoOrder_spec h root W). apply tr_root. exact Ht. Qed.

Corollary topoOrder_closed (h : heap) root n e : wf_heap h ->
  In n (topoOrder h root) -> In e (edgesOf h n) -> trackedOf h (fst e) = true -> In (fst e) (topoOrder h root).
Proof. intros W Hn He Ht. eapply ordered_closed; eauto. apply topoOrder_ordered. exact W. Qed.

(* every member other than the root is a tracked edge target of another member *)
Corollary topoOrder_pred (h : heap) root x : wf_heap h -> In x (topoOrder h root) -> x <> root ->
  exists p e, In p (topoOrder h root) /\ In e (edgesOf h p) /\ fst e = x /\ x < p.
Proof.
  intros W Hx Hne. apply (topoOrder_spec h root W) in Hx. destruct (treach_pred _ _ _ Hx) as [->|(p & e & Hp & He & Hfe)]; [congruence|].
  exists p, e. split; [apply (topoOrder_spec h root W); exact Hp|]. split; [exact He|]. split; [exact Hfe|].
  pose proof (edgesOf_wf h p W) as F. rewrite Forall_forall in F. specialize (F e He). lia.
Qed.

Lemma topoOrder_untracked (h : heap) root : trackedOf h root = false -> topoOrder h root = [].
Proof. intros H. unfold topoOrder. cbn [dfs]. rewrite H. reflexivity. Qed.

(* the root is processed first *)
Lemma topoOrder_head (h : heap) root : trackedOf h root = true -> exists l, topoOrder h root = root :: l.
Proof. intros H. unfold topoOrder. cbn [dfs]. rewrite H. cbn [negb orb fst memb existsb snd]. eexists. reflexivity. Qed.

End DfsP.

(* example: in the heap of TrackEx the result y = m.Add(c) (id 5) reaches its tracked Broadcast
   operand 3, then m (2), then the leaf x (0); the untracked c (1) and its Broadcast (4) are not reached *)
Module DfsEx.
Import TrackEx.
#[local] Existing Instance Z_scalar.

Example ex_order : topoOrder e5 5 = [5; 3; 2; 0] /\ topoOrder e5 6 = [] /\ topoOrder e5 2 = [2; 0].
Proof. vm_compute. repeat split. Qed.

Example ex_order_spec : NoDup [5; 3; 2; 0] /\ ordered e5 [5; 3; 2; 0] /\ (treach e5 5 0 /\ ~ treach e5 5 4).
Proof.
  destruct (topoOrder_spec e5 5 ex_wf) as (Hnd & Ho & Hr). destruct ex_order as (E & _). rewrite E in *.
  split; [exact Hnd|]. split; [exact Ho|]. split.
  - apply Hr. right; right; right; left; reflexivity.
  - intros X. apply Hr in X. cbn in X. intuition discriminate.
Qed.
End DfsEx.

Print Assumptions topoOrder_spec.
Print Assumptions topoOrder_pred.
