(* ElemP.v — element-wise operations (operators.go): calc1 / calc2 / apply1 / apply2,
   the public v_unary / v_same, and equalsD, against the index-level specification.
   All shapes and ranks (induction on the shape), arbitrary element type, no Scalar laws. *)
From Coq Require Import List Arith ZArith Bool Lia.
From Qeep Require Import Model.Scalar Model.Nd Model.Fill Model.Data Model.Valid Model.Api Proofs.NdP.
Import ListNotations.

Lemma nth_error_lt_some {T} (l : list T) i : i < length l -> exists y, nth_error l i = Some y.
Proof.
  intros Hi. destruct (nth_error l i) as [y|] eqn:E; [exists y; reflexivity|].
  apply nth_error_None in E. lia.
Qed.

Lemma combine_app_eq {T U} (a a' : list T) (b b' : list U) :
  length a = length b -> combine (a ++ a') (b ++ b') = combine a b ++ combine a' b'.
Proof.
  revert b. induction a as [|x a IH]; intros [|y b] Hl; cbn in Hl; try discriminate; cbn; [reflexivity|].
  f_equal. apply IH. lia.
Qed.

Lemma foldM_all_some {T U} (f : U -> T -> option U) (g : U -> T -> U) l :
  forall u, (forall v x, In x l -> f v x = Some (g v x)) -> foldM f l u = Some (fold_left g l u).
Proof.
  induction l as [|a l IH]; intros u H; cbn [foldM fold_left]; [reflexivity|].
  rewrite (H u a (or_introl eq_refl)). cbn [obind]. apply IH.
  intros v x Hx. apply H. right. exact Hx.
Qed.

Section ElemP.
Context {A : Type} {SA : Scalar A}.
Notation T := (tensor A).
Implicit Types (a b : nd A) (ds idx : list nat).

(* ---------- calc1 ---------- *)

Theorem calc1_spec (f : A -> A) ds : forall a, wfnd ds a ->
  exists r, calc1 f ds a = Some r /\ wfnd ds r /\
            forall idx, validIdx ds idx -> get r idx = option_map f (get a idx).
Proof.
  induction ds as [|d ds IH]; intros a Hw.
  - apply wfnd_nil in Hw as (x & ->). exists (Sc (f x)). split; [reflexivity|apply tabulates_Sc; reflexivity].
  - apply wfnd_cons in Hw as (l & -> & Hl & Hf). cbn [calc1 asV obind].
    destruct (tabulates_Vec d ds (fun i => do ai <- nth_error l i; calc1 f ds ai)
                (fun idx => option_map f (get (Vec l) idx))) as (out & -> & Hr).
    + intros i Hi. destruct (wfnd_row d ds l i Hl Hf Hi) as (ai & Ea & Hwa). rewrite Ea. cbn [obind].
      destruct (IH ai Hwa) as (y & Ey & Hy). exists y. split; [exact Ey|].
      eapply tabulates_ext; [|exact Hy]. intros r _. cbn beta. rewrite get_cons, Ea. reflexivity.
    + eexists; split; [reflexivity|exact Hr].
Qed.

(* closed form (needs an inhabitant of A to name the elements) *)
Definition getD (dflt : A) a idx : A := match get a idx with Some v => v | None => dflt end.

Corollary calc1_tab (dflt : A) (f : A -> A) ds a : wfnd ds a ->
  calc1 f ds a = Some (tab ds (fun idx => f (getD dflt a idx))).
Proof.
  intros Hw. destruct (calc1_spec f ds a Hw) as (r & Er & Hwr & Hg). rewrite Er. f_equal.
  apply (nd_ext A ds); [exact Hwr|apply wfnd_tab|]. intros idx Hv.
  rewrite Hg by exact Hv. rewrite get_tab by exact Hv. unfold getD.
  destruct (get_wf A ds a idx Hw Hv) as (x & ->). reflexivity.
Qed.

(* ---------- calc2 ---------- *)

Theorem calc2_spec (f : A -> A -> A) ds : forall a b, wfnd ds a -> wfnd ds b ->
  exists r, calc2 f ds a b = Some r /\ wfnd ds r /\
            forall idx, validIdx ds idx ->
              get r idx = match get a idx, get b idx with Some x, Some y => Some (f x y) | _, _ => None end.
Proof.
  induction ds as [|d ds IH]; intros a b Hwa Hwb.
  - apply wfnd_nil in Hwa as (x & ->). apply wfnd_nil in Hwb as (y & ->).
    exists (Sc (f x y)). split; [reflexivity|apply tabulates_Sc; reflexivity].
  - apply wfnd_cons in Hwa as (la & -> & Hla & Hfa). apply wfnd_cons in Hwb as (lb & -> & Hlb & Hfb).
    cbn [calc2 asV obind].
    destruct (tabulates_Vec d ds (fun i => do ai <- nth_error la i; do bi <- nth_error lb i; calc2 f ds ai bi)
                (fun idx => match get (Vec la) idx, get (Vec lb) idx with
                            | Some x, Some y => Some (f x y) | _, _ => None end))
      as (out & -> & Hr).
    + intros i Hi. destruct (wfnd_row d ds la i Hla Hfa Hi) as (ai & Ea & Hwa).
      destruct (wfnd_row d ds lb i Hlb Hfb Hi) as (bi & Eb & Hwb). rewrite Ea, Eb. cbn [obind].
      destruct (IH ai bi Hwa Hwb) as (y & Ey & Hy). exists y. split; [exact Ey|].
      eapply tabulates_ext; [|exact Hy]. intros r _. cbn beta. rewrite !get_cons, Ea, Eb. reflexivity.
    + eexists; split; [reflexivity|exact Hr].
Qed.

Corollary calc2_tab (dflt : A) (f : A -> A -> A) ds a b : wfnd ds a -> wfnd ds b ->
  calc2 f ds a b = Some (tab ds (fun idx => f (getD dflt a idx) (getD dflt b idx))).
Proof.
  intros Hwa Hwb. destruct (calc2_spec f ds a b Hwa Hwb) as (r & Er & Hwr & Hg). rewrite Er. f_equal.
  apply (nd_ext A ds); [exact Hwr|apply wfnd_tab|]. intros idx Hv.
  rewrite Hg by exact Hv. rewrite get_tab by exact Hv. unfold getD.
  destruct (get_wf A ds a idx Hwa Hv) as (x & ->). destruct (get_wf A ds b idx Hwb Hv) as (y & ->). reflexivity.
Qed.

(* ---------- tensor level ---------- *)

Theorem apply1_spec (f : A -> A) (t : T) : wf t ->
  exists r, apply1 f t = Some r /\ dims r = dims t /\ wf r /\
            forall idx, validIdx (dims t) idx -> get (data r) idx = option_map f (get (data t) idx).
Proof.
  intros [Hw Hp]. unfold apply1. destruct (calc1_spec f (dims t) (data t) Hw) as (d & Ed & Hwd & Hg).
  rewrite Ed. cbn. eexists. split; [reflexivity|]. cbn. split; [reflexivity|]. split; [|exact Hg].
  split; cbn; assumption.
Qed.

Theorem apply2_spec (f : A -> A -> A) (t u : T) : wf t -> wf u -> dims t = dims u ->
  exists r, apply2 f t u = Some r /\ dims r = dims t /\ wf r /\
            forall idx, validIdx (dims t) idx ->
              get (data r) idx =
              match get (data t) idx, get (data u) idx with Some x, Some y => Some (f x y) | _, _ => None end.
Proof.
  intros [Hwt Hpt] [Hwu _] E. rewrite <- E in Hwu. unfold apply2.
  destruct (calc2_spec f (dims t) (data t) (data u) Hwt Hwu) as (d & Ed & Hwd & Hg).
  rewrite Ed. cbn. eexists. split; [reflexivity|]. cbn. split; [reflexivity|]. split; [|exact Hg].
  split; cbn; assumption.
Qed.

(* ---------- API level ---------- *)

Theorem v_unary_spec (u : unary) (t : T) : wf t ->
  exists r, v_unary u t = Ok r /\ dims r = dims t /\ wf r /\
            forall idx, validIdx (dims t) idx -> get (data r) idx = option_map (unaryF u) (get (data t) idx).
Proof.
  intros Hw. unfold v_unary. destruct (apply1_spec (unaryF u) t Hw) as (r & Er & H).
  rewrite Er. cbn. exists r. split; [reflexivity|exact H].
Qed.

Lemma dimsEq_spec (d1 d2 : list nat) : dimsEq (map Z.of_nat d1) (map Z.of_nat d2) = true <-> d1 = d2.
Proof.
  revert d2. induction d1 as [|x d1 IH]; intros [|y d2]; cbn; try (split; [discriminate|discriminate]).
  - split; reflexivity.
  - rewrite andb_true_iff, Z.eqb_eq, IH. split.
    + intros [H1 H2]. apply Nat2Z.inj in H1. congruence.
    + intros H. inversion H; subst. split; reflexivity.
Qed.

Lemma validateBinaryFuncDimsMatch_spec (t u : T) :
  validateBinaryFuncDimsMatch (zdims t) (zdims u) = true <-> dims t = dims u.
Proof. apply dimsEq_spec. Qed.

Theorem v_same_spec (b : binary) (t u : T) : wf t -> wf u ->
  (dims t = dims u ->
     exists r, v_same b t u = Ok r /\ dims r = dims t /\ wf r /\
               forall idx, validIdx (dims t) idx ->
                 get (data r) idx =
                 match get (data t) idx, get (data u) idx with
                 | Some x, Some y => Some (binaryF b x y) | _, _ => None end)
  /\ (dims t <> dims u -> v_same b t u = Err).
Proof.
  intros Hwt Hwu. unfold v_same, guard. split; intros E.
  - destruct (validateBinaryFuncDimsMatch (zdims t) (zdims u)) eqn:V.
    + destruct (apply2_spec (binaryF b) t u Hwt Hwu E) as (r & Er & H). rewrite Er. cbn.
      exists r. split; [reflexivity|exact H].
    + apply validateBinaryFuncDimsMatch_spec in E. congruence.
  - destruct (validateBinaryFuncDimsMatch (zdims t) (zdims u)) eqn:V; [|reflexivity].
    apply validateBinaryFuncDimsMatch_spec in V. contradiction.
Qed.

Corollary v_same_ok_iff (b : binary) (t u : T) : wf t -> wf u ->
  ((exists r, v_same b t u = Ok r) <-> dims t = dims u) /\ v_same b t u <> Panic.
Proof.
  intros Hwt Hwu. destruct (v_same_spec b t u Hwt Hwu) as [H1 H2].
  eapply ok_iff_of_spec; [|exact H1|exact H2].
  destruct (list_eq_dec Nat.eq_dec (dims t) (dims u)); auto.
Qed.

(* ---------- reducers: trav is a left fold over the row-major element sequence ---------- *)

Lemma trav_spec (af : A -> A -> A) ds : forall x v, wfnd ds x -> trav af ds x v = Some (fold_left af (flat x) v).
Proof.
  induction ds as [|d ds IH]; intros x v Hw.
  - apply wfnd_nil in Hw as (a & ->). reflexivity.
  - apply wfnd_cons in Hw as (l & -> & _ & Hf). cbn [trav asV obind]. rewrite flat_Vec.
    clear d. revert v. induction Hf as [|y l Hy Hf IHl]; intros v; cbn [foldM flat_list]; [reflexivity|].
    rewrite IH by exact Hy. cbn [obind]. rewrite IHl. rewrite fold_left_app. reflexivity.
Qed.

Corollary reduceBy_spec (af : A -> A -> A) (e : A) (t : T) : wfnd (dims t) (data t) ->
  reduceBy af e t = Some (fold_left af (flat (data t)) e).
Proof. intros Hw. apply trav_spec. exact Hw. Qed.

(* ---------- row-major view of calc2 ---------- *)

Definition map2 (f : A -> A -> A) (l1 l2 : list A) : list A := map (fun p => f (fst p) (snd p)) (combine l1 l2).

Lemma flat_list_map2 (f : A -> A -> A) : forall (out la lb : list (nd A)),
  length la = length out -> length lb = length out ->
  (forall i x y z, nth_error la i = Some x -> nth_error lb i = Some y -> nth_error out i = Some z ->
     flat z = map2 f (flat x) (flat y) /\ length (flat x) = length (flat y)) ->
  flat_list A out = map2 f (flat_list A la) (flat_list A lb).
Proof.
  induction out as [|z out IH]; intros [|x la] [|y lb] H1 H2 H; cbn in H1, H2; try discriminate; [reflexivity|].
  cbn [flat_list]. destruct (H 0 x y z eq_refl eq_refl eq_refl) as [Hz Hl].
  unfold map2. rewrite combine_app_eq by exact Hl. rewrite map_app. f_equal; [exact Hz|].
  apply IH; [lia|lia|]. intros i x' y' z' Hx Hy Hz'. apply (H (S i)); assumption.
Qed.

Lemma calc2_flat (f : A -> A -> A) ds : forall a b r, wfnd ds a -> wfnd ds b ->
  calc2 f ds a b = Some r -> flat r = map2 f (flat a) (flat b).
Proof.
  induction ds as [|d ds IH]; intros a b r Hwa Hwb E.
  - apply wfnd_nil in Hwa as (x & ->). apply wfnd_nil in Hwb as (y & ->). cbn in E. inversion E; subst. reflexivity.
  - apply wfnd_cons in Hwa as (la & -> & Hla & Hfa). apply wfnd_cons in Hwb as (lb & -> & Hlb & Hfb).
    cbn [calc2 asV obind] in E. apply obind_some in E as (out & Eo & E). inversion E; subst r. clear E.
    destruct (mapM_seq_inv _ _ _ Eo) as (Hlo & Hn). rewrite !flat_Vec.
    apply flat_list_map2; [lia|lia|]. intros i x y z Hx Hy Hz.
    assert (Hi : i < d) by (rewrite <- Hlo; apply nth_error_Some; congruence).
    destruct (Hn i Hi) as (z' & Ez' & Ec). rewrite Hx, Hy in Ec. cbn in Ec.
    assert (z' = z) by congruence. subst z'.
    pose proof (Forall_nth_error_inv _ _ _ _ Hfa Hx) as Hwx.
    pose proof (Forall_nth_error_inv _ _ _ _ Hfb Hy) as Hwy. split.
    + apply (IH x y z Hwx Hwy Ec).
    + rewrite (flat_length A ds x Hwx), (flat_length A ds y Hwy). reflexivity.
Qed.

(* equals: sum of the element-wise equality indicators compared with the element count *)
Theorem equalsD_spec (t u : T) : wf t -> wf u -> dims t = dims u ->
  equalsD t u = Some (sgeb (fold_left sadd (map2 seqt (flat (data t)) (flat (data u))) s0)
                           (sofnat (prodn (dims t)))).
Proof.
  intros Hwt Hwu E. unfold equalsD.
  destruct (apply2_spec seqt t u Hwt Hwu E) as (o & Eo & Hd & [Hwo _] & _). rewrite Eo. cbn [obind].
  unfold r_sum. rewrite reduceBy_spec by exact Hwo. cbn [obind]. unfold numElems. rewrite Hd.
  unfold apply2 in Eo. apply obind_some in Eo as (d & Ed & Eo). inversion Eo; subst o. cbn [data].
  destruct Hwt as [Hwt _]. destruct Hwu as [Hwu _]. rewrite <- E in Hwu.
  rewrite (calc2_flat seqt (dims t) (data t) (data u) d Hwt Hwu Ed). reflexivity.
Qed.

Corollary v_equals_spec (t u : T) : wf t -> wf u ->
  (dims t = dims u ->
     v_equals t u = Ok (sgeb (fold_left sadd (map2 seqt (flat (data t)) (flat (data u))) s0)
                             (sofnat (prodn (dims t)))))
  /\ (dims t <> dims u -> v_equals t u = Err).
Proof.
  intros Hwt Hwu. unfold v_equals. split; intros E.
  - destruct (validateBinaryFuncDimsMatch (zdims t) (zdims u)) eqn:V.
    + rewrite (equalsD_spec t u Hwt Hwu E). reflexivity.
    + apply validateBinaryFuncDimsMatch_spec in E. congruence.
  - destruct (validateBinaryFuncDimsMatch (zdims t) (zdims u)) eqn:V; [|reflexivity].
    apply validateBinaryFuncDimsMatch_spec in V. contradiction.
Qed.

End ElemP.

(* ---------- examples: the hypotheses are satisfiable, the conclusions non-trivial ---------- *)
Module ElemExamples.

(* a throw-away instance: naturals, with eq/ge indicators *)
Definition b2n (b : bool) : nat := if b then 1 else 0.
#[local] Instance nat_scalar : Scalar nat := {|
  s0 := 0; s1 := 1;
  sadd := Nat.add; ssub := Nat.sub; smul := Nat.mul; sdiv := Nat.div; spow := Nat.pow;
  sexp := fun a => 2 ^ a; slog := Nat.log2; ssin := fun a => a; scos := fun a => a; stan := fun a => a;
  ssinh := fun a => a; scosh := fun a => a; stanh := fun a => a; ssqrt := Nat.sqrt;
  smax := Nat.max; smin := Nat.min;
  sselgt := fun a b => if b <? a then a else b; ssellt := fun a b => if a <? b then a else b;
  seqt := fun a b => b2n (a =? b); snet := fun a b => b2n (negb (a =? b));
  sgt := fun a b => b2n (b <? a); sge := fun a b => b2n (b <=? a);
  slt := fun a b => b2n (a <? b); sle := fun a b => b2n (a <=? b);
  sgeb := fun a b => b2n (b <=? a); strunc := fun a => a; sofnat := fun n => n;
  sconst := fun m e => Z.to_nat m; sneginf := 0; sposinf := 1000; srnd := fun _ k => k
|}.

(* [[0;1;2];[10;11;12]] and [[5;1;7];[10;0;12]] *)
Definition ex : tensor nat := mkT [2;3] (tab [2;3] (fun idx => match idx with [i;j] => 10 * i + j | _ => 0 end)).
Definition ey : tensor nat := mkT [2;3] (Vec [Vec [Sc 5; Sc 1; Sc 7]; Vec [Sc 10; Sc 0; Sc 12]]).
Definition ez : tensor nat := mkT [3] (Vec [Sc 1; Sc 2; Sc 3]).

Lemma wf_ex : wf ex. Proof. split; cbn; repeat constructor. Qed.
Lemma wf_ey : wf ey. Proof. split; cbn; repeat constructor. Qed.
Lemma wf_ez : wf ez. Proof. split; cbn; repeat constructor. Qed.

Example ex_data : data ex = Vec [Vec [Sc 0; Sc 1; Sc 2]; Vec [Sc 10; Sc 11; Sc 12]].
Proof. reflexivity. Qed.

Example calc1_ex : calc1 S [2;3] (data ex) = Some (Vec [Vec [Sc 1; Sc 2; Sc 3]; Vec [Sc 11; Sc 12; Sc 13]]).
Proof. vm_compute. reflexivity. Qed.

Example calc1_tab_ex : calc1 S [2;3] (data ex) = Some (tab [2;3] (fun idx => S (getD 0 (data ex) idx))).
Proof. apply calc1_tab. apply wf_ex. Qed.

Example calc2_ex : calc2 Nat.add [2;3] (data ex) (data ey)
                   = Some (Vec [Vec [Sc 5; Sc 2; Sc 9]; Vec [Sc 20; Sc 11; Sc 24]]).
Proof. vm_compute. reflexivity. Qed.

(* a value of the wrong nesting makes the data layer panic: well-formedness is needed *)
Example calc1_not_wf : calc1 S [2;3] (Vec [Sc 1; Sc 2]) = None.
Proof. vm_compute. reflexivity. Qed.

Example v_unary_ex : v_unary (UScale 2) ex = Ok (mkT [2;3] (Vec [Vec [Sc 0; Sc 2; Sc 4]; Vec [Sc 20; Sc 22; Sc 24]])).
Proof. vm_compute. reflexivity. Qed.

Example v_same_ex : v_same BiElMax ex ey = Ok (mkT [2;3] (Vec [Vec [Sc 5; Sc 1; Sc 7]; Vec [Sc 10; Sc 11; Sc 12]])).
Proof. vm_compute. reflexivity. Qed.

Example v_same_err : v_same BiElMax ex ez = Err.
Proof. apply (v_same_spec BiElMax ex ez wf_ex wf_ez). discriminate. Qed.

Example v_same_get : exists r, v_same BiEq ex ey = Ok r /\ get (data r) [1;2] = Some 1 /\ get (data r) [0;0] = Some 0.
Proof.
  destruct (v_same_spec BiEq ex ey wf_ex wf_ey) as [H _]. destruct (H eq_refl) as (r & Er & _ & _ & Hg).
  exists r. split; [exact Er|]. split; rewrite Hg by (repeat constructor); reflexivity.
Qed.

(* ex and ey agree at 3 of 6 positions: the sum of indicators is 3 < 6 *)
Example equalsD_ex : equalsD ex ey = Some 0.
Proof. rewrite (equalsD_spec ex ey wf_ex wf_ey eq_refl). vm_compute. reflexivity. Qed.
Example equalsD_refl_ex : equalsD ex ex = Some 1.
Proof. rewrite (equalsD_spec ex ex wf_ex wf_ex eq_refl). vm_compute. reflexivity. Qed.
Example v_equals_err : v_equals ex ez = Err.
Proof. apply (v_equals_spec ex ez wf_ex wf_ez). discriminate. Qed.

Example r_sum_ex : r_sum ex = Some 36.
Proof. unfold r_sum. rewrite reduceBy_spec by apply wf_ex. vm_compute. reflexivity. Qed.

End ElemExamples.

Print Assumptions calc1_spec.
Print Assumptions calc1_tab.
Print Assumptions calc2_spec.
Print Assumptions calc2_tab.
Print Assumptions apply1_spec.
Print Assumptions apply2_spec.
Print Assumptions v_unary_spec.
Print Assumptions v_same_spec.
Print Assumptions v_same_ok_iff.
Print Assumptions trav_spec.
Print Assumptions calc2_flat.
Print Assumptions equalsD_spec.
Print Assumptions v_equals_spec.
