(* FcP.v — the fully connected layer (component/layers/fc.go) against the exact element
   expression, for an arbitrary [Scalar A] with no laws (property C16).

   1. value projection of Dot on the heap ([h_dot_tracks]; MatMul is in CompP.v);
   2. [fc_forward_tracks] (the layer is its value-level composition), [fc_val_spec] /
      [fc_forward_spec] (shape [B; O], exact element formula), [fc_forward_rejects];
   3. [fc_rows_independent];
   4. the parameter cells of the scenario level ([fc_weights_live]). *)
From Coq Require Import List Arith ZArith Bool Lia.
From Qeep Require Import Model.Scalar Model.Nd Model.Fill Model.Data Model.Valid Model.Api Model.Grad
  Model.Backprop Model.Components Model.Scenario.
From Qeep Require Import Proofs.NdP Proofs.ElemP Proofs.ReshapeP Proofs.BroadcastP Proofs.ReduceP Proofs.ArithP
  Proofs.MatMulP Proofs.TrackP Proofs.FibreP Proofs.OpsP Proofs.CompP.
Import ListNotations.

Section FcP.
Context {A : Type} {SA : Scalar A}.
Notation T := (tensor A).
Notation heap := (@heap A).
Notation hres := (@hres A).

Theorem h_dot_tracks (h : heap) x u name xv uv : valOf h x = Some xv -> valOf h u = Some uv ->
  tracks h (h_dot h x u name) (v_dot xv uv) name.
Proof.
  intros Hx Hu. unfold h_dot, v_dot, v_bcast2. rewrite Hx, Hu.
  destruct (validateDotProductDims (zdims xv) (zdims uv)); [|reflexivity]. cbv zeta.
  rewrite binop_val_pair. apply h_binop_tracks; assumption.
Qed.

Lemma h_matmul_missing (h : heap) x u name : valOf h x = None \/ valOf h u = None ->
  h_matmul h x u name = (h, Panic).
Proof.
  intros [H|H]; unfold h_matmul; rewrite H; [reflexivity|]. destruct (valOf h x); reflexivity.
Qed.

(* the composition of fc.go at the value level, in the order of the Go code *)
Definition fc_val (wv bv xv : T) : res T :=
  dor w1 <- v_unsqueeze wv 1%Z;
  dor x1 <- v_unsqueeze xv 1%Z;
  dor y1 <- v_matmul w1 x1;
  dor y2 <- v_reduceAlong RdSum y1 2%Z;
  v_arith BiAdd y2 bv.

(* the heap call is the value-level composition, whatever the values are (rank-2 input) *)
Theorem fc_forward_tracks (h : heap) w b x name wv bv xv :
  valOf h w = Some wv -> valOf h b = Some bv -> valOf h x = Some xv -> length (dims xv) = 2 ->
  tracks h (fc_forward h w b [Some x] name) (fc_val wv bv xv) name.
Proof.
  intros Hw Hb Hx Hr. rewrite fc_forward_ops by (unfold rankOf; rewrite Hx; exact Hr).
  change (fc_val wv bv xv) with (runOpsV fc_ops [wv; bv; xv]).
  apply tracks_atomically, runOps_tracks_w; [repeat constructor; assumption|reflexivity].
Qed.

(* the part before the bias: W.UnSqueeze(1).MatMul(x.UnSqueeze(1)).SumAlong(2) *)
Definition fc_pre (wv xv : T) : res T :=
  dor w1 <- v_unsqueeze wv 1%Z;
  dor x1 <- v_unsqueeze xv 1%Z;
  dor y1 <- v_matmul w1 x1;
  v_reduceAlong RdSum y1 2%Z.

Lemma fc_val_pre (wv bv xv : T) : fc_val wv bv xv = dor y2 <- fc_pre wv xv; v_arith BiAdd y2 bv.
Proof.
  unfold fc_val, fc_pre. destruct (v_unsqueeze wv 1%Z) as [w1| |]; cbn [res_bind]; try reflexivity.
  destruct (v_unsqueeze xv 1%Z) as [x1| |]; cbn [res_bind]; try reflexivity.
  destruct (v_matmul w1 x1) as [y1| |]; cbn [res_bind]; reflexivity.
Qed.

(* (Σ_d  0 + W[o] * x[b][d]) with the evaluation order of the code: the MatMul element is the
   one-term left fold from 0 (inner dimension 1), SumAlong the left fold from 0 over d = 0..F-1 *)
Definition fcSum (wv xv : T) (F bi o : nat) : A :=
  fold_left sadd (map (fun d => sadd s0 (smul (elt (data wv) [o]) (elt (data xv) [bi; d]))) (seq 0 F)) s0.

(* y[b][o] = (Σ_d  0 + W[o] * x[b][d])  +  B[o] *)
Definition fcEl (wv bv xv : T) (F bi o : nat) : A := sadd (fcSum wv xv F bi o) (elt (data bv) [o]).

Theorem fc_pre_spec (wv xv : T) O B F : wf wv -> wf xv -> dims wv = [O] -> dims xv = [B; F] ->
  exists y2, fc_pre wv xv = Ok y2 /\ dims y2 = [B; O] /\ wf y2 /\
    forall bi o, bi < B -> o < O -> get (data y2) [bi; o] = Some (fcSum wv xv F bi o).
Proof.
  intros Ww Wx Ew Ex. unfold fc_pre.
  (* w1 := w.UnSqueeze(1) : [O] -> [O; 1] *)
  destruct (v_unsqueeze_get wv 1 Ww ltac:(rewrite Ew; cbn; lia)) as (w1 & E1 & Dw1 & Ww1 & Gw1).
  rewrite Ew in Dw1, Gw1. change (Z.of_nat 1) with 1%Z in E1. rewrite E1. cbn [res_bind].
  (* x1 := x.UnSqueeze(1) : [B; F] -> [B; 1; F] *)
  destruct (v_unsqueeze_get xv 1 Wx ltac:(rewrite Ex; cbn; lia)) as (x1 & E2 & Dx1 & Wx1 & Gx1).
  rewrite Ex in Dx1, Gx1. change (Z.of_nat 1) with 1%Z in E2. rewrite E2. cbn [res_bind].
  (* y1 := w1.MatMul(x1) : [O; 1] x [B; 1; F] -> [B; O; F] *)
  destruct (v_matmul_spec w1 x1 Ww1 Wx1) as (Hm & _ & _).
  pose proof (Hm [] [B] O 1 F Dw1 Dx1 I) as Hm'. cbv zeta in Hm'.
  change (targetBroadcastDims [] [B]) with [B] in Hm'. cbn [app] in Hm'.
  destruct Hm' as (y1 & E3 & Dy1 & Wy1 & G1). rewrite E3. cbn [res_bind].
  (* y2 := y1.SumAlong(2) : [B; O; F] -> [B; O] *)
  assert (Hrg : (0 <= 2 < Z.of_nat (length (dims y1)))%Z) by (rewrite Dy1; cbn; lia).
  destruct (v_reduceAlong_elt RdSum y1 2%Z Wy1 Hrg) as (y2 & E4 & Dy2 & Wy2 & G2).
  change (Z.to_nat 2) with 2 in Dy2, G2. rewrite Dy1 in Dy2, G2. cbn [squeezeDims firstn skipn app] in Dy2.
  exists y2. split; [exact E4|]. split; [exact Dy2|]. split; [exact Wy2|].
  intros bi o Hbi Ho. rewrite (G2 [bi; o]) by (apply validIdx2; auto). cbn [firstn skipn app nth redL].
  unfold fcSum, sumL. do 2 f_equal. apply map_ext_in. intros d Hd. apply in_seq in Hd.
  (* the MatMul element: inner dimension 1 *)
  unfold elt at 1. pose proof (G1 [bi] o d) as Gm. cbn [app] in Gm. rewrite Gm by (repeat constructor; lia).
  cbn [seq fold_left]. f_equal. f_equal.
  - (* w1[o][0] = w[o] *)
    apply elt_get_eq. unfold bproj. cbn [length Nat.sub skipn combine map app].
    apply (Gw1 [o]), validIdx1, Ho.
  - (* x1[b][0][d] = x[b][d] *)
    apply elt_get_eq. rewrite (bproj_id [B] [bi]) by (apply validIdx1; exact Hbi). cbn [app].
    apply (Gx1 [bi; d]), validIdx2. lia.
Qed.

Theorem fc_val_spec (wv bv xv : T) O B F : wf wv -> wf bv -> wf xv ->
  dims wv = [O] -> dims bv = [O] -> dims xv = [B; F] ->
  exists r, fc_val wv bv xv = Ok r /\ dims r = [B; O] /\ wf r /\
    forall bi o, bi < B -> o < O -> get (data r) [bi; o] = Some (fcEl wv bv xv F bi o).
Proof.
  intros Ww Wb Wx Ew Eb Ex. rewrite fc_val_pre.
  destruct (fc_pre_spec wv xv O B F Ww Wx Ew Ex) as (y2 & E4 & Dy2 & Wy2 & G2). rewrite E4. cbn [res_bind].
  (* result := y2.Add(b) : [B; O] + [O] -> [B; O] *)
  pose proof (v_arith_spec BiAdd y2 bv Wy2 Wb) as Ha. cbv zeta in Ha. destruct Ha as [Ha _].
  rewrite Dy2, Eb in Ha.
  assert (Et : targetBroadcastDims [B; O] [O] = [B; O])
    by (unfold targetBroadcastDims; cbn; rewrite Nat.max_id; reflexivity).
  rewrite Et in Ha.
  destruct Ha as (r & E5 & Dr & Wr & G3); [unfold bcompat2; cbn; auto|].
  exists r. split; [exact E5|]. split; [exact Dr|]. split; [exact Wr|].
  intros bi o Hbi Ho.
  assert (Vbo : validIdx [B; O] [bi; o]) by (apply validIdx2; auto).
  assert (Vo : validIdx [O] [o]) by (apply validIdx1; auto).
  rewrite (G3 _ Vbo). rewrite (bproj_id [B; O] _ Vbo).
  assert (Ep : bproj [O] [B; O] [bi; o] = [o]).
  { unfold bproj. cbn. destruct (O =? 1) eqn:E; [|reflexivity]. apply Nat.eqb_eq in E. f_equal. lia. }
  rewrite Ep. rewrite <- Eb in Vo. rewrite (elt_some _ _ _ (proj1 Wb) Vo).
  rewrite (G2 bi o Hbi Ho). reflexivity.
Qed.

Lemma fc_operands (wv bv xv : T) O B F : wf wv -> wf bv -> wf xv ->
  dims wv = [O] -> dims bv = [O] -> dims xv = [B; F] ->
  forall bi o d, bi < B -> o < O -> d < F ->
    get (data wv) [o] = Some (elt (data wv) [o]) /\ get (data bv) [o] = Some (elt (data bv) [o]) /\
    get (data xv) [bi; d] = Some (elt (data xv) [bi; d]).
Proof.
  intros [Ww _] [Wb _] [Wx _] Ew Eb Ex bi o d Hbi Ho Hd. rewrite Ew in Ww. rewrite Eb in Wb. rewrite Ex in Wx.
  split; [apply (elt_some [O]); [exact Ww|apply validIdx1; exact Ho]|].
  split; [apply (elt_some [O]); [exact Wb|apply validIdx1; exact Ho]|].
  apply (elt_some [B; F]); [exact Wx|apply validIdx2; auto].
Qed.

Lemma fc_sizes_pos (wv xv : T) O B F : wf wv -> wf xv -> dims wv = [O] -> dims xv = [B; F] -> 0 < O /\ 0 < B /\ 0 < F.
Proof.
  intros [_ Pw] [_ Px] Ew Ex. rewrite Ew in Pw. rewrite Ex in Px.
  inversion Pw as [|? ? HO _]; subst. inversion Px as [|? ? HB Px']; subst. inversion Px' as [|? ? HF _]; subst. auto.
Qed.

Theorem fc_forward_spec (h : heap) w b x name (wv bv xv : T) O B F :
  valOf h w = Some wv -> valOf h b = Some bv -> valOf h x = Some xv ->
  wf wv -> wf bv -> wf xv -> dims wv = [O] -> dims bv = [O] -> dims xv = [B; F] ->
  exists r, produces h (fc_forward h w b [Some x] name) r name /\ dims r = [B; O] /\ wf r /\
    forall bi o, bi < B -> o < O ->
      get (data r) [bi; o] =
      Some (sadd (fold_left sadd
                    (map (fun d => sadd s0 (smul (elt (data wv) [o]) (elt (data xv) [bi; d]))) (seq 0 F)) s0)
                 (elt (data bv) [o])).
Proof.
  intros Hw Hb Hx Ww Wb Wx Ew Eb Ex.
  exact (spec_of_tracks _ _ _ _ _ (fc_forward_tracks h w b x name wv bv xv Hw Hb Hx ltac:(rewrite Ex; reflexivity))
           (fc_val_spec wv bv xv O B F Ww Wb Wx Ew Eb Ex)).
Qed.

(* not exactly one non-nil input, or an input whose rank is not 2: error, heap unchanged *)
Theorem fc_forward_rejects (h : heap) w b xs name :
  (oneInput xs = None -> fc_forward h w b xs name = (h, Err)) /\
  (forall x, xs = [Some x] -> rankOf h x <> 2 -> fc_forward h w b xs name = (h, Err)).
Proof.
  split.
  - intros E. unfold fc_forward. rewrite E. reflexivity.
  - intros x -> Hr. unfold fc_forward. cbn [oneInput].
    destruct (rankOf h x =? 2) eqn:E; [apply Nat.eqb_eq in E; contradiction|reflexivity].
Qed.

(* whatever the arguments: a call that does not return a tensor leaves the heap as it was *)
Theorem fc_forward_fail_frame (h : heap) w b xs name :
  (forall id, snd (fc_forward h w b xs name) <> Ok id) -> fst (fc_forward h w b xs name) = h.
Proof.
  unfold fc_forward. destruct (oneInput xs) as [x|]; [|reflexivity].
  destruct (negb (rankOf h x =? 2)); [reflexivity|apply atomically_fail].
Qed.

(* a bias that cannot be broadcast against [B; O]  (e.g. [O'] with O' <> O and neither 1):
   Add returns an error, the layer reports it and nothing is left behind *)
Theorem fc_forward_bias_mismatch (h : heap) w b x name (wv bv xv : T) O B F :
  valOf h w = Some wv -> valOf h b = Some bv -> valOf h x = Some xv ->
  wf wv -> wf bv -> wf xv -> dims wv = [O] -> dims xv = [B; F] -> ~ bcompat2 [B; O] (dims bv) ->
  fc_forward h w b [Some x] name = (h, Err).
Proof.
  intros Hw Hb Hx Ww Wb Wx Ew Ex Hn.
  pose proof (fc_forward_tracks h w b x name wv bv xv Hw Hb Hx ltac:(rewrite Ex; reflexivity)) as H.
  rewrite fc_val_pre in H.
  destruct (fc_pre_spec wv xv O B F Ww Wx Ew Ex) as (y2 & E4 & Dy2 & Wy2 & _). rewrite E4 in H. cbn [res_bind] in H.
  pose proof (v_arith_spec BiAdd y2 bv Wy2 Wb) as Ha. cbv zeta in Ha. destruct Ha as [_ Ha].
  rewrite Dy2 in Ha. rewrite (Ha Hn) in H. exact H.
Qed.

Corollary fc_forward_bias_len_mismatch (h : heap) w b x name (wv bv xv : T) O O' B F :
  valOf h w = Some wv -> valOf h b = Some bv -> valOf h x = Some xv ->
  wf wv -> wf bv -> wf xv -> dims wv = [O] -> dims bv = [O'] -> dims xv = [B; F] ->
  O' <> O -> O <> 1 -> O' <> 1 ->
  fc_forward h w b [Some x] name = (h, Err).
Proof.
  intros Hw Hb Hx Ww Wb Wx Ew Eb Ex N1 N2 N3.
  apply (fc_forward_bias_mismatch h w b x name wv bv xv O B F); try assumption.
  rewrite Eb. unfold bcompat2. cbn. intros [[H|[H|H]] _]; congruence.
Qed.

Lemma v_unsqueeze_wf (t r : T) dim : wf t -> v_unsqueeze t dim = Ok r -> wf r.
Proof.
  intros Wt E. destruct (v_unsqueeze_spec A t dim Wt) as [H1 H2].
  destruct (validateUnSqueezeDim dim (zdims t)).
  - destruct (H1 eq_refl) as (r' & Er & _ & Wr & _). congruence.
  - rewrite (H2 eq_refl) in E. discriminate.
Qed.

Lemma v_unsqueeze_no_panic (t : T) dim : wf t -> v_unsqueeze t dim <> Panic.
Proof.
  intros Wt E. destruct (v_unsqueeze_spec A t dim Wt) as [H1 H2].
  destruct (validateUnSqueezeDim dim (zdims t)).
  - destruct (H1 eq_refl) as (r' & Er & _). congruence.
  - rewrite (H2 eq_refl) in E. discriminate.
Qed.

Lemma v_matmul_wf (t u r : T) : wf t -> wf u -> v_matmul t u = Ok r -> wf r.
Proof.
  intros Wt Wu E. destruct (v_matmul_ok_iff t u Wt Wu) as [[H _] _].
  destruct (H (ex_intro _ r E)) as (p1 & p2 & m & n & k & E1 & E2 & Hc).
  destruct (v_matmul_spec t u Wt Wu) as (Hs & _). pose proof (Hs p1 p2 m n k E1 E2 Hc) as Hs'. cbv zeta in Hs'.
  destruct Hs' as (r' & Er & _ & Wr & _). congruence.
Qed.

Lemma v_reduceAlong_wf rd (t r : T) dim : wf t -> v_reduceAlong rd t dim = Ok r -> wf r.
Proof.
  intros Wt E. destruct (v_reduceAlong_spec rd t dim Wt) as [H1 H2].
  destruct (Z_le_dec 0 dim) as [Ha|Ha]; [destruct (Z_lt_dec dim (Z.of_nat (length (dims t)))) as [Hb|Hb]|].
  - destruct (H1 (conj Ha Hb)) as (r' & Er & _ & _ & Wr). congruence.
  - rewrite H2 in E by lia. discriminate.
  - rewrite H2 in E by lia. discriminate.
Qed.

(* well-formed operands never make the layer panic, whatever their shapes *)
Theorem fc_val_no_panic (wv bv xv : T) : wf wv -> wf bv -> wf xv -> fc_val wv bv xv <> Panic.
Proof.
  intros Ww Wb Wx. unfold fc_val.
  destruct (v_unsqueeze wv 1%Z) as [w1| |] eqn:E1; cbn [res_bind];
    [|discriminate|exfalso; exact (v_unsqueeze_no_panic wv 1%Z Ww E1)].
  destruct (v_unsqueeze xv 1%Z) as [x1| |] eqn:E2; cbn [res_bind];
    [|discriminate|exfalso; exact (v_unsqueeze_no_panic xv 1%Z Wx E2)].
  pose proof (v_unsqueeze_wf _ _ _ Ww E1) as Ww1. pose proof (v_unsqueeze_wf _ _ _ Wx E2) as Wx1.
  destruct (v_matmul w1 x1) as [y1| |] eqn:E3; cbn [res_bind];
    [|discriminate|exfalso; apply (proj2 (v_matmul_ok_iff w1 x1 Ww1 Wx1) E3)].
  pose proof (v_matmul_wf _ _ _ Ww1 Wx1 E3) as Wy1.
  destruct (v_reduceAlong RdSum y1 2%Z) as [y2| |] eqn:E4; cbn [res_bind];
    [|discriminate|exfalso; apply (v_reduceAlong_never_panics RdSum y1 2%Z Wy1 E4)].
  pose proof (v_reduceAlong_wf _ _ _ _ Wy1 E4) as Wy2.
  exact (proj2 (v_arith_ok_iff BiAdd y2 bv Wy2 Wb)).
Qed.

Lemma oneInput_some (xs : list targ) x : oneInput xs = Some x -> xs = [Some x].
Proof. destruct xs as [|[y|] [|z r]]; cbn; intros E; try discriminate. inversion E; reflexivity. Qed.

Theorem fc_forward_never_panics (h : heap) w b xs name (wv bv : T) :
  (forall i v, valOf h i = Some v -> wf v) -> valOf h w = Some wv -> valOf h b = Some bv ->
  snd (fc_forward h w b xs name) <> Panic.
Proof.
  intros Hwf Hw Hb. destruct (oneInput xs) as [x|] eqn:Eo; [|unfold fc_forward; rewrite Eo; discriminate].
  apply oneInput_some in Eo. subst xs.
  destruct (rankOf h x =? 2) eqn:Er; [|unfold fc_forward; cbn [oneInput]; rewrite Er; discriminate].
  apply Nat.eqb_eq in Er. pose proof Er as Er'. unfold rankOf in Er'. destruct (valOf h x) as [xv|] eqn:Hx; [|discriminate].
  pose proof (fc_forward_tracks h w b x name wv bv xv Hw Hb Hx Er') as H.
  pose proof (fc_val_no_panic wv bv xv (Hwf _ _ Hw) (Hwf _ _ Hb) (Hwf _ _ Hx)) as Hn.
  destruct (fc_val wv bv xv) as [v| |]; cbn [tracks] in H.
  - destruct H as (h' & id & -> & _). discriminate.
  - rewrite H. discriminate.
  - contradiction.
Qed.

(* every output row depends on its own input row only *)
Theorem fc_rows_independent (wv bv xv xv' : T) F bi bi' :
  (forall d, d < F -> get (data xv) [bi; d] = get (data xv') [bi'; d]) ->
  forall o, fcEl wv bv xv F bi o = fcEl wv bv xv' F bi' o.
Proof.
  intros H o. unfold fcEl, fcSum. f_equal. f_equal. apply map_ext_in. intros d Hd. apply in_seq in Hd.
  rewrite (elt_get_eq _ _ _ _ (H d ltac:(lia))). reflexivity.
Qed.

(* two calls (possibly on different heaps, different batch sizes) with the same parameters:
   rows computed from equal input rows are equal *)
Corollary fc_forward_rows_independent (h h' : heap) w b x w' b' x' name name' (wv bv xv xv' : T) O B B' F bi bi' :
  valOf h w = Some wv -> valOf h b = Some bv -> valOf h x = Some xv ->
  valOf h' w' = Some wv -> valOf h' b' = Some bv -> valOf h' x' = Some xv' ->
  wf wv -> wf bv -> wf xv -> wf xv' -> dims wv = [O] -> dims bv = [O] -> dims xv = [B; F] -> dims xv' = [B'; F] ->
  bi < B -> bi' < B' ->
  (forall d, d < F -> get (data xv) [bi; d] = get (data xv') [bi'; d]) ->
  exists r r', produces h (fc_forward h w b [Some x] name) r name /\
               produces h' (fc_forward h' w' b' [Some x'] name') r' name' /\
               forall o, o < O -> get (data r) [bi; o] = get (data r') [bi'; o].
Proof.
  intros Hw Hb Hx Hw' Hb' Hx' Ww Wb Wx Wx' Ew Eb Ex Ex' Hbi Hbi' Hrow.
  destruct (fc_forward_spec h w b x name wv bv xv O B F Hw Hb Hx Ww Wb Wx Ew Eb Ex) as (r & P & _ & _ & G).
  destruct (fc_forward_spec h' w' b' x' name' wv bv xv' O B' F Hw' Hb' Hx' Ww Wb Wx' Ew Eb Ex') as (r' & P' & _ & _ & G').
  exists r, r'. split; [exact P|]. split; [exact P'|]. intros o Ho.
  rewrite (G bi o Hbi Ho), (G' bi' o Hbi' Ho). f_equal.
  apply (fc_rows_independent wv bv xv xv' F bi bi' Hrow o).
Qed.

End FcP.

Section FcScenario.
Context {A : Type} {SA : Scalar A}.
Notation T := (tensor A).
Notation heap := (@heap A).
Notation obj := (@obj A).
Notation state := (@state A).
Notation cmd := (@cmd A).
Variable rd : bred.
Variable sealv : nat -> T -> T.
Variable sealg : nat -> option nat -> T -> T.
Variables (c_eps c_one_m_eps : A) (c_leaky c_sgd_lr dFull dUniL dUniU dNorM dNorS : dec) (c_softmax_dim : Z).

Local Notation stepS := (step rd sealv sealg c_eps c_one_m_eps c_leaky c_sgd_lr dFull dUniL dUniU dNorM dNorS c_softmax_dim).

Lemma setNthObj_length (env : list obj) i o : length (setNthObj env i o) = length env.
Proof. unfold setNthObj. apply mapi_length. Qed.

Lemma setNthObj_same (env : list obj) i o : i < length env -> nth_error (setNthObj env i o) i = Some o.
Proof.
  intros Hi. unfold setNthObj. rewrite mapi_nth.
  destruct (nth_error env i) as [o'|] eqn:E; [|apply nth_error_None in E; lia].
  cbn [option_map fst snd]. rewrite Nat.eqb_refl. reflexivity.
Qed.

Lemma setNthObj_other (env : list obj) i j o : j <> i -> nth_error (setNthObj env i o) j = nth_error env j.
Proof.
  intros Hj. unfold setNthObj. rewrite mapi_nth. destruct (nth_error env j) as [o'|]; [|reflexivity].
  cbn [option_map fst snd]. destruct (j =? i) eqn:E; [apply Nat.eqb_eq in E; contradiction|reflexivity].
Qed.

(* the two cells of the layer object [fc] *)
Definition fcCells (s : state) (fc : nat) : option (option nat * option nat) :=
  match nth_error (st_env s) fc with Some (OFC w b) => Some (w, b) | _ => None end.

Definition setCell (c : option nat * option nat) (p : bool * nat) : option nat * option nat :=
  if fst p then (fst c, Some (snd p)) else (Some (snd p), snd c).

(* one CFCSet: *Weights()[k] = t *)
Lemma step_fcset (s : state) fc bias t w b x :
  nth_error (st_env s) fc = Some (OFC w b) -> lookupT s t = Some x ->
  stepS s (CFCSet fc bias t) =
  (mkState (st_heap s) (setNthObj (st_env s) fc (if bias then OFC w (Some x) else OFC (Some x) b) ++ [ONone]) (st_rng s),
   ObOk).
Proof. intros Hfc Ht. unfold step. rewrite Hfc, Ht. reflexivity. Qed.

Theorem fcset_spec (s : state) fc bias t w b x :
  fcCells s fc = Some (w, b) -> lookupT s t = Some x ->
  let s' := fst (stepS s (CFCSet fc bias t)) in
  snd (stepS s (CFCSet fc bias t)) = ObOk /\
  st_heap s' = st_heap s /\ st_rng s' = st_rng s /\ length (st_env s') = S (length (st_env s)) /\
  fcCells s' fc = Some (setCell (w, b) (bias, x)) /\
  (forall j, j <> fc -> j < length (st_env s) -> nth_error (st_env s') j = nth_error (st_env s) j) /\
  (forall j, lookupT s' j = lookupT s j).
Proof.
  intros Hc Ht. unfold fcCells in Hc.
  destruct (nth_error (st_env s) fc) as [[| | w' b'| | |]|] eqn:Hfc; try discriminate. inversion Hc; subst w' b'.
  assert (Hlt : fc < length (st_env s)) by (apply nth_error_Some; congruence).
  cbv zeta. rewrite (step_fcset s fc bias t w b x Hfc Ht). cbn [fst snd st_heap st_env st_rng].
  set (o := if bias then OFC w (Some x) else OFC (Some x) b).
  split; [reflexivity|]. split; [reflexivity|]. split; [reflexivity|].
  split; [rewrite app_length, setNthObj_length; cbn; lia|].
  split.
  { unfold fcCells. cbn [st_env]. rewrite nth_error_app1 by (rewrite setNthObj_length; exact Hlt).
    rewrite setNthObj_same by exact Hlt. unfold o, setCell. destruct bias; reflexivity. }
  split.
  { intros j Hj Hjl. rewrite nth_error_app1 by (rewrite setNthObj_length; exact Hjl). apply setNthObj_other, Hj. }
  intros j. unfold lookupT. cbn [st_env].
  destruct (Nat.lt_ge_cases j (length (st_env s))) as [Hjl|Hjl].
  - rewrite nth_error_app1 by (rewrite setNthObj_length; exact Hjl).
    destruct (Nat.eq_dec j fc) as [->|Hj].
    + rewrite setNthObj_same by exact Hlt. rewrite Hfc. unfold o. destruct bias; reflexivity.
    + rewrite setNthObj_other by exact Hj. reflexivity.
  - rewrite nth_error_app2 by (rewrite setNthObj_length; exact Hjl). rewrite setNthObj_length.
    rewrite (proj2 (nth_error_None (st_env s) j) Hjl).
    destruct (j - length (st_env s)) as [|[|k]]; reflexivity.
Qed.

(* CFCForward reads the cells: Forward uses the tensors the pointers address NOW *)
Theorem step_fcforward (s : state) fc w b xs args :
  fcCells s fc = Some (Some w, Some b) -> mapM (lookupArg s) xs = Some args ->
  stepS s (CFCForward fc xs) = fin sealv s (fc_forward (st_heap s) w b args (Some (length (st_env s)))).
Proof.
  intros Hc Ha. unfold fcCells in Hc.
  destruct (nth_error (st_env s) fc) as [[| | w' b'| | |]|] eqn:Hfc; try discriminate. inversion Hc; subst w' b'.
  unfold step. rewrite Hfc, Ha. reflexivity.
Qed.

Definition steps (s : state) (cs : list cmd) : state := fold_left (fun s c => fst (stepS s c)) cs s.

(* the last tensor written into a cell (or the previous content [d] if it was never written) *)
Definition lastOf (bias : bool) (l : list (bool * nat)) (d : option nat) : option nat :=
  match find (fun p => Bool.eqb (fst p) bias) (rev l) with Some p => Some (snd p) | None => d end.

Lemma fold_setCell (l : list (bool * nat)) c :
  fold_left setCell l c = (lastOf false l (fst c), lastOf true l (snd c)).
Proof.
  induction l as [|p l IH] using rev_ind.
  - destruct c; reflexivity.
  - rewrite fold_left_app. cbn [fold_left]. rewrite IH. unfold lastOf. rewrite rev_app_distr. cbn [rev app find].
    unfold setCell. destruct p as [[|] x]; cbn [fst snd Bool.eqb]; reflexivity.
Qed.

Lemma lookupArg_ext (s s' : state) : (forall j, lookupT s' j = lookupT s j) -> forall a, lookupArg s' a = lookupArg s a.
Proof. intros H [n|]; cbn; [rewrite H|]; reflexivity. Qed.

(* l lists the assignments in order: (bias?, (scenario name t of the tensor, its node id x)) *)
Theorem fcsets_spec (l : list (bool * (nat * nat))) : forall (s : state) fc w0 b0,
  fcCells s fc = Some (w0, b0) ->
  Forall (fun q => lookupT s (fst (snd q)) = Some (snd (snd q))) l ->
  let cmds := map (fun q => CFCSet fc (fst q) (fst (snd q))) l in
  let rl := map (fun q => (fst q, snd (snd q))) l in
  let s' := steps s cmds in
  st_heap s' = st_heap s /\ st_rng s' = st_rng s /\ length (st_env s') = length (st_env s) + length l /\
  fcCells s' fc = Some (fold_left setCell rl (w0, b0)) /\
  (forall j, lookupT s' j = lookupT s j).
Proof.
  induction l as [|[bias [t x]] l IH]; intros s fc w0 b0 Hc Hl; cbv zeta.
  - cbn. repeat split; auto.
  - inversion Hl as [|q l' Hq Hl']; subst. cbn [fst snd] in Hq.
    pose proof (fcset_spec s fc bias t w0 b0 x Hc Hq) as H1. cbv zeta in H1.
    destruct H1 as (_ & Hh & Hr & Hlen & Hc1 & _ & Hlk).
    cbn [map fst snd steps fold_left]. set (s1 := fst (stepS s (CFCSet fc bias t))) in *.
    assert (Hl1 : Forall (fun q => lookupT s1 (fst (snd q)) = Some (snd (snd q))) l).
    { eapply Forall_impl; [|exact Hl']. intros q Hq'. cbn beta in *. rewrite Hlk. exact Hq'. }
    destruct (setCell (w0, b0) (bias, x)) as [w1 b1] eqn:Esc.
    pose proof (IH s1 fc w1 b1 Hc1 Hl1) as H2. cbv zeta in H2. unfold steps in H2.
    destruct H2 as (Hh2 & Hr2 & Hlen2 & Hc2 & Hlk2).
    split; [congruence|]. split; [congruence|]. split; [rewrite Hlen2, Hlen; cbn; lia|].
    split; [exact Hc2|]. intros j. rewrite Hlk2. apply Hlk.
Qed.

(* C16, last sentence: after ANY sequence of writes through the pointers returned by Weights(),
   the next Forward uses, for each cell, the LAST tensor written (or the original one) *)
Theorem fc_weights_live (l : list (bool * (nat * nat))) (s : state) fc w0 b0 w b xs args :
  fcCells s fc = Some (w0, b0) ->
  Forall (fun q => lookupT s (fst (snd q)) = Some (snd (snd q))) l ->
  let cmds := map (fun q => CFCSet fc (fst q) (fst (snd q))) l in
  let rl := map (fun q => (fst q, snd (snd q))) l in
  let s' := steps s cmds in
  lastOf false rl w0 = Some w -> lastOf true rl b0 = Some b ->
  mapM (lookupArg s) xs = Some args ->
  st_heap s' = st_heap s /\
  stepS s' (CFCForward fc xs) = fin sealv s' (fc_forward (st_heap s) w b args (Some (length (st_env s) + length l))).
Proof.
  intros Hc Hl. cbv zeta. intros Hw Hb Ha.
  pose proof (fcsets_spec l s fc w0 b0 Hc Hl) as H. cbv zeta in H. destruct H as (Hh & _ & Hlen & Hc' & Hlk).
  split; [exact Hh|]. rewrite fold_setCell in Hc'. cbn [fst snd] in Hc'. rewrite Hw, Hb in Hc'.
  rewrite (step_fcforward _ fc w b xs args Hc'); [rewrite Hh, Hlen; reflexivity|].
  rewrite <- Ha. apply mapM_ext. intros a _. apply lookupArg_ext, Hlk.
Qed.

(* the two single-assignment cases spelled out *)
Corollary fcset_weight_then_forward (s : state) fc w0 b t x xs args :
  fcCells s fc = Some (w0, Some b) -> lookupT s t = Some x -> mapM (lookupArg s) xs = Some args ->
  let s' := fst (stepS s (CFCSet fc false t)) in
  stepS s' (CFCForward fc xs) = fin sealv s' (fc_forward (st_heap s) x b args (Some (S (length (st_env s))))).
Proof.
  intros Hc Ht Ha. cbv zeta.
  pose proof (fc_weights_live [(false, (t, x))] s fc w0 (Some b) x b xs args Hc ltac:(repeat constructor; exact Ht)) as H.
  cbv zeta in H. destruct (H eq_refl eq_refl Ha) as [_ H']. cbn [map fst snd steps fold_left length] in H'.
  rewrite Nat.add_1_r in H'. exact H'.
Qed.

Corollary fcset_bias_then_forward (s : state) fc w b0 t x xs args :
  fcCells s fc = Some (Some w, b0) -> lookupT s t = Some x -> mapM (lookupArg s) xs = Some args ->
  let s' := fst (stepS s (CFCSet fc true t)) in
  stepS s' (CFCForward fc xs) = fin sealv s' (fc_forward (st_heap s) w x args (Some (S (length (st_env s))))).
Proof.
  intros Hc Ht Ha. cbv zeta.
  pose proof (fc_weights_live [(true, (t, x))] s fc (Some w) b0 w x xs args Hc ltac:(repeat constructor; exact Ht)) as H.
  cbv zeta in H. destruct (H eq_refl eq_refl Ha) as [_ H']. cbn [map fst snd steps fold_left length] in H'.
  rewrite Nat.add_1_r in H'. exact H'.
Qed.

(* ... and what the caller then observes: the tensor computed from the values of the tensors
   written last (everything of C16 in one statement at the scenario level) *)
Theorem fc_weights_live_obs (l : list (bool * (nat * nat))) (s : state) fc w0 b0 w b tx x (wv bv xv : T) O B F :
  fcCells s fc = Some (w0, b0) ->
  Forall (fun q => lookupT s (fst (snd q)) = Some (snd (snd q))) l ->
  let cmds := map (fun q => CFCSet fc (fst q) (fst (snd q))) l in
  let rl := map (fun q => (fst q, snd (snd q))) l in
  let s' := steps s cmds in
  lastOf false rl w0 = Some w -> lastOf true rl b0 = Some b -> lookupT s tx = Some x ->
  valOf (st_heap s) w = Some wv -> valOf (st_heap s) b = Some bv -> valOf (st_heap s) x = Some xv ->
  wf wv -> wf bv -> wf xv -> dims wv = [O] -> dims bv = [O] -> dims xv = [B; F] ->
  exists r, snd (stepS s' (CFCForward fc [Some tx])) = ObTensor [B; O] (flat (data r)) /\
    dims r = [B; O] /\ wf r /\
    forall bi o, bi < B -> o < O -> get (data r) [bi; o] = Some (fcEl wv bv xv F bi o).
Proof.
  intros Hc Hl. cbv zeta. intros Hw Hb Hx Vw Vb Vx Ww Wb Wx Ew Eb Ex.
  assert (Ha : mapM (lookupArg s) [Some tx] = Some [Some x]) by (cbn; rewrite Hx; reflexivity).
  pose proof (fc_weights_live l s fc w0 b0 w b [Some tx] [Some x] Hc Hl) as H. cbv zeta in H.
  destruct (H Hw Hb Ha) as [_ E]. rewrite E.
  destruct (fc_forward_spec (st_heap s) w b x (Some (length (st_env s) + length l)) wv bv xv O B F
              Vw Vb Vx Ww Wb Wx Ew Eb Ex) as (r & (h' & id & Er & _ & _ & _ & Hv & _) & Dr & Wr & G).
  exists r. rewrite Er. unfold fin, tensorObs. cbn [snd]. rewrite Hv, Dr. auto.
Qed.

End FcScenario.

Module FcExamples.
Import CompExamples.
Close Scope Z_scope.

Definition tW : tensor Z := mkT [2] (Vec [Sc 2; Sc 3])%Z.
Definition tB : tensor Z := mkT [2] (Vec [Sc 10; Sc 20])%Z.
Definition tB3 : tensor Z := mkT [3] (Vec [Sc 10; Sc 20; Sc 30])%Z.
Definition tX : tensor Z := mkT [2; 3] (Vec [Vec [Sc 1; Sc 2; Sc 3]; Vec [Sc 4; Sc 5; Sc 6]])%Z.
Lemma wf_tW : wf tW. Proof. split; [apply wfndb_spec; reflexivity|repeat constructor]. Qed.
Lemma wf_tB : wf tB. Proof. split; [apply wfndb_spec; reflexivity|repeat constructor]. Qed.
Lemma wf_tB3 : wf tB3. Proof. split; [apply wfndb_spec; reflexivity|repeat constructor]. Qed.
Lemma wf_tX : wf tX. Proof. split; [apply wfndb_spec; reflexivity|repeat constructor]. Qed.

(* nodes 0..3: W, B, x, a bias of the wrong length *)
Definition h0 : @heap Z :=
  fst (leaf (fst (leaf (fst (leaf (fst (leaf [] tW true None)) tB true None)) tX false (Some 0))) tB3 true None).

Example matmul_dot_tracks_ex :
  (exists h', h_matmul h0 2 2 None = (h0, Err) /\ h_dot h0 2 2 (Some 5) = (h', Ok 6) /\
              valOf h' 6 = Some (mkT [2] (Vec [Sc 14; Sc 77])%Z)) /\
  v_matmul tX tX = Err /\ v_dot tX tX = Ok (mkT [2] (Vec [Sc 14; Sc 77])%Z).
Proof. split; [eexists|]; vm_compute; auto. Qed.

(* y = [[2*(1+2+3)+10, 3*(1+2+3)+20]; [2*(4+5+6)+10, 3*(4+5+6)+20]] *)
Example fc_ex :
  exists h', fc_forward h0 0 1 [Some 2] (Some 9) = (h', Ok 12) /\ length h' = 13 /\
    valOf h' 12 = Some (mkT [2; 2] (Vec [Vec [Sc 22; Sc 38]; Vec [Sc 40; Sc 65]])%Z).
Proof. eexists. vm_compute. auto. Qed.

(* through the theorem: element [1; 0] is ((0 + (0+2*4)) + (0+2*5)) + (0+2*6)) + 10 *)
Example fc_spec_inst :
  exists r, produces h0 (fc_forward h0 0 1 [Some 2] None) r None /\ dims r = [2; 2] /\
    get (data r) [1; 0] = Some (((0 + (0 + 2 * 4)) + (0 + 2 * 5)) + (0 + 2 * 6) + 10)%Z.
Proof.
  destruct (fc_forward_spec h0 0 1 2 None tW tB tX 2 2 3 eq_refl eq_refl eq_refl wf_tW wf_tB wf_tX eq_refl eq_refl eq_refl)
    as (r & P & D & _ & G).
  exists r. split; [exact P|]. split; [exact D|]. rewrite (G 1 0) by lia. reflexivity.
Qed.

Example fc_reject_ex :
  fc_forward h0 0 1 [] None = (h0, Err) /\ fc_forward h0 0 1 [None] None = (h0, Err) /\
  fc_forward h0 0 1 [Some 2; Some 2] None = (h0, Err) /\
  fc_forward h0 0 1 [Some 0] None = (h0, Err) /\          (* rank 1 input *)
  fc_forward h0 0 3 [Some 2] None = (h0, Err) /\          (* bias of length 3 against 2 outputs *)
  fc_forward h0 0 99 [Some 2] None = (h0, Panic).         (* dangling bias reference *)
Proof. vm_compute. repeat split. Qed.

Example fc_bias_mismatch_inst : fc_forward h0 0 3 [Some 2] (Some 9) = (h0, Err).
Proof.
  apply (fc_forward_bias_len_mismatch h0 0 3 2 (Some 9) tW tB3 tX 2 3 2 3 eq_refl eq_refl eq_refl
           wf_tW wf_tB3 wf_tX eq_refl eq_refl eq_refl); lia.
Qed.

(* rows: row 1 of x equals row 0 of x' = [[4;5;6]] *)
Definition tX' : tensor Z := mkT [1; 3] (Vec [Vec [Sc 4; Sc 5; Sc 6]])%Z.
Example fc_rows_ex : forall o, fcEl tW tB tX 3 1 o = fcEl tW tB tX' 3 0 o.
Proof. apply fc_rows_independent. intros [|[|[|d]]] Hd; reflexivity. Qed.

(* scenario level: NewFC with zero weights, then *Weights()[0] = W, *Weights()[1] = B;
   every Forward uses the tensors in the cells at that moment, the last write wins *)
Definition runZ := @run Z z_scalar RedSum (fun _ t => t) (fun _ _ t => t) 0%Z 1%Z
                        (1, 0)%Z (1, 0)%Z (0, 0)%Z (0, 0)%Z (1, 0)%Z (0, 0)%Z (1, 0)%Z 1%Z.
Example fc_weights_live_ex :
  runZ [CLeaf [2] [2; 3]%Z true; CLeaf [2] [10; 20]%Z true; CLeaf [2; 3] [1; 2; 3; 4; 5; 6]%Z false;
        CFCNew 3 2 (Some (Some (IFull None))) None;
        CFCForward 3 [Some 2];
        CFCSet 3 false 0; CFCForward 3 [Some 2];
        CFCSet 3 true 1; CFCSet 3 false 1; CFCSet 3 false 0; CFCForward 3 [Some 2]]
  = [ObTensor [2] [2; 3]%Z; ObTensor [2] [10; 20]%Z; ObTensor [2; 3] [1; 2; 3; 4; 5; 6]%Z; ObOk;
     ObTensor [2; 2] [0; 0; 0; 0]%Z;
     ObOk; ObTensor [2; 2] [12; 18; 30; 45]%Z;
     ObOk; ObOk; ObOk; ObTensor [2; 2] [22; 38; 40; 65]%Z].
Proof. vm_compute. reflexivity. Qed.

Example lastOf_ex : lastOf false [(false, 7); (true, 8); (false, 9)] None = Some 9 /\
                    lastOf true [(false, 7); (true, 8); (false, 9)] None = Some 8 /\
                    lastOf true [(false, 7)] (Some 1) = Some 1.
Proof. vm_compute. auto. Qed.

End FcExamples.

Print Assumptions h_binop_tracks.
Print Assumptions h_matmul_tracks.
Print Assumptions h_dot_tracks.
Print Assumptions fc_forward_tracks.
Print Assumptions fc_val_spec.
Print Assumptions fc_forward_spec.
Print Assumptions fc_forward_rejects.
Print Assumptions fc_forward_fail_frame.
Print Assumptions fc_forward_bias_mismatch.
Print Assumptions fc_forward_never_panics.
Print Assumptions fc_rows_independent.
Print Assumptions fc_forward_rows_independent.
Print Assumptions fcset_spec.
Print Assumptions step_fcforward.
Print Assumptions fc_weights_live.
Print Assumptions fc_weights_live_obs.
