(* FibreP.v — reading the results of SumAlong / MeanAlong / UnSqueeze element by element, in the
   terms the components' formulas use ([elt], inserted and deleted index components). *)
From Coq Require Import List Arith ZArith Bool Lia.
From Qeep Require Import Model.Scalar Model.Nd Model.Fill Model.Data Model.Valid Model.Api.
From Qeep Require Import Proofs.NdP Proofs.ElemP Proofs.ReshapeP Proofs.ReduceP Proofs.MatMulP.
Import ListNotations.

Lemma ins_S_nil {X} k (v : X) : ins (S k) v [] = [v].
Proof. reflexivity. Qed.

Lemma Forall2_del {X Y} (R : X -> Y -> Prop) k : forall l1 l2, Forall2 R l1 l2 -> Forall2 R (del k l1) (del k l2).
Proof.
  induction k as [|k IH]; intros l1 l2 H; destruct H as [|a b l1 l2 Hab Hl].
  - constructor.
  - rewrite !del_0. exact Hl.
  - constructor.
  - rewrite !del_S. constructor; [exact Hab|apply IH, Hl].
Qed.

Lemma Forall2_ins {X Y} (R : X -> Y -> Prop) k a b : R a b ->
  forall l1 l2, Forall2 R l1 l2 -> Forall2 R (ins k a l1) (ins k b l2).
Proof.
  intros Hab. induction k as [|k IH]; intros l1 l2 H.
  - rewrite !ins_0. constructor; assumption.
  - destruct H as [|x y l1 l2 Hxy Hl]; [rewrite !ins_S_nil; repeat constructor; exact Hab|].
    rewrite !ins_S. constructor; [exact Hxy|apply IH, Hl].
Qed.

Lemma validIdx_del dim ds idx : validIdx ds idx -> validIdx (del dim ds) (del dim idx).
Proof. apply Forall2_del. Qed.

Lemma validIdx_ins dim d k ds idx : k < d -> validIdx ds idx -> validIdx (ins dim d ds) (ins dim k idx).
Proof. intros Hk. apply Forall2_ins. exact Hk. Qed.

Lemma flatIdx_ins dim : forall ds idx, dim <= length ds -> length idx = length ds ->
  flatIdx (ins dim 1 ds) (ins dim 0 idx) = flatIdx ds idx.
Proof.
  induction dim as [|dim IH]; intros ds idx Hd Hl.
  - rewrite !ins_0. cbn [flatIdx]. lia.
  - destruct ds as [|d ds]; [cbn in Hd; lia|]. destruct idx as [|i idx]; [discriminate|].
    rewrite !ins_S. cbn [flatIdx]. cbn in Hd, Hl. rewrite IH by lia.
    change (ins dim 1 ds) with (unsqueezeDims dim ds). rewrite unsqueezeDims_prodn. reflexivity.
Qed.

Lemma map_Some_elt {X K} (d : X) (l : list X) (g : K -> option X) ks :
  map Some l = map g ks -> l = map (fun k => match g k with Some v => v | None => d end) ks.
Proof.
  revert l. induction ks as [|k ks IH]; intros [|a l] H; cbn in H; try discriminate; [reflexivity|].
  inversion H as [[H1 H2]]. cbn [map]. rewrite <- H1. f_equal. apply IH, H2.
Qed.

Section FibreP.
Context {A : Type} {SA : Scalar A}.
Notation T := (tensor A).

(* a reshaped tensor read at an index with the same row-major position *)
Lemma reshaped_get (t r : T) shape idx idx' : wf t -> reshaped A t r shape ->
  validIdx shape idx -> validIdx (dims t) idx' -> flatIdx shape idx = flatIdx (dims t) idx' ->
  get (data r) idx = get (data t) idx'.
Proof.
  intros [Hwt _] (Hd & [Hwr _] & Hfl) Hv Hv' E. rewrite Hd in Hwr.
  rewrite <- (flat_nth A shape (data r) idx Hwr Hv), Hfl, E. apply (flat_nth A (dims t)); assumption.
Qed.

(* UnSqueeze(dim): the new component is 0, the others address the operand *)
Lemma v_unsqueeze_get (t : T) (dim : nat) : wf t -> dim <= length (dims t) ->
  exists r, v_unsqueeze t (Z.of_nat dim) = Ok r /\ dims r = ins dim 1 (dims t) /\ wf r /\
    forall idx, validIdx (dims t) idx -> get (data r) (ins dim 0 idx) = get (data t) idx.
Proof.
  intros W Hd. destruct (v_unsqueeze_spec A t (Z.of_nat dim) W) as [Hu _].
  destruct Hu as (r & E & Rr); [apply validateUnSqueezeDim_iff; lia|].
  rewrite Nat2Z.id in Rr. pose proof Rr as (Dr & Wr & _).
  exists r. split; [exact E|]. split; [exact Dr|]. split; [exact Wr|].
  intros idx Hv. apply (reshaped_get t r _ _ _ W Rr); [|exact Hv|].
  - apply (validIdx_ins dim 1 0); [lia|exact Hv].
  - apply flatIdx_ins; [exact Hd|apply (validIdx_length _ _ Hv)].
Qed.

(* SumAlong / MeanAlong / ...: the reducer applied to the elements along [dim] *)
Lemma v_reduceAlong_elt rd (t : T) (dim : Z) : wf t -> (0 <= dim < Z.of_nat (length (dims t)))%Z ->
  let d := Z.to_nat dim in
  exists r, v_reduceAlong rd t dim = Ok r /\ dims r = squeezeDims d (dims t) /\ wf r /\
    forall idx, validIdx (squeezeDims d (dims t)) idx ->
      get (data r) idx =
      Some (redL rd (map (fun k => elt (data t) (firstn d idx ++ k :: skipn d idx)) (seq 0 (nth d (dims t) 0)))).
Proof.
  intros W Hd d. destruct (v_reduceAlong_elems rd t dim W Hd) as (r & E & D & Wr & G).
  exists r. split; [exact E|]. split; [exact D|]. split; [exact Wr|].
  intros idx Hv. destruct (G idx Hv) as (fibre & Hf & Hg). rewrite Hg, (map_Some_elt s0 _ _ _ Hf). reflexivity.
Qed.

End FibreP.
