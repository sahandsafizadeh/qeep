(* FillP.v — initWith over a deterministic generator is tabulation from the stream position.
   [fill_spec]: if on every state satisfying an invariant the generator yields [out s] and
   moves to [next s] (which again satisfies the invariant), then filling shape [ds] from
   state [s] yields the nested value whose element at multi-index idx is
   [out (iter next (flatIdx ds idx) s)], and leaves the state advanced by [prodn ds]. *)
From Coq Require Import List Arith ZArith Bool Lia.
From Qeep Require Import Model.Scalar Model.Nd Model.Fill Proofs.NdP.
Import ListNotations.

Section FillSpec.
Variables (A St : Type).
Variable g : St -> option (nd A * St).
Variable out : St -> nd A.
Variable next : St -> St.
Variable Inv : St -> Prop.
Hypothesis Hg : forall s, Inv s -> g s = Some (out s, next s).
Hypothesis Hnext : forall s, Inv s -> Inv (next s).

Fixpoint iter (n : nat) (s : St) : St := match n with O => s | S n' => iter n' (next s) end.

Lemma iter_add a b s : iter (a + b) s = iter b (iter a s).
Proof. revert s; induction a as [|a IH]; cbn; intros s; [reflexivity|apply IH]. Qed.

Lemma iter_inv n : forall s, Inv s -> Inv (iter n s).
Proof. induction n as [|n IH]; cbn; intros s H; [exact H|apply IH, Hnext, H]. Qed.

Fixpoint tabS (ds : list nat) (s : St) : nd A :=
  match ds with
  | [] => out s
  | d :: r => Vec (map (fun k => tabS r (iter (k * prodn r) s)) (seq 0 d))
  end.

Lemma rep_spec (f : St -> option (nd A * St)) (h : St -> nd A) (m : nat) :
  (forall s, Inv s -> f s = Some (h s, iter m s)) ->
  forall n s, Inv s ->
    rep n f s = Some (map (fun k => h (iter (k * m) s)) (seq 0 n), iter (n * m) s).
Proof.
  intros Hf n. induction n as [|n IH]; intros s Hs; cbn [rep]; [reflexivity|].
  rewrite (Hf s Hs). cbn [obind]. rewrite (IH (iter m s) (iter_inv m s Hs)). cbn [obind].
  f_equal. f_equal.
  - cbn [seq map]. f_equal. rewrite <- seq_shift, map_map. apply map_ext. intros k.
    cbn [Nat.mul]. rewrite iter_add. reflexivity.
  - cbn [Nat.mul]. rewrite iter_add. reflexivity.
Qed.

Theorem fill_spec ds : forall s, Inv s -> fill ds g s = Some (tabS ds s, iter (prodn ds) s).
Proof.
  induction ds as [|d r IH]; intros s Hs; cbn [fill tabS prodn fold_right].
  - rewrite (Hg s Hs). cbn. reflexivity.
  - fold (prodn r). rewrite (rep_spec (fill r g) (tabS r) (prodn r) IH d s Hs). cbn [obind]. reflexivity.
Qed.

Corollary initWith_spec ds s : Inv s -> initWith ds g s = Some (tabS ds s).
Proof. intros Hs. unfold initWith. rewrite (fill_spec ds s Hs). reflexivity. Qed.

(* when the generator emits scalars, the result is the tabulation of an index function *)
Variable outA : St -> A.
Hypothesis Hout : forall s, out s = Sc (outA s).

Lemma tabS_tab ds : forall s, tabS ds s = tab ds (fun idx => outA (iter (flatIdx ds idx) s)).
Proof.
  induction ds as [|d r IH]; intros s; cbn [tabS tab].
  - rewrite Hout. reflexivity.
  - f_equal. apply map_ext. intros k. rewrite IH. apply (tab_ext A r). intros idx Hv.
    cbn [flatIdx]. rewrite iter_add. reflexivity.
Qed.

End FillSpec.

(* a scalar-emitting generator: when on every state satisfying the invariant it yields [Sc a] with
   [rd s = Some a], the filled value has element [rd] of the state reached after [flatIdx ds idx]
   steps.  (The total output function [fill_spec] wants is [rd] completed with the first element.) *)
Lemma initWith_get {A St} (g : St -> option (nd A * St)) (next : St -> St) (rd : St -> option A) (Inv : St -> Prop) :
  (forall s, Inv s -> exists a, rd s = Some a /\ g s = Some (Sc a, next s)) ->
  (forall s, Inv s -> Inv (next s)) ->
  forall ds s0, Inv s0 ->
  exists d, initWith ds g s0 = Some d /\
    tabulates ds (fun idx => rd (iter St next (flatIdx ds idx) s0)) d.
Proof.
  intros Hg Hnext ds s0 H0.
  destruct (Hg s0 H0) as (a0 & _ & _).
  set (outA := fun s => match rd s with Some a => a | None => a0 end).
  assert (Hg' : forall s, Inv s -> g s = Some (Sc (outA s), next s)).
  { intros s Hs. destruct (Hg s Hs) as (a & Ea & Eg). unfold outA. rewrite Ea. exact Eg. }
  pose proof (initWith_spec A St g (fun s => Sc (outA s)) next Inv Hg' Hnext ds s0 H0) as HI.
  rewrite (tabS_tab A St (fun s => Sc (outA s)) next outA (fun s => eq_refl)) in HI.
  eexists. split; [exact HI|]. split; [apply wfnd_tab|].
  intros idx Hv. rewrite get_tab by exact Hv. unfold outA.
  destruct (Hg _ (iter_inv St next Inv Hnext (flatIdx ds idx) s0 H0)) as (a & -> & _). reflexivity.
Qed.

(* a generator that emits [h] of a running counter *)
Lemma initWith_counter {A} (h : nat -> A) ds pos :
  initWith ds (fun p => Some (Sc (h p), S p)) pos = Some (tab ds (fun idx => h (pos + flatIdx ds idx))).
Proof.
  rewrite (initWith_spec A nat _ (fun p => Sc (h p)) S (fun _ => True) (fun s _ => eq_refl) (fun s _ => I) ds pos I).
  rewrite (tabS_tab A nat _ S h (fun _ => eq_refl)). f_equal. apply tab_ext. intros idx _. f_equal.
  generalize (flatIdx ds idx) as k. intros k. revert pos.
  induction k as [|k IH]; intros pos; cbn [iter]; [lia|rewrite IH; lia].
Qed.
