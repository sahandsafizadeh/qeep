(* GoDimsP1.v — the shape helpers numElems, transposeDims, unsqueezeDims, squeezeDims, flattenDims of
   tensor/internal/cputensor as translated by harness/gox (Model/GoFns.v) compute the hand-written model
   (Model/Data.v, Model/Nd.v) for all inputs satisfying the validators' preconditions. *)
From Coq Require Import String List ZArith Bool Lia Arith.
From Qeep Require Import Model.GoIR Model.GoFns Model.Nd Model.Fill Model.Data Proofs.GoIRP.
Import ListNotations.
Local Open Scope string_scope.
Local Open Scope Z_scope.
Local Open Scope list_scope.

(* ---------- embedding of naturals ---------- *)

Lemma nats_eq (l : list nat) : nats l = VL (map natV l).
Proof. reflexivity. Qed.

Lemma nth_error_natV (l : list nat) (k : nat) :
  nth_error (map natV l) k = option_map natV (nth_error l k).
Proof. revert k; induction l as [|a l IH]; intros [|k]; cbn; auto. Qed.

(* ---------- numElems ---------- *)

Lemma numElems_loop (body : env -> outcome) (i x : string) :
  (forall e k d acc, lookup e "n" = Some (VI acc) ->
     exists e1, body (upd (upd e i (VI k)) x (VI d)) = ONormal e1 /\ lookup e1 "n" = Some (VI (acc * d))) ->
  forall (ds : list nat) k e acc, lookup e "n" = Some (VI acc) ->
  exists e1, rangeLoop body i x (map natV ds) k e = ONormal e1 /\
             lookup e1 "n" = Some (VI (acc * Z.of_nat (prodn ds))).
Proof.
  intros Hb. induction ds as [|d ds IH]; intros k e acc He.
  - cbn. exists e. split; [reflexivity|]. rewrite He. do 2 f_equal. lia.
  - cbn [map rangeLoop].
    destruct (Hb e k (Z.of_nat d) acc He) as [e1 [Hb1 Hl1]]. rewrite Hb1.
    destruct (IH (k + 1) e1 _ Hl1) as [e2 [H2 Hl2]]. exists e2. split; [exact H2|].
    rewrite Hl2. do 2 f_equal. change (prodn (d :: ds)) with (d * prodn ds)%nat. lia.
Qed.

Theorem go_numElems call fuel (ds : list nat) :
  exec call fuel (fbody GoFns.numElems) [("t.dims", nats ds)] = ORet [VI (Z.of_nat (prodn ds))].
Proof.
  unfold GoFns.numElems. cbn [fbody]. gxs.
  match goal with |- context [rangeLoop ?b ?i ?x _ _ ?e0] =>
    destruct (numElems_loop b i x) with (ds := ds) (k := 0) (e := e0) (acc := 1) as [e1 [H1 Hl1]]
  end.
  - intros e k d acc He. gxs. rewrite He. gxs. eexists. split; [reflexivity|]. lk. reflexivity.
  - reflexivity.
  - rewrite H1. gxs. rewrite Hl1. do 3 f_equal. lia.
Qed.

Corollary run_numElems fuel (ds : list nat) :
  run ftab fuel GoFns.numElems [nats ds] = ORet [VI (Z.of_nat (prodn ds))].
Proof. unfold run. cbn [fparams GoFns.numElems bindArgs]. apply go_numElems. Qed.

(* ---------- transposeDims ---------- *)

(* ---------- list facts ---------- *)

Lemma leb0_nat (n : nat) : (0 <=? Z.of_nat n) = true.
Proof. apply Z.leb_le. lia. Qed.

Lemma copyInto_full (d s : list val) : length d = length s -> copyInto d s = s.
Proof.
  revert s; induction d as [|x d IH]; intros [|y s] H; cbn in *; try discriminate; auto.
  f_equal. apply IH. lia.
Qed.

Lemma copyInto_repeat (v : val) (s : list val) : copyInto (repeat v (length s)) s = s.
Proof. apply copyInto_full. apply repeat_length. Qed.

Lemma setNthV_app (p : list val) x r v : setNthV (p ++ x :: r) (length p) v = Some (p ++ v :: r).
Proof. induction p as [|y p IH]; cbn; [reflexivity|]. now rewrite IH. Qed.

Lemma last2 {T} (l : list T) : (2 <= length l)%nat -> exists pre a b, l = pre ++ [a; b].
Proof.
  induction l as [|x l IH]; cbn; intros H; [lia|].
  destruct l as [|y l]; cbn in *; [lia|].
  destruct l as [|z l].
  - exists [], x, y. reflexivity.
  - destruct IH as [pre [a [b E]]]; [cbn; lia|]. exists (x :: pre), a, b. cbn. now rewrite E.
Qed.

Lemma transposeDims_app (pre : list nat) a b : Data.transposeDims (pre ++ [a; b]) = pre ++ [b; a].
Proof.
  unfold Data.transposeDims. rewrite rev_app_distr. cbn. rewrite rev_involutive, <- app_assoc. reflexivity.
Qed.

Lemma nth_app_0 {T} (p : list T) x r : nth_error (p ++ x :: r) (length p) = Some x.
Proof. rewrite nth_error_app2, Nat.sub_diag by lia. reflexivity. Qed.
Lemma nth_app_1 {T} (p : list T) x y r : nth_error (p ++ x :: y :: r) (S (length p)) = Some y.
Proof. rewrite nth_error_app2 by lia. replace (S (length p) - length p)%nat with 1%nat by lia. reflexivity. Qed.
Lemma setNthV_app1 (p : list val) x y r v : setNthV (p ++ x :: y :: r) (S (length p)) v = Some (p ++ x :: v :: r).
Proof. induction p as [|z p IH]; cbn; [reflexivity|]. cbn in IH. now rewrite IH. Qed.

Theorem go_transposeDims call fuel (ds : list nat) : (2 <= length ds)%nat ->
  exec call fuel (fbody GoFns.transposeDims) [("dims", nats ds)] = ORet [nats (Data.transposeDims ds)].
Proof.
  intros H. destruct (last2 ds H) as [pre [a [b E]]]. subst ds. rewrite transposeDims_app.
  unfold GoFns.transposeDims. cbn [fbody]. gxs.
  rewrite !zlenV_map, leb0_nat, Nat2Z.id. gxs.
  rewrite <- (map_length natV), copyInto_repeat. gxs.
  rewrite !map_app. cbn [map]. set (P := map natV pre).
  unfold zlenV. rewrite !app_length. cbn [length].
  replace (Z.of_nat (length P + 2) - 1) with (Z.of_nat (S (length P))) by lia.
  replace (Z.of_nat (length P + 2) - 2) with (Z.of_nat (length P)) by lia.
  rewrite idxOf_nat, nth_app_1. gxs.
  replace (Z.of_nat (length P + 2) - 2) with (Z.of_nat (length P)) by lia.
  rewrite idxOf_nat, nth_app_0. gxs.
  unfold setElem at 1. gxs.
  replace (Z.of_nat (length P + 2) - 2) with (Z.of_nat (length P)) by lia.
  rewrite idxOf_nat, nth_app_0, setNthV_app. gxs.
  unfold setElem at 1. gxs.
  replace (Z.of_nat (length P + 2) - 1) with (Z.of_nat (S (length P))) by lia.
  rewrite idxOf_nat, nth_app_1, setNthV_app1. gxs.
  unfold nats. rewrite map_app. reflexivity.
Qed.

Theorem go_transposeDims_short call fuel (ds : list nat) : (length ds < 2)%nat ->
  exec call fuel (fbody GoFns.transposeDims) [("dims", nats ds)] = OPanic.
Proof.
  intros H. destruct ds as [|a [|b r]]; [| |cbn in H; lia]; reflexivity.
Qed.

Corollary run_transposeDims fuel (ds : list nat) : (2 <= length ds)%nat ->
  run ftab fuel GoFns.transposeDims [nats ds] = ORet [nats (Data.transposeDims ds)].
Proof. intros H. unfold run. cbn [fparams GoFns.transposeDims bindArgs]. now apply go_transposeDims. Qed.

(* ---------- slicing; unsqueezeDims ---------- *)

Lemma sub_okZ (l : list val) (zl zh : Z) (lo hi : nat) :
  zl = Z.of_nat lo -> zh = Z.of_nat hi -> (lo <= hi <= length l)%nat ->
  (if (0 <=? zl) && (zl <=? zh) && (zh <=? zlenV l)
   then Some (VL (firstn (Z.to_nat (zh - zl)) (skipn (Z.to_nat zl) l))) else None)
  = Some (VL (firstn (hi - lo) (skipn lo l))).
Proof.
  intros -> -> H. unfold zlenV.
  replace (0 <=? Z.of_nat lo) with true by (symmetry; apply Z.leb_le; lia).
  replace (Z.of_nat lo <=? Z.of_nat hi) with true by (symmetry; apply Z.leb_le; lia).
  replace (Z.of_nat hi <=? Z.of_nat (length l)) with true by (symmetry; apply Z.leb_le; lia).
  cbn [andb]. rewrite Nat2Z.id. replace (Z.to_nat (Z.of_nat hi - Z.of_nat lo)) with (hi - lo)%nat by lia.
  reflexivity.
Qed.

Lemma firstn_skipn_all {T} (l : list T) k : firstn (length l - k) (skipn k l) = skipn k l.
Proof. apply firstn_all2. rewrite skipn_length. lia. Qed.

Lemma make_copy (l : list val) :
  (if 0 <=? zlenV l then Some (VL (repeat (VI 0) (Z.to_nat (zlenV l)))) else None) = Some (VL (repeat (VI 0) (length l))).
Proof. unfold zlenV. now rewrite leb0_nat, Nat2Z.id. Qed.

Theorem go_unsqueezeDims call fuel (dim : nat) (ds : list nat) : (dim <= length ds)%nat ->
  exec call fuel (fbody GoFns.unsqueezeDims) [("dim", VI (Z.of_nat dim)); ("dims", nats ds)]
  = ORet [nats (Data.unsqueezeDims dim ds)].
Proof.
  intros H. unfold GoFns.unsqueezeDims, Data.unsqueezeDims. cbn [fbody]. gxs.
  rewrite (sub_okZ _ 0 (Z.of_nat dim) 0%nat dim) by (rewrite ?map_length; try reflexivity; lia).
  rewrite Nat.sub_0_r, skipn_O. gxs.
  rewrite make_copy. gxs. rewrite copyInto_repeat. gxs.
  destruct (Z.of_nat dim <? zlenV (map natV ds)) eqn:E; rewrite zlenV_map in E; gxs.
  - rewrite (sub_okZ _ (Z.of_nat dim) _ dim (length (map natV ds)))
      by (rewrite ?zlenV_map, ?map_length; try reflexivity; lia).
    rewrite firstn_skipn_all. gxs.
    unfold nats. rewrite map_app, firstn_map. cbn [map]. rewrite skipn_map, <- app_assoc. reflexivity.
  - apply Z.ltb_ge in E. assert (dim = length ds) by lia. subst dim.
    rewrite skipn_all. unfold nats. rewrite map_app, firstn_map. reflexivity.
Qed.

Corollary run_unsqueezeDims fuel (dim : nat) (ds : list nat) : (dim <= length ds)%nat ->
  run ftab fuel GoFns.unsqueezeDims [VI (Z.of_nat dim); nats ds] = ORet [nats (Data.unsqueezeDims dim ds)].
Proof. intros H. unfold run. cbn [fparams GoFns.unsqueezeDims bindArgs]. now apply go_unsqueezeDims. Qed.

Lemma sub_bad (l : list val) (zl zh : Z) :
  zlenV l < zh ->
  (if (0 <=? zl) && (zl <=? zh) && (zh <=? zlenV l)
   then Some (VL (firstn (Z.to_nat (zh - zl)) (skipn (Z.to_nat zl) l))) else None) = None.
Proof.
  intros H. replace (zh <=? zlenV l) with false by (symmetry; apply Z.leb_gt; lia).
  now rewrite andb_false_r.
Qed.

(* the three functions below begin with [left := dims[:dim]], which panics when dim exceeds len(dims) *)
Lemma slice_left_out call fuel (rest : stmt) (dim : nat) (ds : list nat) : (length ds < dim)%nat ->
  exec call fuel (SSeq (SSet "res" ENil) (SSeq (SSet "left" (ESub (EVar "dims") None (Some (EVar "dim")))) rest))
    [("dim", VI (Z.of_nat dim)); ("dims", nats ds)] = OPanic.
Proof. intros H. gxs. rewrite sub_bad by (rewrite zlenV_map; lia). reflexivity. Qed.

Theorem go_unsqueezeDims_out call fuel (dim : nat) (ds : list nat) : (length ds < dim)%nat ->
  exec call fuel (fbody GoFns.unsqueezeDims) [("dim", VI (Z.of_nat dim)); ("dims", nats ds)] = OPanic.
Proof. intros H. unfold GoFns.unsqueezeDims. cbn [fbody sseq]. now apply slice_left_out. Qed.

(* ---------- squeezeDims ---------- *)

Theorem go_squeezeDims_le call fuel (dim : nat) (ds : list nat) : (dim <= length ds)%nat ->
  exec call fuel (fbody GoFns.squeezeDims) [("dim", VI (Z.of_nat dim)); ("dims", nats ds)]
  = ORet [nats (Data.squeezeDims dim ds)].
Proof.
  intros H. unfold GoFns.squeezeDims, Data.squeezeDims. cbn [fbody]. gxs.
  rewrite (sub_okZ _ 0 (Z.of_nat dim) 0%nat dim) by (rewrite ?map_length; try reflexivity; lia).
  rewrite Nat.sub_0_r, skipn_O. gxs.
  rewrite make_copy. gxs. rewrite copyInto_repeat. gxs.
  destruct (Z.of_nat dim <? zlenV (map natV ds) - 1) eqn:E; rewrite zlenV_map in E; gxs.
  - apply Z.ltb_lt in E.
    rewrite (sub_okZ _ (Z.of_nat dim + 1) _ (S dim) (length (map natV ds)))
      by (rewrite ?zlenV_map, ?map_length; try reflexivity; lia).
    rewrite firstn_skipn_all. gxs.
    unfold nats. rewrite map_app, firstn_map, skipn_map. reflexivity.
  - apply Z.ltb_ge in E.
    rewrite skipn_all2 by lia. unfold nats. rewrite map_app, firstn_map. cbn [map]. now rewrite app_nil_r.
Qed.

Theorem go_squeezeDims call fuel (dim : nat) (ds : list nat) : (dim < length ds)%nat ->
  exec call fuel (fbody GoFns.squeezeDims) [("dim", VI (Z.of_nat dim)); ("dims", nats ds)]
  = ORet [nats (Data.squeezeDims dim ds)].
Proof. intros H. apply go_squeezeDims_le. lia. Qed.

Theorem go_squeezeDims_out call fuel (dim : nat) (ds : list nat) : (length ds < dim)%nat ->
  exec call fuel (fbody GoFns.squeezeDims) [("dim", VI (Z.of_nat dim)); ("dims", nats ds)] = OPanic.
Proof. intros H. unfold GoFns.squeezeDims. cbn [fbody sseq]. now apply slice_left_out. Qed.

Corollary run_squeezeDims fuel (dim : nat) (ds : list nat) : (dim < length ds)%nat ->
  run ftab fuel GoFns.squeezeDims [VI (Z.of_nat dim); nats ds] = ORet [nats (Data.squeezeDims dim ds)].
Proof. intros H. unfold run. cbn [fparams GoFns.squeezeDims bindArgs]. now apply go_squeezeDims. Qed.

(* ---------- flattenDims ---------- *)

Lemma skipn_nth_cons {T} (l : list T) k v : nth_error l k = Some v -> skipn k l = v :: skipn (S k) l.
Proof.
  revert k; induction l as [|a l IH]; intros [|k] Hn; cbn in *; try discriminate.
  - now inversion Hn.
  - now apply IH.
Qed.

(* the counting loop of flattenDims, for any cond / body / post that behave like the Go ones *)
Lemma flatten_loop (ds : list nat) (cond : env -> option val) (body post : env -> outcome) :
  (forall e k, lookup e "dims" = Some (nats ds) -> lookup e "i" = Some (VI (Z.of_nat k)) ->
     cond e = Some (VB (Z.of_nat k <? Z.of_nat (length ds)))) ->
  (forall e k acc, lookup e "dims" = Some (nats ds) -> lookup e "i" = Some (VI (Z.of_nat k)) ->
     lookup e "nElems" = Some (VI acc) ->
     body e = match nth_error ds k with
              | Some d => ONormal (upd e "nElems" (VI (acc * Z.of_nat d)))
              | None => OPanic
              end) ->
  (forall e k, lookup e "i" = Some (VI (Z.of_nat k)) -> post e = ONormal (upd e "i" (VI (Z.of_nat k + 1)))) ->
  forall (n k : nat) (e : env) (acc : Z) (fuel : nat),
  n = (length ds - k)%nat -> (k <= length ds)%nat ->
  lookup e "dims" = Some (nats ds) -> lookup e "i" = Some (VI (Z.of_nat k)) -> lookup e "nElems" = Some (VI acc) ->
  (n < fuel)%nat ->
  exists e', forLoop fuel cond body post e = ONormal e' /\
             lookup e' "nElems" = Some (VI (acc * Z.of_nat (prodn (skipn k ds)))) /\
             lookup e' "res" = lookup e "res".
Proof.
  intros Hc Hb Hp. induction n as [|n IH]; intros k e acc fuel Hn Hk Hd Hi Ha Hf;
    (destruct fuel as [|fuel]; [lia|]); cbn [forLoop]; rewrite (Hc e k Hd Hi).
  - replace (Z.of_nat k <? Z.of_nat (length ds)) with false by (symmetry; apply Z.ltb_ge; lia).
    exists e. split; [reflexivity|]. split; [|reflexivity].
    rewrite skipn_all2 by lia. cbn. rewrite Ha. do 2 f_equal. lia.
  - replace (Z.of_nat k <? Z.of_nat (length ds)) with true by (symmetry; apply Z.ltb_lt; lia).
    rewrite (Hb e k acc Hd Hi Ha).
    destruct (nth_error ds k) as [d|] eqn:En.
    2:{ apply nth_error_None in En. lia. }
    rewrite (Hp _ k) by (lk; exact Hi).
    replace (Z.of_nat k + 1) with (Z.of_nat (S k)) by lia.
    destruct (IH (S k) (upd (upd e "nElems" (VI (acc * Z.of_nat d))) "i" (VI (Z.of_nat (S k))))
                (acc * Z.of_nat d) fuel) as [e' [H1 [H2 H3]]]; try lia; try (lk; assumption); try (lk; reflexivity).
    exists e'. split; [exact H1|]. split.
    + rewrite H2, (skipn_nth_cons ds k d En). change (prodn (d :: skipn (S k) ds)) with (d * prodn (skipn (S k) ds))%nat.
      do 2 f_equal. lia.
    + rewrite H3. lk. reflexivity.
Qed.

Theorem go_flattenDims_le call fuel (dim : nat) (ds : list nat) :
  (dim <= length ds)%nat -> (S (length ds) <= fuel)%nat ->
  exec call fuel (fbody GoFns.flattenDims) [("dim", VI (Z.of_nat dim)); ("dims", nats ds)]
  = ORet [nats (Data.flattenDims dim ds)].
Proof.
  intros H Hfuel. unfold GoFns.flattenDims, Data.flattenDims. cbn [fbody]. gxs.
  rewrite (sub_okZ _ 0 (Z.of_nat dim) 0%nat dim) by (rewrite ?map_length; try reflexivity; lia).
  rewrite Nat.sub_0_r, skipn_O. gxs.
  rewrite make_copy. gxs. rewrite copyInto_repeat. gxs.
  match goal with |- context [forLoop _ ?c ?b ?p ?e0] =>
    destruct (flatten_loop ds c b p) with (n := (length ds - dim)%nat) (k := dim) (e := e0) (acc := 1) (fuel := fuel)
      as [e' [H1 [H2 H3]]]
  end.
  - intros e k Hd Hi. rewrite Hd, Hi. cbn [nats evalBin]. now rewrite zlenV_map.
  - intros e k acc Hd Hi Ha. gxs. rewrite Ha, Hd, Hi. cbn [nats]. rewrite idxOf_nat, nth_error_natV.
    destruct (nth_error ds k); reflexivity.
  - intros e k Hi. gxs. rewrite Hi. gxs. reflexivity.
  - reflexivity.
  - exact H.
  - reflexivity.
  - reflexivity.
  - reflexivity.
  - lia.
  - rewrite H1. gxs. rewrite H3, H2. lk. gxs.
    unfold nats. rewrite map_app, firstn_map. cbn [map]. do 6 f_equal. lia.
Qed.

Theorem go_flattenDims call fuel (dim : nat) (ds : list nat) :
  (dim < length ds)%nat -> (S (length ds) <= fuel)%nat ->
  exec call fuel (fbody GoFns.flattenDims) [("dim", VI (Z.of_nat dim)); ("dims", nats ds)]
  = ORet [nats (Data.flattenDims dim ds)].
Proof. intros H Hf. apply go_flattenDims_le; [lia | exact Hf]. Qed.

Theorem go_flattenDims_out call fuel (dim : nat) (ds : list nat) : (length ds < dim)%nat ->
  exec call fuel (fbody GoFns.flattenDims) [("dim", VI (Z.of_nat dim)); ("dims", nats ds)] = OPanic.
Proof. intros H. unfold GoFns.flattenDims. cbn [fbody sseq]. now apply slice_left_out. Qed.

Corollary run_flattenDims fuel (dim : nat) (ds : list nat) :
  (dim < length ds)%nat -> (S (length ds) <= fuel)%nat ->
  run ftab fuel GoFns.flattenDims [VI (Z.of_nat dim); nats ds] = ORet [nats (Data.flattenDims dim ds)].
Proof. intros H Hf. unfold run. cbn [fparams GoFns.flattenDims bindArgs]. now apply go_flattenDims. Qed.

(* ---------- the translated functions run on concrete inputs ---------- *)

Example ex_numElems : run ftab 0 GoFns.numElems [nats [2; 3; 4]%nat] = ORet [VI 24].
Proof. vm_compute. reflexivity. Qed.
Example ex_transposeDims : run ftab 0 GoFns.transposeDims [nats [2; 3; 4]%nat] = ORet [nats [2; 4; 3]%nat].
Proof. vm_compute. reflexivity. Qed.
Example ex_unsqueezeDims : run ftab 0 GoFns.unsqueezeDims [VI 1; nats [2; 3; 4]%nat] = ORet [nats [2; 1; 3; 4]%nat].
Proof. vm_compute. reflexivity. Qed.
Example ex_unsqueezeDims_end : run ftab 0 GoFns.unsqueezeDims [VI 3; nats [2; 3; 4]%nat] = ORet [nats [2; 3; 4; 1]%nat].
Proof. vm_compute. reflexivity. Qed.
Example ex_squeezeDims : run ftab 0 GoFns.squeezeDims [VI 1; nats [2; 1; 4]%nat] = ORet [nats [2; 4]%nat].
Proof. vm_compute. reflexivity. Qed.
Example ex_squeezeDims_last : run ftab 0 GoFns.squeezeDims [VI 2; nats [2; 4; 1]%nat] = ORet [nats [2; 4]%nat].
Proof. vm_compute. reflexivity. Qed.
Example ex_flattenDims : run ftab 4 GoFns.flattenDims [VI 1; nats [2; 3; 4; 5]%nat] = ORet [nats [2; 60]%nat].
Proof. vm_compute. reflexivity. Qed.
Example ex_flattenDims_fuel : run ftab 3 GoFns.flattenDims [VI 1; nats [2; 3; 4; 5]%nat] = OFuel.
Proof. vm_compute. reflexivity. Qed.

Print Assumptions run_numElems.
Print Assumptions run_transposeDims.
Print Assumptions go_transposeDims_short.
Print Assumptions run_unsqueezeDims.
Print Assumptions go_unsqueezeDims_out.
Print Assumptions run_squeezeDims.
Print Assumptions go_squeezeDims_le.
Print Assumptions go_squeezeDims_out.
Print Assumptions run_flattenDims.
Print Assumptions go_flattenDims_le.
Print Assumptions go_flattenDims_out.
