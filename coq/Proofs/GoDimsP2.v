(* GoDimsP2.v — the shape helpers dotDims, matMulDims (operators.go), completeIndex (accessors.go),
   getConcatDims (initializers.go) and targetBroadcastDims (cputensor_helpers.go) of tensor/internal/cputensor,
   as translated by harness/gox (Model/GoFns.v), compute the hand-written model functions of Model/Data.v
   (see coq/GOIR_NOTES.md). *)
From Coq Require Import String List ZArith Bool Lia Arith.
From Qeep Require Import Model.GoIR Model.GoFns Model.Nd Model.Data Proofs.GoIRP.
Import ListNotations.
Local Open Scope string_scope.
Local Open Scope Z_scope.
Local Open Scope list_scope.

Notation nv := (fun n : nat => VI (Z.of_nat n)).

Lemma copyInto_repeat v (l : list val) : copyInto (repeat v (Z.to_nat (zlenV l))) l = l.
Proof.
  unfold zlenV. rewrite Nat2Z.id. induction l as [|a l IH]; cbn; [reflexivity | now rewrite IH].
Qed.

Lemma zlenV_nonneg l : (0 <=? zlenV l) = true.
Proof. apply Z.leb_le. unfold zlenV. lia. Qed.

Lemma nth_error_map_nv (l : list nat) k :
  nth_error (map nv l) k = option_map nv (nth_error l k).
Proof. apply nth_error_map. Qed.

(* make([]int, len(cd)); copy(dims, cd) *)
Ltac mkcopy := rewrite ?zlenV_nonneg; gxs; rewrite ?copyInto_repeat; gxs.

(* ---------- dotDims, matMulDims ---------- *)
Theorem go_dotDims call fuel (ds : list nat) :
  (1 <= length ds)%nat ->
  exec call fuel (fbody GoFns.dotDims) [("idims", nats ds)] = ORet [nats (Data.dotDims ds)].
Proof.
  intros H. unfold GoFns.dotDims, Data.dotDims. cbn [fbody]. gxs.
  rewrite !zlenV_map.
  replace ((0 <=? 0) && (0 <=? Z.of_nat (length ds) - 1) && (Z.of_nat (length ds) - 1 <=? Z.of_nat (length ds)))
    with true by (symmetry; rewrite !andb_true_iff, !Z.leb_le; lia).
  gxs. mkcopy.
  replace (Z.to_nat (Z.of_nat (length ds) - 1 - 0)) with (length ds - 1)%nat by lia.
  cbn [Z.to_nat skipn]. now rewrite firstn_map.
Qed.

Corollary run_dotDims fuel (ds : list nat) :
  (1 <= length ds)%nat ->
  run ftab fuel GoFns.dotDims [nats ds] = ORet [nats (Data.dotDims ds)].
Proof. intros H. unfold run. cbn [fparams GoFns.dotDims bindArgs]. now apply go_dotDims. Qed.

Theorem go_matMulDims call fuel (d1 d2 r : list nat) :
  (2 <= length d1)%nat -> Data.matMulDims d1 d2 = Some r ->
  exec call fuel (fbody GoFns.matMulDims) [("dims1", nats d1); ("dims2", nats d2)] = ORet [nats r].
Proof.
  intros H. unfold GoFns.matMulDims, Data.matMulDims. cbn [fbody]. intros Hm.
  destruct (nth_error d1 (length d1 - 2)) as [m|] eqn:E1; cbn in Hm; [|discriminate].
  destruct (nth_error d2 (length d1 - 1)) as [k|] eqn:E2; cbn in Hm; [|discriminate].
  inversion Hm; subst r; clear Hm.
  gxs.
  rewrite !zlenV_map.
  replace ((0 <=? 0) && (0 <=? Z.of_nat (length d1) - 2) && (Z.of_nat (length d1) - 2 <=? Z.of_nat (length d1)))
    with true by (symmetry; rewrite !andb_true_iff, !Z.leb_le; lia).
  gxs. mkcopy.
  replace (Z.of_nat (length d1) - 2) with (Z.of_nat (length d1 - 2)) by lia.
  rewrite idxOf_nat, nth_error_map_nv, E1. cbn [option_map]. gxs.
  replace (Z.of_nat (length d1) - 1) with (Z.of_nat (length d1 - 1)) by lia.
  rewrite idxOf_nat, nth_error_map_nv, E2. cbn [option_map]. gxs.
  replace (Z.to_nat (Z.of_nat (length d1 - 2) - 0)) with (length d1 - 2)%nat by lia.
  cbn [Z.to_nat skipn]. unfold nats. rewrite map_app, firstn_map. reflexivity.
Qed.

Corollary run_matMulDims fuel (d1 d2 r : list nat) :
  (2 <= length d1)%nat -> Data.matMulDims d1 d2 = Some r ->
  run ftab fuel GoFns.matMulDims [nats d1; nats d2] = ORet [nats r].
Proof. intros H Hm. unfold run. cbn [fparams GoFns.matMulDims bindArgs]. now apply go_matMulDims. Qed.

(* ---------- completeIndex ---------- *)
Definition rv (r : nat * nat) : val := VR (Z.of_nat (fst r)) (Z.of_nat (snd r)).
Definition nranges (l : list (nat * nat)) : val := VL (map rv l).

Definition ciElem (index : list (nat*nat)) (k d : nat) : nat * nat :=
  match nth_error index k with
  | None => (0%nat, d)
  | Some (f, t) => if ((f =? 0) && (t =? 0))%nat then (0%nat, d) else (f, t)
  end.

Lemma completeIndex_length index ds : length (Data.completeIndex index ds) = length ds.
Proof. revert index; induction ds as [|d ds IH]; intros [|[f t] index]; cbn; auto. Qed.

Lemma completeIndex_nth index ds k :
  nth_error (Data.completeIndex index ds) k = option_map (ciElem index k) (nth_error ds k).
Proof.
  revert index k; induction ds as [|d ds IH]; intros index k.
  - destruct k; reflexivity.
  - destruct index as [|[f t] index]; destruct k as [|k]; cbn [Data.completeIndex nth_error option_map]; try reflexivity.
    + rewrite IH. unfold ciElem. destruct k; reflexivity.
    + rewrite IH. reflexivity.
Qed.

Lemma setNthV_app (a b : list val) x v k : length a = k -> setNthV (a ++ x :: b) k v = Some (a ++ v :: b).
Proof. intros <-. induction a as [|y a IH]; cbn; [reflexivity | now rewrite IH]. Qed.

Lemma nth_error_app_mid {T} (a b : list T) x k : length a = k -> nth_error (a ++ x :: b) k = Some x.
Proof. intros <-. rewrite nth_error_app2, Nat.sub_diag by lia. reflexivity. Qed.

Theorem go_completeIndex call fuel (index : list (nat * nat)) (ds : list nat) :
  exec call fuel (fbody GoFns.completeIndex)
    [("index", VL (map (fun r => VR (Z.of_nat (fst r)) (Z.of_nat (snd r))) index)); ("dims", nats ds)]
  = ORet [VL (map (fun r => VR (Z.of_nat (fst r)) (Z.of_nat (snd r))) (Data.completeIndex index ds))].
Proof.
  change (fun r : nat * nat => VR (Z.of_nat (fst r)) (Z.of_nat (snd r))) with rv.
  unfold GoFns.completeIndex. cbn [fbody]. gxs.
  rewrite zlenV_nonneg. gxs.
  replace (Z.to_nat (zlenV (map nv ds))) with (length ds) by (unfold zlenV; now rewrite Nat2Z.id, map_length).
  set (C := Data.completeIndex index ds).
  set (n := length ds).
  pose (P := fun (k : nat) (e : env) =>
     lookup e "index" = Some (VL (map rv index)) /\ lookup e "dims" = Some (nats ds) /\
     lookup e "cidx" = Some (VL (map rv (firstn k C) ++ repeat (VR 0 0) (n - k)))).
  pose (Q := fun o : outcome => exists e, o = ONormal e /\ lookup e "cidx" = Some (VL (map rv C))).
  match goal with |- context [rangeLoop ?b ?i ?x ?l 0 ?e0] =>
    set (body := b); assert (HQ : Q (rangeLoop body i x l 0 e0)); [apply (rangeLoop_rule P Q body i x l) |]
  end.
  - (* step *)
    intros k e v (Hi & Hd & Hc) Hn e'. left.
    assert (Hk : (k < n)%nat).
    { assert (nth_error (repeat (VR 0 0) n) k <> None) by congruence.
      apply nth_error_Some in H. now rewrite repeat_length in H. }
    destruct (nth_error ds k) as [d|] eqn:Ed; [| apply nth_error_None in Ed; unfold n in Hk; lia].
    assert (HC : nth_error C k = Some (ciElem index k d)).
    { unfold C. rewrite completeIndex_nth, Ed. reflexivity. }
    assert (Hlen : length (map rv (firstn k C)) = k).
    { rewrite map_length, firstn_length. unfold C. rewrite completeIndex_length. fold n. lia. }
    assert (Hrep : repeat (VR 0 0) (n - k) = VR 0 0 :: repeat (VR 0 0) (n - S k)).
    { replace (n - k)%nat with (S (n - S k)) by lia. reflexivity. }
    assert (Hset : forall w, setElem e' "cidx" (EVar "i") (fun _ => Some w) =
              ONormal (upd e' "cidx" (VL (map rv (firstn k C) ++ w :: repeat (VR 0 0) (n - S k))))).
    { intros w. unfold setElem, e'. gxs. rewrite Hc, idxOf_nat, Hrep.
      rewrite (nth_error_app_mid _ _ _ _ Hlen), (setNthV_app _ _ _ _ _ Hlen). reflexivity. }
    assert (Hfin : 
       P (S k) (upd e' "cidx" (VL (map rv (firstn k C) ++ rv (ciElem index k d) :: repeat (VR 0 0) (n - S k))))).
    { unfold P, e'. lk. repeat split; auto.
      rewrite (firstn_S_nth _ _ _ HC), map_app, <- app_assoc. reflexivity. }
    assert (Li : lookup e' "i" = Some (VI (Z.of_nat k))) by (unfold e'; now lk).
    assert (Lx : lookup e' "index" = Some (VL (map rv index))) by (unfold e'; now lk).
    assert (Ld : lookup e' "dims" = Some (nats ds)) by (unfold e'; now lk).
    clearbody e'.
    eexists; split; [left | exact Hfin].
    unfold body. gxs. rewrite ?Li, ?Lx, ?Ld. gxs. rewrite zlenV_map.
    unfold ciElem.
    destruct (Z.of_nat k >=? Z.of_nat (length index)) eqn:Ege; rewrite Z.geb_leb in Ege.
    + apply Z.leb_le in Ege. gxs.
      assert (En : nth_error index k = None) by (apply nth_error_None; lia).
      rewrite En.
      rewrite ?Li, ?Lx, ?Ld. gxs. rewrite idxOf_nat, nth_error_map_nv, Ed. cbn [option_map].
      rewrite Hset. reflexivity.
    + apply Z.leb_gt in Ege. gxs.
      destruct (nth_error index k) as [[f t]|] eqn:En; [| apply nth_error_None in En; lia].
      rewrite !idxOf_nat.
      rewrite (map_nth_error rv _ _ En). unfold rv at 1 2. cbn [fst snd]. gxs.
      rewrite nth_error_map_nv, Ed. cbn [option_map].
      destruct f as [|f]; [destruct t as [|t]|]; cbn [Z.of_nat Z.eqb Nat.eqb andb]; gxs; rewrite Hset; reflexivity.
  - (* end *)
    intros e (Hi & Hd & Hc). exists e. split; [reflexivity|].
    rewrite Hc. rewrite repeat_length, Nat.sub_diag. cbn [repeat]. rewrite app_nil_r.
    rewrite firstn_all2; [reflexivity|]. unfold C. rewrite completeIndex_length. fold n. lia.
  - (* start *)
    unfold P. lk. repeat split; try reflexivity. cbn [firstn map app]. now rewrite Nat.sub_0_r.
  - destruct HQ as (e & -> & Hc). gxs. rewrite Hc. reflexivity.
Qed.

Corollary run_completeIndex fuel (index : list (nat * nat)) (ds : list nat) :
  run ftab fuel GoFns.completeIndex
    [VL (map (fun r => VR (Z.of_nat (fst r)) (Z.of_nat (snd r))) index); nats ds]
  = ORet [VL (map (fun r => VR (Z.of_nat (fst r)) (Z.of_nat (snd r))) (Data.completeIndex index ds))].
Proof. unfold run. cbn [fparams GoFns.completeIndex bindArgs]. apply go_completeIndex. Qed.

(* ---------- getConcatDims ---------- *)
Definition concatDimsOf (dss : list (list nat)) (dim : nat) : option (list nat) :=
  do common <- foldM (fun c ds => do d <- nth_error ds dim; Some (c + d)%nat) dss 0%nat;
  do d0 <- nth_error dss 0;
  setNth d0 dim common.

Lemma foldM_map {T U V} (f : U -> V -> option U) (g : T -> V) (l : list T) (u : U) :
  foldM f (map g l) u = foldM (fun c t => f c (g t)) l u.
Proof. revert u; induction l as [|a l IH]; intros u; cbn; [reflexivity|]. destruct (f u (g a)); cbn; auto. Qed.

Lemma getConcatDims_dims {A} (ts : list (tensor A)) (dim : nat) :
  Data.getConcatDims ts dim = concatDimsOf (map (@dims A) ts) dim.
Proof.
  unfold Data.getConcatDims, concatDimsOf. rewrite foldM_map.
  destruct (foldM _ ts 0%nat) as [c|]; cbn [obind]; [|reflexivity].
  destruct ts as [|t ts]; cbn [nth_error map obind]; [reflexivity|].
  destruct (setNth (dims t) dim c); reflexivity.
Qed.

Lemma setNth_setNthV (l r : list nat) i v :
  setNth l i v = Some r ->
  (exists old, nth_error (map nv l) i = Some old) /\ setNthV (map nv l) i (VI (Z.of_nat v)) = Some (map nv r).
Proof.
  revert i r; induction l as [|a l IH]; intros [|i] r H; cbn in H; try discriminate.
  - inversion H; subst. cbn. split; eauto.
  - destruct (setNth l i v) as [r'|] eqn:E; cbn in H; [|discriminate]. inversion H; subst.
    destruct (IH _ _ E) as [Ho Hs]. cbn. rewrite Hs. split; auto.
Qed.

Lemma setNth_None (l : list nat) i (v : nat) : setNth l i v = None -> nth_error (map nv l) i = None.
Proof.
  revert i; induction l as [|a l IH]; intros [|i] H; cbn in *; try discriminate; auto.
  destruct (setNth l i v) eqn:E; cbn in H; [discriminate|]. auto.
Qed.

Lemma concat_loop (dim : nat) (body : env -> outcome) (Inv : env -> Prop) :
  (forall e k c ds, Inv e -> lookup e "common" = Some (VI (Z.of_nat c)) ->
     exists e1, Inv e1 /\
     body (upd (upd e "_" (VI k)) "t" (nats ds)) =
       match nth_error ds dim with
       | Some d => ONormal e1
       | None => OPanic
       end /\ forall d, nth_error ds dim = Some d -> lookup e1 "common" = Some (VI (Z.of_nat (c + d)))) ->
  forall (dss : list (list nat)) k c e, Inv e -> lookup e "common" = Some (VI (Z.of_nat c)) ->
  match foldM (fun c ds => do d <- nth_error ds dim; Some (c + d)%nat) dss c with
  | Some c' => exists e', rangeLoop body "_" "t" (map nats dss) k e = ONormal e' /\ Inv e' /\
                          lookup e' "common" = Some (VI (Z.of_nat c'))
  | None => rangeLoop body "_" "t" (map nats dss) k e = OPanic
  end.
Proof.
  intros Hb. induction dss as [|ds dss IH]; intros k c e HI Hc.
  - cbn. eauto.
  - cbn [map rangeLoop foldM].
    destruct (Hb e k c ds HI Hc) as (e1 & HI1 & Hbe & Hc1). rewrite Hbe.
    destruct (nth_error ds dim) as [d|]; cbn [obind]; [|reflexivity].
    apply IH; auto.
Qed.

Theorem go_getConcatDims_gen call fuel (dss : list (list nat)) (dim : nat) :
  exec call fuel (fbody GoFns.getConcatDims) [("ts", VL (map nats dss)); ("dim", VI (Z.of_nat dim))]
  = match concatDimsOf dss dim with Some r => ORet [nats r] | None => OPanic end.
Proof.
  unfold GoFns.getConcatDims, concatDimsOf. cbn [fbody]. gxs.
  pose (Inv := fun e : env => lookup e "ts" = Some (VL (map nats dss)) /\ lookup e "dim" = Some (VI (Z.of_nat dim))).
  match goal with |- context [rangeLoop ?b _ _ _ _ ?e0] =>
    assert (Hspec : forall e k c ds, Inv e -> lookup e "common" = Some (VI (Z.of_nat c)) ->
     exists e1, Inv e1 /\
     b (upd (upd e "_" (VI k)) "t" (nats ds)) =
       match nth_error ds dim with
       | Some d => ONormal e1
       | None => OPanic
       end /\ forall d, nth_error ds dim = Some d -> lookup e1 "common" = Some (VI (Z.of_nat (c + d))));
    [| pose proof (concat_loop dim b Inv Hspec dss 0 0%nat e0) as HL ]
  end.
  - intros e k c ds [H1 H2] Hc.
    destruct (nth_error ds dim) as [d|] eqn:Ed.
    + eexists. split; [|split; [gxs; rewrite Hc, H2; gxs; rewrite idxOf_nat, nth_error_map_nv, Ed; cbn [option_map]; gxs; reflexivity|]].
      * unfold Inv. lk. auto.
      * intros d' [= <-]. lk. f_equal. f_equal. lia.
    + exists e. split; [split; auto|]. split; [|discriminate].
      gxs. rewrite Hc, H2. gxs. rewrite idxOf_nat, nth_error_map_nv, Ed. reflexivity.
  - specialize (HL (conj eq_refl eq_refl) eq_refl).
    destruct (foldM _ dss 0%nat) as [c|]; cbn [obind].
    2:{ rewrite HL. reflexivity. }
    destruct HL as (e' & -> & [H1 H2] & Hc). gxs. rewrite H1. gxs.
    change (idxOf 0) with (Some 0%nat). cbn [idxOf].
    destruct dss as [|d0 dss]; cbn [map nth_error obind]; [reflexivity|].
    gxs. mkcopy.
    rewrite Hc. unfold setElem. gxs. rewrite H2. gxs. rewrite idxOf_nat.
    destruct (setNth d0 dim c) as [r|] eqn:Es.
    + destruct (setNth_setNthV _ _ _ _ Es) as [[old Ho] Hs]. rewrite Ho, Hs. gxs. reflexivity.
    + rewrite (setNth_None _ _ _ Es). reflexivity.
Qed.

Theorem go_getConcatDims call fuel (dss : list (list nat)) (dim : nat) (r : list nat) :
  concatDimsOf dss dim = Some r ->
  exec call fuel (fbody GoFns.getConcatDims) [("ts", VL (map nats dss)); ("dim", VI (Z.of_nat dim))]
  = ORet [nats r].
Proof. intros H. rewrite go_getConcatDims_gen, H. reflexivity. Qed.

Theorem go_getConcatDims_tensors {A} call fuel (ts : list (tensor A)) (dim : nat) (r : list nat) :
  Data.getConcatDims ts dim = Some r ->
  exec call fuel (fbody GoFns.getConcatDims)
    [("ts", VL (map (fun t => nats (dims t)) ts)); ("dim", VI (Z.of_nat dim))]
  = ORet [nats r].
Proof.
  intros H. rewrite getConcatDims_dims in H. rewrite <- (map_map (@dims A) nats). now apply go_getConcatDims.
Qed.

Theorem go_getConcatDims_panics call fuel (dss : list (list nat)) (dim : nat) :
  concatDimsOf dss dim = None ->
  exec call fuel (fbody GoFns.getConcatDims) [("ts", VL (map nats dss)); ("dim", VI (Z.of_nat dim))]
  = OPanic.
Proof. intros H. rewrite go_getConcatDims_gen, H. reflexivity. Qed.

Corollary run_getConcatDims fuel (dss : list (list nat)) (dim : nat) (r : list nat) :
  concatDimsOf dss dim = Some r ->
  run ftab fuel GoFns.getConcatDims [VL (map nats dss); VI (Z.of_nat dim)] = ORet [nats r].
Proof. intros H. unfold run. cbn [fparams GoFns.getConcatDims bindArgs]. now apply go_getConcatDims. Qed.

Corollary run_getConcatDims_tensors {A} fuel (ts : list (tensor A)) (dim : nat) (r : list nat) :
  Data.getConcatDims ts dim = Some r ->
  run ftab fuel GoFns.getConcatDims [VL (map (fun t => nats (dims t)) ts); VI (Z.of_nat dim)] = ORet [nats r].
Proof. intros H. unfold run. cbn [fparams GoFns.getConcatDims bindArgs]. now apply go_getConcatDims_tensors. Qed.

(* ---------- targetBroadcastDims ---------- *)
Lemma tbdRev_comm r1 r2 : tbdRev r1 r2 = tbdRev r2 r1.
Proof.
  revert r2; induction r1 as [|a r1 IH]; intros [|b r2]; cbn; auto.
  now rewrite IH, Nat.max_comm.
Qed.

Lemma tbdRev_length r1 r2 : (length r1 <= length r2)%nat -> length (tbdRev r1 r2) = length r2.
Proof.
  revert r2; induction r1 as [|a r1 IH]; intros [|b r2] H; cbn in *; auto; try lia.
  rewrite IH; lia.
Qed.

Lemma tbdRev_nth r1 r2 k : (length r1 <= length r2)%nat ->
  nth k (tbdRev r1 r2) 0%nat =
  if (k <? length r1)%nat then Nat.max (nth k r1 0%nat) (nth k r2 0%nat) else nth k r2 0%nat.
Proof.
  revert r2 k; induction r1 as [|a r1 IH]; intros [|b r2] k H; cbn [length] in H; try lia.
  - reflexivity.
  - reflexivity.
  - destruct k as [|k]; cbn [tbdRev nth length]; [reflexivity|].
    rewrite IH by lia. reflexivity.
Qed.

Lemma tbd_length sm lg : (length sm <= length lg)%nat -> length (Data.targetBroadcastDims sm lg) = length lg.
Proof.
  intros H. unfold Data.targetBroadcastDims. rewrite rev_length, tbdRev_length; rewrite !rev_length; auto.
Qed.

Lemma tbd_nth sm lg j : (length sm <= length lg)%nat -> (j < length lg)%nat ->
  nth j (Data.targetBroadcastDims sm lg) 0%nat =
  if (j <? length lg - length sm)%nat then nth j lg 0%nat
  else Nat.max (nth (j - (length lg - length sm)) sm 0%nat) (nth j lg 0%nat).
Proof.
  intros H Hj. unfold Data.targetBroadcastDims.
  assert (Hl : length (tbdRev (rev sm) (rev lg)) = length lg) by (rewrite tbdRev_length; rewrite !rev_length; auto).
  rewrite rev_nth by lia. rewrite Hl.
  rewrite tbdRev_nth by (rewrite !rev_length; auto). rewrite rev_length.
  rewrite (rev_nth lg) by lia.
  replace (length lg - S (length lg - S j))%nat with j by lia.
  destruct (j <? length lg - length sm)%nat eqn:E1.
  - apply Nat.ltb_lt in E1. replace (length lg - S j <? length sm)%nat with false by (symmetry; apply Nat.ltb_ge; lia).
    reflexivity.
  - apply Nat.ltb_ge in E1. replace (length lg - S j <? length sm)%nat with true by (symmetry; apply Nat.ltb_lt; lia).
    rewrite rev_nth by lia. f_equal. f_equal. lia.
Qed.

Lemma tbd_swap d1 d2 : Data.targetBroadcastDims d1 d2 = Data.targetBroadcastDims d2 d1.
Proof. unfold Data.targetBroadcastDims. now rewrite tbdRev_comm. Qed.

Lemma skipn_nth_cons (l : list nat) k : (k < length l)%nat -> skipn k l = nth k l 0%nat :: skipn (S k) l.
Proof.
  revert k; induction l as [|a l IH]; intros [|k] H; cbn [length] in H; try lia; [reflexivity|].
  cbn [skipn nth]. apply IH. lia.
Qed.

Lemma repeat_snoc {T} (x : T) n : repeat x (S n) = repeat x n ++ [x].
Proof. induction n as [|n IH]; [reflexivity|]. cbn [repeat app] in *. now rewrite <- IH. Qed.

Theorem go_targetBroadcastDims call fuel (d1 d2 : list nat) :
  (S (Nat.max (length d1) (length d2)) <= fuel)%nat ->
  exec call fuel (fbody GoFns.targetBroadcastDims) [("dims1", nats d1); ("dims2", nats d2)]
  = ORet [nats (Data.targetBroadcastDims d1 d2)].
Proof.
  intros Hf. unfold GoFns.targetBroadcastDims. cbn [fbody sseq].
  match goal with |- exec _ _ (SSeq _ (SSeq _ (SSeq _ ?R))) _ = _ => set (rest := R) end.
  assert (Hrest : forall sm lg, (length sm <= length lg)%nat -> (length lg < fuel)%nat ->
     exec call fuel rest [("dims1", nats d1); ("dims2", nats d2); ("dims", VL []); ("small", nats sm); ("large", nats lg)]
     = ORet [nats (Data.targetBroadcastDims sm lg)]).
  { clear Hf. intros sm lg Hle Hfl. unfold rest. clear rest. gxs. rewrite !zlenV_map.
    replace (0 <=? Z.of_nat (length lg)) with true by (symmetry; apply Z.leb_le; lia).
    rewrite Nat2Z.id. gxs.
    set (T := Data.targetBroadcastDims sm lg).
    set (m := (length lg - length sm)%nat).
    assert (HT : length T = length lg) by (apply tbd_length; auto).
    pose (P1 := fun e : env => exists i j : nat, j = (i + m)%nat /\ (j <= length lg)%nat /\
        lookup e "i" = Some (VI (Z.of_nat i)) /\ lookup e "j" = Some (VI (Z.of_nat j)) /\
        lookup e "small" = Some (nats sm) /\ lookup e "large" = Some (nats lg) /\
        lookup e "dims" = Some (VL (repeat (VI 0) j ++ map nv (skipn j T)))).
    pose (Q1 := fun o : outcome => exists e, o = ONormal e /\
        lookup e "j" = Some (VI (Z.of_nat m)) /\ lookup e "large" = Some (nats lg) /\
        lookup e "dims" = Some (VL (repeat (VI 0) m ++ map nv (skipn m T)))).
    pose (m1 := fun e : env => match lookup e "i" with Some (VI z) => Z.to_nat z | _ => 0%nat end).
    match goal with |- context [forLoop fuel ?c ?b ?p ?e0] =>
      assert (H1 : Q1 (forLoop fuel c b p e0)); [apply (forLoop_rule P1 Q1 m1 c b p) |]
    end.
    - intros e (i & j & Hj & Hjl & Hi & Hjj & Hs & Hl & Hd).
      destruct i as [|i].
      + left. split; [gxs; rewrite Hi; reflexivity|].
        exists e. cbn [Nat.add] in Hj. subst j. auto.
      + right. split; [gxs; rewrite Hi; gxs; f_equal; f_equal; rewrite Z.gtb_ltb; apply Z.ltb_lt; lia|].
        right. right.
        assert (Ej : exists j', j' = (i + m)%nat /\ j = S j') by (eexists; split; [reflexivity | lia]).
        destruct Ej as (j' & Ej' & ->). clear Hj.
        set (e1 := upd (upd (upd e "i" (VI (Z.of_nat i))) "j" (VI (Z.of_nat j'))) "dims"
                     (VL (repeat (VI 0) j' ++ map nv (skipn j' T)))).
        exists e1, e1. split; [left | split; [reflexivity | split]].
        * gxs. rewrite Hi. gxs. replace (Z.of_nat (S i) - 1) with (Z.of_nat i) by lia.
          rewrite Hjj. gxs. replace (Z.of_nat (S j') - 1) with (Z.of_nat j') by lia.
          rewrite Hs, Hl. gxs. rewrite !idxOf_nat, !nth_error_map_nv.
          rewrite (nth_error_nth' sm 0%nat) by (unfold m in *; lia).
          rewrite (nth_error_nth' lg 0%nat) by lia.
          cbn [option_map]. gxs.
          assert (Hx : nth j' T 0%nat = Nat.max (nth i sm 0%nat) (nth j' lg 0%nat)).
          { unfold T. rewrite tbd_nth by lia. fold m.
            replace (j' <? m)%nat with false by (symmetry; apply Nat.ltb_ge; lia).
            replace (j' - m)%nat with i by (lia). reflexivity. }
          assert (Hset : forall w, w = nv (nth j' T 0%nat) ->
             setElem (upd (upd e "i" (VI (Z.of_nat i))) "j" (VI (Z.of_nat j'))) "dims" (EVar "j") (fun _ => Some w) = ONormal e1).
          { intros w ->. unfold setElem. gxs. rewrite Hd, idxOf_nat.
            rewrite repeat_snoc, <- app_assoc. cbn [app].
            rewrite (nth_error_app_mid _ _ _ _ (repeat_length _ _)), (setNthV_app _ _ _ _ _ (repeat_length _ _)).
            unfold e1. rewrite (skipn_nth_cons T j') by lia. reflexivity. }
          destruct (Z.of_nat (nth i sm 0%nat) >? Z.of_nat (nth j' lg 0%nat)) eqn:Eg; rewrite Z.gtb_ltb in Eg;
            [apply Z.ltb_lt in Eg | apply Z.ltb_ge in Eg]; gxs; apply Hset; rewrite Hx; f_equal; f_equal; lia.
        * exists i, j'. unfold e1. lk. repeat split; auto. lia.
        * unfold m1, e1. lk. rewrite Hi, !Nat2Z.id. lia.
    - exists (length sm), (length lg). lk. repeat split; auto; [unfold m; lia|].
      rewrite skipn_all2 by lia. cbn [map]. now rewrite app_nil_r.
    - unfold m1. cbn [lookup String.eqb Ascii.eqb Bool.eqb]. rewrite Nat2Z.id. lia.
    - destruct H1 as (e1 & -> & Hj1 & Hl1 & Hd1). clear P1 Q1 m1. gxs.
      pose (P2 := fun e : env => exists j : nat, (j <= m)%nat /\
        lookup e "j" = Some (VI (Z.of_nat j)) /\ lookup e "large" = Some (nats lg) /\
        lookup e "dims" = Some (VL (repeat (VI 0) j ++ map nv (skipn j T)))).
      pose (Q2 := fun o : outcome => exists e, o = ONormal e /\ lookup e "dims" = Some (VL (map nv T))).
      pose (m2 := fun e : env => match lookup e "j" with Some (VI z) => Z.to_nat z | _ => 0%nat end).
      match goal with |- context [forLoop fuel ?c ?b ?p ?e0] =>
        assert (H2 : Q2 (forLoop fuel c b p e0)); [apply (forLoop_rule P2 Q2 m2 c b p) |]
      end.
      + intros e (j & Hjm & Hjj & Hl & Hd).
        destruct j as [|j'].
        * left. split; [gxs; rewrite Hjj; reflexivity|].
          exists e. split; [reflexivity|]. rewrite Hd. reflexivity.
        * right. split; [gxs; rewrite Hjj; gxs; f_equal; f_equal; rewrite Z.gtb_ltb; apply Z.ltb_lt; lia|].
          right. right.
          set (e2 := upd (upd e "j" (VI (Z.of_nat j'))) "dims" (VL (repeat (VI 0) j' ++ map nv (skipn j' T)))).
          exists e2, e2. split; [left | split; [reflexivity | split]].
          -- gxs. rewrite Hjj. gxs. replace (Z.of_nat (S j') - 1) with (Z.of_nat j') by lia.
             rewrite Hl. gxs. rewrite idxOf_nat, nth_error_map_nv.
             rewrite (nth_error_nth' lg 0%nat) by (unfold m in *; lia).
             cbn [option_map].
             assert (Hx : nth j' T 0%nat = nth j' lg 0%nat).
             { unfold T. rewrite tbd_nth by (unfold m in *; lia). fold m.
               replace (j' <? m)%nat with true by (symmetry; apply Nat.ltb_lt; lia). reflexivity. }
             unfold setElem. gxs. rewrite Hd, idxOf_nat.
             rewrite repeat_snoc, <- app_assoc. cbn [app].
             rewrite (nth_error_app_mid _ _ _ _ (repeat_length _ _)), (setNthV_app _ _ _ _ _ (repeat_length _ _)).
             unfold e2. rewrite (skipn_nth_cons T j') by (unfold m in *; lia). rewrite Hx. reflexivity.
          -- exists j'. unfold e2. lk. repeat split; auto. lia.
          -- unfold m2, e2. lk. rewrite Hjj, !Nat2Z.id. lia.
      + exists m. repeat split; auto.
      + unfold m2. rewrite Hj1, Nat2Z.id. unfold m. lia.
      + destruct H2 as (e2 & -> & Hd2). gxs. rewrite Hd2. reflexivity. }
  gxs. rewrite !zlenV_map.
  destruct (Z.of_nat (length d1) >? Z.of_nat (length d2)) eqn:Eg; rewrite Z.gtb_ltb in Eg.
  - apply Z.ltb_lt in Eg. rewrite Hrest by lia. now rewrite tbd_swap.
  - apply Z.ltb_ge in Eg. rewrite Hrest by lia. reflexivity.
Qed.

Corollary run_targetBroadcastDims fuel (d1 d2 : list nat) :
  (S (Nat.max (length d1) (length d2)) <= fuel)%nat ->
  run ftab fuel GoFns.targetBroadcastDims [nats d1; nats d2] = ORet [nats (Data.targetBroadcastDims d1 d2)].
Proof. intros H. unfold run. cbn [fparams GoFns.targetBroadcastDims bindArgs]. now apply go_targetBroadcastDims. Qed.

(* ---------- concrete runs ---------- *)
Example ex_dotDims : run ftab 5 GoFns.dotDims [nats [2;3;4]%nat] = ORet [nats [2;3]%nat].
Proof. vm_compute; reflexivity. Qed.
Example ex_matMulDims : run ftab 5 GoFns.matMulDims [nats [5;2;3]%nat; nats [5;3;4]%nat] = ORet [nats [5;2;4]%nat].
Proof. vm_compute; reflexivity. Qed.
Example ex_completeIndex :
  run ftab 5 GoFns.completeIndex [nranges [(1,2);(0,0)]%nat; nats [3;4;5]%nat] = ORet [nranges [(1,2);(0,4);(0,5)]%nat].
Proof. vm_compute; reflexivity. Qed.
Example ex_getConcatDims :
  run ftab 5 GoFns.getConcatDims [VL (map nats [[2;3;4];[2;5;4];[2;1;4]]%nat); VI 1] = ORet [nats [2;9;4]%nat].
Proof. vm_compute; reflexivity. Qed.
Example ex_getConcatDims_empty : run ftab 5 GoFns.getConcatDims [VL []; VI 0] = OPanic.
Proof. vm_compute; reflexivity. Qed.
Example ex_targetBroadcastDims :
  run ftab 4 GoFns.targetBroadcastDims [nats [7;2;1;3]%nat; nats [4;1]%nat] = ORet [nats [7;2;4;3]%nat].
Proof. vm_compute; reflexivity. Qed.
Example ex_targetBroadcastDims_swapped :
  run ftab 4 GoFns.targetBroadcastDims [nats [4;1]%nat; nats [7;2;1;3]%nat] = ORet [nats [7;2;4;3]%nat].
Proof. vm_compute; reflexivity. Qed.

(* the preconditions are needed: outside them the Go code panics (slice bound td-1 / td-2 negative) while the
   nat-valued model truncates the subtraction *)
Example ex_dotDims_empty : run ftab 5 GoFns.dotDims [nats []] = OPanic /\ Data.dotDims [] = [].
Proof. split; vm_compute; reflexivity. Qed.
Example ex_matMulDims_1d :
  run ftab 5 GoFns.matMulDims [nats [3]%nat; nats [4]%nat] = OPanic /\ Data.matMulDims [3]%nat [4]%nat = Some [3;4]%nat.
Proof. split; vm_compute; reflexivity. Qed.

Print Assumptions go_dotDims.
Print Assumptions run_dotDims.
Print Assumptions go_matMulDims.
Print Assumptions run_matMulDims.
Print Assumptions go_completeIndex.
Print Assumptions run_completeIndex.
Print Assumptions getConcatDims_dims.
Print Assumptions go_getConcatDims_gen.
Print Assumptions go_getConcatDims.
Print Assumptions go_getConcatDims_tensors.
Print Assumptions go_getConcatDims_panics.
Print Assumptions run_getConcatDims.
Print Assumptions run_getConcatDims_tensors.
Print Assumptions go_targetBroadcastDims.
Print Assumptions run_targetBroadcastDims.
