(* GoGenP1.v — the integer code of the element generators eyeElemGenerator (initializers.go),
   linearElemGenerator (shape_modifiers.go), linearLastDimDotProductElemGenerator and
   linearLast2DimsMatMulElemGenerator (operators.go) of tensor/internal/cputensor, as translated by
   harness/gox (Model/GoFns.v), computes the generator steps / initial states of Model/Fill.v
   (eyeGen, incr / linGen, linInit).  See coq/GOIR_NOTES.md. *)
From Coq Require Import String List ZArith Bool Lia Arith.
From Qeep Require Import Model.GoIR Model.GoFns Model.Fill Proofs.GoIRP.
Import ListNotations.
Local Open Scope string_scope.
Local Open Scope Z_scope.
Local Open Scope list_scope.

(* ---------- small list facts ---------- *)

Lemma nth_error_nats (l : list nat) (k : nat) :
  nth_error (map natV l) k = option_map natV (nth_error l k).
Proof. revert k; induction l as [|a l IH]; intros [|k]; cbn; auto. Qed.

(* G with position k replaced by v *)
Definition setn (k : nat) (v : nat) (G : list nat) : list nat := firstn k G ++ v :: skipn (S k) G.

Lemma setNthV_nats (l : list nat) (k v : nat) :
  (k < length l)%nat -> setNthV (map natV l) k (natV v) = Some (map natV (setn k v l)).
Proof.
  revert k; induction l as [|a l IH]; intros [|k] H; cbn in H; try lia.
  - reflexivity.
  - cbn [map setNthV]. rewrite IH by lia. reflexivity.
Qed.

Lemma setn_length k v G : (k < length G)%nat -> length (setn k v G) = length G.
Proof.
  intros H. unfold setn. rewrite app_length. cbn [length]. rewrite firstn_length, skipn_length. lia.
Qed.

Lemma setn_firstn k v G : (k <= length G)%nat -> firstn k (setn k v G) = firstn k G.
Proof.
  intros H. unfold setn. rewrite firstn_app, firstn_firstn, firstn_length.
  replace (Nat.min k k) with k by lia. replace (k - Nat.min k (length G))%nat with 0%nat by lia.
  cbn. apply app_nil_r.
Qed.

Lemma setn_skipn k v G : (k <= length G)%nat -> skipn k (setn k v G) = v :: skipn (S k) G.
Proof.
  intros H. unfold setn. rewrite skipn_app, firstn_length.
  replace (k - Nat.min k (length G))%nat with 0%nat by lia.
  rewrite skipn_firstn_comm. replace (k - k)%nat with 0%nat by lia. reflexivity.
Qed.

(* ---------- the carry loop
      for i >= 0 { if state[i] < dims[i]-1 { state[i]++; break } else { state[i] = 0; i-- } }
   for an arbitrary loop (condition, body, post statement) that behaves like the Go one; [dn] is the
   name of the variable holding the dimensions ---------- *)
Section Carry.
Variables (dn : string) (cond : env -> option val) (body post : env -> outcome).
Hypothesis Hcond : forall e z, lookup e "i" = Some (VI z) -> cond e = Some (VB (z >=? 0)).
Hypothesis Hpost : forall e, post e = ONormal e.
Hypothesis Hbody : forall e k D G d x,
  lookup e "i" = Some (VI (Z.of_nat k)) -> lookup e dn = Some (nats D) -> lookup e "state" = Some (nats G) ->
  nth_error D k = Some d -> nth_error G k = Some x ->
  body e = if (S x <? d)%nat
           then OBreak (upd e "state" (nats (setn k (S x) G)))
           else ONormal (upd (upd e "state" (nats (setn k 0%nat G))) "i" (VI (Z.of_nat k - 1))).
Hypothesis Hdn1 : dn <> "state".
Hypothesis Hdn2 : dn <> "i".

Lemma carry_loop : forall (k : nat) (D G : list nat) (e : env) (fuel : nat),
  (k <= length G)%nat -> (k <= length D)%nat ->
  lookup e "i" = Some (VI (Z.of_nat k - 1)) -> lookup e dn = Some (nats D) -> lookup e "state" = Some (nats G) ->
  (k < fuel)%nat ->
  exists e', forLoop fuel cond body post e = ONormal e' /\
    lookup e' "state" = Some (nats (rev (incr (rev (firstn k D)) (rev (firstn k G))) ++ skipn k G)) /\
    forall y, y <> "state" -> y <> "i" -> lookup e' y = lookup e y.
Proof.
  induction k as [|k IH]; intros D G e fuel HG HD Hi Hd Hs Hf; (destruct fuel as [|fuel]; [lia|]);
    cbn [forLoop]; rewrite (Hcond _ _ Hi).
  - cbn. exists e. repeat split; auto.
  - replace (Z.of_nat (S k) - 1) with (Z.of_nat k) in * by lia.
    replace (Z.of_nat k >=? 0) with true by (symmetry; rewrite Z.geb_leb; apply Z.leb_le; lia).
    destruct (nth_error D k) as [d|] eqn:ED; [| apply nth_error_None in ED; lia].
    destruct (nth_error G k) as [x|] eqn:EG; [| apply nth_error_None in EG; lia].
    rewrite (Hbody e k D G d x Hi Hd Hs ED EG).
    rewrite (firstn_S_nth _ _ _ ED), (firstn_S_nth _ _ _ EG), !rev_app_distr. cbn [rev app incr].
    destruct (S x <? d)%nat eqn:E.
    + eexists. split; [reflexivity|]. split.
      * lk. cbn [rev]. rewrite rev_involutive, <- app_assoc. reflexivity.
      * intros y H1 H2. now rewrite lookup_upd_ne.
    + rewrite Hpost.
      destruct (IH D (setn k 0%nat G) (upd (upd e "state" (nats (setn k 0%nat G))) "i" (VI (Z.of_nat k - 1))) fuel)
        as [e' [He' [Hs' Hfr]]].
      * rewrite setn_length; lia.
      * lia.
      * now lk.
      * rewrite !lookup_upd_ne; auto.
      * now lk.
      * lia.
      * exists e'. split; [exact He'|]. split.
        -- rewrite Hs'. rewrite setn_firstn, setn_skipn by lia. cbn [rev]. rewrite <- app_assoc. reflexivity.
        -- intros y H1 H2. rewrite Hfr by assumption. rewrite !lookup_upd_ne; auto.
Qed.
End Carry.

Lemma setElem_state_i (e : env) (k : nat) (G : list nat) (v x : nat) :
  lookup e "state" = Some (nats G) -> lookup e "i" = Some (VI (Z.of_nat k)) -> nth_error G k = Some x ->
  setElem e "state" (EVar "i") (fun _ => Some (VI (Z.of_nat v))) = ONormal (upd e "state" (nats (setn k v G))).
Proof.
  intros Hs Hi HG. unfold setElem. cbn [eval]. rewrite Hs, Hi. cbn [nats]. rewrite idxOf_nat, nth_error_nats, HG.
  cbn [option_map]. rewrite (setNthV_nats G k v); [reflexivity|].
  apply nth_error_Some. congruence.
Qed.

(* discharges the body specification of [carry_loop] for the generated loop bodies (names "i", "state", dims variable) *)
Ltac carry_body_spec Hi Hd Hs HD HG :=
  repeat (gxs; rewrite ?Hi, ?Hd, ?Hs);
  rewrite ?idxOf_nat, ?nth_error_nats, ?HD, ?HG; cbn [option_map];
  repeat (gxs; rewrite ?Hi, ?Hd, ?Hs);
  match goal with |- context [Z.of_nat ?x <? Z.of_nat ?d - 1] =>
    replace (Z.of_nat x <? Z.of_nat d - 1) with (S x <? d)%nat
      by (destruct (S x <? d)%nat eqn:E;
          [apply Nat.ltb_lt in E; symmetry; apply Z.ltb_lt; lia
          |apply Nat.ltb_ge in E; symmetry; apply Z.ltb_ge; lia]);
    replace (Z.of_nat x + 1) with (Z.of_nat (S x)) by lia;
    change (VI 0) with (VI (Z.of_nat 0));
    rewrite !(setElem_state_i _ _ _ _ _ Hs Hi HG);
    destruct (S x <? d)%nat; gxs; rewrite ?Hi; gxs; reflexivity
  end.

(* ================= linearElemGenerator ================= *)

Lemma shape_linearElemGenerator_outer :
  itemShape linearElemGenerator_outer = [None; Some "return <closure>"].
Proof. reflexivity. Qed.
Lemma shape_linearElemGenerator_step :
  itemShape linearElemGenerator_step = [Some "elem := t.dataAt(state)"; None; Some "return elem"].
Proof. reflexivity. Qed.

Definition linearElemGenerator_outer_code : stmt := nth 0 (codeOf linearElemGenerator_outer) SSkip.
Definition linearElemGenerator_step_code : stmt := nth 0 (codeOf linearElemGenerator_step) SSkip.

Theorem go_linearElemGenerator_step call fuel (ds gs : list nat) (e : env) :
  (S (length ds) <= fuel)%nat -> length gs = length ds ->
  lookup e "t.dims" = Some (nats ds) -> lookup e "state" = Some (nats gs) ->
  exists e', exec call fuel linearElemGenerator_step_code e = ONormal e' /\
    lookup e' "state" = Some (nats (rev (incr (rev ds) (rev gs)))) /\
    lookup e' "t.dims" = Some (nats ds) /\
    forall y, y <> "state" -> y <> "i" -> lookup e' y = lookup e y.
Proof.
  intros Hf Hl Ht Hs.
  unfold linearElemGenerator_step_code, linearElemGenerator_step. cbn [codeOf nth].
  gxs. rewrite Ht. gxs. rewrite zlenV_map.
  match goal with |- context [forLoop _ ?c ?b ?p ?e0] =>
    assert (Hc : forall e z, lookup e "i" = Some (VI z) -> c e = Some (VB (z >=? 0)));
    [| assert (Hp : forall e, p e = ONormal e);
       [| assert (Hb : forall e k D G d x,
            lookup e "i" = Some (VI (Z.of_nat k)) -> lookup e "t.dims" = Some (nats D) -> lookup e "state" = Some (nats G) ->
            nth_error D k = Some d -> nth_error G k = Some x ->
            b e = if (S x <? d)%nat
                  then OBreak (upd e "state" (nats (setn k (S x) G)))
                  else ONormal (upd (upd e "state" (nats (setn k 0%nat G))) "i" (VI (Z.of_nat k - 1))));
          [| destruct (carry_loop "t.dims" c b p Hc Hp Hb ltac:(discriminate) ltac:(discriminate)
                        (length ds) ds gs e0 fuel) as [e' [He' [Hs' Hfr]]] ]]]
  end.
  - intros e1 z Hi. gxs. rewrite Hi. gxs. reflexivity.
  - intros e1. gxs. reflexivity.
  - intros e1 k D G d x Hi Hd Hs1 HD HG.
    carry_body_spec Hi Hd Hs1 HD HG.
  - lia.
  - lia.
  - now lk.
  - lk. exact Ht.
  - lk. exact Hs.
  - lia.
  - exists e'. split; [exact He'|]. split; [|split].
    + rewrite Hs'. rewrite firstn_all. rewrite <- Hl. rewrite firstn_all, skipn_all, app_nil_r. reflexivity.
    + rewrite Hfr by discriminate. lk. exact Ht.
    + intros y H1 H2. rewrite Hfr by assumption. now rewrite lookup_upd_ne.
Qed.

Theorem go_linearElemGenerator_outer call fuel (ds : list nat) (e : env) :
  lookup e "t.dims" = Some (nats ds) ->
  exists e', exec call fuel linearElemGenerator_outer_code e = ONormal e' /\
    lookup e' "state" = Some (nats (linInit ds)) /\
    forall y, y <> "state" -> lookup e' y = lookup e y.
Proof.
  intros Ht.
  unfold linearElemGenerator_outer_code, linearElemGenerator_outer, linInit. cbn [codeOf nth].
  gxs. rewrite Ht. gxs. rewrite zlenV_map.
  replace (0 <=? Z.of_nat (length ds)) with true by (symmetry; apply Z.leb_le; lia).
  rewrite Nat2Z.id, map_repeat_natV.
  eexists. split; [reflexivity|]. split; [now lk|].
  intros y H. now rewrite lookup_upd_ne.
Qed.

(* ================= eyeElemGenerator ================= *)

Lemma shape_eyeElemGenerator_outer :
  itemShape eyeElemGenerator_outer = [None; Some "return <closure>"].
Proof. reflexivity. Qed.
Lemma shape_eyeElemGenerator_step :
  itemShape eyeElemGenerator_step = [None; Some "if atDiag { return 1. } else { return 0. }"].
Proof. reflexivity. Qed.

Definition eyeElemGenerator_outer_code : stmt := nth 0 (codeOf eyeElemGenerator_outer) SSkip.
Definition eyeElemGenerator_step_code : stmt := nth 0 (codeOf eyeElemGenerator_step) SSkip.

Theorem go_eyeElemGenerator_step_env call fuel (n s : nat) (e : env) :
  lookup e "n" = Some (VI (Z.of_nat n)) -> lookup e "state" = Some (VI (Z.of_nat s)) ->
  exists e', exec call fuel eyeElemGenerator_step_code e = ONormal e' /\
    lookup e' "state" = Some (VI (Z.of_nat (S s))) /\
    lookup e' "atDiag" = Some (VB ((s mod (n + 1)) =? 0)%nat) /\
    forall y, y <> "state" -> y <> "atDiag" -> lookup e' y = lookup e y.
Proof.
  intros Hn Hs.
  unfold eyeElemGenerator_step_code, eyeElemGenerator_step. cbn [codeOf nth].
  gxs. rewrite Hs, Hn. gxs.
  replace (Z.of_nat n + 1 =? 0) with false by (symmetry; apply Z.eqb_neq; lia).
  gxs. rewrite Hs. gxs.
  eexists. split; [reflexivity|]. split; [|split].
  - lk. f_equal. f_equal. lia.
  - lk. f_equal. f_equal.
    rewrite Z.rem_mod_nonneg by lia.
    replace (Z.of_nat n + 1) with (Z.of_nat (n + 1)) by lia.
    rewrite <- Nat2Z.inj_mod.
    destruct ((s mod (n + 1)) =? 0)%nat eqn:E.
    + apply Nat.eqb_eq in E. apply Z.eqb_eq. lia.
    + apply Nat.eqb_neq in E. apply Z.eqb_neq. lia.
  - intros y H1 H2. now rewrite !lookup_upd_ne.
Qed.

Theorem go_eyeElemGenerator_step call fuel (n s : nat) :
  exists e', exec call fuel eyeElemGenerator_step_code [("n", VI (Z.of_nat n)); ("state", VI (Z.of_nat s))] = ONormal e' /\
    lookup e' "state" = Some (VI (Z.of_nat (S s))) /\
    lookup e' "atDiag" = Some (VB ((s mod (n + 1)) =? 0)%nat) /\
    lookup e' "n" = Some (VI (Z.of_nat n)).
Proof.
  destruct (go_eyeElemGenerator_step_env call fuel n s [("n", VI (Z.of_nat n)); ("state", VI (Z.of_nat s))] eq_refl eq_refl)
    as [e' [H1 [H2 [H3 H4]]]].
  exists e'. repeat split; auto. rewrite H4 by discriminate. reflexivity.
Qed.

Theorem go_eyeElemGenerator_outer call fuel (e : env) :
  exists e', exec call fuel eyeElemGenerator_outer_code e = ONormal e' /\
    lookup e' "state" = Some (VI (Z.of_nat 0)) /\
    forall y, y <> "state" -> lookup e' y = lookup e y.
Proof.
  unfold eyeElemGenerator_outer_code, eyeElemGenerator_outer. cbn [codeOf nth]. gxs.
  eexists. split; [reflexivity|]. split; [now lk|].
  intros y H. now rewrite lookup_upd_ne.
Qed.

(* ================= linearLastDimDotProductElemGenerator / linearLast2DimsMatMulElemGenerator ================= *)

(* step code  i := n-1; <carry loop over "dims">  with captured "dims", "n", "state" *)
Ltac prove_n_step Hf Hl Hn Hdm Hnv Hs ds gs n :=
  gxs; rewrite Hnv; gxs;
  match goal with |- context [forLoop ?fuel ?c ?b ?p ?e0] =>
    assert (Hc : forall e z, lookup e "i" = Some (VI z) -> c e = Some (VB (z >=? 0)));
    [ intros e1 z Hi; gxs; rewrite Hi; gxs; reflexivity
    | assert (Hp : forall e, p e = ONormal e);
       [ intros e1; gxs; reflexivity
       | assert (Hb : forall e k D G d x,
            lookup e "i" = Some (VI (Z.of_nat k)) -> lookup e "dims" = Some (nats D) -> lookup e "state" = Some (nats G) ->
            nth_error D k = Some d -> nth_error G k = Some x ->
            b e = if (S x <? d)%nat
                  then OBreak (upd e "state" (nats (setn k (S x) G)))
                  else ONormal (upd (upd e "state" (nats (setn k 0%nat G))) "i" (VI (Z.of_nat k - 1))));
          [ intros e1 k D G d x Hi Hd Hs1 HD HG; carry_body_spec Hi Hd Hs1 HD HG
          | destruct (carry_loop "dims" c b p Hc Hp Hb ltac:(discriminate) ltac:(discriminate)
                        n ds gs e0 fuel) as [e' [He' [Hs' Hfr]]];
            [ lia | lia | now lk | lk; exact Hdm | lk; exact Hs | lia
            | exists e'; split; [exact He'|]; split; [|split; [|split]];
              [ rewrite Hs'; rewrite <- Hl; rewrite firstn_all, skipn_all, app_nil_r; rewrite Hl; reflexivity
              | rewrite Hfr by discriminate; lk; exact Hdm
              | rewrite Hfr by discriminate; lk; exact Hnv
              | intros y H1 H2; rewrite Hfr by assumption; now rewrite lookup_upd_ne ] ] ] ] ]
  end.

Lemma shape_linearLastDimDotProductElemGenerator_outer :
  itemShape linearLastDimDotProductElemGenerator_outer = [None; Some "return <closure>"].
Proof. reflexivity. Qed.
Lemma shape_linearLastDimDotProductElemGenerator_step :
  itemShape linearLastDimDotProductElemGenerator_step =
  [Some "data1 := t1.dataAt(state)"; Some "data2 := t2.dataAt(state)";
   Some "prodRes := dotProductOf1DInputs(data1, data2)"; None; Some "return prodRes"].
Proof. reflexivity. Qed.

Definition linearLastDimDotProductElemGenerator_outer_code : stmt :=
  nth 0 (codeOf linearLastDimDotProductElemGenerator_outer) SSkip.
Definition linearLastDimDotProductElemGenerator_step_code : stmt :=
  nth 0 (codeOf linearLastDimDotProductElemGenerator_step) SSkip.

Theorem go_linearLastDimDotProductElemGenerator_step call fuel (ds gs : list nat) (n : nat) (e : env) :
  (S n <= fuel)%nat -> length gs = n -> (n <= length ds)%nat ->
  lookup e "dims" = Some (nats ds) -> lookup e "n" = Some (VI (Z.of_nat n)) -> lookup e "state" = Some (nats gs) ->
  exists e', exec call fuel linearLastDimDotProductElemGenerator_step_code e = ONormal e' /\
    lookup e' "state" = Some (nats (rev (incr (rev (firstn n ds)) (rev gs)))) /\
    lookup e' "dims" = Some (nats ds) /\
    lookup e' "n" = Some (VI (Z.of_nat n)) /\
    forall y, y <> "state" -> y <> "i" -> lookup e' y = lookup e y.
Proof.
  intros Hf Hl Hn Hdm Hnv Hs.
  unfold linearLastDimDotProductElemGenerator_step_code, linearLastDimDotProductElemGenerator_step. cbn [codeOf nth].
  prove_n_step Hf Hl Hn Hdm Hnv Hs ds gs n.
Qed.

(* outer code  dims := t1.dims; n := len(dims) - c; state := make([]int, n) *)
Ltac prove_n_outer Ht Hl ds c :=
  gxs; rewrite Ht; gxs; rewrite zlenV_map;
  replace (Z.of_nat (length ds) - Z.of_nat c) with (Z.of_nat (length ds - c)) by lia;
  replace (0 <=? Z.of_nat (length ds - c)) with true by (symmetry; apply Z.leb_le; lia);
  rewrite Nat2Z.id, map_repeat_natV;
  eexists; split; [reflexivity|]; split; [now lk|]; split; [now lk|]; split; [now lk|];
  intros y H1 H2 H3; now rewrite !lookup_upd_ne.

Ltac prove_n_outer_panic Ht Hl ds c :=
  gxs; rewrite Ht; gxs; rewrite zlenV_map;
  replace (0 <=? Z.of_nat (length ds) - Z.of_nat c) with false by (symmetry; apply Z.leb_gt; lia);
  reflexivity.

Theorem go_linearLastDimDotProductElemGenerator_outer call fuel (ds : list nat) (e : env) :
  (1 <= length ds)%nat -> lookup e "t1.dims" = Some (nats ds) ->
  exists e', exec call fuel linearLastDimDotProductElemGenerator_outer_code e = ONormal e' /\
    lookup e' "dims" = Some (nats ds) /\
    lookup e' "n" = Some (VI (Z.of_nat (length ds - 1))) /\
    lookup e' "state" = Some (nats (repeat 0%nat (length ds - 1))) /\
    forall y, y <> "dims" -> y <> "n" -> y <> "state" -> lookup e' y = lookup e y.
Proof.
  intros Hl Ht.
  unfold linearLastDimDotProductElemGenerator_outer_code, linearLastDimDotProductElemGenerator_outer. cbn [codeOf nth].
  change 1 with (Z.of_nat 1).
  prove_n_outer Ht Hl ds 1%nat.
Qed.

(* without the precondition (a 0-dimensional t1) make([]int, -1) panics *)
Theorem go_linearLastDimDotProductElemGenerator_outer_panic call fuel (ds : list nat) (e : env) :
  (length ds < 1)%nat -> lookup e "t1.dims" = Some (nats ds) ->
  exec call fuel linearLastDimDotProductElemGenerator_outer_code e = OPanic.
Proof.
  intros Hl Ht.
  unfold linearLastDimDotProductElemGenerator_outer_code, linearLastDimDotProductElemGenerator_outer. cbn [codeOf nth].
  change 1 with (Z.of_nat 1).
  prove_n_outer_panic Ht Hl ds 1%nat.
Qed.

Lemma shape_linearLast2DimsMatMulElemGenerator_outer :
  itemShape linearLast2DimsMatMulElemGenerator_outer = [None; Some "return <closure>"].
Proof. reflexivity. Qed.
Lemma shape_linearLast2DimsMatMulElemGenerator_step :
  itemShape linearLast2DimsMatMulElemGenerator_step =
  [Some "data1 := t1.dataAt(state)"; Some "data2 := t2.dataAt(state)";
   Some "mulRes := matMulDataOf2DInputs(data1, data2)"; None; Some "return mulRes"].
Proof. reflexivity. Qed.

Definition linearLast2DimsMatMulElemGenerator_outer_code : stmt :=
  nth 0 (codeOf linearLast2DimsMatMulElemGenerator_outer) SSkip.
Definition linearLast2DimsMatMulElemGenerator_step_code : stmt :=
  nth 0 (codeOf linearLast2DimsMatMulElemGenerator_step) SSkip.

Theorem go_linearLast2DimsMatMulElemGenerator_step call fuel (ds gs : list nat) (n : nat) (e : env) :
  (S n <= fuel)%nat -> length gs = n -> (n <= length ds)%nat ->
  lookup e "dims" = Some (nats ds) -> lookup e "n" = Some (VI (Z.of_nat n)) -> lookup e "state" = Some (nats gs) ->
  exists e', exec call fuel linearLast2DimsMatMulElemGenerator_step_code e = ONormal e' /\
    lookup e' "state" = Some (nats (rev (incr (rev (firstn n ds)) (rev gs)))) /\
    lookup e' "dims" = Some (nats ds) /\
    lookup e' "n" = Some (VI (Z.of_nat n)) /\
    forall y, y <> "state" -> y <> "i" -> lookup e' y = lookup e y.
Proof.
  intros Hf Hl Hn Hdm Hnv Hs.
  unfold linearLast2DimsMatMulElemGenerator_step_code, linearLast2DimsMatMulElemGenerator_step. cbn [codeOf nth].
  prove_n_step Hf Hl Hn Hdm Hnv Hs ds gs n.
Qed.

Theorem go_linearLast2DimsMatMulElemGenerator_outer call fuel (ds : list nat) (e : env) :
  (2 <= length ds)%nat -> lookup e "t1.dims" = Some (nats ds) ->
  exists e', exec call fuel linearLast2DimsMatMulElemGenerator_outer_code e = ONormal e' /\
    lookup e' "dims" = Some (nats ds) /\
    lookup e' "n" = Some (VI (Z.of_nat (length ds - 2))) /\
    lookup e' "state" = Some (nats (repeat 0%nat (length ds - 2))) /\
    forall y, y <> "dims" -> y <> "n" -> y <> "state" -> lookup e' y = lookup e y.
Proof.
  intros Hl Ht.
  unfold linearLast2DimsMatMulElemGenerator_outer_code, linearLast2DimsMatMulElemGenerator_outer. cbn [codeOf nth].
  change 2 with (Z.of_nat 2).
  prove_n_outer Ht Hl ds 2%nat.
Qed.

Theorem go_linearLast2DimsMatMulElemGenerator_outer_panic call fuel (ds : list nat) (e : env) :
  (length ds < 2)%nat -> lookup e "t1.dims" = Some (nats ds) ->
  exec call fuel linearLast2DimsMatMulElemGenerator_outer_code e = OPanic.
Proof.
  intros Hl Ht.
  unfold linearLast2DimsMatMulElemGenerator_outer_code, linearLast2DimsMatMulElemGenerator_outer. cbn [codeOf nth].
  change 2 with (Z.of_nat 2).
  prove_n_outer_panic Ht Hl ds 2%nat.
Qed.

(* ---------- the [_code] definitions are ALL the integer code of the generators ---------- *)
Lemma codeOf_eyeElemGenerator :
  codeOf eyeElemGenerator_outer = [eyeElemGenerator_outer_code] /\
  codeOf eyeElemGenerator_step = [eyeElemGenerator_step_code].
Proof. split; reflexivity. Qed.
Lemma codeOf_linearElemGenerator :
  codeOf linearElemGenerator_outer = [linearElemGenerator_outer_code] /\
  codeOf linearElemGenerator_step = [linearElemGenerator_step_code].
Proof. split; reflexivity. Qed.
Lemma codeOf_linearLastDimDotProductElemGenerator :
  codeOf linearLastDimDotProductElemGenerator_outer = [linearLastDimDotProductElemGenerator_outer_code] /\
  codeOf linearLastDimDotProductElemGenerator_step = [linearLastDimDotProductElemGenerator_step_code].
Proof. split; reflexivity. Qed.
Lemma codeOf_linearLast2DimsMatMulElemGenerator :
  codeOf linearLast2DimsMatMulElemGenerator_outer = [linearLast2DimsMatMulElemGenerator_outer_code] /\
  codeOf linearLast2DimsMatMulElemGenerator_step = [linearLast2DimsMatMulElemGenerator_step_code].
Proof. split; reflexivity. Qed.

(* ---------- in the model's representation (Fill.linGen keeps the state least significant digit first):
   if the Go state is [rev st], the Go state after the step is [rev] of the model's next state ---------- *)
Corollary go_linearElemGenerator_step_model call fuel (ds st : list nat) (e : env) :
  (S (length ds) <= fuel)%nat -> length st = length ds ->
  lookup e "t.dims" = Some (nats ds) -> lookup e "state" = Some (nats (rev st)) ->
  exists e', exec call fuel linearElemGenerator_step_code e = ONormal e' /\
    lookup e' "state" = Some (nats (rev (incr (rev ds) st))) /\
    lookup e' "t.dims" = Some (nats ds).
Proof.
  intros Hf Hl Ht Hs.
  destruct (go_linearElemGenerator_step call fuel ds (rev st) e Hf ltac:(now rewrite rev_length) Ht Hs)
    as [e' [H1 [H2 [H3 _]]]].
  exists e'. rewrite rev_involutive in H2. auto.
Qed.

(* with n = len(dims)-1 resp. len(dims)-2 as set up by the outer code *)
Corollary go_linearLastDimDotProductElemGenerator_step_model call fuel (ds st : list nat) (e : env) :
  (length ds <= fuel)%nat -> (1 <= length ds)%nat -> length st = (length ds - 1)%nat ->
  lookup e "dims" = Some (nats ds) -> lookup e "n" = Some (VI (Z.of_nat (length ds - 1))) ->
  lookup e "state" = Some (nats (rev st)) ->
  exists e', exec call fuel linearLastDimDotProductElemGenerator_step_code e = ONormal e' /\
    lookup e' "state" = Some (nats (rev (incr (rev (firstn (length ds - 1) ds)) st))) /\
    lookup e' "dims" = Some (nats ds) /\ lookup e' "n" = Some (VI (Z.of_nat (length ds - 1))).
Proof.
  intros Hf H1 Hl Hd Hn Hs.
  destruct (go_linearLastDimDotProductElemGenerator_step call fuel ds (rev st) (length ds - 1) e
              ltac:(lia) ltac:(now rewrite rev_length) ltac:(lia) Hd Hn Hs) as [e' [A [B [C [D _]]]]].
  exists e'. rewrite rev_involutive in B. auto.
Qed.

Corollary go_linearLast2DimsMatMulElemGenerator_step_model call fuel (ds st : list nat) (e : env) :
  (length ds - 1 <= fuel)%nat -> (2 <= length ds)%nat -> length st = (length ds - 2)%nat ->
  lookup e "dims" = Some (nats ds) -> lookup e "n" = Some (VI (Z.of_nat (length ds - 2))) ->
  lookup e "state" = Some (nats (rev st)) ->
  exists e', exec call fuel linearLast2DimsMatMulElemGenerator_step_code e = ONormal e' /\
    lookup e' "state" = Some (nats (rev (incr (rev (firstn (length ds - 2) ds)) st))) /\
    lookup e' "dims" = Some (nats ds) /\ lookup e' "n" = Some (VI (Z.of_nat (length ds - 2))).
Proof.
  intros Hf H1 Hl Hd Hn Hs.
  destruct (go_linearLast2DimsMatMulElemGenerator_step call fuel ds (rev st) (length ds - 2) e
              ltac:(lia) ltac:(now rewrite rev_length) ltac:(lia) Hd Hn Hs) as [e' [A [B [C [D _]]]]].
  exists e'. rewrite rev_involutive in B. auto.
Qed.

(* ---------- concrete runs of the translated code ---------- *)
Definition stateAfter (o : outcome) : option val := match o with ONormal e => lookup e "state" | _ => None end.
Definition noCall : string -> list val -> outcome := fun _ _ => OPanic.

Example ex_linear_step_carry :
  stateAfter (exec noCall 4 linearElemGenerator_step_code
                [("t.dims", nats [2; 3; 4]%nat); ("state", nats [0; 2; 3]%nat)]) = Some (nats [1; 0; 0]%nat).
Proof. vm_compute. reflexivity. Qed.
Example ex_linear_step_wrap :
  stateAfter (exec noCall 4 linearElemGenerator_step_code
                [("t.dims", nats [2; 3; 4]%nat); ("state", nats [1; 2; 3]%nat)]) = Some (nats [0; 0; 0]%nat).
Proof. vm_compute. reflexivity. Qed.
Example ex_linear_step_fuel :   (* the bound S (length ds) is needed when every digit carries *)
  exec noCall 3 linearElemGenerator_step_code
       [("t.dims", nats [2; 3; 4]%nat); ("state", nats [1; 2; 3]%nat)] = OFuel.
Proof. vm_compute. reflexivity. Qed.
Example ex_linear_outer :
  stateAfter (exec noCall 0 linearElemGenerator_outer_code [("t.dims", nats [2; 3; 4]%nat)]) = Some (nats [0; 0; 0]%nat).
Proof. vm_compute. reflexivity. Qed.
Example ex_eye_step :
  exec noCall 0 eyeElemGenerator_step_code [("n", VI 3); ("state", VI 8)]
  = ONormal [("n", VI 3); ("state", VI 9); ("atDiag", VB true)].
Proof. vm_compute. reflexivity. Qed.
Example ex_dot_outer_step :
  match exec noCall 0 linearLastDimDotProductElemGenerator_outer_code [("t1.dims", nats [2; 3; 5]%nat)] with
  | ONormal e => stateAfter (exec noCall 3 linearLastDimDotProductElemGenerator_step_code
                               (upd e "state" (nats [0; 2]%nat)))
  | _ => None
  end = Some (nats [1; 0]%nat).
Proof. vm_compute. reflexivity. Qed.
Example ex_matmul_outer_step :
  match exec noCall 0 linearLast2DimsMatMulElemGenerator_outer_code [("t1.dims", nats [2; 3; 5; 7]%nat)] with
  | ONormal e => stateAfter (exec noCall 3 linearLast2DimsMatMulElemGenerator_step_code
                               (upd e "state" (nats [0; 2]%nat)))
  | _ => None
  end = Some (nats [1; 0]%nat).
Proof. vm_compute. reflexivity. Qed.

Print Assumptions carry_loop.
Print Assumptions go_eyeElemGenerator_step_env.
Print Assumptions go_eyeElemGenerator_step.
Print Assumptions go_eyeElemGenerator_outer.
Print Assumptions go_linearElemGenerator_step.
Print Assumptions go_linearElemGenerator_step_model.
Print Assumptions go_linearElemGenerator_outer.
Print Assumptions go_linearLastDimDotProductElemGenerator_step.
Print Assumptions go_linearLastDimDotProductElemGenerator_step_model.
Print Assumptions go_linearLastDimDotProductElemGenerator_outer.
Print Assumptions go_linearLastDimDotProductElemGenerator_outer_panic.
Print Assumptions go_linearLast2DimsMatMulElemGenerator_step.
Print Assumptions go_linearLast2DimsMatMulElemGenerator_step_model.
Print Assumptions go_linearLast2DimsMatMulElemGenerator_outer.
Print Assumptions go_linearLast2DimsMatMulElemGenerator_outer_panic.
