(* GoGenP2.v — the element generators transposeElemGenerator (shape_modifiers.go) and
   linearElemGeneratorWithReducedDim (reducers.go) as translated by harness/gox (Model/GoFns.v) compute the
   hand-written model steps (Fill.trGen: incr on the swapped digit list; Data.redGen: incr_skip / redRanges). *)
From Coq Require Import String List ZArith Bool Lia Arith.
From Qeep Require Import Model.GoIR Model.GoFns Model.Fill Model.Data Proofs.GoIRP.
Import ListNotations.
Local Open Scope string_scope.
Local Open Scope Z_scope.
Local Open Scope list_scope.

(* ---------- small list facts ---------- *)

Lemma split_last2 {T} (l : list T) : (2 <= length l)%nat -> exists pre a b, l = pre ++ [a; b].
Proof.
  intros H. destruct (@exists_last _ l) as [l1 [b Hl]]; [intros ->; cbn in H; lia|]. subst l.
  rewrite app_length in H; cbn in H.
  destruct (@exists_last _ l1) as [pre [a Hl]]; [intros ->; cbn in H; lia|]. subst l1.
  exists pre, a, b. now rewrite <- app_assoc.
Qed.

Lemma nth_error_nats_mid (pre : list nat) x suf :
  nth_error (map (fun n => VI (Z.of_nat n)) (pre ++ x :: suf)) (length pre) = Some (VI (Z.of_nat x)).
Proof. rewrite map_app. cbn [map]. rewrite <- (map_length (fun n => VI (Z.of_nat n)) pre). apply nth_error_mid. Qed.

Lemma setNthV_nats_mid (pre : list nat) x suf y :
  setNthV (map (fun n => VI (Z.of_nat n)) (pre ++ x :: suf)) (length pre) (VI (Z.of_nat y))
  = Some (map (fun n => VI (Z.of_nat n)) (pre ++ y :: suf)).
Proof.
  rewrite !map_app. cbn [map]. rewrite <- (map_length (fun n => VI (Z.of_nat n)) pre). apply setNthV_mid.
Qed.

Lemma setNthV_nats_mid0 (pre : list nat) x suf :
  setNthV (map (fun n => VI (Z.of_nat n)) (pre ++ x :: suf)) (length pre) (VI 0)
  = Some (map (fun n => VI (Z.of_nat n)) (pre ++ 0%nat :: suf)).
Proof. exact (setNthV_nats_mid pre x suf 0). Qed.

(* ================================================================================================= *)
(* transposeElemGenerator                                                                          *)
(* ================================================================================================= *)

Lemma transposeElemGenerator_outer_shape : itemShape transposeElemGenerator_outer = [None; Some "return <closure>"].
Proof. reflexivity. Qed.

Lemma transposeElemGenerator_step_shape :
  itemShape transposeElemGenerator_step = [Some "elem := t.dataAt(state)"; None; Some "return elem"].
Proof. reflexivity. Qed.

(* the integer code of the closure body / of the initialisation *)
Definition tr_step_code : stmt := match transposeElemGenerator_step with [_; ICode c; _] => c | _ => SSkip end.
Definition tr_outer_code : stmt := match transposeElemGenerator_outer with [ICode c; _] => c | _ => SSkip end.

(* the index visited after index k in a tensor of n dimensions *)
Definition trNext (n k : Z) : Z := if k =? n - 2 then k + 1 else if k =? n - 1 then k - 2 else k - 1.

Section TrLoop.
Variable D : list nat.
Variables (cond : env -> option val) (body post : env -> outcome).
Hypothesis Hcond : forall e z, lookup e "i" = Some (VI z) -> cond e = Some (VB (z >=? 0)).
Hypothesis Hpost : forall e, post e = ONormal e.
Hypothesis Hbody : forall e pre x suf dpre d dsuf,
  D = dpre ++ d :: dsuf -> length dpre = length pre ->
  lookup e "i" = Some (VI (Z.of_nat (length pre))) ->
  lookup e "state" = Some (nats (pre ++ x :: suf)) ->
  lookup e "t.dims" = Some (nats D) ->
  if (S x <? d)%nat
  then exists e1, body e = OBreak e1 /\ lookup e1 "state" = Some (nats (pre ++ S x :: suf)) /\
                  lookup e1 "t.dims" = Some (nats D)
  else exists e1, body e = ONormal e1 /\ lookup e1 "state" = Some (nats (pre ++ 0%nat :: suf)) /\
                  lookup e1 "t.dims" = Some (nats D) /\
                  lookup e1 "i" = Some (VI (trNext (Z.of_nat (length D)) (Z.of_nat (length pre)))).

(* the linear phase: indices n-3, ..., 0 *)
Lemma tr_lin_loop : forall (rp rdp : list nat) (suf dsuf : list nat) (fuel : nat) (e : env),
  length rp = length rdp -> D = rev rdp ++ dsuf -> length suf = length dsuf -> (2 <= length suf)%nat ->
  lookup e "i" = Some (VI (Z.of_nat (length rp) - 1)) ->
  lookup e "state" = Some (nats (rev rp ++ suf)) ->
  lookup e "t.dims" = Some (nats D) ->
  (length rp < fuel)%nat ->
  exists e', forLoop fuel cond body post e = ONormal e' /\
             lookup e' "state" = Some (nats (rev (incr rdp rp) ++ suf)) /\
             lookup e' "t.dims" = Some (nats D).
Proof.
  induction rp as [|x rp IH]; intros [|d rdp] suf dsuf fuel e Hl HD Hs H2 Hi Hst Hd Hf; cbn in Hl; try discriminate.
  - destruct fuel as [|fuel]; [cbn in Hf; lia|]. cbn [forLoop]. rewrite (Hcond _ _ Hi). cbn.
    exists e. auto.
  - destruct fuel as [|fuel]; [cbn in Hf; lia|]. cbn [forLoop]. rewrite (Hcond _ _ Hi).
    replace (Z.of_nat (length (x :: rp)) - 1 >=? 0) with true by (symmetry; apply Z.geb_le; cbn [length]; lia).
    cbn [rev] in Hst, HD. rewrite <- app_assoc in Hst, HD. cbn [app] in Hst, HD.
    assert (Hi' : lookup e "i" = Some (VI (Z.of_nat (length (rev rp))))).
    { rewrite Hi. rewrite rev_length. cbn [length]. do 2 f_equal. lia. }
    assert (Hlen : length (rev rdp) = length (rev rp)) by (rewrite !rev_length; lia).
    pose proof (Hbody e (rev rp) x suf (rev rdp) d dsuf HD Hlen Hi' Hst Hd) as Hb.
    cbn [incr]. destruct (S x <? d)%nat.
    + destruct Hb as [e1 [Hb [H1 H2']]]. rewrite Hb. exists e1. split; [reflexivity|]. split; [|exact H2'].
      rewrite H1. cbn [rev]. now rewrite <- app_assoc.
    + destruct Hb as [e1 [Hb [H1 [H2' H3]]]]. rewrite Hb, Hpost.
      destruct (IH rdp (0%nat :: suf) (d :: dsuf) fuel e1) as [e' [He' [Hs' Hd']]]; try assumption.
      * lia.
      * cbn; lia.
      * cbn; lia.
      * rewrite H3. unfold trNext. rewrite rev_length.
        assert (Hn : length D = (length rdp + S (length dsuf))%nat).
        { rewrite HD, app_length, rev_length. reflexivity. }
        replace (Z.of_nat (length rp) =? Z.of_nat (length D) - 2) with false by (symmetry; apply Z.eqb_neq; lia).
        replace (Z.of_nat (length rp) =? Z.of_nat (length D) - 1) with false by (symmetry; apply Z.eqb_neq; lia).
        reflexivity.
      * cbn [length] in Hf. lia.
      * exists e'. split; [exact He'|]. split; [|exact Hd'].
        rewrite Hs'. cbn [rev]. now rewrite <- app_assoc.
Qed.

Lemma tr_loop (pre dpre : list nat) (a b da db : nat) (fuel : nat) (e : env) :
  D = dpre ++ [da; db] -> length dpre = length pre ->
  lookup e "i" = Some (VI (Z.of_nat (length D) - 2)) ->
  lookup e "state" = Some (nats (pre ++ [a; b])) ->
  lookup e "t.dims" = Some (nats D) ->
  (S (S (length D)) <= fuel)%nat ->
  exists e', forLoop fuel cond body post e = ONormal e' /\
             lookup e' "state" = Some (nats (rev (swap01 (incr (swap01 (rev D)) (swap01 (rev (pre ++ [a; b]))))))) /\
             lookup e' "t.dims" = Some (nats D).
Proof.
  intros HD Hl Hi Hst Hd Hf.
  assert (Hn : length D = (length pre + 2)%nat) by (rewrite HD, app_length, Hl; reflexivity).
  replace (rev D) with (db :: da :: rev dpre) by (rewrite HD, rev_app_distr; reflexivity).
  rewrite !rev_app_distr. cbn [rev app swap01 incr].
  destruct fuel as [|fuel]; [lia|]. cbn [forLoop]. rewrite (Hcond _ _ Hi).
  replace (Z.of_nat (length D) - 2 >=? 0) with true by (symmetry; apply Z.geb_le; lia).
  assert (Hi' : lookup e "i" = Some (VI (Z.of_nat (length pre)))) by (rewrite Hi; do 2 f_equal; lia).
  pose proof (Hbody e pre a [b] dpre da [db] HD Hl Hi' Hst Hd) as Hb.
  destruct (S a <? da)%nat.
  { destruct Hb as [e1 [Hb [H1 H2]]]. rewrite Hb. exists e1. split; [reflexivity|]. split; [|exact H2].
    rewrite H1. cbn [rev swap01]. rewrite <- !app_assoc. cbn [app]. now rewrite rev_involutive. }
  destruct Hb as [e1 [Hb [H1 [H2 H3]]]]. rewrite Hb, Hpost.
  unfold trNext in H3.
  replace (Z.of_nat (length pre) =? Z.of_nat (length D) - 2) with true in H3 by (symmetry; apply Z.eqb_eq; lia).
  destruct fuel as [|fuel]; [lia|]. cbn [forLoop]. rewrite (Hcond _ _ H3).
  replace (Z.of_nat (length pre) + 1 >=? 0) with true by (symmetry; apply Z.geb_le; lia).
  assert (HD2 : D = (dpre ++ [da]) ++ db :: []) by (rewrite <- app_assoc; exact HD).
  assert (Hl2 : length (dpre ++ [da]) = length (pre ++ [0%nat])) by (rewrite !app_length, Hl; reflexivity).
  assert (Hi2 : lookup e1 "i" = Some (VI (Z.of_nat (length (pre ++ [0%nat]))))).
  { rewrite H3, app_length. cbn [length]. do 2 f_equal. lia. }
  assert (Hst2 : lookup e1 "state" = Some (nats ((pre ++ [0%nat]) ++ b :: []))) by (rewrite <- app_assoc; exact H1).
  pose proof (Hbody e1 (pre ++ [0%nat]) b [] (dpre ++ [da]) db [] HD2 Hl2 Hi2 Hst2 H2) as Hb2.
  destruct (S b <? db)%nat.
  { destruct Hb2 as [e2 [Hb2 [H21 H22]]]. rewrite Hb2. exists e2. split; [reflexivity|]. split; [|exact H22].
    rewrite H21. cbn [rev swap01]. rewrite <- !app_assoc. cbn [app]. now rewrite rev_involutive. }
  destruct Hb2 as [e2 [Hb2 [H21 [H22 H23]]]]. rewrite Hb2, Hpost.
  unfold trNext in H23. rewrite app_length in H23. cbn [length] in H23.
  replace (Z.of_nat (length pre + 1) =? Z.of_nat (length D) - 2) with false in H23 by (symmetry; apply Z.eqb_neq; lia).
  replace (Z.of_nat (length pre + 1) =? Z.of_nat (length D) - 1) with true in H23 by (symmetry; apply Z.eqb_eq; lia).
  destruct (tr_lin_loop (rev pre) (rev dpre) [0%nat; 0%nat] [da; db] fuel e2) as [e' [He' [Hs' Hd']]].
  - rewrite !rev_length; lia.
  - now rewrite rev_involutive.
  - reflexivity.
  - cbn; lia.
  - rewrite H23, rev_length. do 2 f_equal. lia.
  - rewrite rev_involutive, H21, <- !app_assoc. reflexivity.
  - exact H22.
  - rewrite rev_length. lia.
  - exists e'. split; [exact He'|]. split; [|exact Hd'].
    rewrite Hs'. cbn [rev swap01]. rewrite <- !app_assoc. reflexivity.
Qed.
End TrLoop.

Ltac trstep Hst Hi Hd Hn1 Hn2 :=
  repeat (progress (gxs; unfold setElem; rewrite ?Hst, ?Hi, ?Hd, ?idxOf_nat, ?Hn1, ?Hn2, ?zlenV_map)).

Theorem go_transposeElemGenerator_step call fuel (ds gs : list nat) (e : env) :
  (2 <= length ds)%nat -> length gs = length ds -> (S (S (length ds)) <= fuel)%nat ->
  lookup e "t.dims" = Some (nats ds) -> lookup e "state" = Some (nats gs) ->
  exists e', exec call fuel tr_step_code e = ONormal e' /\
             lookup e' "state" = Some (nats (rev (swap01 (incr (swap01 (rev ds)) (swap01 (rev gs)))))) /\
             lookup e' "t.dims" = Some (nats ds).
Proof.
  intros H2 Hl Hf Hd Hst.
  destruct (split_last2 ds H2) as [dpre [da [db HD]]].
  assert (H2' : (2 <= length gs)%nat) by lia.
  destruct (split_last2 gs H2') as [pre [a [b HG]]].
  assert (Hlp : length dpre = length pre).
  { rewrite HD, HG, !app_length in Hl. cbn in Hl. lia. }
  rewrite HG in Hst. rewrite HG. clear HG H2' Hl.
  unfold tr_step_code, transposeElemGenerator_step. cbv beta iota.
  gxs. rewrite Hd. gxs. rewrite zlenV_map.
  match goal with |- context [forLoop ?f ?c ?bd ?p ?e0] =>
    apply (tr_loop ds c bd p) with (dpre := dpre) (da := da) (db := db)
  end; try assumption.
  - intros e1 z Hi. gxs. rewrite Hi. gxs. reflexivity.
  - intros e1. reflexivity.
  - clear e Hd Hst. intros e pre1 x suf dpre1 d dsuf HD1 Hl1 Hi Hst Hd.
    assert (Hn1 := nth_error_nats_mid pre1 x suf).
    assert (Hn2 : nth_error (map (fun n => VI (Z.of_nat n)) ds) (length pre1) = Some (VI (Z.of_nat d))).
    { rewrite HD1, <- Hl1. apply nth_error_nats_mid. }
    rewrite <- ltb_nat_Z1.
    destruct (Z.of_nat x <? Z.of_nat d - 1) eqn:E.
    + eexists. split; [|split].
      * trstep Hst Hi Hd Hn1 Hn2. rewrite E. trstep Hst Hi Hd Hn1 Hn2.
        replace (Z.of_nat x + 1) with (Z.of_nat (S x)) by lia. rewrite setNthV_nats_mid.
        trstep Hst Hi Hd Hn1 Hn2. reflexivity.
      * lk. reflexivity.
      * lk. exact Hd.
    + unfold trNext.
      destruct (Z.of_nat (length pre1) =? Z.of_nat (length ds) - 2) eqn:E1;
        [| destruct (Z.of_nat (length pre1) =? Z.of_nat (length ds) - 1) eqn:E2];
        (eexists; split; [|split; [|split]];
         [ trstep Hst Hi Hd Hn1 Hn2; rewrite E; trstep Hst Hi Hd Hn1 Hn2;
           rewrite setNthV_nats_mid0; trstep Hst Hi Hd Hn1 Hn2;
           rewrite ?E1; trstep Hst Hi Hd Hn1 Hn2; rewrite ?E2; trstep Hst Hi Hd Hn1 Hn2; reflexivity
         | lk; reflexivity
         | lk; exact Hd
         | lk; reflexivity ]).
  - lk. reflexivity.
  - lk. exact Hst.
  - lk. exact Hd.
Qed.

(* the same statement for whatever integer code sits between the two opaque statements *)
Corollary go_transposeElemGenerator_step_items call fuel (ds gs : list nat) (e : env) a c b :
  transposeElemGenerator_step = [IOpaque a; ICode c; IOpaque b] ->
  (2 <= length ds)%nat -> length gs = length ds -> (S (S (length ds)) <= fuel)%nat ->
  lookup e "t.dims" = Some (nats ds) -> lookup e "state" = Some (nats gs) ->
  exists e', exec call fuel c e = ONormal e' /\
             lookup e' "state" = Some (nats (rev (swap01 (incr (swap01 (rev ds)) (swap01 (rev gs)))))) /\
             lookup e' "t.dims" = Some (nats ds).
Proof.
  intros Hc. assert (c = tr_step_code) as -> by (unfold tr_step_code; rewrite Hc; reflexivity).
  apply go_transposeElemGenerator_step.
Qed.

Lemma map_repeat_l {T U} (f : T -> U) x n : map f (repeat x n) = repeat (f x) n.
Proof. induction n; cbn; congruence. Qed.

(* Go's initial state (all zeros) is the model's initial state linInit in the model's (visiting) order *)
Lemma tr_init_repr (ds : list nat) : swap01 (rev (linInit ds)) = linInit ds.
Proof.
  unfold linInit. rewrite rev_repeat. destruct (length ds) as [|[|n]]; reflexivity.
Qed.

Theorem go_transposeElemGenerator_outer call fuel (ds : list nat) (e : env) :
  lookup e "t.dims" = Some (nats ds) ->
  exists e', exec call fuel tr_outer_code e = ONormal e' /\
             lookup e' "state" = Some (nats (linInit ds)) /\
             lookup e' "t.dims" = Some (nats ds).
Proof.
  intros Hd. unfold tr_outer_code, transposeElemGenerator_outer. cbv beta iota.
  gxs. rewrite Hd. gxs. rewrite zlenV_map.
  replace (0 <=? Z.of_nat (length ds)) with true by (symmetry; apply Z.leb_le; lia).
  eexists. split; [reflexivity|]. split.
  - lk. unfold linInit, nats. rewrite Nat2Z.id, map_repeat_l. reflexivity.
  - lk. exact Hd.
Qed.

(* a concrete run: dims [2;2;3], Go state [0;1;2]: digit 1 wraps, then digit 2 wraps, then digit 0 is incremented *)
Example tr_step_ex :
  exec (fun _ _ => OPanic) 10 tr_step_code [("t.dims", nats [2;2;3]%nat); ("state", nats [0;1;2]%nat)]
  = ONormal [("t.dims", nats [2;2;3]%nat); ("state", nats [1;0;0]%nat); ("i", VI 0)].
Proof. vm_compute. reflexivity. Qed.

(* ================================================================================================= *)
(* linearElemGeneratorWithReducedDim                                                               *)
(* ================================================================================================= *)

Lemma linearElemGeneratorWithReducedDim_outer_shape :
  itemShape linearElemGeneratorWithReducedDim_outer = [None; Some "return <closure>"].
Proof. reflexivity. Qed.

Lemma linearElemGeneratorWithReducedDim_step_shape :
  itemShape linearElemGeneratorWithReducedDim_step = [Some "row := t.slice(state)"; None; Some "return trf(row)"].
Proof. reflexivity. Qed.

Definition red_step_code : stmt :=
  match linearElemGeneratorWithReducedDim_step with [_; ICode c; _] => c | _ => SSkip end.
Definition red_outer_code : stmt :=
  match linearElemGeneratorWithReducedDim_outer with [ICode c; _] => c | _ => SSkip end.

(* embedding of a list of model ranges as a Go []tensor.Range *)
Definition rgv (r : range) : val := VR (Z.of_nat (fst r)) (Z.of_nat (snd r)).
Definition rangesN (l : list range) : val := VL (map rgv l).

(* redRanges on reversed lists (least significant first), the reduced dimension given by its position from the end *)
Fixpoint rr (k : option nat) (rds rst : list nat) : list range :=
  match rds, rst with
  | d :: ds', x :: st' =>
      match k with
      | Some O => (0%nat, d) :: rr None ds' st'
      | _ => (x, S x) :: rr (option_map pred k) ds' st'
      end
  | _, _ => []
  end.

Definition kOf (dim m : nat) : option nat := if (dim <? m)%nat then Some (m - 1 - dim)%nat else None.

Lemma rr_length k : forall rds rst, length rst = length rds -> length (rr k rds rst) = length rds.
Proof.
  intros rds; revert k. induction rds as [|d rds IH]; intros k [|x rst] H; cbn in *; try discriminate; auto.
  destruct k as [[|j]|]; cbn; rewrite IH; auto.
Qed.

Lemma incr_skip_length : forall rds k rst, length rst = length rds -> length (incr_skip k rds rst) = length rds.
Proof.
  induction rds as [|d rds IH]; intros k [|x rst] H; cbn [length incr_skip] in *; try discriminate; auto.
  destruct k as [[|j]|]; cbn [length].
  - rewrite IH; auto.
  - destruct (S x <? d)%nat; cbn [length]; [lia | rewrite IH; auto].
  - destruct (S x <? d)%nat; cbn [length]; [lia | rewrite IH; auto].
Qed.

Lemma combine_app_l {T U} (a a' : list T) (b b' : list U) :
  length a = length b -> combine (a ++ a') (b ++ b') = combine a b ++ combine a' b'.
Proof.
  revert b; induction a as [|x a IH]; intros [|y b] H; cbn in *; try discriminate; auto.
  rewrite IH; auto.
Qed.

Lemma redRanges_rr : forall (rds rst : list nat), length rst = length rds -> forall dim,
  redRanges dim (rev rds) (rev rst) = rev (rr (kOf dim (length rds)) rds rst).
Proof.
  induction rds as [|d rds IH]; intros [|x rst] H dim; cbn in H; try discriminate.
  - reflexivity.
  - assert (H' : length rst = length rds) by lia. specialize (IH rst H' dim).
    unfold redRanges in *. cbn [rev]. rewrite app_length. cbn [length].
    rewrite seq_app. rewrite (combine_app_l (rev rst) [x] (rev rds) [d]) by (rewrite !rev_length; lia).
    rewrite combine_app_l by (rewrite seq_length, combine_length, !rev_length; lia).
    rewrite map_app, IH. cbn [seq combine map]. rewrite rev_length. cbn [plus].
    unfold kOf. cbn [rr].
    destruct (Nat.ltb_spec dim (S (length rds))) as [L1|L1].
    + destruct (S (length rds) - 1 - dim)%nat as [|j] eqn:Ej.
      * assert (dim = length rds) by lia. subst dim. rewrite Nat.eqb_refl.
        destruct (Nat.ltb_spec (length rds) (length rds)); [lia|]. reflexivity.
      * destruct (Nat.eqb_spec (length rds) dim); [lia|].
        destruct (Nat.ltb_spec dim (length rds)); [|lia].
        cbn [option_map Nat.pred rev]. replace j with (length rds - 1 - dim)%nat by lia. reflexivity.
    + destruct (Nat.eqb_spec (length rds) dim); [lia|].
      destruct (Nat.ltb_spec dim (length rds)); [lia|]. reflexivity.
Qed.

Lemma nth_error_rg_mid (pre : list range) f t suf :
  nth_error (map rgv (pre ++ (f, t) :: suf)) (length pre) = Some (VR (Z.of_nat f) (Z.of_nat t)).
Proof. rewrite map_app. cbn [map]. rewrite <- (map_length rgv pre). apply nth_error_mid. Qed.

Lemma setNthV_rg_mid (pre : list range) r suf f t :
  setNthV (map rgv (pre ++ r :: suf)) (length pre) (VR (Z.of_nat f) (Z.of_nat t))
  = Some (map rgv (pre ++ (f, t) :: suf)).
Proof. rewrite !map_app. cbn [map]. rewrite <- (map_length rgv pre). apply setNthV_mid. Qed.

Section RedLoop.
Variable D : list nat.
Variable dim : nat.
Variables (cond : env -> option val) (body post : env -> outcome).
Hypothesis Hcond : forall e z, lookup e "i" = Some (VI z) -> cond e = Some (VB (z >=? 0)).
Hypothesis Hpost : forall e, post e = ONormal e.

Definition redEnv (e : env) : Prop :=
  lookup e "t.dims" = Some (nats D) /\ lookup e "dim" = Some (VI (Z.of_nat dim)).

Hypothesis Hbody : forall e pre f t suf dpre d dsuf,
  D = dpre ++ d :: dsuf -> length dpre = length pre ->
  lookup e "i" = Some (VI (Z.of_nat (length pre))) ->
  lookup e "state" = Some (rangesN (pre ++ (f, t) :: suf)) ->
  redEnv e ->
  if (length pre =? dim)%nat
  then exists e1, body e = OContinue e1 /\ lookup e1 "state" = Some (rangesN (pre ++ (f, t) :: suf)) /\ redEnv e1 /\
                  lookup e1 "i" = Some (VI (Z.of_nat (length pre) - 1))
  else if (t <? d)%nat
  then exists e1, body e = OBreak e1 /\ lookup e1 "state" = Some (rangesN (pre ++ (S f, S t) :: suf)) /\ redEnv e1
  else exists e1, body e = ONormal e1 /\ lookup e1 "state" = Some (rangesN (pre ++ (0%nat, 1%nat) :: suf)) /\ redEnv e1 /\
                  lookup e1 "i" = Some (VI (Z.of_nat (length pre) - 1)).

Definition kRel (k : option nat) (m : nat) : Prop :=
  match k with
  | Some j => (j < m)%nat /\ dim = (m - 1 - j)%nat
  | None => (m <= dim)%nat
  end.

Lemma red_loop : forall (rds rst : list nat) (k : option nat) (suf : list range) (dsuf : list nat) (fuel : nat) (e : env),
  length rst = length rds -> D = rev rds ++ dsuf -> kRel k (length rds) ->
  lookup e "i" = Some (VI (Z.of_nat (length rds) - 1)) ->
  lookup e "state" = Some (rangesN (rev (rr k rds rst) ++ suf)) ->
  redEnv e ->
  (length rds < fuel)%nat ->
  exists e', forLoop fuel cond body post e = ONormal e' /\
             lookup e' "state" = Some (rangesN (rev (rr k rds (incr_skip k rds rst)) ++ suf)) /\
             redEnv e'.
Proof.
  induction rds as [|d rds IH]; intros [|x rst] k suf dsuf fuel e Hl HD Hk Hi Hst He Hf; cbn [length] in Hl; try discriminate.
  - destruct fuel as [|fuel]; [cbn in Hf; lia|]. cbn [forLoop]. rewrite (Hcond _ _ Hi). cbn.
    exists e. destruct k as [[|j]|]; auto.
  - destruct fuel as [|fuel]; [cbn in Hf; lia|]. cbn [forLoop]. rewrite (Hcond _ _ Hi).
    replace (Z.of_nat (length (d :: rds)) - 1 >=? 0) with true by (symmetry; apply Z.geb_le; cbn [length]; lia).
    assert (Hl' : length rst = length rds) by lia.
    assert (Hi' : forall k', lookup e "i" = Some (VI (Z.of_nat (length (rev (rr k' rds rst)))))).
    { intros k'. rewrite Hi, rev_length, rr_length by exact Hl'. cbn [length]. do 2 f_equal. lia. }
    assert (Hlen : forall k', length (rev rds) = length (rev (rr k' rds rst))).
    { intros k'. rewrite !rev_length, rr_length by exact Hl'. reflexivity. }
    assert (Hlr : forall k', Z.of_nat (length (rev (rr k' rds rst))) - 1 = Z.of_nat (length rds) - 1).
    { intros k'. rewrite rev_length, rr_length by exact Hl'. reflexivity. }
    assert (Hlq : forall k', length (rev (rr k' rds rst)) = length rds).
    { intros k'. rewrite rev_length, rr_length by exact Hl'. reflexivity. }
    cbn [rev] in HD. rewrite <- app_assoc in HD. cbn [app] in HD.
    cbn [length] in Hf.
    destruct k as [[|j]|]; cbn [rr incr_skip option_map Nat.pred] in *.
    + (* the reduced dimension: skipped *)
      destruct Hk as [_ Hk]. cbn [length] in Hk.
      cbn [rev] in Hst. rewrite <- app_assoc in Hst. cbn [app] in Hst.
      pose proof (Hbody e _ _ _ _ _ _ _ HD (Hlen None) (Hi' None) Hst He) as Hb.
      rewrite Hlq in Hb.
      replace (length rds =? dim)%nat with true in Hb by (symmetry; apply Nat.eqb_eq; lia).
      destruct Hb as [e1 [Hb [H1 [H2 H3]]]]. rewrite Hb, Hpost.
      destruct (IH rst None ((0%nat, d) :: suf) (d :: dsuf) fuel e1) as [e' [He' [Hs' Hd']]]; try assumption.
      * cbn. lia.
      * lia.
      * exists e'. split; [exact He'|]. split; [|exact Hd'].
        rewrite Hs'. cbn [rev]. now rewrite <- app_assoc.
    + destruct Hk as [Hk1 Hk]. cbn [length] in Hk, Hk1.
      cbn [rev] in Hst. rewrite <- app_assoc in Hst. cbn [app] in Hst.
      pose proof (Hbody e _ _ _ _ _ _ _ HD (Hlen (Some j)) (Hi' (Some j)) Hst He) as Hb.
      rewrite Hlq in Hb.
      replace (length rds =? dim)%nat with false in Hb by (symmetry; apply Nat.eqb_neq; lia).
      destruct (S x <? d)%nat.
      * destruct Hb as [e1 [Hb [H1 H2]]]. rewrite Hb. exists e1. split; [reflexivity|]. split; [|exact H2].
        rewrite H1. cbn [rr rev]. now rewrite <- app_assoc.
      * destruct Hb as [e1 [Hb [H1 [H2 H3]]]]. rewrite Hb, Hpost.
        destruct (IH rst (Some j) ((0%nat, 1%nat) :: suf) (d :: dsuf) fuel e1) as [e' [He' [Hs' Hd']]]; try assumption.
        -- cbn. split; lia.
        -- lia.
        -- exists e'. split; [exact He'|]. split; [|exact Hd'].
           rewrite Hs'. cbn [rr rev option_map Nat.pred]. now rewrite <- app_assoc.
    + cbn [kRel length] in Hk.
      cbn [rev] in Hst. rewrite <- app_assoc in Hst. cbn [app] in Hst.
      pose proof (Hbody e _ _ _ _ _ _ _ HD (Hlen None) (Hi' None) Hst He) as Hb.
      rewrite Hlq in Hb.
      replace (length rds =? dim)%nat with false in Hb by (symmetry; apply Nat.eqb_neq; lia).
      destruct (S x <? d)%nat.
      * destruct Hb as [e1 [Hb [H1 H2]]]. rewrite Hb. exists e1. split; [reflexivity|]. split; [|exact H2].
        rewrite H1. cbn [rr rev]. now rewrite <- app_assoc.
      * destruct Hb as [e1 [Hb [H1 [H2 H3]]]]. rewrite Hb, Hpost.
        destruct (IH rst None ((0%nat, 1%nat) :: suf) (d :: dsuf) fuel e1) as [e' [He' [Hs' Hd']]]; try assumption.
        -- cbn. lia.
        -- lia.
        -- exists e'. split; [exact He'|]. split; [|exact Hd'].
           rewrite Hs'. cbn [rr rev option_map Nat.pred]. now rewrite <- app_assoc.
Qed.
End RedLoop.

Lemma redRanges_rev_rr (dim : nat) (ds st : list nat) :
  (dim < length ds)%nat -> length st = length ds ->
  redRanges dim ds (rev st) = rev (rr (Some (length ds - 1 - dim)%nat) (rev ds) st).
Proof.
  intros Hdim Hl.
  assert (Hl' : length st = length (rev ds)) by (rewrite rev_length; exact Hl).
  pose proof (redRanges_rr (rev ds) st Hl' dim) as X. rewrite rev_involutive in X. rewrite X.
  unfold kOf. rewrite rev_length. destruct (Nat.ltb_spec dim (length ds)); [reflexivity | lia].
Qed.

Ltac redstep Hst Hi Hd Hdim Hn2 :=
  repeat (progress (gxs; unfold setElem;
                    rewrite ?Hst, ?Hi, ?Hd, ?Hdim, ?idxOf_nat, ?nth_error_rg_mid, ?Hn2, ?zlenV_map, ?eqb_nat_Z, ?ltb_nat_Z)).

Theorem go_linearElemGeneratorWithReducedDim_step call fuel (ds st : list nat) (dim : nat) (e : env) :
  (dim < length ds)%nat -> length st = length ds -> (S (length ds) <= fuel)%nat ->
  lookup e "t.dims" = Some (nats ds) -> lookup e "dim" = Some (VI (Z.of_nat dim)) ->
  lookup e "state" = Some (rangesN (redRanges dim ds (rev st))) ->
  exists e', exec call fuel red_step_code e = ONormal e' /\
             lookup e' "state" =
               Some (rangesN (redRanges dim ds (rev (incr_skip (Some (length ds - 1 - dim)%nat) (rev ds) st)))) /\
             lookup e' "t.dims" = Some (nats ds) /\ lookup e' "dim" = Some (VI (Z.of_nat dim)).
Proof.
  intros Hdim Hl Hf Hd Hdm Hst.
  rewrite redRanges_rev_rr in Hst by assumption.
  assert (Hl2 : length (incr_skip (Some (length ds - 1 - dim)%nat) (rev ds) st) = length ds).
  { rewrite incr_skip_length; rewrite rev_length; [reflexivity | exact Hl]. }
  rewrite (redRanges_rev_rr dim ds _ Hdim Hl2). clear Hl2.
  set (k := (length ds - 1 - dim)%nat) in *.
  unfold red_step_code, linearElemGeneratorWithReducedDim_step. cbv beta iota.
  gxs. rewrite Hd. gxs. rewrite zlenV_map.
  match goal with |- context [forLoop ?f ?c ?bd ?p ?e0] =>
    destruct (red_loop ds dim c bd p) with (rds := rev ds) (rst := st) (k := Some k) (suf := @nil range)
                                            (dsuf := @nil nat) (fuel := f) (e := e0)
      as [e' [He' [Hs' [Hd' Hdm']]]]
  end.
  - intros e1 z Hi. gxs. rewrite Hi. gxs. reflexivity.
  - intros e1. reflexivity.
  - clear e Hd Hst Hdm. intros e pre f t suf dpre d dsuf HD1 Hl1 Hi Hst [Hd Hdm].
    unfold rangesN in *.
    assert (Hn2 : nth_error (map (fun n => VI (Z.of_nat n)) ds) (length pre) = Some (VI (Z.of_nat d))).
    { rewrite HD1, <- Hl1. apply nth_error_nats_mid. }
    destruct (length pre =? dim)%nat eqn:E; [| destruct (t <? d)%nat eqn:E2].
    + eexists. split; [|split; [|split; [split|]]].
      * redstep Hst Hi Hd Hdm Hn2. rewrite E. redstep Hst Hi Hd Hdm Hn2. reflexivity.
      * lk. exact Hst.
      * lk. exact Hd.
      * lk. exact Hdm.
      * lk. reflexivity.
    + eexists. split; [|split; [|split]].
      * redstep Hst Hi Hd Hdm Hn2. rewrite E. redstep Hst Hi Hd Hdm Hn2. rewrite E2. redstep Hst Hi Hd Hdm Hn2.
        replace (Z.of_nat f + 1) with (Z.of_nat (S f)) by lia. rewrite setNthV_rg_mid.
        redstep Hst Hi Hd Hdm Hn2.
        replace (Z.of_nat t + 1) with (Z.of_nat (S t)) by lia. rewrite setNthV_rg_mid.
        redstep Hst Hi Hd Hdm Hn2. reflexivity.
      * lk. reflexivity.
      * lk. exact Hd.
      * lk. exact Hdm.
    + eexists. split; [|split; [|split; [split|]]].
      * redstep Hst Hi Hd Hdm Hn2. rewrite E. redstep Hst Hi Hd Hdm Hn2. rewrite E2. redstep Hst Hi Hd Hdm Hn2.
        change (VR 0 (Z.of_nat t)) with (VR (Z.of_nat 0) (Z.of_nat t)). rewrite setNthV_rg_mid.
        redstep Hst Hi Hd Hdm Hn2.
        change (VR (Z.of_nat 0) 1) with (VR (Z.of_nat 0) (Z.of_nat 1)). rewrite setNthV_rg_mid.
        redstep Hst Hi Hd Hdm Hn2. reflexivity.
      * lk. reflexivity.
      * lk. exact Hd.
      * lk. exact Hdm.
      * lk. reflexivity.
  - rewrite rev_length. exact Hl.
  - rewrite rev_involutive, app_nil_r. reflexivity.
  - unfold kRel. rewrite rev_length. subst k. split; lia.
  - lk. rewrite rev_length. reflexivity.
  - lk. rewrite app_nil_r. exact Hst.
  - split; lk; assumption.
  - rewrite rev_length. lia.
  - exists e'. rewrite app_nil_r in Hs'. auto.
Qed.

Corollary go_linearElemGeneratorWithReducedDim_step_items call fuel (ds st : list nat) (dim : nat) (e : env) a c b :
  linearElemGeneratorWithReducedDim_step = [IOpaque a; ICode c; IOpaque b] ->
  (dim < length ds)%nat -> length st = length ds -> (S (length ds) <= fuel)%nat ->
  lookup e "t.dims" = Some (nats ds) -> lookup e "dim" = Some (VI (Z.of_nat dim)) ->
  lookup e "state" = Some (rangesN (redRanges dim ds (rev st))) ->
  exists e', exec call fuel c e = ONormal e' /\
             lookup e' "state" =
               Some (rangesN (redRanges dim ds (rev (incr_skip (Some (length ds - 1 - dim)%nat) (rev ds) st)))) /\
             lookup e' "t.dims" = Some (nats ds) /\ lookup e' "dim" = Some (VI (Z.of_nat dim)).
Proof.
  intros Hc. assert (c = red_step_code) as -> by (unfold red_step_code; rewrite Hc; reflexivity).
  apply go_linearElemGeneratorWithReducedDim_step.
Qed.

(* ---------- the initialisation ---------- *)

Section RedOuterLoop.
Variables (cond : env -> option val) (body post : env -> outcome).
Hypothesis Hcond : forall e z L, lookup e "i" = Some (VI z) -> lookup e "state" = Some (VL L) ->
  cond e = Some (VB (z <? zlenV L)).
Hypothesis Hpost : forall e z, lookup e "i" = Some (VI z) -> post e = ONormal (upd e "i" (VI (z + 1))).
Hypothesis Hbody : forall e pre f t suf,
  lookup e "i" = Some (VI (Z.of_nat (length pre))) ->
  lookup e "state" = Some (VL (pre ++ VR f t :: suf)) ->
  body e = ONormal (upd (upd e "state" (VL (pre ++ VR 0 t :: suf))) "state" (VL (pre ++ VR 0 1 :: suf))).

Lemma red_outer_loop : forall (m : nat) (pre : list val) (fuel : nat) (e : env),
  lookup e "i" = Some (VI (Z.of_nat (length pre))) ->
  lookup e "state" = Some (VL (pre ++ repeat (VR 0 0) m)) ->
  (m < fuel)%nat ->
  exists e', forLoop fuel cond body post e = ONormal e' /\
             lookup e' "state" = Some (VL (pre ++ repeat (VR 0 1) m)) /\
             lookup e' "t.dims" = lookup e "t.dims" /\ lookup e' "dim" = lookup e "dim".
Proof.
  induction m as [|m IH]; intros pre fuel e Hi Hst Hf.
  - destruct fuel as [|fuel]; [lia|]. cbn [forLoop]. rewrite (Hcond _ _ _ Hi Hst).
    unfold zlenV. cbn [repeat]. rewrite app_nil_r, Z.ltb_irrefl.
    exists e. cbn [repeat] in Hst. rewrite app_nil_r in Hst. auto.
  - destruct fuel as [|fuel]; [lia|]. cbn [forLoop]. rewrite (Hcond _ _ _ Hi Hst).
    replace (Z.of_nat (length pre) <? zlenV (pre ++ repeat (VR 0 0) (S m))) with true
      by (symmetry; apply Z.ltb_lt; unfold zlenV; rewrite app_length; cbn [repeat length]; lia).
    cbn [repeat] in Hst. rewrite (Hbody _ _ _ _ _ Hi Hst).
    match goal with |- context [post ?e1] =>
      assert (Hi1 : lookup e1 "i" = Some (VI (Z.of_nat (length pre)))) by (lk; exact Hi);
      rewrite (Hpost e1 _ Hi1);
      destruct (IH (pre ++ [VR 0 1]) fuel (upd e1 "i" (VI (Z.of_nat (length pre) + 1)))) as [e' [He' [Hs' [Hd' Hm']]]]
    end.
    + lk. rewrite app_length. cbn [length]. do 2 f_equal. lia.
    + lk. rewrite <- app_assoc. reflexivity.
    + lia.
    + exists e'. split; [exact He'|]. split; [|split].
      * rewrite Hs', <- app_assoc. reflexivity.
      * rewrite Hd'. lk. reflexivity.
      * rewrite Hm'. lk. reflexivity.
Qed.
End RedOuterLoop.

Definition redF (dim : nat) : nat * (nat * nat) -> range :=
  fun p => let '(i, (x, d)) := p in if (i =? dim)%nat then (0%nat, d) else (x, S x).

Lemma redRanges_redF dim ds idx : redRanges dim ds idx = map (redF dim) (combine (seq 0 (length ds)) (combine idx ds)).
Proof. reflexivity. Qed.

Lemma redF_zero_suf dim : forall (dsuf : list nat) (s : nat), (dim < s)%nat ->
  map (redF dim) (combine (seq s (length dsuf)) (combine (repeat 0%nat (length dsuf)) dsuf))
  = repeat (0%nat, 1%nat) (length dsuf).
Proof.
  induction dsuf as [|d dsuf IH]; intros s Hs; [reflexivity|].
  cbn [length seq repeat combine map redF]. rewrite IH by lia.
  destruct (Nat.eqb_spec s dim); [lia | reflexivity].
Qed.

Lemma redF_zero dim d dsuf : forall (dpre : list nat) (s : nat), (s + length dpre = dim)%nat ->
  map (redF dim) (combine (seq s (length (dpre ++ d :: dsuf)))
                          (combine (repeat 0%nat (length (dpre ++ d :: dsuf))) (dpre ++ d :: dsuf)))
  = repeat (0%nat, 1%nat) (length dpre) ++ (0%nat, d) :: repeat (0%nat, 1%nat) (length dsuf).
Proof.
  induction dpre as [|a dpre IH]; intros s Hs.
  - cbn [app length seq repeat combine map redF]. cbn [length] in Hs.
    rewrite redF_zero_suf by lia.
    destruct (Nat.eqb_spec s dim); [reflexivity | lia].
  - cbn [app length seq repeat combine map redF]. cbn [length] in Hs. rewrite IH by lia.
    destruct (Nat.eqb_spec s dim); [lia | reflexivity].
Qed.

Lemma nth_error_mid' {T} (pre : list T) x suf n : n = length pre -> nth_error (pre ++ x :: suf) n = Some x.
Proof. intros ->. apply nth_error_mid. Qed.

Lemma setNthV_mid' (pre : list val) x suf v n : n = length pre -> setNthV (pre ++ x :: suf) n v = Some (pre ++ v :: suf).
Proof. intros ->. apply setNthV_mid. Qed.

Theorem go_linearElemGeneratorWithReducedDim_outer call fuel (ds : list nat) (dim : nat) (e : env) :
  (dim < length ds)%nat -> (S (length ds) <= fuel)%nat ->
  lookup e "t.dims" = Some (nats ds) -> lookup e "dim" = Some (VI (Z.of_nat dim)) ->
  exists e', exec call fuel red_outer_code e = ONormal e' /\
             lookup e' "state" = Some (rangesN (redRanges dim ds (repeat 0%nat (length ds)))) /\
             lookup e' "t.dims" = Some (nats ds) /\ lookup e' "dim" = Some (VI (Z.of_nat dim)).
Proof.
  intros Hdim Hf Hd Hdm.
  destruct (nth_error ds dim) as [d|] eqn:En; [| apply nth_error_None in En; lia].
  destruct (nth_error_split ds dim En) as [dpre [dsuf [HD Hlp]]].
  unfold red_outer_code, linearElemGeneratorWithReducedDim_outer. cbv beta iota.
  gxs. rewrite Hd. gxs. rewrite zlenV_map.
  replace (0 <=? Z.of_nat (length ds)) with true by (symmetry; apply Z.leb_le; lia).
  rewrite Nat2Z.id. gxs.
  match goal with |- context [forLoop ?f ?c ?bd ?p ?e0] =>
    destruct (red_outer_loop c bd p) with (m := length ds) (pre := @nil val) (fuel := f) (e := e0)
      as [e' [He' [Hs' [Hd' Hdm']]]]
  end.
  - intros e1 z L Hi Hst. gxs. rewrite Hi, Hst. gxs. reflexivity.
  - intros e1 z Hi. gxs. rewrite Hi. gxs. reflexivity.
  - intros e1 pre f t suf Hi Hst. gxs. unfold setElem. gxs. rewrite Hst, Hi. gxs.
    rewrite idxOf_nat, nth_error_mid, setNthV_mid. gxs. unfold setElem. gxs. rewrite Hi. gxs.
    rewrite idxOf_nat, nth_error_mid, setNthV_mid. reflexivity.
  - lk. reflexivity.
  - lk. reflexivity.
  - lia.
  - rewrite He'. cbn [app] in Hs'. revert Hd' Hdm'. lk. rewrite Hd, Hdm. intros Hd' Hdm'.
    gxs. unfold setElem. gxs. rewrite Hd', Hdm', Hs'. gxs. rewrite idxOf_nat.
    assert (Hnd : nth_error (map (fun n => VI (Z.of_nat n)) ds) dim = Some (VI (Z.of_nat d))).
    { rewrite HD, <- Hlp. apply nth_error_nats_mid. }
    rewrite Hnd. gxs.
    assert (Hrep : repeat (VR 0 1) (length ds) = repeat (VR 0 1) dim ++ VR 0 1 :: repeat (VR 0 1) (length dsuf)).
    { rewrite HD, app_length, repeat_app, Hlp. reflexivity. }
    rewrite Hrep.
    rewrite (nth_error_mid' _ _ _ dim) by (now rewrite repeat_length).
    rewrite (setNthV_mid' _ _ _ _ dim) by (now rewrite repeat_length).
    eexists. split; [reflexivity|]. split; [|split].
    + lk. unfold rangesN. rewrite redRanges_redF. rewrite HD at 1 2 3. rewrite (redF_zero dim d dsuf dpre 0%nat) by lia.
      rewrite map_app. cbn [map]. rewrite !map_repeat_l, Hlp. reflexivity.
    + lk. exact Hd'.
    + lk. exact Hdm'.
Qed.

(* the model's initial state: redGen starts from linInit ds (all digits 0), whose ranges are redRanges dim ds (rev (linInit ds)) *)
Lemma red_init_repr (ds : list nat) : rev (linInit ds) = repeat 0%nat (length ds).
Proof. unfold linInit. apply rev_repeat. Qed.

Corollary go_linearElemGeneratorWithReducedDim_outer_linInit call fuel (ds : list nat) (dim : nat) (e : env) :
  (dim < length ds)%nat -> (S (length ds) <= fuel)%nat ->
  lookup e "t.dims" = Some (nats ds) -> lookup e "dim" = Some (VI (Z.of_nat dim)) ->
  exists e', exec call fuel red_outer_code e = ONormal e' /\
             lookup e' "state" = Some (rangesN (redRanges dim ds (rev (linInit ds)))) /\
             lookup e' "t.dims" = Some (nats ds) /\ lookup e' "dim" = Some (VI (Z.of_nat dim)).
Proof. rewrite red_init_repr. apply go_linearElemGeneratorWithReducedDim_outer. Qed.

(* the model's representation of Go's transposition state: st = swap01 (rev gs); the step theorem in that form *)
Lemma swap01_invol {T} (l : list T) : swap01 (swap01 l) = l.
Proof. destruct l as [|a [|b l]]; reflexivity. Qed.

Corollary go_transposeElemGenerator_step_model call fuel (ds gs : list nat) (e : env) :
  (2 <= length ds)%nat -> length gs = length ds -> (S (S (length ds)) <= fuel)%nat ->
  lookup e "t.dims" = Some (nats ds) -> lookup e "state" = Some (nats gs) ->
  exists e' gs', exec call fuel tr_step_code e = ONormal e' /\
             lookup e' "state" = Some (nats gs') /\
             swap01 (rev gs') = incr (swap01 (rev ds)) (swap01 (rev gs)) /\
             lookup e' "t.dims" = Some (nats ds).
Proof.
  intros H2 Hl Hf Hd Hst.
  destruct (go_transposeElemGenerator_step call fuel ds gs e H2 Hl Hf Hd Hst) as [e' [He' [Hs' Hd']]].
  exists e', (rev (swap01 (incr (swap01 (rev ds)) (swap01 (rev gs))))).
  rewrite rev_involutive, swap01_invol. auto.
Qed.

(* concrete runs *)
Definition stateOf (o : outcome) : option val := match o with ONormal e => lookup e "state" | _ => None end.

Example red_step_ex :
  stateOf (exec (fun _ _ => OPanic) 10 red_step_code
             [("t.dims", nats [2;3;2]%nat); ("dim", VI 1); ("state", rangesN [(0,1); (0,3); (1,2)]%nat)])
  = Some (rangesN [(1,2); (0,3); (0,1)]%nat)
  /\ redRanges 1 [2;3;2]%nat (rev [1;0;0]%nat) = [(0,1); (0,3); (1,2)]%nat
  /\ redRanges 1 [2;3;2]%nat (rev (incr_skip (Some 1%nat) (rev [2;3;2]%nat) [1;0;0]%nat)) = [(1,2); (0,3); (0,1)]%nat.
Proof. vm_compute. auto. Qed.

Example red_outer_ex :
  stateOf (exec (fun _ _ => OPanic) 10 red_outer_code [("t.dims", nats [2;3;2]%nat); ("dim", VI 1)])
  = Some (rangesN [(0,1); (0,3); (0,1)]%nat).
Proof. vm_compute. reflexivity. Qed.

Example tr_outer_ex :
  stateOf (exec (fun _ _ => OPanic) 0 tr_outer_code [("t.dims", nats [2;3;2]%nat)]) = Some (nats [0;0;0]%nat).
Proof. vm_compute. reflexivity. Qed.

Print Assumptions transposeElemGenerator_outer_shape.
Print Assumptions transposeElemGenerator_step_shape.
Print Assumptions go_transposeElemGenerator_step.
Print Assumptions go_transposeElemGenerator_step_items.
Print Assumptions go_transposeElemGenerator_step_model.
Print Assumptions go_transposeElemGenerator_outer.
Print Assumptions linearElemGeneratorWithReducedDim_outer_shape.
Print Assumptions linearElemGeneratorWithReducedDim_step_shape.
Print Assumptions go_linearElemGeneratorWithReducedDim_step.
Print Assumptions go_linearElemGeneratorWithReducedDim_step_items.
Print Assumptions go_linearElemGeneratorWithReducedDim_outer.
Print Assumptions go_linearElemGeneratorWithReducedDim_outer_linInit.
