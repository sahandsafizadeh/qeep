(* GoGenP3.v — the integer code of the element generator broadcastElemGenerator
   (tensor/internal/cputensor/shape_modifiers.go), as translated by harness/gox (Model/GoFns.v),
   computes the generator step / initial state of Model/Fill.v (bstep, bsrcidx, bcInit).
   See coq/GOIR_NOTES.md. *)
From Coq Require Import String List ZArith Bool Lia Arith.
From Qeep Require Import Model.GoIR Model.GoFns Model.Fill Proofs.GoIRP.
Import ListNotations.
Local Open Scope string_scope.
Local Open Scope Z_scope.
Local Open Scope list_scope.

Lemma nth_mid (A : list val) v B n : n = length A -> nth_error (A ++ v :: B) n = Some v.
Proof. intros ->. apply nth_error_mid. Qed.

Lemma set_mid (A : list val) x v B n : n = length A -> setNthV (A ++ x :: B) n v = Some (A ++ v :: B).
Proof. intros ->. apply setNthV_mid. Qed.

(* the source dimension / the source index digit of one target position (none for the extra leading ones) *)
Definition d1 (p : bpos) : list nat := match bsrc p with Some d => [d] | None => [] end.
Definition s1 (p : bpos) : list nat := match bsrc p with Some _ => [bstt p] | None => [] end.
Definition dsOf (ps : list bpos) : list nat := flat_map d1 ps.
Definition sts (ps : list bpos) : list nat := flat_map s1 ps.

Lemma bsrcidx_sts ps : bsrcidx ps = rev (sts ps).
Proof.
  unfold bsrcidx, sts. f_equal. induction ps as [|p ps IH]; [reflexivity|].
  cbn [filter flat_map]. unfold s1 at 1. destruct (bsrc p); cbn [map app]; now rewrite IH.
Qed.

Lemma sts_dsOf_length ps : length (sts ps) = length (dsOf ps).
Proof.
  unfold sts, dsOf. induction ps as [|p ps IH]; [reflexivity|].
  cbn [flat_map]. rewrite !app_length, IH. unfold s1, d1. now destruct (bsrc p).
Qed.

Lemma split_rpt pre p rest :
  rev (map brpt (pre ++ p :: rest)) = rev (map brpt rest) ++ brpt p :: rev (map brpt pre).
Proof. rewrite map_app, rev_app_distr. cbn [map rev]. now rewrite <- app_assoc. Qed.

Lemma split_shp pre p rest :
  rev (map bshp (pre ++ p :: rest)) = rev (map bshp rest) ++ bshp p :: rev (map bshp pre).
Proof. rewrite map_app, rev_app_distr. cbn [map rev]. now rewrite <- app_assoc. Qed.

Lemma split_sts pre p rest :
  bsrcidx (pre ++ p :: rest) = rev (sts rest) ++ rev (s1 p) ++ rev (sts pre).
Proof.
  rewrite bsrcidx_sts. unfold sts. rewrite flat_map_app. cbn [flat_map].
  now rewrite !rev_app_distr, <- app_assoc.
Qed.

Lemma split_ds pre p rest :
  rev (dsOf (pre ++ p :: rest)) = rev (dsOf rest) ++ rev (d1 p) ++ rev (dsOf pre).
Proof.
  unfold dsOf. rewrite flat_map_app. cbn [flat_map].
  now rewrite !rev_app_distr, <- app_assoc.
Qed.

(* positions with a source dimension come first (least significant) *)
Fixpoint sorted (ps : list bpos) : Prop :=
  match ps with
  | [] => True
  | p :: r => (bsrc p = None -> dsOf r = []) /\ sorted r
  end.

Lemma shape_broadcastElemGenerator_outer :
  itemShape broadcastElemGenerator_outer = [None; Some "return <closure>"].
Proof. reflexivity. Qed.
Lemma shape_broadcastElemGenerator_step :
  itemShape broadcastElemGenerator_step = [Some "elem := t.dataAt(state)"; None; Some "return elem"].
Proof. reflexivity. Qed.

Definition broadcastElemGenerator_outer_code : stmt := nth 0 (codeOf broadcastElemGenerator_outer) SSkip.
Definition broadcastElemGenerator_step_code : stmt := nth 0 (codeOf broadcastElemGenerator_step) SSkip.

(* evaluate element reads / writes at position |A| of lists  map natV A ++ v :: B; [G0] decides the test i >= 0 *)
Ltac ev_by run G0 :=
  repeat (progress (run; unfold setElem; rewrite ?map_app; cbn [map];
                    rewrite ?nth_mid by (rewrite map_length; auto);
                    rewrite ?set_mid by (rewrite map_length; auto);
                    rewrite ?G0, ?ltb_nat_Z1, ?eqb_nat_Z, ?eqb_nat_Z1)).
Ltac ev := ev_by gxe.
(* the condition of the conditional at the head: [rewrite exec_SIf] leaves its branches folded *)
Ltac evc G0 := rewrite exec_SIf; ev_by gee G0.

(* close a body specification goal  exists e', bframe e e' /\ <outcome> (upd ...) = <outcome> e' /\ lookups of e' *)
Ltac bfin :=
  eexists; split; [|split; [reflexivity|]];
  [ intros y Y1 Y2 Y3 Y4; rewrite !lookup_upd_ne by assumption; reflexivity
  | repeat split; lk; lkh; unfold nats; rewrite ?map_app; cbn [map];
    rewrite ?Nat2Z.inj_succ; unfold Z.succ; cbn [Z.of_nat]; auto ].

(* the variables the step code writes *)
Definition bframe (e e' : env) : Prop :=
  forall y, y <> "state" -> y <> "repeat" -> y <> "i" -> y <> "j" -> lookup e' y = lookup e y.

(* the loop
     for j >= 0 { if i >= 0 && state[i] < t.dims[i]-1 { state[i]++; break }
                  else if i >= 0 { state[i] = 0; repeat[j]++
                                   if t.dims[i] == shape[j] || repeat[j] == shape[j] { repeat[j] = 0; i--; j-- } else { break } }
                  else { repeat[j]++; if repeat[j] == shape[j] { repeat[j] = 0; j-- } else { break } } }
   for an arbitrary loop (condition, body, post statement) that behaves like the Go one *)
(* i >= 0: state = A ++ x :: B, t.dims = S1 ++ d :: S2, repeat = C ++ r :: D, shape = T1 ++ sh :: T2, i = |A| = |S1|, j = |C| = |T1| *)
Definition some_spec (body : env -> outcome) : Prop :=
  forall e (A B : list nat) x S1 d S2 C r D T1 sh T2 (n m : nat),
  n = length A -> n = length S1 -> m = length C -> m = length T1 ->
  lookup e "state" = Some (nats (A ++ x :: B)) -> lookup e "t.dims" = Some (nats (S1 ++ d :: S2)) ->
  lookup e "repeat" = Some (nats (C ++ r :: D)) -> lookup e "shape" = Some (nats (T1 ++ sh :: T2)) ->
  lookup e "i" = Some (VI (Z.of_nat n)) -> lookup e "j" = Some (VI (Z.of_nat m)) ->
  exists e', bframe e e' /\
    body e = (if (S x <? d)%nat then OBreak e' else if (d =? sh)%nat || (S r =? sh)%nat then ONormal e' else OBreak e') /\
    if (S x <? d)%nat
    then lookup e' "state" = Some (nats (A ++ S x :: B)) /\ lookup e' "repeat" = Some (nats (C ++ r :: D))
    else if (d =? sh)%nat || (S r =? sh)%nat
    then lookup e' "state" = Some (nats (A ++ 0%nat :: B)) /\ lookup e' "repeat" = Some (nats (C ++ 0%nat :: D)) /\
         lookup e' "i" = Some (VI (Z.of_nat n - 1)) /\ lookup e' "j" = Some (VI (Z.of_nat m - 1))
    else lookup e' "state" = Some (nats (A ++ 0%nat :: B)) /\ lookup e' "repeat" = Some (nats (C ++ S r :: D)).
(* i < 0 *)
Definition none_spec (body : env -> outcome) : Prop :=
  forall e (st : list nat) C r D T1 sh T2 (m : nat),
  m = length C -> m = length T1 ->
  lookup e "state" = Some (nats st) ->
  lookup e "repeat" = Some (nats (C ++ r :: D)) -> lookup e "shape" = Some (nats (T1 ++ sh :: T2)) ->
  lookup e "i" = Some (VI (-1)) -> lookup e "j" = Some (VI (Z.of_nat m)) ->
  exists e', bframe e e' /\ body e = (if (S r =? sh)%nat then ONormal e' else OBreak e') /\
    lookup e' "state" = Some (nats st) /\
    if (S r =? sh)%nat
    then lookup e' "repeat" = Some (nats (C ++ 0%nat :: D)) /\
         lookup e' "i" = Some (VI (-1)) /\ lookup e' "j" = Some (VI (Z.of_nat m - 1))
    else lookup e' "repeat" = Some (nats (C ++ S r :: D)).

Section Loop.
Variables (cond : env -> option val) (body post : env -> outcome).
Hypothesis Hcond : forall e z, lookup e "j" = Some (VI z) -> cond e = Some (VB (z >=? 0)).
Hypothesis Hpost : forall e, post e = ONormal e.
Hypothesis Hsome : some_spec body.
Hypothesis Hnone : none_spec body.

Variables (src shape : list nat).

Definition LInv (pre rest : list bpos) (e0 e : env) : Prop :=
  lookup e "t.dims" = Some (nats src) /\ lookup e "shape" = Some (nats shape) /\
  lookup e "state" = Some (nats (bsrcidx (pre ++ rest))) /\
  lookup e "repeat" = Some (nats (rev (map brpt (pre ++ rest)))) /\
  lookup e "j" = Some (VI (Z.of_nat (length rest) - 1)) /\
  lookup e "i" = Some (VI (Z.of_nat (length (dsOf rest)) - 1)) /\
  bframe e0 e.

Lemma bc_loop : forall (rest pre : list bpos) (e0 e : env) (fuel : nat),
  (length rest < fuel)%nat ->
  src = rev (dsOf (pre ++ rest)) -> shape = rev (map bshp (pre ++ rest)) -> sorted rest ->
  LInv pre rest e0 e ->
  exists e', forLoop fuel cond body post e = ONormal e' /\
    lookup e' "state" = Some (nats (bsrcidx (pre ++ bstep rest))) /\
    lookup e' "repeat" = Some (nats (rev (map brpt (pre ++ bstep rest)))) /\
    bframe e0 e'.
Proof.
  induction rest as [|p rest IH]; intros pre e0 e fuel Hf Hs Hsh Hso (Hd & Hshp & Hst & Hrp & Hj & Hi & Hfr);
    (destruct fuel as [|fuel]; [cbn in Hf; lia|]); cbn [forLoop]; rewrite (Hcond _ _ Hj).
  - cbn [length Z.of_nat]. change (0 - 1 >=? 0) with false. exists e. cbn [bstep]. auto.
  - replace (Z.of_nat (length (p :: rest)) - 1) with (Z.of_nat (length rest)) in * by (cbn [length]; lia).
    replace (Z.of_nat (length rest) >=? 0) with true by (symmetry; rewrite Z.geb_leb; apply Z.leb_le; lia).
    destruct Hso as [Hn Hso].
    assert (Happ : forall q X, (pre ++ [q]) ++ X = pre ++ q :: X) by (intros; now rewrite <- app_assoc).
    rewrite split_sts in Hst. rewrite split_rpt in Hrp. rewrite split_ds in Hs. rewrite split_shp in Hsh.
    assert (Hdl : dsOf (p :: rest) = d1 p ++ dsOf rest) by reflexivity.
    rewrite Hdl in Hi. clear Hdl.
    cbn [bstep]. unfold s1, d1 in Hst, Hs, Hi.
    destruct (bsrc p) as [d|] eqn:Ep.
    + cbn [rev app] in Hst, Hs.
      replace (Z.of_nat (length ([d] ++ dsOf rest)) - 1) with (Z.of_nat (length (dsOf rest))) in Hi
        by (cbn [app length]; lia).
      destruct (Hsome e (rev (sts rest)) (rev (sts pre)) (bstt p) (rev (dsOf rest)) d (rev (dsOf pre))
                 (rev (map brpt rest)) (brpt p) (rev (map brpt pre))
                 (rev (map bshp rest)) (bshp p) (rev (map bshp pre)) (length (dsOf rest)) (length rest))
        as [e' [Hfr' [Hb Hres]]].
      * now rewrite rev_length, sts_dsOf_length.
      * now rewrite rev_length.
      * now rewrite rev_length, map_length.
      * now rewrite rev_length, map_length.
      * exact Hst.
      * rewrite <- Hs. exact Hd.
      * exact Hrp.
      * rewrite <- Hsh. exact Hshp.
      * exact Hi.
      * exact Hj.
      * assert (Htr : bframe e0 e') by (intros y H1 H2 H3 H4; rewrite Hfr' by assumption; now apply Hfr).
        destruct (S (bstt p) <? d)%nat.
        { destruct Hres as (Hst' & Hrp'). rewrite Hb. exists e'. split; [reflexivity|].
          rewrite split_sts, split_rpt. unfold s1. cbn [bsrc bstt brpt rev app]. auto. }
        destruct ((d =? bshp p)%nat || (S (brpt p) =? bshp p)%nat).
        2:{ destruct Hres as (Hst' & Hrp'). rewrite Hb. exists e'. split; [reflexivity|].
            rewrite split_sts, split_rpt. unfold s1. cbn [bsrc bstt brpt rev app]. auto. }
        destruct Hres as (Hst' & Hrp' & Hi' & Hj'). rewrite Hb, Hpost.
        destruct (IH (pre ++ [mkBpos (Some d) (bshp p) 0 0]) e0 e' fuel) as [e'' [He'' [Hs'' [Hr'' Hf'']]]].
        { cbn [length] in Hf. lia. }
        { rewrite Happ, split_ds. unfold d1. cbn [bsrc rev app]. exact Hs. }
        { rewrite Happ, split_shp. cbn [bshp]. exact Hsh. }
        { exact Hso. }
        { unfold LInv. rewrite Happ, split_sts, split_rpt. unfold s1. cbn [bsrc bstt brpt rev app].
          repeat split; try assumption.
          - rewrite Hfr' by discriminate. exact Hd.
          - rewrite Hfr' by discriminate. exact Hshp. }
        exists e''. rewrite Happ in Hs'', Hr''. auto.
    + cbn [rev app] in Hst, Hs. specialize (Hn eq_refl). rewrite Hn in Hi. cbn [app length Z.of_nat] in Hi.
      change (0 - 1) with (-1) in Hi.
      destruct (Hnone e (rev (sts rest) ++ rev (sts pre))
                 (rev (map brpt rest)) (brpt p) (rev (map brpt pre))
                 (rev (map bshp rest)) (bshp p) (rev (map bshp pre)) (length rest))
        as [e' [Hfr' [Hb [Hst' Hres]]]].
      * now rewrite rev_length, map_length.
      * now rewrite rev_length, map_length.
      * exact Hst.
      * exact Hrp.
      * rewrite <- Hsh. exact Hshp.
      * exact Hi.
      * exact Hj.
      * assert (Htr : bframe e0 e') by (intros y H1 H2 H3 H4; rewrite Hfr' by assumption; now apply Hfr).
        destruct (S (brpt p) =? bshp p)%nat.
        2:{ rename Hres into Hrp'. rewrite Hb. exists e'. split; [reflexivity|].
            rewrite split_sts, split_rpt. unfold s1. cbn [bsrc bstt brpt rev app]. auto. }
        destruct Hres as (Hrp' & Hi' & Hj'). rewrite Hb, Hpost.
        destruct (IH (pre ++ [mkBpos None (bshp p) 0 0]) e0 e' fuel) as [e'' [He'' [Hs'' [Hr'' Hf'']]]].
        { cbn [length] in Hf. lia. }
        { rewrite Happ, split_ds. unfold d1. cbn [bsrc rev app]. exact Hs. }
        { rewrite Happ, split_shp. cbn [bshp]. exact Hsh. }
        { exact Hso. }
        { unfold LInv. rewrite Happ, split_sts, split_rpt. unfold s1. cbn [bsrc bstt brpt rev app].
          rewrite Hn. cbn [length Z.of_nat]. change (0 - 1) with (-1).
          repeat split; try assumption.
          - rewrite Hfr' by discriminate. exact Hd.
          - rewrite Hfr' by discriminate. exact Hshp. }
        exists e''. rewrite Happ in Hs'', Hr''. auto.
Qed.
End Loop.

(* ps has the structure of bcInit src shape = mkbpos (rev src) (rev shape), with arbitrary bstt / brpt *)
Definition bwf (src shape : list nat) (ps : list bpos) : Prop :=
  (length src <= length shape)%nat /\
  map bsrc ps = map bsrc (bcInit src shape) /\ map bshp ps = map bshp (bcInit src shape).

(* the Go variables hold the model state ps *)
Definition bRep (src shape : list nat) (ps : list bpos) (e : env) : Prop :=
  lookup e "t.dims" = Some (nats src) /\ lookup e "shape" = Some (nats shape) /\
  lookup e "state" = Some (nats (bsrcidx ps)) /\ lookup e "repeat" = Some (nats (rev (map brpt ps))).

Lemma mkbpos_bshp rsh : forall rs, map bshp (mkbpos rs rsh) = rsh.
Proof. induction rsh as [|sh rsh IH]; intros [|d rs]; cbn; auto; now rewrite IH. Qed.

Lemma mkbpos_bsrc_nil rsh : map bsrc (mkbpos [] rsh) = repeat None (length rsh).
Proof. induction rsh as [|sh rsh IH]; cbn; auto; now rewrite IH. Qed.

Lemma mkbpos_bsrc rsh : forall rs, (length rs <= length rsh)%nat ->
  map bsrc (mkbpos rs rsh) = map Some rs ++ repeat None (length rsh - length rs).
Proof.
  induction rsh as [|sh rsh IH]; intros [|d rs] H; cbn in H; try lia.
  - reflexivity.
  - cbn [mkbpos map bsrc app length Nat.sub repeat]. now rewrite mkbpos_bsrc_nil.
  - cbn [mkbpos map bsrc app length Nat.sub]. rewrite IH by lia. reflexivity.
Qed.

Lemma ds_none k : forall ps, map bsrc ps = repeat None k -> dsOf ps = [] /\ sorted ps.
Proof.
  induction k as [|k IH]; intros [|p ps] H; cbn in H; try discriminate.
  - split; [reflexivity | exact I].
  - injection H as Hp Hps. destruct (IH ps Hps) as [Hd Hso].
    split.
    + unfold dsOf. cbn [flat_map]. unfold d1 at 1. rewrite Hp. exact Hd.
    + cbn [sorted]. auto.
Qed.

Lemma ds_some rs k : forall ps, map bsrc ps = map Some rs ++ repeat None k -> dsOf ps = rs /\ sorted ps.
Proof.
  induction rs as [|d rs IH]; intros ps H.
  - now apply ds_none with k.
  - destruct ps as [|p ps]; cbn in H; [discriminate|]. injection H as Hp Hps.
    destruct (IH ps Hps) as [Hd Hso]. split.
    + unfold dsOf. cbn [flat_map]. unfold d1 at 1. rewrite Hp. cbn [app]. f_equal. exact Hd.
    + cbn [sorted]. split; [congruence | exact Hso].
Qed.

Lemma bwf_facts src shape ps : bwf src shape ps ->
  src = rev (dsOf ps) /\ shape = rev (map bshp ps) /\ sorted ps /\ length ps = length shape.
Proof.
  intros (Hl & Hs & Hsh). unfold bcInit in *.
  rewrite mkbpos_bshp in Hsh. rewrite mkbpos_bsrc in Hs by (rewrite !rev_length; lia).
  destruct (ds_some _ _ _ Hs) as [Hd Hso].
  repeat split.
  - now rewrite Hd, rev_involutive.
  - now rewrite Hsh, rev_involutive.
  - exact Hso.
  - rewrite <- (map_length bshp), Hsh. apply rev_length.
Qed.

Lemma bstep_bsrc ps : map bsrc (bstep ps) = map bsrc ps.
Proof.
  induction ps as [|p ps IH]; [reflexivity|]. cbn [bstep].
  destruct (bsrc p) as [d|] eqn:Ep.
  - destruct (S (bstt p) <? d)%nat; [cbn; now rewrite Ep|].
    destruct ((d =? bshp p)%nat || (S (brpt p) =? bshp p)%nat); cbn; rewrite ?IH, Ep; reflexivity.
  - destruct (S (brpt p) =? bshp p)%nat; cbn; rewrite ?IH, Ep; reflexivity.
Qed.

Lemma bstep_bshp ps : map bshp (bstep ps) = map bshp ps.
Proof.
  induction ps as [|p ps IH]; [reflexivity|]. cbn [bstep].
  destruct (bsrc p) as [d|] eqn:Ep.
  - destruct (S (bstt p) <? d)%nat; [reflexivity|].
    destruct ((d =? bshp p)%nat || (S (brpt p) =? bshp p)%nat); cbn; rewrite ?IH; reflexivity.
  - destruct (S (brpt p) =? bshp p)%nat; cbn; rewrite ?IH; reflexivity.
Qed.

Lemma bwf_bstep src shape ps : bwf src shape ps -> bwf src shape (bstep ps).
Proof. intros (Hl & Hs & Hsh). repeat split; [exact Hl | now rewrite bstep_bsrc | now rewrite bstep_bshp]. Qed.

Lemma bwf_bcInit src shape : (length src <= length shape)%nat -> bwf src shape (bcInit src shape).
Proof. intros H. repeat split. exact H. Qed.

Theorem go_broadcastElemGenerator_step call fuel (src shape : list nat) (ps : list bpos) (e : env) :
  (S (S (length shape)) <= fuel)%nat -> bwf src shape ps -> bRep src shape ps e ->
  exists e', exec call fuel broadcastElemGenerator_step_code e = ONormal e' /\
    bRep src shape (bstep ps) e' /\ bwf src shape (bstep ps) /\ bframe e e'.
Proof.
  intros Hf Hwf (Hd & Hsh & Hst & Hrp).
  destruct (bwf_facts _ _ _ Hwf) as (Fs & Fsh & Fso & Flen).
  unfold broadcastElemGenerator_step_code, broadcastElemGenerator_step. cbn [codeOf nth].
  gxe.
  match goal with |- context [forLoop _ ?c ?b ?p ?e0] =>
    assert (Hc : forall e z, lookup e "j" = Some (VI z) -> c e = Some (VB (z >=? 0)));
    [| assert (Hp : forall e, p e = ONormal e);
       [| assert (Hso : some_spec b);
          [| assert (Hno : none_spec b);
             [| destruct (bc_loop c b p Hc Hp Hso Hno src shape ps [] e e0 fuel) as [e' [He' [Hs' [Hr' Hfr']]]] ]]]]
  end.
  - intros e1 z Hj. gxe. reflexivity.
  - intros e1. gxs. reflexivity.
  - intros e1 A B x S1 d S2 C r D T1 sh T2 n m Hn1 Hn2 Hm1 Hm2 Hst1 Hd1 Hrp1 Hsh1 Hi1 Hj1.
    clear Hd Hsh Hst Hrp.
    assert (G0 : Z.of_nat n >=? 0 = true) by (rewrite Z.geb_leb; apply Z.leb_le; lia).
    evc G0. destruct (S x <? d)%nat; [ev G0; bfin|].
    evc G0. ev G0.
    destruct (d =? sh)%nat; [|destruct (S r =? sh)%nat]; cbn [orb]; ev G0; bfin.
  - intros e1 st C r D T1 sh T2 m Hm1 Hm2 Hst1 Hrp1 Hsh1 Hi1 Hj1.
    clear Hd Hsh Hst Hrp.
    assert (G0 : (-1 >=? 0) = false) by reflexivity.
    evc G0. evc G0. ev G0.
    destruct (S r =? sh)%nat; ev G0;
      (eexists; split; [|split; [reflexivity|split]];
       [ intros y Y1 Y2 Y3 Y4; rewrite !lookup_upd_ne by assumption; reflexivity
       | lk; lkh; reflexivity
       | repeat split; lk; lkh; unfold nats; rewrite ?map_app; cbn [map];
         rewrite ?Nat2Z.inj_succ; unfold Z.succ; cbn [Z.of_nat]; auto ]).
  - rewrite Flen. lia.
  - exact Fs.
  - exact Fsh.
  - exact Fso.
  - unfold LInv. cbn [app]. repeat split; lk; auto.
    + now rewrite Flen.
    + do 3 f_equal. rewrite Fs at 1. now rewrite rev_length.
    + intros y Y1 Y2 Y3 Y4. rewrite !lookup_upd_ne by assumption. reflexivity.
  - cbn [app] in Hs', Hr'. exists e'. split; [exact He'|]. split; [|split; [now apply bwf_bstep | exact Hfr']].
    repeat split; auto.
    + rewrite Hfr' by discriminate. exact Hd.
    + rewrite Hfr' by discriminate. exact Hsh.
Qed.

Lemma sts_mkbpos_nil rsh : sts (mkbpos [] rsh) = [].
Proof. induction rsh as [|sh rsh IH]; [reflexivity|]. exact IH. Qed.

Lemma sts_mkbpos rsh : forall rs, (length rs <= length rsh)%nat -> sts (mkbpos rs rsh) = repeat 0%nat (length rs).
Proof.
  induction rsh as [|sh rsh IH]; intros [|d rs] H; cbn in H; try lia.
  - reflexivity.
  - apply sts_mkbpos_nil.
  - cbn [mkbpos length repeat]. unfold sts. cbn [flat_map]. unfold s1 at 1. cbn [bsrc bstt app]. f_equal.
    apply IH. lia.
Qed.

Lemma brpt_mkbpos rsh : forall rs, map brpt (mkbpos rs rsh) = repeat 0%nat (length rsh).
Proof. induction rsh as [|sh rsh IH]; intros [|d rs]; cbn; auto; now rewrite IH. Qed.

Lemma bcInit_zeros src shape : (length src <= length shape)%nat ->
  bsrcidx (bcInit src shape) = repeat 0%nat (length src) /\
  rev (map brpt (bcInit src shape)) = repeat 0%nat (length shape).
Proof.
  intros H. unfold bcInit. split.
  - rewrite bsrcidx_sts, sts_mkbpos by (rewrite !rev_length; lia). now rewrite rev_repeat, rev_length.
  - now rewrite brpt_mkbpos, rev_repeat, rev_length.
Qed.

(* state := make([]int, len(t.dims)); repeat := make([]int, len(shape)) *)
Theorem go_broadcastElemGenerator_outer call fuel (src shape : list nat) (e : env) :
  lookup e "t.dims" = Some (nats src) -> lookup e "shape" = Some (nats shape) ->
  exists e', exec call fuel broadcastElemGenerator_outer_code e = ONormal e' /\
    lookup e' "state" = Some (nats (repeat 0%nat (length src))) /\
    lookup e' "repeat" = Some (nats (repeat 0%nat (length shape))) /\
    forall y, y <> "state" -> y <> "repeat" -> lookup e' y = lookup e y.
Proof.
  intros Hd Hsh.
  unfold broadcastElemGenerator_outer_code, broadcastElemGenerator_outer. cbn [codeOf nth].
  gxe.
  replace (0 <=? Z.of_nat (length src)) with true by (symmetry; apply Z.leb_le; lia).
  gxe.
  replace (0 <=? Z.of_nat (length shape)) with true by (symmetry; apply Z.leb_le; lia).
  gxe. rewrite !Nat2Z.id, !map_repeat_natV.
  eexists. split; [reflexivity|]. repeat split.
  - now lk.
  - now lk.
  - intros y Y1 Y2. now rewrite !lookup_upd_ne by assumption.
Qed.

(* ... which represents the model's initial state bcInit src shape *)
Corollary go_broadcastElemGenerator_outer_bcInit call fuel (src shape : list nat) (e : env) :
  (length src <= length shape)%nat ->
  lookup e "t.dims" = Some (nats src) -> lookup e "shape" = Some (nats shape) ->
  exists e', exec call fuel broadcastElemGenerator_outer_code e = ONormal e' /\
    bRep src shape (bcInit src shape) e' /\ bwf src shape (bcInit src shape) /\
    forall y, y <> "state" -> y <> "repeat" -> lookup e' y = lookup e y.
Proof.
  intros Hl Hd Hsh.
  destruct (go_broadcastElemGenerator_outer call fuel src shape e Hd Hsh) as [e' (He' & Hs' & Hr' & Hfr)].
  destruct (bcInit_zeros src shape Hl) as [Z1 Z2].
  exists e'. split; [exact He'|]. split; [|split; [now apply bwf_bcInit | exact Hfr]].
  unfold bRep. rewrite Z1, Z2. repeat split; auto.
  - rewrite Hfr by discriminate. exact Hd.
  - rewrite Hfr by discriminate. exact Hsh.
Qed.

Fixpoint bcSteps (call : string -> list val -> outcome) (fuel n : nat) (e : env) : outcome :=
  match n with
  | O => ONormal e
  | S n' => match exec call fuel broadcastElemGenerator_step_code e with
            | ONormal e' => bcSteps call fuel n' e'
            | o => o
            end
  end.

Lemma iter_shift {T} (f : T -> T) n x : Nat.iter n f (f x) = Nat.iter (S n) f x.
Proof.
  induction n as [|n IH]; [reflexivity|].
  change (Nat.iter (S n) f (f x)) with (f (Nat.iter n f (f x))). rewrite IH. reflexivity.
Qed.

Corollary go_broadcastElemGenerator_steps call fuel (src shape : list nat) (n : nat) :
  forall (ps : list bpos) (e : env),
  (S (S (length shape)) <= fuel)%nat -> bwf src shape ps -> bRep src shape ps e ->
  exists e', bcSteps call fuel n e = ONormal e' /\
    bRep src shape (Nat.iter n bstep ps) e' /\ bwf src shape (Nat.iter n bstep ps).
Proof.
  induction n as [|n IH]; intros ps e Hf Hwf Hrep.
  - exists e. cbn. auto.
  - cbn [bcSteps].
    destruct (go_broadcastElemGenerator_step call fuel src shape ps e Hf Hwf Hrep) as [e1 (He1 & Hr1 & Hw1 & _)].
    rewrite He1. destruct (IH (bstep ps) e1 Hf Hw1 Hr1) as [e' (He' & Hr' & Hw')].
    exists e'. rewrite <- iter_shift. auto.
Qed.

Definition exCall : string -> list val -> outcome := fun _ _ => OPanic.
Definition exEnv : env := [("t.dims", nats [2; 1]%nat); ("shape", nats [3; 2; 2]%nat)].

(* t.dims = [2;1] broadcast to shape = [3;2;2]: the initial state, then 7 steps (target index (1,1,1)) *)
Example ex_broadcastElemGenerator_run :
  match exec exCall 5 broadcastElemGenerator_outer_code exEnv with
  | ONormal e0 =>
      match bcSteps exCall 5 7 e0 with
      | ONormal e => Some (lookup e0 "state", lookup e0 "repeat", lookup e "state", lookup e "repeat")
      | _ => None
      end
  | _ => None
  end = Some (Some (nats [0; 0]%nat), Some (nats [0; 0; 0]%nat), Some (nats [1; 0]%nat), Some (nats [1; 0; 1]%nat)).
Proof. vm_compute. reflexivity. Qed.

Example ex_broadcastElemGenerator_model :
  let ps := Nat.iter 7 bstep (bcInit [2; 1]%nat [3; 2; 2]%nat) in
  (bsrcidx ps, rev (map brpt ps)) = ([1; 0]%nat, [1; 0; 1]%nat).
Proof. vm_compute. reflexivity. Qed.

(* every one of the 12 steps of that broadcast (and the wrap-around) agrees with the model *)
Example ex_broadcastElemGenerator_all :
  forallb (fun n =>
    match exec exCall 5 broadcastElemGenerator_outer_code exEnv with
    | ONormal e0 =>
        match bcSteps exCall 5 n e0 with
        | ONormal e =>
            let ps := Nat.iter n bstep (bcInit [2; 1]%nat [3; 2; 2]%nat) in
            match lookup e "state", lookup e "repeat" with
            | Some (VL a), Some (VL b) =>
                (if list_eq_dec Z.eq_dec (map (fun v => match v with VI z => z | _ => -1 end) a) (map Z.of_nat (bsrcidx ps)) then true else false)
                && (if list_eq_dec Z.eq_dec (map (fun v => match v with VI z => z | _ => -1 end) b) (map Z.of_nat (rev (map brpt ps))) then true else false)
            | _, _ => false
            end
        | _ => false
        end
    | _ => false
    end) (seq 0 14) = true.
Proof. vm_compute. reflexivity. Qed.

Lemma codeOf_broadcastElemGenerator_outer :
  codeOf broadcastElemGenerator_outer = [broadcastElemGenerator_outer_code].
Proof. reflexivity. Qed.
Lemma codeOf_broadcastElemGenerator_step :
  codeOf broadcastElemGenerator_step = [broadcastElemGenerator_step_code].
Proof. reflexivity. Qed.

Print Assumptions shape_broadcastElemGenerator_outer.
Print Assumptions shape_broadcastElemGenerator_step.
Print Assumptions go_broadcastElemGenerator_outer.
Print Assumptions go_broadcastElemGenerator_outer_bcInit.
Print Assumptions go_broadcastElemGenerator_step.
Print Assumptions go_broadcastElemGenerator_steps.
