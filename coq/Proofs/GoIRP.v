(* GoIRP.v — infrastructure for reasoning about GoIR programs (Model/GoIR.v): loop rules,
   lookup/update facts, embeddings of Coq lists as GoIR values. *)
From Coq Require Import String List ZArith Bool Lia Arith.
From Qeep Require Import Model.GoIR.
Import ListNotations.
Local Open Scope Z_scope.

Lemma nth_error_map_VI (l : list Z) (n : nat) :
  nth_error (map VI l) n = option_map VI (nth_error l n).
Proof. revert n; induction l as [|a l IH]; intros [|n]; cbn; auto. Qed.

Lemma zlenV_map {T} (f : T -> val) (l : list T) : zlenV (map f l) = Z.of_nat (length l).
Proof. unfold zlenV; now rewrite map_length. Qed.

Notation natV := (fun n : nat => VI (Z.of_nat n)).

Lemma map_repeat_natV (n : nat) : repeat (VI 0) n = map natV (repeat 0%nat n).
Proof. induction n; cbn; [reflexivity | now f_equal]. Qed.

Lemma idxOf_nat (n : nat) : idxOf (Z.of_nat n) = Some n.
Proof. unfold idxOf. destruct (0 <=? Z.of_nat n) eqn:E; [now rewrite Nat2Z.id | apply Z.leb_gt in E; lia]. Qed.

Lemma idxOf_neg (z : Z) : z < 0 -> idxOf z = None.
Proof. unfold idxOf; intros H. destruct (0 <=? z) eqn:E; [apply Z.leb_le in E; lia | reflexivity]. Qed.

Lemma idxOf_nonneg (z : Z) : 0 <= z -> idxOf z = Some (Z.to_nat z).
Proof. unfold idxOf; intros H. destruct (0 <=? z) eqn:E; [reflexivity | apply Z.leb_gt in E; lia]. Qed.

(* comparisons of embedded naturals *)
Lemma ltb_nat_Z (x d : nat) : (Z.of_nat x <? Z.of_nat d) = (x <? d)%nat.
Proof. destruct (Z.ltb_spec (Z.of_nat x) (Z.of_nat d)), (Nat.ltb_spec x d); try reflexivity; lia. Qed.

Lemma ltb_nat_Z1 (x d : nat) : (Z.of_nat x <? Z.of_nat d - 1) = (S x <? d)%nat.
Proof. destruct (Z.ltb_spec (Z.of_nat x) (Z.of_nat d - 1)), (Nat.ltb_spec (S x) d); try reflexivity; lia. Qed.

Lemma eqb_nat_Z (x d : nat) : (Z.of_nat x =? Z.of_nat d) = (x =? d)%nat.
Proof. destruct (Z.eqb_spec (Z.of_nat x) (Z.of_nat d)), (Nat.eqb_spec x d); try reflexivity; lia. Qed.

Lemma eqb_nat_Z1 (x d : nat) : (Z.of_nat x + 1 =? Z.of_nat d) = (S x =? d)%nat.
Proof. destruct (Z.eqb_spec (Z.of_nat x + 1) (Z.of_nat d)), (Nat.eqb_spec (S x) d); try reflexivity; lia. Qed.

Lemma skipn_nth_cons {T} (l : list T) k v : nth_error l k = Some v -> skipn k l = v :: skipn (S k) l.
Proof. revert k; induction l as [|a l IH]; intros [|k] H; cbn in *; try discriminate; [now inversion H | now apply IH]. Qed.

Lemma firstn_S_nth {T} (l : list T) k x : nth_error l k = Some x -> firstn (S k) l = firstn k l ++ [x].
Proof.
  revert k; induction l as [|a l IH]; intros [|k] H; cbn in *; try discriminate.
  - now inversion H.
  - now rewrite (IH _ H).
Qed.

Lemma rev_repeat {T} (x : T) n : rev (repeat x n) = repeat x n.
Proof.
  induction n as [|n IH]; [reflexivity|]. cbn [repeat rev]. rewrite IH.
  clear IH. induction n; cbn; congruence.
Qed.

Lemma nth_error_mid {T} (pre : list T) x suf : nth_error (pre ++ x :: suf) (length pre) = Some x.
Proof. now rewrite nth_error_app2, Nat.sub_diag. Qed.

Lemma setNthV_mid (pre : list val) x suf v : setNthV (pre ++ x :: suf) (length pre) v = Some (pre ++ v :: suf).
Proof. induction pre as [|a pre IH]; cbn; [reflexivity | now rewrite IH]. Qed.

(* decide the integer comparisons of the goal that lia can decide *)
Ltac zdec :=
  repeat match goal with
  | |- context [?a <? ?b] =>
      first [ replace (a <? b) with true by (symmetry; apply Z.ltb_lt; lia)
            | replace (a <? b) with false by (symmetry; apply Z.ltb_ge; lia) ]
  | |- context [?a <=? ?b] =>
      first [ replace (a <=? b) with true by (symmetry; apply Z.leb_le; lia)
            | replace (a <=? b) with false by (symmetry; apply Z.leb_gt; lia) ]
  | |- context [?a =? ?b] =>
      first [ replace (a =? b) with true by (symmetry; apply Z.eqb_eq; lia)
            | replace (a =? b) with false by (symmetry; apply Z.eqb_neq; lia) ]
  end.

(* the for rule: invariant P n e, where n bounds the iterations still to come *)

Lemma forLoop_ruleN (P : nat -> env -> Prop) (Q : outcome -> Prop)
      (cond : env -> option val) (body post : env -> outcome) :
  (forall n e, P n e ->
     (cond e = Some (VB false) /\ Q (ONormal e)) \/
     (cond e = Some (VB true) /\
        ((exists e1, body e = OBreak e1 /\ Q (ONormal e1)) \/
         (exists vs, body e = ORet vs /\ Q (ORet vs)) \/
         (exists e1 e2 n', (body e = ONormal e1 \/ body e = OContinue e1) /\ post e1 = ONormal e2 /\
                           P n' e2 /\ (n' < n)%nat)))) ->
  forall n e, P n e -> forall fuel, (n < fuel)%nat -> Q (forLoop fuel cond body post e).
Proof.
  intros Hstep n e He fuel. revert n e He.
  induction fuel as [|fuel IH]; intros n e He Hm; [lia|].
  cbn [forLoop].
  destruct (Hstep n e He) as [[Hc HQ] | [Hc [[e1 [Hb HQ]] | [[vs [Hb HQ]] | [e1 [e2 [n' [Hb [Hp [HP Hlt]]]]]]]]]];
    rewrite Hc; auto.
  - now rewrite Hb.
  - now rewrite Hb.
  - assert (Hgo : Q (forLoop fuel cond body post e2)) by (apply (IH n'); [exact HP | lia]).
    destruct Hb as [Hb | Hb]; rewrite Hb, Hp; exact Hgo.
Qed.

(* the same with the bound computed from the environment *)
Lemma forLoop_rule (P : env -> Prop) (Q : outcome -> Prop) (m : env -> nat)
      (cond : env -> option val) (body post : env -> outcome) :
  (forall e, P e ->
     (cond e = Some (VB false) /\ Q (ONormal e)) \/
     (cond e = Some (VB true) /\
        ((exists e1, body e = OBreak e1 /\ Q (ONormal e1)) \/
         (exists vs, body e = ORet vs /\ Q (ORet vs)) \/
         (exists e1 e2, (body e = ONormal e1 \/ body e = OContinue e1) /\ post e1 = ONormal e2 /\
                        P e2 /\ (m e2 < m e)%nat)))) ->
  forall e, P e -> forall fuel, (m e < fuel)%nat -> Q (forLoop fuel cond body post e).
Proof.
  intros H e He fuel Hf.
  apply (forLoop_ruleN (fun n e => P e /\ m e = n) Q cond body post) with (n := m e); auto.
  intros n e0 [HP <-]. destruct (H e0 HP) as [?|[Hc [?|[?|(e1&e2&A&B&C&D)]]]]; auto.
  right. split; auto. right. right. exists e1, e2, (m e2). auto.
Qed.

(* the counting loop [for i := k; i < N; i++]: [I k e] holds before the test of iteration k *)
Lemma forLoop_count (I : nat -> env -> Prop) (Q : outcome -> Prop) (N : nat)
      (cond : env -> option val) (body post : env -> outcome) :
  (forall k e, I k e -> cond e = Some (VB (Z.of_nat k <? Z.of_nat N))) ->
  (forall k e, (k < N)%nat -> I k e ->
     (exists vs, body e = ORet vs /\ Q (ORet vs)) \/
     (exists e1 e2, (body e = ONormal e1 \/ body e = OContinue e1) /\ post e1 = ONormal e2 /\ I (S k) e2)) ->
  (forall e, I N e -> Q (ONormal e)) ->
  forall k e, (k <= N)%nat -> I k e -> forall fuel, (N - k < fuel)%nat -> Q (forLoop fuel cond body post e).
Proof.
  intros Hc Hb Hend k e Hk He.
  apply (forLoop_ruleN (fun n e => exists k, n = (N - k)%nat /\ (k <= N)%nat /\ I k e) Q); [|eauto].
  clear k e Hk He. intros n e (k & -> & Hk & He). rewrite (Hc k e He).
  destruct (Z.ltb_spec (Z.of_nat k) (Z.of_nat N)) as [Hlt|Hge].
  - right. split; [reflexivity|]. right.
    destruct (Hb k e ltac:(lia) He) as [?|(e1 & e2 & B & Po & I2)]; [now left|].
    right. exists e1, e2, (N - S k)%nat. repeat split; auto; [exists (S k); repeat split; auto|]; lia.
  - left. split; [reflexivity|]. apply Hend. now replace N with k by lia.
Qed.

(* the range rule: invariant P k e before iteration k *)

Lemma rangeLoop_rule_from (P : nat -> env -> Prop) (Q : outcome -> Prop)
      (body : env -> outcome) (i x : string) (l : list val) :
  (forall k e v, P k e -> nth_error l k = Some v ->
     let e' := upd (upd e i (VI (Z.of_nat k))) x v in
     (exists e1, (body e' = ONormal e1 \/ body e' = OContinue e1) /\ P (S k) e1) \/
     (exists e1, body e' = OBreak e1 /\ Q (ONormal e1)) \/
     (exists vs, body e' = ORet vs /\ Q (ORet vs)) \/
     (body e' = OPanic /\ Q OPanic)) ->
  (forall e, P (length l) e -> Q (ONormal e)) ->
  forall k e, (k <= length l)%nat -> P k e ->
  Q (rangeLoop body i x (skipn k l) (Z.of_nat k) e).
Proof.
  intros Hstep Hend k e Hk HP.
  remember (length l - k)%nat as r eqn:Hr.
  revert k e Hk HP Hr. induction r as [|r IH]; intros k e Hk HP Hr.
  - assert (k = length l) by lia. subst k. rewrite skipn_all. cbn. now apply Hend.
  - destruct (nth_error l k) as [v|] eqn:Hn.
    2:{ apply nth_error_None in Hn. lia. }
    rewrite (skipn_nth_cons _ _ _ Hn). cbn [rangeLoop].
    destruct (Hstep k e v HP Hn) as [[e1 [Hb HP1]] | [[e1 [Hb HQ]] | [[vs [Hb HQ]] | [Hb HQ]]]].
    + assert (Hgo : Q (rangeLoop body i x (skipn (S k) l) (Z.of_nat (S k)) e1)).
      { apply IH; [ | exact HP1 | lia ].
        assert (k < length l)%nat by (apply nth_error_Some; congruence). lia. }
      replace (Z.of_nat k + 1) with (Z.of_nat (S k)) by lia.
      destruct Hb as [Hb | Hb]; rewrite Hb; exact Hgo.
    + now rewrite Hb.
    + now rewrite Hb.
    + now rewrite Hb.
Qed.

Lemma rangeLoop_rule (P : nat -> env -> Prop) (Q : outcome -> Prop)
      (body : env -> outcome) (i x : string) (l : list val) :
  (forall k e v, P k e -> nth_error l k = Some v ->
     let e' := upd (upd e i (VI (Z.of_nat k))) x v in
     (exists e1, (body e' = ONormal e1 \/ body e' = OContinue e1) /\ P (S k) e1) \/
     (exists e1, body e' = OBreak e1 /\ Q (ONormal e1)) \/
     (exists vs, body e' = ORet vs /\ Q (ORet vs)) \/
     (body e' = OPanic /\ Q OPanic)) ->
  (forall e, P (length l) e -> Q (ONormal e)) ->
  forall e, P 0%nat e -> Q (rangeLoop body i x l 0 e).
Proof.
  intros Hstep Hend e HP.
  exact (rangeLoop_rule_from P Q body i x l Hstep Hend 0%nat e (Nat.le_0_l _) HP).
Qed.

(* checking loops: [for i, x := range ts], returning an error at the first position whose check fails *)

Fixpoint allFrom {T} (ok : nat -> T -> bool) (k : nat) (ts : list T) : bool :=
  match ts with [] => true | t :: r => ok k t && allFrom ok (S k) r end.

Lemma rangeLoop_check {T} (emb : T -> val) (I : env -> Prop) (ok : nat -> T -> bool) (N : nat) body (i x : string) ts k e :
  (k + length ts <= N)%nat -> I e ->
  (forall k e t, (k < N)%nat -> I e ->
     let e0 := upd (upd e i (VI (Z.of_nat k))) x (emb t) in
     if ok k t then exists e1, (body e0 = ONormal e1 \/ body e0 = OContinue e1) /\ I e1
     else body e0 = ORet [VI 1]) ->
  if allFrom ok k ts
  then exists e', rangeLoop body i x (map emb ts) (Z.of_nat k) e = ONormal e' /\ I e'
  else rangeLoop body i x (map emb ts) (Z.of_nat k) e = ORet [VI 1].
Proof.
  intros Hk He Hb. revert k e Hk He. induction ts as [|t ts IH]; intros k e Hk He; cbn [allFrom map rangeLoop].
  - eauto.
  - cbn [length] in Hk. specialize (Hb k e t ltac:(lia) He). cbv zeta in Hb. destruct (ok k t); cbn [andb].
    + destruct Hb as [e1 [[Hb|Hb] H1]]; rewrite Hb; replace (Z.of_nat k + 1) with (Z.of_nat (S k)) by lia;
        (apply IH; [lia | exact H1]).
    + now rewrite Hb.
Qed.

(* a model function that walks two lists in step checks position by position *)
Lemma allFrom_zip {T U} (p : T -> U -> bool) (m : list T -> list U -> bool) (D : list U) :
  (forall t ts d ds, m (t :: ts) (d :: ds) = p t d && m ts ds) ->
  forall ts k, (k + length ts <= length D)%nat -> m [] (skipn (k + length ts) D) = true ->
  m ts (skipn k D) = allFrom (fun k t => match nth_error D k with Some d => p t d | None => false end) k ts.
Proof.
  intros Hm. induction ts as [|t ts IH]; intros k Hk Hnil; cbn [allFrom length] in *.
  - now rewrite Nat.add_0_r in Hnil.
  - destruct (nth_error D k) as [d|] eqn:E; [| apply nth_error_None in E; lia].
    rewrite (skipn_nth_cons _ _ _ E), Hm, IH; [reflexivity | lia | now rewrite <- Nat.add_succ_comm in Hnil].
Qed.

Lemma allFrom_zip0 {T U} (p : T -> U -> bool) (m : list T -> list U -> bool) (D : list U) :
  (forall t ts d ds, m (t :: ts) (d :: ds) = p t d && m ts ds) ->
  forall ts, (length ts <= length D)%nat -> m [] (skipn (length ts) D) = true ->
  m ts D = allFrom (fun k t => match nth_error D k with Some d => p t d | None => false end) 0 ts.
Proof. intros Hm ts. exact (allFrom_zip p m D Hm ts 0). Qed.

Lemma allFrom_forallb {T} (p : T -> bool) ts k : forallb p ts = allFrom (fun _ => p) k ts.
Proof. revert k; induction ts as [|t ts IH]; intros k; cbn; [reflexivity | now rewrite <- IH]. Qed.

(* accumulating loops: [for _, x := range ts { s = f s x }] *)
Lemma rangeLoop_fold {S T} (emb : T -> val) (R : S -> env -> Prop) (f : S -> T -> S) body (i x : string) :
  (forall k e s t, R s e -> exists e1, body (upd (upd e i (VI k)) x (emb t)) = ONormal e1 /\ R (f s t) e1) ->
  forall ts k e s, R s e -> exists e', rangeLoop body i x (map emb ts) k e = ONormal e' /\ R (fold_left f ts s) e'.
Proof.
  intros Hb. induction ts as [|t ts IH]; intros k e s He; cbn [map rangeLoop fold_left]; [eauto|].
  destruct (Hb k e s t He) as [e1 [-> H1]]. apply IH, H1.
Qed.

Lemma lookup_upd (e : env) (x y : string) (v : val) :
  lookup (upd e x v) y = if String.eqb y x then Some v else lookup e y.
Proof.
  induction e as [|[z w] e IH]; cbn.
  - reflexivity.
  - destruct (String.eqb x z) eqn:Exz; cbn.
    + apply String.eqb_eq in Exz; subst z. destruct (String.eqb y x); reflexivity.
    + rewrite IH. destruct (String.eqb y z) eqn:Eyz; [|reflexivity].
      apply String.eqb_eq in Eyz; subst z.
      destruct (String.eqb y x) eqn:Eyx; [|reflexivity].
      apply String.eqb_eq in Eyx; subst y. rewrite String.eqb_refl in Exz. discriminate.
Qed.

Lemma lookup_upd_ne (e : env) (x y : string) (v : val) : y <> x -> lookup (upd e x v) y = lookup e y.
Proof. intros H. rewrite lookup_upd. apply String.eqb_neq in H. now rewrite H. Qed.

(* rewrite a lookup through updates with concrete names *)
Ltac lk := repeat (rewrite lookup_upd; cbn [String.eqb Ascii.eqb Bool.eqb]).

(* [exec] one layer at a time: [rewrite exec_SIf] leaves both branches folded *)
Section ExecEq.
Variables (call : string -> list val -> outcome) (fuel : nat).
Notation ex := (exec call fuel).

Lemma exec_SSkip e : ex SSkip e = ONormal e. Proof. reflexivity. Qed.
Lemma exec_SSet x a e : ex (SSet x a) e = match eval e a with Some v => ONormal (upd e x v) | None => OPanic end.
Proof. reflexivity. Qed.
Lemma exec_SSetIdx x i a e :
  ex (SSetIdx x i a) e = match eval e a with Some v => setElem e x i (fun _ => Some v) | None => OPanic end.
Proof. reflexivity. Qed.
Lemma exec_SSetFld x i to a e :
  ex (SSetFld x i to a) e =
  match eval e a with
  | Some (VI z) => setElem e x i (fun old => match old with VR f t => Some (if to then VR f z else VR z t) | _ => None end)
  | _ => OPanic
  end.
Proof. reflexivity. Qed.
Lemma exec_SCopy x a e :
  ex (SCopy x a) e = match lookup e x, eval e a with
                     | Some (VL d), Some (VL src) => ONormal (upd e x (VL (copyInto d src)))
                     | _, _ => OPanic
                     end.
Proof. reflexivity. Qed.
Lemma exec_SSeq a b e : ex (SSeq a b) e = match ex a e with ONormal e1 => ex b e1 | o => o end.
Proof. reflexivity. Qed.
Lemma exec_SIf c a b e :
  ex (SIf c a b) e = match eval e c with Some (VB true) => ex a e | Some (VB false) => ex b e | _ => OPanic end.
Proof. reflexivity. Qed.
Lemma exec_SFor c post body e :
  ex (SFor c post body) e = forLoop fuel (fun e' => eval e' c) (ex body) (ex post) e.
Proof. reflexivity. Qed.
Lemma exec_SRange i x a body e :
  ex (SRange i x a body) e = match eval e a with Some (VL l) => rangeLoop (ex body) i x l 0 e | _ => OPanic end.
Proof. reflexivity. Qed.
Lemma exec_SBreak e : ex SBreak e = OBreak e. Proof. reflexivity. Qed.
Lemma exec_SContinue e : ex SContinue e = OContinue e. Proof. reflexivity. Qed.
Lemma exec_SRet es e : ex (SRet es) e = match evals e es with Some vs => ORet vs | None => OPanic end.
Proof. reflexivity. Qed.
Lemma exec_SCall xs f args e :
  ex (SCall xs f args) e =
  match evals e args with
  | Some vs => match call f vs with
               | ORet rs => match assignAll xs rs e with Some e1 => ONormal e1 | None => OPanic end
               | OFuel => OFuel
               | _ => OPanic
               end
  | None => OPanic
  end.
Proof. reflexivity. Qed.
End ExecEq.

#[global] Arguments exec call fuel !s e /.

(* unfold [exec] where it is applied to a concrete statement and to an environment, then compute expressions;
   the [exec call fuel body] inside a loop, not applied to an environment, stays folded *)
Ltac gx := cbn [exec sseq eval evals evalBin negb andb orb lookup upd String.eqb Ascii.eqb Bool.eqb ints nats ranges intss].
Ltac gxs := repeat (progress (gx; lk)).

(* expressions only: statements stay folded, so that after [rewrite exec_SIf] the two branches of a large
   conditional are not expanded before its condition is decided *)
Ltac gev := cbn [sseq eval evals evalBin negb andb orb lookup upd String.eqb Ascii.eqb Bool.eqb ints nats ranges intss].

(* the same for an environment known through hypotheses [lookup e x = Some v], [nth_error l k = Some v] *)
Ltac lkh := repeat match goal with
  | H : lookup _ _ = Some _ |- _ => rewrite H
  | H : nth_error _ _ = Some _ |- _ => rewrite H
  end.
Ltac gxe_by step := repeat (progress (step; lk; lkh; rewrite ?idxOf_nat, ?nth_error_map_VI, ?zlenV_map; cbn [option_map])).
Ltac gxe := gxe_by gx.
Ltac gee := gxe_by gev.

(* short-circuit [&&], [||] whose operands all evaluate *)
Lemma if_and_tot (x y : bool) : (if x then Some (VB y) else Some (VB false)) = Some (VB (x && y)).
Proof. now destruct x. Qed.
Lemma if_or_tot (x y : bool) : (if x then Some (VB true) else Some (VB y)) = Some (VB (x || y)).
Proof. now destruct x. Qed.

Lemma exec_SIf_val call fuel c a b e v :
  eval e c = Some (VB v) -> exec call fuel (SIf c a b) e = if v then exec call fuel a e else exec call fuel b e.
Proof. intros H. cbn [exec]. now rewrite H. Qed.

(* split on the conditional at the head of the program.  Its condition is evaluated in a goal of its own, to one
   boolean; the branches, and what follows the conditional, stay folded, so each path pays only for what it runs *)
Ltac destr_pos v := lazymatch v with negb ?a => destr_pos a | _ => destruct v end.
Ltac gif :=
  rewrite ?exec_SSeq;
  match goal with |- context [exec ?call ?fuel (SIf ?c ?a ?b) ?e] =>
    let H := fresh in
    eassert (H : eval e c = Some (VB _))
      by (repeat (progress (gee; rewrite ?if_and_tot, ?if_or_tot)); reflexivity);
    rewrite (exec_SIf_val call fuel c a b e _ H);
    match type of H with _ = Some (VB ?v) => destr_pos v end; clear H
  end; cbn [negb andb orb].
Ltac gskip := rewrite exec_SSkip; cbv beta iota.

(* execute under every outcome of the comparisons met on the way: splits on the atomic comparison that decides
   the outermost remaining [if] *)
Ltac destr_atom c := lazymatch c with
  | andb ?a _ => destr_atom a | orb ?a _ => destr_atom a | negb ?a => destr_atom a
  | (if ?a then _ else _) => destr_atom a
  | _ => destruct c end.
Ltac gxcase := gxe; try match goal with |- context [if ?c then _ else _] => destr_atom c; gxcase end.

(* [rangeLoop_check] for the loop [for i, x := range ts] of the goal, whose model side reads [allFrom ok 0 ts]:
   leaves the goal with the rule's conclusion [L], then the body's specification, [I] at the start, the bound *)
Ltac check_loop I N :=
  match goal with |- context [rangeLoop ?b ?i ?x (map ?emb ?ts) 0 ?e0] =>
  match goal with |- context [allFrom ?ok 0 ts] =>
    let L := fresh "L" in
    pose proof (rangeLoop_check emb I ok N b i x ts 0%nat e0) as L;
    lapply L; [clear L; intros L; lapply L; [clear L; intros L; lapply L; [clear L; intros L; change (Z.of_nat 0) with 0 in L | clear L] | clear L] | clear L]
  end end.
Ltac case_if L := match type of L with if ?c then _ else _ => destruct c end.
