(* GoValidAtP.v — ValidateAtIndexAgainstDims (tensor/internal/validator/accessors.go) as translated by harness/gox
   computes Model/Valid.v validateAtIndexAgainstDims, for all integer lists; worked example of the proof style
   (see coq/GOIR_NOTES.md). *)
From Coq Require Import String List ZArith Bool Lia Arith.
From Qeep Require Import Model.GoIR Model.GoFns Model.Nd Model.Valid Proofs.GoIRP.
Import ListNotations.
Local Open Scope string_scope.
Local Open Scope Z_scope.
Local Open Scope list_scope.

Lemma nth_ints_app (pre : list Z) d (dims : list Z) :
  nth_error (map VI (pre ++ d :: dims)) (length pre) = Some (VI d).
Proof. rewrite nth_error_map_VI, nth_error_app2, Nat.sub_diag by lia. reflexivity. Qed.

Theorem go_ValidateAtIndexAgainstDims call fuel (index dims : list Z) :
  exec call fuel (fbody ValidateAtIndexAgainstDims) [("index", ints index); ("dims", ints dims)]
  = ORet [errOf (validateAtIndexAgainstDims index dims)].
Proof.
  unfold validateAtIndexAgainstDims, ValidateAtIndexAgainstDims. cbn [fbody].
  gxe.
  destruct (Nat.eqb_spec (length index) (length dims)) as [El|El]; zdec; gxe; [|reflexivity].
  rewrite (allFrom_zip0 (fun a d => (0 <=? a) && (a <? d)) atIndexOk dims (fun _ _ _ _ => eq_refl) index)
    by (rewrite ?El, ?skipn_all; trivial).
  check_loop (fun e => lookup e "dims" = Some (ints dims)) (length dims); [| | reflexivity | now rewrite El].
  - case_if L; [destruct L as [e' [-> _]]; gxs | rewrite L]; reflexivity.
  - intros k e a Hk Hd.
    destruct (nth_error dims k) as [d|] eqn:En; [| apply nth_error_None in En; lia].
    gxcase; try reflexivity. eexists. split; [now left | now lk].
Qed.

Corollary run_ValidateAtIndexAgainstDims fuel (index dims : list Z) :
  run ftab fuel ValidateAtIndexAgainstDims [ints index; ints dims]
  = ORet [errOf (validateAtIndexAgainstDims index dims)].
Proof. unfold run. cbn [fparams ValidateAtIndexAgainstDims bindArgs]. apply go_ValidateAtIndexAgainstDims. Qed.

Print Assumptions run_ValidateAtIndexAgainstDims.
