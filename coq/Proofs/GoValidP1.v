(* GoValidP1.v — ValidateInputDims (tensor/internal/validator/initializers.go), ValidateSliceIndexAgainstDims and
   ValidatePatchIndexAgainstDims (tensor/internal/validator/accessors.go) as translated by harness/gox compute
   Model/Valid.v validateInputDims / validateSliceIndexAgainstDims / validatePatchIndexAgainstDims, for all inputs. *)
From Coq Require Import String List ZArith Bool Lia Arith.
From Qeep Require Import Model.GoIR Model.GoFns Model.Nd Model.Valid Proofs.GoIRP.
Import ListNotations.
Local Open Scope string_scope.
Local Open Scope Z_scope.
Local Open Scope list_scope.

Theorem go_ValidateInputDims call fuel (dims : list Z) :
  exec call fuel (fbody ValidateInputDims) [("dims", ints dims)]
  = ORet [errOf (validateInputDims dims)].
Proof.
  unfold ValidateInputDims, validateInputDims. cbn [fbody].
  gxe. rewrite (allFrom_forallb _ dims 0).
  check_loop (fun _ : env => True) (length dims); [| | exact I | apply Nat.le_refl].
  - case_if L; [destruct L as [e' [-> _]]; gxs | rewrite L]; reflexivity.
  - intros k e a _ _. gxcase; [reflexivity | eauto].
Qed.

Corollary run_ValidateInputDims fuel (dims : list Z) :
  run ftab fuel ValidateInputDims [ints dims] = ORet [errOf (validateInputDims dims)].
Proof. unfold run. cbn [fparams ValidateInputDims bindArgs]. apply go_ValidateInputDims. Qed.

Example ex_ValidateInputDims :
  run ftab 1 ValidateInputDims [ints [3; 4; 0; 2]] = ORet [VI 1] /\
  run ftab 1 ValidateInputDims [ints [3; 4; 1; 2]] = ORet [VI 0].
Proof. vm_compute. split; reflexivity. Qed.

Theorem go_ValidateSliceIndexAgainstDims call fuel (index : list (Z * Z)) (dims : list Z) :
  exec call fuel (fbody ValidateSliceIndexAgainstDims) [("index", ranges index); ("dims", ints dims)]
  = ORet [errOf (validateSliceIndexAgainstDims index dims)].
Proof.
  unfold validateSliceIndexAgainstDims, ValidateSliceIndexAgainstDims, zrange. cbn [fbody].
  gxe. rewrite Z.gtb_ltb.
  destruct (Nat.leb_spec (length index) (length dims)) as [El|El]; zdec; gxe; [|reflexivity].
  rewrite (allFrom_zip0 (T := Z * Z) (fun r d => sliceRangesOk [r] [d]) sliceRangesOk dims) by
    (trivial; intros [f t] *; cbn [sliceRangesOk]; now rewrite andb_true_r).
  check_loop (fun e => lookup e "dims" = Some (ints dims)) (length dims);
    [| | reflexivity | exact El].
  - case_if L; [destruct L as [e' [-> _]]; gxs | rewrite L]; reflexivity.
  - intros k e [f t] Hk Hd.
    destruct (nth_error dims k) as [d|] eqn:En; [| apply nth_error_None in En; lia].
    cbn [sliceRangesOk fst snd].
    gif; [gxe; eexists; (split; [eauto | now lk]) | gskip].
    gif; [gxe; reflexivity | gskip].
    gif; [gif; gxe; reflexivity | gskip; eexists; (split; [eauto | now lk])].
Qed.

Corollary run_ValidateSliceIndexAgainstDims fuel (index : list (Z * Z)) (dims : list Z) :
  run ftab fuel ValidateSliceIndexAgainstDims [ranges index; ints dims]
  = ORet [errOf (validateSliceIndexAgainstDims index dims)].
Proof. unfold run. cbn [fparams ValidateSliceIndexAgainstDims bindArgs]. apply go_ValidateSliceIndexAgainstDims. Qed.

Example ex_ValidateSliceIndexAgainstDims :
  run ftab 1 ValidateSliceIndexAgainstDims [ranges [(0, 0); (1, 3)]; ints [2; 3; 4]] = ORet [VI 0] /\
  run ftab 1 ValidateSliceIndexAgainstDims [ranges [(0, 0); (1, 4)]; ints [2; 3; 4]] = ORet [VI 1] /\
  run ftab 1 ValidateSliceIndexAgainstDims [ranges [(0, 0); (1, 2); (0, 0); (0, 1)]; ints [2; 3; 4]] = ORet [VI 1].
Proof. vm_compute. repeat split; reflexivity. Qed.

(* the call of ValidateSliceIndexAgainstDims through the function table *)
Lemma callD_ValidateSliceIndexAgainstDims fuel d (index : list (Z * Z)) (dims : list Z) :
  callD ftab fuel (S d) "ValidateSliceIndexAgainstDims" [ranges index; ints dims]
  = ORet [errOf (validateSliceIndexAgainstDims index dims)].
Proof.
  cbn [callD]. unfold ftab. cbn [lookupFn String.eqb Ascii.eqb Bool.eqb].
  change (fparams ValidateSliceIndexAgainstDims) with ["index"; "dims"]. cbn [bindArgs].
  rewrite go_ValidateSliceIndexAgainstDims. reflexivity.
Qed.

(* for any [call] that answers the ValidateSliceIndexAgainstDims call as the model does *)
Lemma go_ValidatePatchIndexAgainstDims_gen call fuel (index : list (Z * Z)) (src dst : list Z) :
  call "ValidateSliceIndexAgainstDims" [ranges index; ints dst] = ORet [errOf (validateSliceIndexAgainstDims index dst)] ->
  (S (length src) <= fuel)%nat ->
  exec call fuel (fbody ValidatePatchIndexAgainstDims)
    [("index", ranges index); ("srcDims", ints src); ("dstDims", ints dst)]
  = ORet [errOf (validatePatchIndexAgainstDims index src dst)].
Proof.
  intros Hcall Hfuel. cbn [ints ranges] in Hcall.
  unfold validatePatchIndexAgainstDims, ValidatePatchIndexAgainstDims. cbn [fbody].
  gxe.
  destruct (Nat.eqb_spec (length src) (length dst)) as [El|El]; zdec; gxe; [|reflexivity].
  (* the counting loop: the checks made so far have passed, so [srcFits] of the rest decides *)
  set (J := fun e => lookup e "index" = Some (ranges index) /\ lookup e "srcDims" = Some (ints src) /\
                     lookup e "dstDims" = Some (ints dst)).
  match goal with |- context [forLoop _ ?c ?b ?p ?e0] =>
    assert (HF : if srcFits src dst then exists e', forLoop fuel c b p e0 = ONormal e' /\ J e'
                 else forLoop fuel c b p e0 = ORet [VI 1])
  end.
  { apply (forLoop_count
             (fun k e => lookup e "i" = Some (VI (Z.of_nat k)) /\ J e /\
                         srcFits (skipn k src) (skipn k dst) = srcFits src dst)
             (fun o => if srcFits src dst then exists e', o = ONormal e' /\ J e' else o = ORet [VI 1])
             (length src)) with (k := 0%nat); [| | | lia | repeat split | lia].
    - intros k e (Hi & (Hx & Hs & Hd) & _). gxe. reflexivity.
    - intros k e Hk (Hi & (Hx & Hs & Hd) & Hm).
      destruct (nth_error src k) as [s|] eqn:E1; [| apply nth_error_None in E1; lia].
      destruct (nth_error dst k) as [d|] eqn:E2; [| apply nth_error_None in E2; lia].
      rewrite (skipn_nth_cons _ _ _ E1), (skipn_nth_cons _ _ _ E2) in Hm. cbn [srcFits] in Hm.
      gxe. destruct (s >? d); cbn [negb andb] in Hm; gxe.
      + left. eexists. split; [reflexivity|]. now rewrite <- Hm.
      + right. exists e. eexists. split; [now left|]. split; [gxe; reflexivity|].
        repeat split; lk; auto. now rewrite Nat2Z.inj_succ.
    - intros e (_ & HJ & Hm). rewrite skipn_all in Hm. cbn [srcFits] in Hm. rewrite <- Hm. eauto. }
  destruct (srcFits src dst); [destruct HF as (e1 & -> & Hx & Hs & Hd) | now rewrite HF].
  gxe. rewrite Hcall. cbn [assignAll].
  destruct (validateSliceIndexAgainstDims index dst) eqn:Ev; unfold errOf at 1; gxe; zdec; gxe; [|reflexivity].
  assert (Hlen : (length index <= length src)%nat).
  { unfold validateSliceIndexAgainstDims in Ev. apply andb_prop in Ev. destruct Ev as [Ev _].
    apply Nat.leb_le in Ev. rewrite El. exact Ev. }
  rewrite (allFrom_zip0 (T := Z * Z) (fun r s => coversSrc [r] [s]) coversSrc src) by
    (trivial; intros [f t] *; cbn [coversSrc]; now rewrite andb_true_r).
  check_loop (fun e => lookup e "srcDims" = Some (ints src)) (length src); [| | now lk | exact Hlen].
  - case_if L; [destruct L as [e' [-> _]]; gxs | rewrite L]; reflexivity.
  - intros k e [f t] Hk Hsr.
    destruct (nth_error src k) as [s|] eqn:En; [| apply nth_error_None in En; lia].
    cbn [coversSrc fst snd].
    gif; [gxe; eexists; (split; [eauto | now lk]) | gskip].
    gif; [gskip; eexists; (split; [eauto | now lk]) | gxe; reflexivity].
Qed.

Theorem go_ValidatePatchIndexAgainstDims fuel d (index : list (Z * Z)) (src dst : list Z) :
  (S (length src) <= fuel)%nat ->
  exec (callD ftab fuel (S d)) fuel (fbody ValidatePatchIndexAgainstDims)
    [("index", ranges index); ("srcDims", ints src); ("dstDims", ints dst)]
  = ORet [errOf (validatePatchIndexAgainstDims index src dst)].
Proof.
  apply go_ValidatePatchIndexAgainstDims_gen. apply callD_ValidateSliceIndexAgainstDims.
Qed.

Corollary run_ValidatePatchIndexAgainstDims fuel (index : list (Z * Z)) (src dst : list Z) :
  (S (length src) <= fuel)%nat ->
  run ftab fuel ValidatePatchIndexAgainstDims [ranges index; ints src; ints dst]
  = ORet [errOf (validatePatchIndexAgainstDims index src dst)].
Proof.
  intros Hf. unfold run. cbn [fparams ValidatePatchIndexAgainstDims bindArgs].
  destruct fuel as [|fuel']; [lia|].
  apply go_ValidatePatchIndexAgainstDims. exact Hf.
Qed.

Example ex_ValidatePatchIndexAgainstDims :
  run ftab 4 ValidatePatchIndexAgainstDims [ranges [(0, 0); (1, 3)]; ints [2; 2; 4]; ints [2; 3; 4]] = ORet [VI 0] /\
  run ftab 4 ValidatePatchIndexAgainstDims [ranges [(0, 0); (0, 3)]; ints [2; 2; 4]; ints [2; 3; 4]] = ORet [VI 1] /\
  run ftab 4 ValidatePatchIndexAgainstDims [ranges [(0, 0); (1, 3)]; ints [2; 2; 5]; ints [2; 3; 4]] = ORet [VI 1] /\
  run ftab 3 ValidatePatchIndexAgainstDims [ranges [(0, 0); (1, 3)]; ints [2; 2; 4]; ints [2; 3; 4]] = OFuel.
Proof. vm_compute. repeat split; reflexivity. Qed.

Print Assumptions go_ValidateInputDims.
Print Assumptions run_ValidateInputDims.
Print Assumptions go_ValidateSliceIndexAgainstDims.
Print Assumptions run_ValidateSliceIndexAgainstDims.
Print Assumptions go_ValidatePatchIndexAgainstDims.
Print Assumptions run_ValidatePatchIndexAgainstDims.
