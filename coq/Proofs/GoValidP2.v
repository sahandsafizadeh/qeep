(* GoValidP2.v — the validators of tensor/internal/validator/{operators,reducers,shape_modifiers,initializers}.go
   as translated by harness/gox (Model/GoFns.v) compute the hand-written model functions of Model/Valid.v, for ALL
   inputs:  ValidateReducedDimAgainstDims, ValidateTransposeDims, ValidateDotProductDims, ValidateMatMulDims,
   ValidateBinaryFuncDimsMatch, ValidateConcatTensorsDimsAlongDim (see coq/GOIR_NOTES.md). *)
From Coq Require Import String List ZArith Bool Lia Arith.
From Qeep Require Import Model.GoIR Model.GoFns Model.Nd Model.Valid Proofs.GoIRP.
Import ListNotations.
Local Open Scope string_scope.
Local Open Scope Z_scope.
Local Open Scope list_scope.

(* ------------------------------------------------------------------------------------------------ *)
(* 1. ValidateReducedDimAgainstDims, ValidateTransposeDims                                            *)
(* ------------------------------------------------------------------------------------------------ *)

Theorem go_ValidateReducedDimAgainstDims call fuel (dim : Z) (dims : list Z) :
  exec call fuel (fbody ValidateReducedDimAgainstDims) [("dim", VI dim); ("dims", ints dims)]
  = ORet [errOf (validateReducedDimAgainstDims dim dims)].
Proof.
  unfold validateReducedDimAgainstDims, ValidateReducedDimAgainstDims, zlen. cbn [fbody].
  gxs. rewrite !zlenV_map.
  destruct (0 <=? dim); gxs; [|reflexivity].
  destruct (dim <? Z.of_nat (length dims)); gxs; reflexivity.
Qed.

Corollary run_ValidateReducedDimAgainstDims fuel (dim : Z) (dims : list Z) :
  run ftab fuel ValidateReducedDimAgainstDims [VI dim; ints dims]
  = ORet [errOf (validateReducedDimAgainstDims dim dims)].
Proof. unfold run. cbn [fparams ValidateReducedDimAgainstDims bindArgs]. apply go_ValidateReducedDimAgainstDims. Qed.

Theorem go_ValidateTransposeDims call fuel (dims : list Z) :
  exec call fuel (fbody ValidateTransposeDims) [("dims", ints dims)]
  = ORet [errOf (validateTransposeDims dims)].
Proof.
  unfold validateTransposeDims, ValidateTransposeDims. cbn [fbody].
  gxs. rewrite !zlenV_map.
  destruct (2 <=? length dims)%nat eqn:E.
  - apply Nat.leb_le in E. zdec. gxs. reflexivity.
  - apply Nat.leb_gt in E. zdec. gxs. reflexivity.
Qed.

Corollary run_ValidateTransposeDims fuel (dims : list Z) :
  run ftab fuel ValidateTransposeDims [ints dims]
  = ORet [errOf (validateTransposeDims dims)].
Proof. unfold run. cbn [fparams ValidateTransposeDims bindArgs]. apply go_ValidateTransposeDims. Qed.

(* ------------------------------------------------------------------------------------------------ *)
(* 2. ValidateDotProductDims, ValidateMatMulDims                                                      *)
(* ------------------------------------------------------------------------------------------------ *)

Lemma rev_eq_nil {T} (l : list T) : rev l = [] -> l = [].
Proof. intros H. rewrite <- (rev_involutive l), H. reflexivity. Qed.

Lemma rev_eq_cons {T} (l : list T) a r : rev l = a :: r -> l = rev r ++ [a].
Proof. intros H. rewrite <- (rev_involutive l), H. reflexivity. Qed.

(* indexing a slice [p ++ s] at position len p *)
Lemma idx_app (p s : list Z) (z : Z) :
  z = Z.of_nat (length p) ->
  match idxOf z with Some n => nth_error (map VI (p ++ s)) n | None => None end = option_map VI (hd_error s).
Proof.
  intros ->. rewrite idxOf_nat, nth_error_map_VI, nth_error_app2, Nat.sub_diag by lia.
  destruct s; reflexivity.
Qed.

Theorem go_ValidateDotProductDims call fuel (dims1 dims2 : list Z) :
  exec call fuel (fbody ValidateDotProductDims) [("dims1", ints dims1); ("dims2", ints dims2)]
  = ORet [errOf (validateDotProductDims dims1 dims2)].
Proof.
  unfold validateDotProductDims, ValidateDotProductDims. cbn [fbody].
  gxs. rewrite !zlenV_map.
  destruct (rev dims1) as [|a r1] eqn:E1.
  { apply rev_eq_nil in E1; subst dims1. cbn [length Z.of_nat]. zdec. gxs. reflexivity. }
  apply rev_eq_cons in E1; subst dims1.
  destruct (rev dims2) as [|b r2] eqn:E2.
  { apply rev_eq_nil in E2; subst dims2. rewrite !app_length. cbn [length Z.of_nat]. zdec. gxs. reflexivity. }
  apply rev_eq_cons in E2; subst dims2.
  rewrite !app_length. cbn [length]. zdec. gxs.
  rewrite !idx_app by lia. cbn [hd_error option_map]. gxs.
  destruct (a =? b); gxs; reflexivity.
Qed.

Corollary run_ValidateDotProductDims fuel (dims1 dims2 : list Z) :
  run ftab fuel ValidateDotProductDims [ints dims1; ints dims2]
  = ORet [errOf (validateDotProductDims dims1 dims2)].
Proof. unfold run. cbn [fparams ValidateDotProductDims bindArgs]. apply go_ValidateDotProductDims. Qed.

Theorem go_ValidateMatMulDims call fuel (dims1 dims2 : list Z) :
  exec call fuel (fbody ValidateMatMulDims) [("dims1", ints dims1); ("dims2", ints dims2)]
  = ORet [errOf (validateMatMulDims dims1 dims2)].
Proof.
  unfold validateMatMulDims, ValidateMatMulDims. cbn [fbody].
  gxs. rewrite !zlenV_map.
  destruct (rev dims1) as [|a r1] eqn:E1.
  { apply rev_eq_nil in E1; subst dims1. cbn [length Z.of_nat]. zdec. gxs. reflexivity. }
  apply rev_eq_cons in E1; subst dims1.
  destruct r1 as [|a' r1].
  { cbn [rev app length Z.of_nat]. zdec. gxs. reflexivity. }
  destruct (rev dims2) as [|c r2] eqn:E2.
  { apply rev_eq_nil in E2; subst dims2. rewrite ?app_length, ?rev_length. cbn [length Z.of_nat]. zdec. gxs. reflexivity. }
  apply rev_eq_cons in E2; subst dims2.
  destruct r2 as [|b r2].
  { rewrite ?app_length, ?rev_length. cbn [rev app length Z.of_nat]. zdec. gxs. reflexivity. }
  cbn [rev]. rewrite <- (app_assoc (rev r2) [b] [c]). cbn [app].
  rewrite ?app_length, ?rev_length. cbn [length]. zdec. gxs.
  rewrite (idx_app (rev (a' :: r1)) [a]) by (rewrite rev_length; cbn [length]; lia).
  rewrite (idx_app (rev r2) [b; c]) by (rewrite rev_length; lia).
  cbn [hd_error option_map]. gxs.
  destruct (a =? b); gxs; reflexivity.
Qed.

Corollary run_ValidateMatMulDims fuel (dims1 dims2 : list Z) :
  run ftab fuel ValidateMatMulDims [ints dims1; ints dims2]
  = ORet [errOf (validateMatMulDims dims1 dims2)].
Proof. unfold run. cbn [fparams ValidateMatMulDims bindArgs]. apply go_ValidateMatMulDims. Qed.

(* ------------------------------------------------------------------------------------------------ *)
(* 3. ValidateBinaryFuncDimsMatch (counting for loop)                                                 *)
(* ------------------------------------------------------------------------------------------------ *)

Lemma dimsEq_length (a b : list Z) : dimsEq a b = true -> length a = length b.
Proof.
  revert b; induction a as [|x a IH]; intros [|y b] H; cbn in *; try discriminate; auto.
  apply andb_true_iff in H. destruct H as [_ H]. now rewrite (IH _ H).
Qed.

Theorem go_ValidateBinaryFuncDimsMatch call fuel (dims1 dims2 : list Z) :
  (S (length dims1) <= fuel)%nat ->
  exec call fuel (fbody ValidateBinaryFuncDimsMatch) [("dims1", ints dims1); ("dims2", ints dims2)]
  = ORet [errOf (validateBinaryFuncDimsMatch dims1 dims2)].
Proof.
  intros Hfuel.
  unfold validateBinaryFuncDimsMatch, ValidateBinaryFuncDimsMatch. cbn [fbody].
  gxe.
  destruct (Nat.eqb_spec (length dims1) (length dims2)) as [El|El]; zdec; gxe.
  2:{ destruct (dimsEq dims1 dims2) eqn:Ed; [apply dimsEq_length in Ed; lia | reflexivity]. }
  (* the checks made so far have passed, so [dimsEq] of the rest decides *)
  set (J := fun e => lookup e "dims1" = Some (ints dims1) /\ lookup e "dims2" = Some (ints dims2)).
  match goal with |- context [forLoop _ ?c ?b ?p ?e0] =>
    assert (HF : if dimsEq dims1 dims2 then exists e', forLoop fuel c b p e0 = ONormal e'
                 else forLoop fuel c b p e0 = ORet [VI 1])
  end.
  { apply (forLoop_count
             (fun k e => lookup e "i" = Some (VI (Z.of_nat k)) /\ J e /\
                         dimsEq (skipn k dims1) (skipn k dims2) = dimsEq dims1 dims2)
             (fun o => if dimsEq dims1 dims2 then exists e', o = ONormal e' else o = ORet [VI 1])
             (length dims1)) with (k := 0%nat); [| | | lia | repeat split | lia].
    - intros k e (Hi & (H1 & H2) & _). gxe. reflexivity.
    - intros k e Hk (Hi & (H1 & H2) & Hm).
      destruct (nth_error dims1 k) as [a|] eqn:E1; [| apply nth_error_None in E1; lia].
      destruct (nth_error dims2 k) as [b|] eqn:E2; [| apply nth_error_None in E2; lia].
      rewrite (skipn_nth_cons _ _ _ E1), (skipn_nth_cons _ _ _ E2) in Hm. cbn [dimsEq] in Hm.
      gxe. destruct (a =? b); cbn [andb] in Hm; gxe.
      + right. exists e. eexists. split; [now left|]. split; [gxe; reflexivity|].
        repeat split; lk; auto. now rewrite Nat2Z.inj_succ.
      + left. eexists. split; [reflexivity|]. now rewrite <- Hm.
    - intros e (_ & HJ & Hm). rewrite skipn_all, El, skipn_all in Hm. cbn [dimsEq] in Hm. rewrite <- Hm. eauto. }
  destruct (dimsEq dims1 dims2); [destruct HF as (e1 & ->) | now rewrite HF]. gxs. reflexivity.
Qed.

Corollary run_ValidateBinaryFuncDimsMatch fuel (dims1 dims2 : list Z) :
  (S (length dims1) <= fuel)%nat ->
  run ftab fuel ValidateBinaryFuncDimsMatch [ints dims1; ints dims2]
  = ORet [errOf (validateBinaryFuncDimsMatch dims1 dims2)].
Proof.
  intros H. unfold run. cbn [fparams ValidateBinaryFuncDimsMatch bindArgs].
  now apply go_ValidateBinaryFuncDimsMatch.
Qed.

(* ------------------------------------------------------------------------------------------------ *)
(* 4. ValidateConcatTensorsDimsAlongDim (nested range loops; tsDims[0] panics on the empty list)      *)
(* ------------------------------------------------------------------------------------------------ *)

(* one conjunct of concatDimsOk: the checks the Go loop body makes for one tensor *)
Definition concatRowOk (base : list Z) (dim : Z) (ds : list Z) : bool :=
  negb (length ds =? 0)%nat
  && (length ds =? length base)%nat
  && ((0 <=? dim) && (dim <? zlen base))
  && forallb (fun p : Z * (Z * Z) => let '(j, (d, b)) := p in (j =? dim) || (d =? b))
             (combine (map Z.of_nat (seq 0 (length ds))) (combine ds base)).

Lemma concatDimsOk_cons base dim ds rest :
  concatDimsOk base dim (ds :: rest) = concatRowOk base dim ds && concatDimsOk base dim rest.
Proof. reflexivity. Qed.

(* what the loops keep unchanged *)
Definition concatInv (base : list Z) (dim : Z) (e : env) : Prop :=
  lookup e "dim" = Some (VI dim) /\ lookup e "base" = Some (ints base).

(* ... and inside the inner loop also the outer loop variable (it is an argument of the error message) *)
Definition concatInvI (base : list Z) (dim zi : Z) (e : env) : Prop :=
  concatInv base dim e /\ lookup e "i" = Some (VI zi).

(* the inner loop (for j, d := range dims), for any body that behaves like the Go body *)
Lemma concat_inner (base : list Z) (dim zi : Z) (body : env -> outcome) :
  (forall e j d, concatInvI base dim zi e ->
     body (upd (upd e "j" (VI (Z.of_nat j))) "d" (VI d)) =
     if Z.of_nat j =? dim then OContinue (upd (upd e "j" (VI (Z.of_nat j))) "d" (VI d))
     else match nth_error base j with
          | Some b => if d =? b then ONormal (upd (upd e "j" (VI (Z.of_nat j))) "d" (VI d)) else ORet [VI 1]
          | None => OPanic
          end) ->
  forall (ds bpre brest : list Z) (e : env),
  base = bpre ++ brest -> (length ds <= length brest)%nat -> concatInvI base dim zi e ->
  let ok := forallb (fun p : Z * (Z * Z) => let '(j, (d, b)) := p in (j =? dim) || (d =? b))
                    (combine (map Z.of_nat (seq (length bpre) (length ds))) (combine ds brest)) in
  (ok = true -> exists e', rangeLoop body "j" "d" (map VI ds) (Z.of_nat (length bpre)) e = ONormal e'
                           /\ concatInvI base dim zi e') /\
  (ok = false -> rangeLoop body "j" "d" (map VI ds) (Z.of_nat (length bpre)) e = ORet [VI 1]).
Proof.
  intros Hb. induction ds as [|d ds IH]; intros bpre brest e HB Hl He.
  - cbn. split; [eauto | discriminate].
  - destruct brest as [|b brest]; [cbn in Hl; lia|].
    cbn [length seq map combine forallb rangeLoop].
    rewrite (Hb e (length bpre) d He).
    assert (Hn : nth_error base (length bpre) = Some b).
    { subst base. rewrite nth_error_app2, Nat.sub_diag by lia. reflexivity. }
    assert (He' : concatInvI base dim zi (upd (upd e "j" (VI (Z.of_nat (length bpre)))) "d" (VI d))).
    { destruct He as [[H1 H2] H3]. repeat split; lk; assumption. }
    assert (Hnext : forall e1, concatInvI base dim zi e1 ->
      let ok := forallb (fun p : Z * (Z * Z) => let '(j, (d, b)) := p in (j =? dim) || (d =? b))
                    (combine (map Z.of_nat (seq (S (length bpre)) (length ds))) (combine ds brest)) in
      (ok = true -> exists e', rangeLoop body "j" "d" (map VI ds) (Z.of_nat (length bpre) + 1) e1 = ONormal e'
                               /\ concatInvI base dim zi e') /\
      (ok = false -> rangeLoop body "j" "d" (map VI ds) (Z.of_nat (length bpre) + 1) e1 = ORet [VI 1])).
    { intros e1 He1.
      replace (Z.of_nat (length bpre) + 1) with (Z.of_nat (length (bpre ++ [b]))) by (rewrite app_length; cbn; lia).
      replace (S (length bpre)) with (length (bpre ++ [b])) by (rewrite app_length; cbn; lia).
      apply IH; [subst base; now rewrite <- app_assoc | cbn [length] in Hl; lia | exact He1]. }
    destruct (Z.of_nat (length bpre) =? dim) eqn:Ej; cbn [orb andb].
    + apply Hnext, He'.
    + rewrite Hn. destruct (d =? b); cbn [andb].
      * apply Hnext, He'.
      * split; [discriminate | reflexivity].
Qed.

(* the outer loop (for i, dims := range tsDims), for any body that performs the checks of one tensor *)
Lemma concat_outer (base : list Z) (dim : Z) (obody : env -> outcome) :
  (forall e z ds, concatInv base dim e ->
     (concatRowOk base dim ds = true ->
        exists e', obody (upd (upd e "i" (VI z)) "dims" (ints ds)) = ONormal e' /\ concatInv base dim e') /\
     (concatRowOk base dim ds = false -> obody (upd (upd e "i" (VI z)) "dims" (ints ds)) = ORet [VI 1])) ->
  forall (tsDims : list (list Z)) (z : Z) (e : env), concatInv base dim e ->
  (concatDimsOk base dim tsDims = true ->
     exists e', rangeLoop obody "i" "dims" (map ints tsDims) z e = ONormal e') /\
  (concatDimsOk base dim tsDims = false -> rangeLoop obody "i" "dims" (map ints tsDims) z e = ORet [VI 1]).
Proof.
  intros Hb. induction tsDims as [|ds rest IH]; intros z e He.
  - cbn. split; [eauto | discriminate].
  - rewrite concatDimsOk_cons. cbn [map rangeLoop].
    destruct (Hb e z ds He) as [HT HF].
    destruct (concatRowOk base dim ds); cbn [andb].
    + destruct (HT eq_refl) as [e1 [H1 He1]]. rewrite H1. apply IH, He1.
    + rewrite (HF eq_refl). split; [discriminate | reflexivity].
Qed.

Theorem go_ValidateConcatTensorsDimsAlongDim_cons call fuel (base : list Z) (rest : list (list Z)) (dim : Z) :
  exec call fuel (fbody ValidateConcatTensorsDimsAlongDim) [("tsDims", intss (base :: rest)); ("dim", VI dim)]
  = ORet [errOf (concatDimsOk base dim (base :: rest))].
Proof.
  unfold ValidateConcatTensorsDimsAlongDim. cbn [fbody].
  gxs. change (idxOf 0) with (Some 0%nat). cbn [map nth_error]. gxs.
  match goal with |- context [rangeLoop ?ob _ _ _ _ ?e0] =>
    assert (Hspec : forall e z ds, concatInv base dim e ->
       (concatRowOk base dim ds = true ->
          exists e', ob (upd (upd e "i" (VI z)) "dims" (ints ds)) = ONormal e' /\ concatInv base dim e') /\
       (concatRowOk base dim ds = false -> ob (upd (upd e "i" (VI z)) "dims" (ints ds)) = ORet [VI 1]));
    [| assert (He0 : concatInv base dim e0) by (split; reflexivity);
       destruct (concat_outer base dim ob Hspec (base :: rest) 0 e0 He0) as [HT HF]]
  end.
  - intros e z ds [Hdim Hbase]. unfold concatRowOk, zlen.
    gxs. rewrite ?Hdim, ?Hbase. gxs. rewrite !zlenV_map.
    destruct (length ds =? 0)%nat eqn:E0; [apply Nat.eqb_eq in E0 | apply Nat.eqb_neq in E0].
    { replace (Z.of_nat (length ds) =? 0) with true by (symmetry; apply Z.eqb_eq; lia).
      cbn [negb andb]. split; [discriminate | reflexivity]. }
    replace (Z.of_nat (length ds) =? 0) with false by (symmetry; apply Z.eqb_neq; lia).
    cbn [negb andb]. gxs. rewrite ?Hdim, ?Hbase. gxs. rewrite ?zlenV_map.
    destruct (length ds =? length base)%nat eqn:E1; [apply Nat.eqb_eq in E1 | apply Nat.eqb_neq in E1].
    2:{ replace (Z.of_nat (length ds) =? Z.of_nat (length base)) with false by (symmetry; apply Z.eqb_neq; lia).
        cbn [negb andb]. gxs. rewrite ?Hdim, ?Hbase. gxs. split; [discriminate | reflexivity]. }
    replace (Z.of_nat (length ds) =? Z.of_nat (length base)) with true by (symmetry; apply Z.eqb_eq; lia).
    cbn [negb andb]. gxs. rewrite ?Hdim, ?Hbase. gxs. rewrite !zlenV_map.
    destruct (0 <=? dim); cbn [negb andb]; gxs; rewrite ?Hdim, ?Hbase; gxs.
    2:{ split; [discriminate | reflexivity]. }
    destruct (dim <? Z.of_nat (length base)); cbn [negb andb]; gxs; rewrite ?Hdim, ?Hbase; gxs.
    2:{ split; [discriminate | reflexivity]. }
    assert (HeI : concatInvI base dim z (upd (upd e "i" (VI z)) "dims" (ints ds))).
    { repeat split; lk; first [assumption | reflexivity]. }
    match goal with |- context [rangeLoop ?ib _ _ _ _ ?e1] =>
      assert (Hin : forall e j d, concatInvI base dim z e ->
         ib (upd (upd e "j" (VI (Z.of_nat j))) "d" (VI d)) =
         if Z.of_nat j =? dim then OContinue (upd (upd e "j" (VI (Z.of_nat j))) "d" (VI d))
         else match nth_error base j with
              | Some b => if d =? b then ONormal (upd (upd e "j" (VI (Z.of_nat j))) "d" (VI d)) else ORet [VI 1]
              | None => OPanic
              end);
      [| destruct (concat_inner base dim z ib Hin ds [] base e1 eq_refl ltac:(lia) HeI) as [HT HF]]
    end.
    + clear HeI. intros e' j d [[Hdim' Hbase'] Hi']. gxs. rewrite ?Hdim', ?Hbase', ?Hi'. gxs.
      destruct (Z.of_nat j =? dim); [reflexivity|].
      gxs. rewrite ?Hdim', ?Hbase', ?Hi'. gxs. rewrite idxOf_nat, nth_error_map_VI.
      destruct (nth_error base j) as [b|]; cbn [option_map]; [|reflexivity].
      gxs. destruct (d =? b); gxs; [reflexivity|].
      rewrite ?Hdim', ?Hbase', ?Hi'; gxs.
      reflexivity.
    + cbn [length Z.of_nat] in HT, HF. split.
      * intros H. destruct (HT H) as [e' [He' [Hinv _]]]. exists e'. split; assumption.
      * exact HF.
  - destruct (concatDimsOk base dim (base :: rest)).
    + destruct (HT eq_refl) as [e' He']. rewrite He'. gxs. reflexivity.
    + rewrite (HF eq_refl). reflexivity.
Qed.

Theorem go_ValidateConcatTensorsDimsAlongDim_empty call fuel (dim : Z) :
  exec call fuel (fbody ValidateConcatTensorsDimsAlongDim) [("tsDims", intss []); ("dim", VI dim)] = OPanic.
Proof.
  unfold ValidateConcatTensorsDimsAlongDim. cbn [fbody].
  gxs. change (idxOf 0) with (Some 0%nat). cbn [map nth_error]. reflexivity.
Qed.

(* both cases in one statement: the translated program computes the (partial) model function *)
Theorem go_ValidateConcatTensorsDimsAlongDim_total call fuel (tsDims : list (list Z)) (dim : Z) :
  exec call fuel (fbody ValidateConcatTensorsDimsAlongDim) [("tsDims", intss tsDims); ("dim", VI dim)]
  = match validateConcatTensorsDimsAlongDim tsDims dim with
    | Some b => ORet [errOf b]
    | None => OPanic
    end.
Proof.
  destruct tsDims as [|base rest]; cbn [validateConcatTensorsDimsAlongDim].
  - apply go_ValidateConcatTensorsDimsAlongDim_empty.
  - apply go_ValidateConcatTensorsDimsAlongDim_cons.
Qed.

Theorem go_ValidateConcatTensorsDimsAlongDim call fuel (tsDims : list (list Z)) (dim : Z) (b : bool) :
  validateConcatTensorsDimsAlongDim tsDims dim = Some b ->
  exec call fuel (fbody ValidateConcatTensorsDimsAlongDim) [("tsDims", intss tsDims); ("dim", VI dim)]
  = ORet [errOf b].
Proof. intros H. rewrite go_ValidateConcatTensorsDimsAlongDim_total, H. reflexivity. Qed.

(* the model is defined (Some) exactly on the non-empty lists, so the theorem above covers all of them *)
Lemma validateConcat_defined (tsDims : list (list Z)) (dim : Z) :
  tsDims <> [] -> exists b, validateConcatTensorsDimsAlongDim tsDims dim = Some b.
Proof. destruct tsDims; [congruence | intros _; eexists; reflexivity]. Qed.

Corollary run_ValidateConcatTensorsDimsAlongDim fuel (tsDims : list (list Z)) (dim : Z) (b : bool) :
  validateConcatTensorsDimsAlongDim tsDims dim = Some b ->
  run ftab fuel ValidateConcatTensorsDimsAlongDim [intss tsDims; VI dim] = ORet [errOf b].
Proof.
  intros H. unfold run. cbn [fparams ValidateConcatTensorsDimsAlongDim bindArgs].
  now apply go_ValidateConcatTensorsDimsAlongDim.
Qed.

Corollary run_ValidateConcatTensorsDimsAlongDim_empty fuel (dim : Z) :
  run ftab fuel ValidateConcatTensorsDimsAlongDim [intss []; VI dim] = OPanic.
Proof.
  unfold run. cbn [fparams ValidateConcatTensorsDimsAlongDim bindArgs].
  apply go_ValidateConcatTensorsDimsAlongDim_empty.
Qed.

(* ------------------------------------------------------------------------------------------------ *)
(* concrete runs of the translated programs                                                           *)
(* ------------------------------------------------------------------------------------------------ *)

Example ex_reduced_ok : run ftab 0 ValidateReducedDimAgainstDims [VI 2; ints [4; 5; 6]] = ORet [VI 0].
Proof. vm_compute; reflexivity. Qed.
Example ex_reduced_bad : run ftab 0 ValidateReducedDimAgainstDims [VI 3; ints [4; 5; 6]] = ORet [VI 1].
Proof. vm_compute; reflexivity. Qed.
Example ex_transpose_bad : run ftab 0 ValidateTransposeDims [ints [7]] = ORet [VI 1].
Proof. vm_compute; reflexivity. Qed.
Example ex_dot_ok : run ftab 0 ValidateDotProductDims [ints [2; 3; 4]; ints [4]] = ORet [VI 0].
Proof. vm_compute; reflexivity. Qed.
Example ex_dot_bad : run ftab 0 ValidateDotProductDims [ints [2; 3; 4]; ints [4; 3]] = ORet [VI 1].
Proof. vm_compute; reflexivity. Qed.
Example ex_matmul_ok : run ftab 0 ValidateMatMulDims [ints [5; 2; 3]; ints [7; 3; 4]] = ORet [VI 0].
Proof. vm_compute; reflexivity. Qed.
Example ex_matmul_bad : run ftab 0 ValidateMatMulDims [ints [5; 2; 3]; ints [3]] = ORet [VI 1].
Proof. vm_compute; reflexivity. Qed.
Example ex_binary_ok : run ftab 4 ValidateBinaryFuncDimsMatch [ints [2; 3; 4]; ints [2; 3; 4]] = ORet [VI 0].
Proof. vm_compute; reflexivity. Qed.
Example ex_binary_bad : run ftab 4 ValidateBinaryFuncDimsMatch [ints [2; 3; 4]; ints [2; 3; 5]] = ORet [VI 1].
Proof. vm_compute; reflexivity. Qed.
(* the fuel bound S (length dims1) is tight: with one unit less the loop runs out of fuel *)
Example ex_binary_fuel : run ftab 3 ValidateBinaryFuncDimsMatch [ints [2; 3; 4]; ints [2; 3; 4]] = OFuel.
Proof. vm_compute; reflexivity. Qed.
Example ex_concat_ok :
  run ftab 0 ValidateConcatTensorsDimsAlongDim [intss [[2; 3; 4]; [2; 7; 4]; [2; 1; 4]]; VI 1] = ORet [VI 0].
Proof. vm_compute; reflexivity. Qed.
Example ex_concat_bad :
  run ftab 0 ValidateConcatTensorsDimsAlongDim [intss [[2; 3; 4]; [2; 7; 5]]; VI 1] = ORet [VI 1].
Proof. vm_compute; reflexivity. Qed.
Example ex_concat_dim_bad :
  run ftab 0 ValidateConcatTensorsDimsAlongDim [intss [[2; 3; 4]; [2; 7; 4]]; VI 3] = ORet [VI 1].
Proof. vm_compute; reflexivity. Qed.
Example ex_concat_empty : run ftab 0 ValidateConcatTensorsDimsAlongDim [intss []; VI 0] = OPanic.
Proof. vm_compute; reflexivity. Qed.

Print Assumptions run_ValidateReducedDimAgainstDims.
Print Assumptions run_ValidateTransposeDims.
Print Assumptions run_ValidateDotProductDims.
Print Assumptions run_ValidateMatMulDims.
Print Assumptions go_ValidateBinaryFuncDimsMatch.
Print Assumptions run_ValidateBinaryFuncDimsMatch.
Print Assumptions go_ValidateConcatTensorsDimsAlongDim_total.
Print Assumptions go_ValidateConcatTensorsDimsAlongDim.
Print Assumptions run_ValidateConcatTensorsDimsAlongDim.
Print Assumptions run_ValidateConcatTensorsDimsAlongDim_empty.
