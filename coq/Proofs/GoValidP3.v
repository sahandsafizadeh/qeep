(* GoValidP3.v — the validators of tensor/internal/validator/shape_modifiers.go as translated by harness/gox
   (Model/GoFns.v) compute the hand-written model functions of Model/Valid.v, for all inputs:
   dimsToNumElems, ValidateUnSqueezeDimAgainstDims, ValidateFlattenDimAgainstDims, ValidateSqueezeDimAgainstDims,
   ValidateReshapeSourceDimsAgainstTargetDims, ValidateBroadcastSourceDimsAgainstTargetDims.
   Style: see coq/GOIR_NOTES.md and Proofs/GoValidAtP.v. *)
From Coq Require Import String List ZArith Bool Lia Arith.
From Qeep Require Import Model.GoIR Model.GoFns Model.Nd Model.Valid Proofs.GoIRP.
From Qeep Require Proofs.GoValidP2.
Import ListNotations.
Local Open Scope string_scope.
Local Open Scope Z_scope.
Local Open Scope list_scope.

(* ====================================================================== *)
(* 1. dimsToNumElems                                                      *)
(* ====================================================================== *)

Theorem go_dimsToNumElems call fuel (dims : list Z) :
  exec call fuel (fbody GoFns.dimsToNumElems) [("dims", ints dims)]
  = ORet [VI (Valid.dimsToNumElems dims)].
Proof.
  unfold Valid.dimsToNumElems, GoFns.dimsToNumElems. cbn [fbody].
  gxs.
  match goal with |- context [rangeLoop ?b ?i ?x _ _ ?e0] =>
    destruct (rangeLoop_fold VI (fun a e => lookup e "elems" = Some (VI a)) Z.mul b i x)
      with (ts := dims) (k := 0) (e := e0) (s := 1) as [e' [Hl He']]
  end.
  - intros k e a d He. gxe. eexists. split; [reflexivity|]. now lk.
  - reflexivity.
  - rewrite Hl. gxs. rewrite He'. reflexivity.
Qed.

Corollary run_dimsToNumElems fuel (dims : list Z) :
  run ftab fuel GoFns.dimsToNumElems [ints dims] = ORet [VI (Valid.dimsToNumElems dims)].
Proof. unfold run. cbn [fparams GoFns.dimsToNumElems bindArgs]. apply go_dimsToNumElems. Qed.

(* the call-level fact used by callers (note 5 of GOIR_NOTES.md) *)
Lemma callD_dimsToNumElems fuel d (dims : list Z) :
  callD ftab fuel (S d) "dimsToNumElems" [ints dims] = ORet [VI (Valid.dimsToNumElems dims)].
Proof.
  cbn [callD].
  assert (Hf : lookupFn ftab "dimsToNumElems" = Some GoFns.dimsToNumElems) by (vm_compute; reflexivity).
  assert (Hp : bindArgs (fparams GoFns.dimsToNumElems) [ints dims] = Some [("dims", ints dims)]) by reflexivity.
  rewrite Hf, Hp. now rewrite go_dimsToNumElems.
Qed.

(* ====================================================================== *)
(* 2. UnSqueeze / Flatten / Squeeze dimension validators                  *)
(* ====================================================================== *)

Theorem go_ValidateUnSqueezeDimAgainstDims call fuel (dim : Z) (dims : list Z) :
  exec call fuel (fbody ValidateUnSqueezeDimAgainstDims) [("dim", VI dim); ("dims", ints dims)]
  = ORet [errOf (validateUnSqueezeDim dim dims)].
Proof.
  unfold validateUnSqueezeDim, ValidateUnSqueezeDimAgainstDims, zlen. cbn [fbody].
  gxs. rewrite !zlenV_map.
  destruct (0 <=? dim) eqn:E0; gxs.
  - destruct (dim <=? Z.of_nat (length dims)) eqn:E1; gxs; reflexivity.
  - reflexivity.
Qed.

Corollary run_ValidateUnSqueezeDimAgainstDims fuel (dim : Z) (dims : list Z) :
  run ftab fuel ValidateUnSqueezeDimAgainstDims [VI dim; ints dims]
  = ORet [errOf (validateUnSqueezeDim dim dims)].
Proof. unfold run. cbn [fparams ValidateUnSqueezeDimAgainstDims bindArgs]. apply go_ValidateUnSqueezeDimAgainstDims. Qed.

Theorem go_ValidateFlattenDimAgainstDims call fuel (dim : Z) (dims : list Z) :
  exec call fuel (fbody ValidateFlattenDimAgainstDims) [("dim", VI dim); ("dims", ints dims)]
  = ORet [errOf (validateFlattenDim dim dims)].
(* the Go function has the body of ValidateReducedDimAgainstDims, and the two model functions agree *)
Proof. exact (GoValidP2.go_ValidateReducedDimAgainstDims call fuel dim dims). Qed.

Corollary run_ValidateFlattenDimAgainstDims fuel (dim : Z) (dims : list Z) :
  run ftab fuel ValidateFlattenDimAgainstDims [VI dim; ints dims]
  = ORet [errOf (validateFlattenDim dim dims)].
Proof. unfold run. cbn [fparams ValidateFlattenDimAgainstDims bindArgs]. apply go_ValidateFlattenDimAgainstDims. Qed.

Theorem go_ValidateSqueezeDimAgainstDims call fuel (dim : Z) (dims : list Z) :
  exec call fuel (fbody ValidateSqueezeDimAgainstDims) [("dim", VI dim); ("dims", ints dims)]
  = ORet [errOf (validateSqueezeDim dim dims)].
Proof.
  unfold validateSqueezeDim, ValidateSqueezeDimAgainstDims, zlen. cbn [fbody].
  gxs. rewrite !zlenV_map.
  destruct (0 <=? dim) eqn:E0; gxs; [|reflexivity].
  destruct (dim <? Z.of_nat (length dims)) eqn:E1; gxs; [|reflexivity].
  apply Z.leb_le in E0. apply Z.ltb_lt in E1.
  rewrite !idxOf_nonneg by exact E0. rewrite !nth_error_map_VI.
  destruct (nth_error dims (Z.to_nat dim)) as [d|] eqn:En.
  2:{ apply nth_error_None in En. lia. }
  cbn [option_map]. gxs.
  destruct (d =? 1) eqn:Ed; gxs; reflexivity.
Qed.

Corollary run_ValidateSqueezeDimAgainstDims fuel (dim : Z) (dims : list Z) :
  run ftab fuel ValidateSqueezeDimAgainstDims [VI dim; ints dims]
  = ORet [errOf (validateSqueezeDim dim dims)].
Proof. unfold run. cbn [fparams ValidateSqueezeDimAgainstDims bindArgs]. apply go_ValidateSqueezeDimAgainstDims. Qed.

(* ====================================================================== *)
(* 3. ValidateReshapeSourceDimsAgainstTargetDims                          *)
(* ====================================================================== *)

(* for ANY call oracle that answers "dimsToNumElems" like the model *)
Theorem go_ValidateReshape_gen call fuel (src dst : list Z) :
  (forall l, call "dimsToNumElems" [ints l] = ORet [VI (Valid.dimsToNumElems l)]) ->
  exec call fuel (fbody ValidateReshapeSourceDimsAgainstTargetDims) [("srcDims", ints src); ("dstDims", ints dst)]
  = ORet [errOf (validateReshape src dst)].
Proof.
  intros Hcall.
  unfold validateReshape, ValidateReshapeSourceDimsAgainstTargetDims. cbn [fbody].
  gxs. fold (ints src). rewrite Hcall. cbn [assignAll]. gxs.
  fold (ints dst). rewrite Hcall. cbn [assignAll]. gxs.
  destruct (Valid.dimsToNumElems dst =? Valid.dimsToNumElems src) eqn:E; gxs; reflexivity.
Qed.

(* the translated program with the translated callee (call depth >= 1) *)
Theorem go_ValidateReshapeSourceDimsAgainstTargetDims fuel d (src dst : list Z) :
  exec (callD ftab fuel (S d)) fuel (fbody ValidateReshapeSourceDimsAgainstTargetDims)
       [("srcDims", ints src); ("dstDims", ints dst)]
  = ORet [errOf (validateReshape src dst)].
Proof. apply go_ValidateReshape_gen. intros l. apply callD_dimsToNumElems. Qed.

Corollary run_ValidateReshapeSourceDimsAgainstTargetDims fuel (src dst : list Z) :
  (1 <= fuel)%nat ->
  run ftab fuel ValidateReshapeSourceDimsAgainstTargetDims [ints src; ints dst]
  = ORet [errOf (validateReshape src dst)].
Proof.
  intros Hf. destruct fuel as [|f]; [lia|].
  unfold run. cbn [fparams ValidateReshapeSourceDimsAgainstTargetDims bindArgs].
  apply go_ValidateReshapeSourceDimsAgainstTargetDims.
Qed.

(* ====================================================================== *)
(* 4. ValidateBroadcastSourceDimsAgainstTargetDims                        *)
(* ====================================================================== *)

(* the [for i > 0] loop of ValidateBroadcastSourceDimsAgainstTargetDims, for any condition / body / post
   that behave like the Go ones *)
Lemma bcast_loop (src dst : list Z) (cond : env -> option val) (body post : env -> outcome) :
  (forall e z, lookup e "i" = Some (VI z) -> cond e = Some (VB (z >? 0))) ->
  (forall e, post e = ONormal e) ->
  (forall e n m s d,
     lookup e "srcDims" = Some (ints src) -> lookup e "dstDims" = Some (ints dst) ->
     lookup e "i" = Some (VI (Z.of_nat (S n))) -> lookup e "j" = Some (VI (Z.of_nat (S m))) ->
     nth_error src n = Some s -> nth_error dst m = Some d ->
     body e = if (s =? d) || (s =? 1)
              then ONormal (upd (upd e "i" (VI (Z.of_nat n))) "j" (VI (Z.of_nat m)))
              else ORet [VI 1]) ->
  forall (n m fuel : nat) (e : env),
  (n <= m)%nat -> (n <= length src)%nat -> (m <= length dst)%nat -> (n < fuel)%nat ->
  lookup e "srcDims" = Some (ints src) -> lookup e "dstDims" = Some (ints dst) ->
  lookup e "i" = Some (VI (Z.of_nat n)) -> lookup e "j" = Some (VI (Z.of_nat m)) ->
  (bcastOkRev (rev (firstn n src)) (rev (firstn m dst)) = true ->
     exists e', forLoop fuel cond body post e = ONormal e') /\
  (bcastOkRev (rev (firstn n src)) (rev (firstn m dst)) = false ->
     forLoop fuel cond body post e = ORet [VI 1]).
Proof.
  intros Hc Hp Hb. induction n as [|n IH]; intros m fuel e Hnm Hns Hmd Hf Hs Hd Hi Hj.
  - destruct fuel as [|fuel]; [lia|]. cbn [forLoop]. rewrite (Hc _ _ Hi). cbn.
    split; [eauto | discriminate].
  - destruct fuel as [|fuel]; [lia|]. destruct m as [|m]; [lia|].
    cbn [forLoop]. rewrite (Hc _ _ Hi).
    replace (Z.of_nat (S n) >? 0) with true by (symmetry; rewrite Z.gtb_ltb; apply Z.ltb_lt; lia).
    destruct (nth_error src n) as [s|] eqn:Ens.
    2:{ apply nth_error_None in Ens. lia. }
    destruct (nth_error dst m) as [d|] eqn:End.
    2:{ apply nth_error_None in End. lia. }
    rewrite (Hb e n m s d Hs Hd Hi Hj Ens End).
    rewrite (firstn_S_nth _ _ _ Ens), (firstn_S_nth _ _ _ End), !rev_app_distr.
    cbn [rev app bcastOkRev].
    destruct ((s =? d) || (s =? 1)) eqn:E; cbn [andb].
    + rewrite Hp. apply IH; try lia; now lk.
    + split; [discriminate | reflexivity].
Qed.

Theorem go_ValidateBroadcastSourceDimsAgainstTargetDims call fuel (src dst : list Z) :
  (S (length src) <= fuel)%nat ->
  exec call fuel (fbody ValidateBroadcastSourceDimsAgainstTargetDims) [("srcDims", ints src); ("dstDims", ints dst)]
  = ORet [errOf (validateBroadcast src dst)].
Proof.
  intros Hfuel.
  unfold validateBroadcast, ValidateBroadcastSourceDimsAgainstTargetDims. cbn [fbody].
  gxs. rewrite !zlenV_map.
  destruct (length src <=? length dst)%nat eqn:El.
  - apply Nat.leb_le in El.
    replace (Z.of_nat (length src) >? Z.of_nat (length dst)) with false
      by (symmetry; rewrite Z.gtb_ltb; apply Z.ltb_ge; lia).
    gxs. cbn [andb].
    match goal with |- context [forLoop _ ?c ?b ?p ?e0] =>
      assert (Hc : forall e z, lookup e "i" = Some (VI z) -> c e = Some (VB (z >? 0)));
      [| assert (Hp : forall e, p e = ONormal e);
         [| assert (Hb : forall e n m s d,
              lookup e "srcDims" = Some (ints src) -> lookup e "dstDims" = Some (ints dst) ->
              lookup e "i" = Some (VI (Z.of_nat (S n))) -> lookup e "j" = Some (VI (Z.of_nat (S m))) ->
              nth_error src n = Some s -> nth_error dst m = Some d ->
              b e = if (s =? d) || (s =? 1)
                    then ONormal (upd (upd e "i" (VI (Z.of_nat n))) "j" (VI (Z.of_nat m)))
                    else ORet [VI 1]);
            [| destruct (bcast_loop src dst c b p Hc Hp Hb (length src) (length dst) fuel e0
                           El (Nat.le_refl _) (Nat.le_refl _) Hfuel eq_refl eq_refl eq_refl eq_refl) as [HT HF]]]]
    end.
    + intros e z Hi. cbn beta. gxs. rewrite Hi. gxs. reflexivity.
    + intros e. gxs. reflexivity.
    + intros e n m s d Hs Hd Hi Hj Ens End. gxs. rewrite Hi. gxs.
      rewrite ?Hs, ?Hd, ?Hj. gxs.
      replace (Z.of_nat (S n) - 1) with (Z.of_nat n) by lia.
      replace (Z.of_nat (S m) - 1) with (Z.of_nat m) by lia.
      rewrite ?Hs, ?Hd. gxs.
      rewrite !idxOf_nat, !nth_error_map_VI, Ens, End. cbn [option_map]. gxs.
      destruct (s =? d) eqn:E1; gxs.
      * reflexivity.
      * destruct (s =? 1) eqn:E2; gxs; [reflexivity|].
        rewrite ?Hs, ?Hd. gxs.
        rewrite ?idxOf_nat, ?nth_error_map_VI, ?Ens, ?End. cbn [option_map]. gxs. reflexivity.
    + rewrite !firstn_all in HT, HF.
      destruct (bcastOkRev (rev src) (rev dst)).
      * destruct (HT eq_refl) as [e' He']. rewrite He'. gxs. reflexivity.
      * rewrite (HF eq_refl). reflexivity.
  - apply Nat.leb_gt in El.
    replace (Z.of_nat (length src) >? Z.of_nat (length dst)) with true
      by (symmetry; rewrite Z.gtb_ltb; apply Z.ltb_lt; lia).
    gxs. reflexivity.
Qed.

Corollary run_ValidateBroadcastSourceDimsAgainstTargetDims fuel (src dst : list Z) :
  (S (length src) <= fuel)%nat ->
  run ftab fuel ValidateBroadcastSourceDimsAgainstTargetDims [ints src; ints dst]
  = ORet [errOf (validateBroadcast src dst)].
Proof.
  intros Hf. unfold run. cbn [fparams ValidateBroadcastSourceDimsAgainstTargetDims bindArgs].
  now apply go_ValidateBroadcastSourceDimsAgainstTargetDims.
Qed.

(* ====================================================================== *)
(* concrete runs of the translated programs                               *)
(* ====================================================================== *)

Example ex_dimsToNumElems : run ftab 0 GoFns.dimsToNumElems [ints [2; 3; 4]] = ORet [VI 24].
Proof. vm_compute; reflexivity. Qed.
Example ex_unsqueeze_ok : run ftab 0 ValidateUnSqueezeDimAgainstDims [VI 2; ints [2; 3]] = ORet [VI 0].
Proof. vm_compute; reflexivity. Qed.
Example ex_unsqueeze_err : run ftab 0 ValidateUnSqueezeDimAgainstDims [VI 3; ints [2; 3]] = ORet [VI 1].
Proof. vm_compute; reflexivity. Qed.
Example ex_flatten_ok : run ftab 0 ValidateFlattenDimAgainstDims [VI 1; ints [2; 3]] = ORet [VI 0].
Proof. vm_compute; reflexivity. Qed.
Example ex_flatten_err : run ftab 0 ValidateFlattenDimAgainstDims [VI 2; ints [2; 3]] = ORet [VI 1].
Proof. vm_compute; reflexivity. Qed.
Example ex_squeeze_ok : run ftab 0 ValidateSqueezeDimAgainstDims [VI 1; ints [2; 1; 3]] = ORet [VI 0].
Proof. vm_compute; reflexivity. Qed.
Example ex_squeeze_err : run ftab 0 ValidateSqueezeDimAgainstDims [VI 2; ints [2; 1; 3]] = ORet [VI 1].
Proof. vm_compute; reflexivity. Qed.
Example ex_squeeze_neg : run ftab 0 ValidateSqueezeDimAgainstDims [VI (-1); ints [2; 1; 3]] = ORet [VI 1].
Proof. vm_compute; reflexivity. Qed.
Example ex_reshape_ok : run ftab 1 ValidateReshapeSourceDimsAgainstTargetDims [ints [2; 6]; ints [3; 2; 2]] = ORet [VI 0].
Proof. vm_compute; reflexivity. Qed.
Example ex_reshape_err : run ftab 1 ValidateReshapeSourceDimsAgainstTargetDims [ints [2; 6]; ints [3; 2; 3]] = ORet [VI 1].
Proof. vm_compute; reflexivity. Qed.
(* call depth 0 is not enough for the two calls: the fuel bound of run_ValidateReshape… is tight *)
Example ex_reshape_fuel0 : run ftab 0 ValidateReshapeSourceDimsAgainstTargetDims [ints [2; 6]; ints [3; 4]] = OFuel.
Proof. vm_compute; reflexivity. Qed.
Example ex_bcast_ok : run ftab 3 ValidateBroadcastSourceDimsAgainstTargetDims [ints [1; 3]; ints [5; 4; 3]] = ORet [VI 0].
Proof. vm_compute; reflexivity. Qed.
Example ex_bcast_err : run ftab 3 ValidateBroadcastSourceDimsAgainstTargetDims [ints [2; 3]; ints [5; 4; 3]] = ORet [VI 1].
Proof. vm_compute; reflexivity. Qed.
Example ex_bcast_long : run ftab 0 ValidateBroadcastSourceDimsAgainstTargetDims [ints [1; 1; 3]; ints [4; 3]] = ORet [VI 1].
Proof. vm_compute; reflexivity. Qed.
(* the fuel bound S (length src) is tight: with length src units the loop runs out on a valid input *)
Example ex_bcast_fuel_tight : run ftab 2 ValidateBroadcastSourceDimsAgainstTargetDims [ints [1; 3]; ints [5; 4; 3]] = OFuel.
Proof. vm_compute; reflexivity. Qed.

Print Assumptions go_dimsToNumElems.
Print Assumptions run_dimsToNumElems.
Print Assumptions go_ValidateUnSqueezeDimAgainstDims.
Print Assumptions run_ValidateUnSqueezeDimAgainstDims.
Print Assumptions go_ValidateFlattenDimAgainstDims.
Print Assumptions run_ValidateFlattenDimAgainstDims.
Print Assumptions go_ValidateSqueezeDimAgainstDims.
Print Assumptions run_ValidateSqueezeDimAgainstDims.
Print Assumptions go_ValidateReshape_gen.
Print Assumptions go_ValidateReshapeSourceDimsAgainstTargetDims.
Print Assumptions run_ValidateReshapeSourceDimsAgainstTargetDims.
Print Assumptions go_ValidateBroadcastSourceDimsAgainstTargetDims.
Print Assumptions run_ValidateBroadcastSourceDimsAgainstTargetDims.
