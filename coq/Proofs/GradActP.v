(* GradActP.v — property C15: back-propagation through the ACTIVATIONS
   (component/layers/activations: Tanh, Relu, LeakyRelu, Sigmoid) delivers to the input the
   upstream gradient times the activation's derivative.

   Formulation (Softmax in GradSoftmaxP.v uses the same).
   [h] is any heap, [x] a tracked, not-spent node of it (a leaf OR the result of earlier tracked
   operations: nothing is assumed about x's own edges), [(h1, Ok y)] the outcome of the component.
   [hh] is ANY heap with the structure of [h1] (same values, flags, edges: [sameS h1 hh]) in which
   a back-propagation from some root above y has already delivered the final gradient [gy] to [y],
   the internal nodes of the component hold no gradient yet, and [x] holds an arbitrary prior
   gradient [gx0] (none, or a tensor of x's shape: contributions of other consumers of x).
   The theorem runs the model's own [process_node] over the nodes of the component in the order
   in which [bp_topo] meets them (its depth-first reverse post-order; checked on instances by the
   examples [*_order_ex] below),
     fold_left (process_node rd (fun _ g => g)) [y; internal nodes ...] (hh, log, Ok tt)
   and concludes: the fold is [Ok] (no rule evaluation, no accumulation fails), the structure of
   the heap is unchanged, every node outside {x} ∪ internals keeps its gradient, and x holds a
   gradient [gx] of x's shape with
        elt gx i = prior gx0 i + elt gy i * <derivative factor at x_i>.

   1. generic (any scalar): 1a. exact heaps of the tracked methods on a tracked, not-spent operand
      ([op1_step], [elsel_step], [arith_step]); 1b. the exact heaps of the four components
      ([*_structure]).
   2. reals: scalar identities [tanh_deriv_identity], [sigmoid_deriv_identity]; [tanh_grad],
      [relu_grad], [sigmoid_grad], [leaky_grad], each an instance of [BpFoldP.comp_run].
   3. examples: the four theorems on a tiny heap. *)
From Coq Require Import List Arith ZArith Bool Lia Reals Lra.
From Coquelicot Require Import Coquelicot.
From Qeep Require Import Model.Scalar Model.Nd Model.Fill Model.Data Model.Valid Model.Api Model.Grad
  Model.Backprop Model.Components.
From Qeep Require Import Proofs.NdP Proofs.ElemP Proofs.BroadcastP Proofs.ArithP Proofs.TrackP Proofs.CompP
  Proofs.BackpropP.
From Qeep Require Import Spec.RScalar Spec.ScalarDeriv Spec.VjpSpec Proofs.VjpElemP Proofs.BpFoldP.
Import ListNotations.
Local Open Scope nat_scope.


(* 1. generic part *)
Section Gen.
Context {A : Type} {SA : Scalar A}.
Notation T := (tensor A).
Notation heap := (@heap A).
Notation rule := (@rule A).
Notation node := (@node A).
Notation hres := (@hres A).


(* ---------- 1a. exact heaps of the tracked methods on tracked, not-spent operands ---------- *)

(* a tracked internal/result node *)
Definition tnode (v : T) (es : list (nat * rule)) (name : option nat) : node := mkNode v true false None es name.

Definition isNode (h1 : heap) (i : nat) (v : T) (es : list (nat * rule)) : Prop :=
  i < length h1 /\ valOf h1 i = Some v /\ trackedOf h1 i = true /\ edgesOf h1 i = es /\ gradOf h1 i = None.

Lemma isNode_new (h : heap) v es name : isNode (h ++ [tnode v es name]) (length h) v es.
Proof.
  unfold isNode, valOf, trackedOf, edgesOf, gradOf. rewrite nth_error_snoc_new, app_length. cbn. repeat split; lia.
Qed.

Lemma isNode_old (h : heap) n i v es : isNode h i v es -> isNode (h ++ [n]) i v es.
Proof.
  unfold isNode, valOf, trackedOf, edgesOf, gradOf. intros (Hl & H). rewrite app_length.
  rewrite nth_error_app1 by exact Hl. split; [lia|exact H].
Qed.

(* an old operand stays what it was *)
Definition isOld (h h1 : heap) : Prop :=
  length h <= length h1 /\ forall i, i < length h -> nth_error h1 i = nth_error h i.

Lemma isOld_refl (h : heap) : isOld h h.
Proof. split; [lia|auto]. Qed.
Lemma isOld_snoc (h h1 : heap) n : isOld h h1 -> isOld h (h1 ++ [n]).
Proof.
  intros [L H]. split; [rewrite app_length; lia|]. intros i Hi. rewrite nth_error_app1 by lia. apply H. exact Hi.
Qed.
Lemma isOld_val (h h1 : heap) i v : isOld h h1 -> valOf h i = Some v -> valOf h1 i = Some v.
Proof.
  intros [_ H] Hv. assert (i < length h) by (eapply valOf_some_lt; eauto). unfold valOf in *. rewrite H by assumption. exact Hv.
Qed.
Lemma isOld_trk (h h1 : heap) i : isOld h h1 -> i < length h -> trackedOf h1 i = trackedOf h i.
Proof. intros [_ H] Hi. unfold trackedOf. rewrite H by exact Hi. reflexivity. Qed.
Lemma isOld_dirty (h h1 : heap) i : isOld h h1 -> i < length h -> dirtyOf h1 i = dirtyOf h i.
Proof. intros [_ H] Hi. unfold dirtyOf. rewrite H by exact Hi. reflexivity. Qed.
Lemma isOld_grad (h h1 : heap) i : isOld h h1 -> i < length h -> gradOf h1 i = gradOf h i.
Proof. intros [_ H] Hi. unfold gradOf. rewrite H by exact Hi. reflexivity. Qed.

Lemma mkCtx_tracked1 (h : heap) x es : trackedOf h x = true -> dirtyOf h x = false -> mkCtx h [x] es = (true, false, es).
Proof. intros Ht Hd. unfold mkCtx. cbn [existsb]. rewrite Hd, Ht. reflexivity. Qed.

Lemma mkCtx_tracked2 (h : heap) x u es :
  trackedOf h x = true -> dirtyOf h x = false -> dirtyOf h u = false -> mkCtx h [x; u] es = (true, false, es).
Proof. intros Ht Hd Hd2. unfold mkCtx. cbn [existsb]. rewrite Hd, Hd2, Ht. reflexivity. Qed.

Lemma mkCtx_tracked2' (h : heap) x u es :
  trackedOf h u = true -> dirtyOf h x = false -> dirtyOf h u = false -> mkCtx h [x; u] es = (true, false, es).
Proof. intros Ht Hd Hd2. unfold mkCtx. cbn [existsb]. rewrite Hd, Hd2, Ht. rewrite orb_true_r. reflexivity. Qed.

Lemma op1_step (h : heap) x f mk name h' id :
  h_op1 h x f mk name = (h', Ok id) -> trackedOf h x = true -> dirtyOf h x = false ->
  exists xv v, valOf h x = Some xv /\ f xv = Ok v /\ id = length h /\
               h' = h ++ [tnode v [(x, mk (length h))] name].
Proof.
  intros E Ht Hd. apply h_op1_inv in E. destruct E as (xv & v & Hx & Hf & -> & ->). exists xv, v.
  rewrite mkCtx_tracked1 by assumption. auto.
Qed.

Lemma elsel_step (h : heap) b x u name h' id :
  h_elsel h b x u name = (h', Ok id) -> trackedOf h x = true -> dirtyOf h x = false -> dirtyOf h u = false ->
  exists xv uv v, valOf h x = Some xv /\ valOf h u = Some uv /\ v_same b xv uv = Ok v /\ id = length h /\
               h' = h ++ [tnode v [(x, RElSel (length h) x u); (u, RElSel (length h) u x)] name].
Proof.
  intros E Ht Hd Hd2. apply h_elsel_inv in E. destruct E as (xv & uv & v & Hx & Hu & Hf & -> & ->). exists xv, uv, v.
  rewrite mkCtx_tracked2 by assumption. auto.
Qed.

(* Add/Sub/Mul/Div of two tracked tensors of the SAME shape: the two Broadcast nodes carry the
   operand values themselves *)
Lemma arith_step (h : heap) b x u name h' id xv uv :
  h_arith h b x u name = (h', Ok id) -> valOf h x = Some xv -> valOf h u = Some uv ->
  wf xv -> wf uv -> dims xv = dims uv ->
  trackedOf h x = true -> dirtyOf h x = false -> trackedOf h u = true -> dirtyOf h u = false ->
  exists v, v_arith b xv uv = Ok v /\ id = S (S (length h)) /\
    h' = h ++ [tnode xv [(x, RBroadcast (length h) x)] None;
               tnode uv [(u, RBroadcast (S (length h)) u)] None;
               tnode v (arithEdges b (S (S (length h))) (length h) (S (length h))) name].
Proof.
  intros E Hx Hu Wx Wu Ed Tx Dx Tu Du.
  destruct (h_arith_ok_inv h b x u name xv uv h' id Hx Hu E) as (v & Ev & Hv & _).
  exists v. split; [exact Ev|].
  unfold h_arith in E. rewrite Hx, Hu in E. cbv zeta in E.
  rewrite <- Ed, targetBroadcastDims_id in E.
  apply h_binop_inv in E. destruct E as (xv' & uv' & v1 & v2 & v' & Hx' & Hb1 & Hu' & Hb2 & Hf & -> & ->).
  assert (xv' = xv) by congruence. subst xv'.
  rewrite v_broadcast_id in Hb1 by exact Wx. inversion Hb1; subst v1.
  assert (Hul : u < length h) by (eapply valOf_some_lt; eauto).
  rewrite valOf_app in Hu' by exact Hul. assert (uv' = uv) by congruence. subst uv'.
  rewrite Ed, v_broadcast_id in Hb2 by exact Wu. inversion Hb2; subst v2.
  split; [reflexivity|].
  assert (B1 : bnode1 h x xv = tnode xv [(x, RBroadcast (length h) x)] None).
  { unfold bnode1. rewrite mkCtx_tracked1 by assumption. reflexivity. }
  assert (B2 : bnode2 h x u xv uv = tnode uv [(u, RBroadcast (S (length h)) u)] None).
  { unfold bnode2. rewrite mkCtx_tracked1; [reflexivity| |].
    - rewrite trackedOf_app by exact Hul. exact Tu.
    - rewrite dirtyOf_app by exact Hul. exact Du. }
  assert (B3 : rnode h x u xv uv v' (arithEdges b) name =
               tnode v' (arithEdges b (S (S (length h))) (length h) (S (length h))) name).
  { unfold rnode. rewrite B1, B2. rewrite mkCtx_tracked2; [reflexivity| | |].
    - unfold trackedOf. rewrite nth_error_app2 by (clear; lia). rewrite Nat.sub_diag. reflexivity.
    - unfold dirtyOf. rewrite nth_error_app2 by (clear; lia). rewrite Nat.sub_diag. reflexivity.
    - unfold dirtyOf. rewrite nth_error_app2 by (clear; lia). replace (S (length h) - length h) with 1 by (clear; lia). reflexivity. }
  rewrite B1, B2, B3 in *.
  (* the value reported by the value projection is the one stored *)
  assert (v' = v).
  { unfold valOf in Hv. rewrite nth_error_app2 in Hv by (clear; lia). replace (S (S (length h)) - length h) with 2 in Hv by (clear; lia).
    cbn in Hv. congruence. }
  subst v'. reflexivity.
Qed.


(* ---------- 1b. the exact heaps of the four components ---------- *)
Notation c0 := (@cst A SA 0 0).
Notation cm1 := (@cst A SA (-1) 0).

Lemma len_snoc (h : heap) n : length (h ++ [n]) = S (length h).
Proof. rewrite app_length. cbn. lia. Qed.

Lemma trk_new (h : heap) v es name : trackedOf (h ++ [tnode v es name]) (length h) = true.
Proof. rewrite trackedOf_new. reflexivity. Qed.
Lemma dirty_new (h : heap) v es name : dirtyOf (h ++ [tnode v es name]) (length h) = false.
Proof. rewrite dirtyOf_new. reflexivity. Qed.
Lemma val_new (h : heap) v es name : valOf (h ++ [tnode v es name]) (length h) = Some v.
Proof. rewrite valOf_new. reflexivity. Qed.


Lemma tanh_structure (h : heap) x name h1 y :
  tanh_forward h [Some x] name = (h1, Ok y) -> trackedOf h x = true -> dirtyOf h x = false ->
  exists xv yv, valOf h x = Some xv /\ v_unary UTanH xv = Ok yv /\ y = length h /\
    length h1 = S (length h) /\ isOld h h1 /\ isNode h1 y yv [(x, RTanh y x)].
Proof.
  intros E Tx Dx. unfold tanh_forward in E. cbn [oneInput] in E. unfold h_math in E.
  apply op1_step in E; [|assumption|assumption]. destruct E as (xv & yv & Hx & Hf & -> & ->).
  exists xv, yv. cbn [mathUnary mathRule] in *.
  split; [exact Hx|]. split; [exact Hf|]. split; [reflexivity|]. split; [apply len_snoc|].
  split; [apply isOld_snoc, isOld_refl|]. apply isNode_new.
Qed.

Lemma relu_structure (h : heap) x name h1 y :
  relu_forward h [Some x] name = (h1, Ok y) -> trackedOf h x = true -> dirtyOf h x = false ->
  exists xv zv yv, let z := length h in
    valOf h x = Some xv /\ v_unary (UScale c0) xv = Ok zv /\ v_same BiElMax zv xv = Ok yv /\
    y = S z /\ length h1 = S (S z) /\ isOld h h1 /\
    isNode h1 z zv [(x, RScale z c0)] /\ isNode h1 y yv [(z, RElSel y z x); (x, RElSel y x z)].
Proof.
  intros E Tx Dx. unfold relu_forward in E. cbn [oneInput] in E.
  assert (Hxl : x < length h) by (apply tracked_lt; exact Tx).
  hstep E E1. unfold h_scale in E1. apply op1_step in E1; [|assumption|assumption].
  destruct E1 as (xv & zv & Hx & Hz & -> & ->).
  destruct (h_elsel _ BiElMax (length h) x name) as [hb [yy| |]] eqn:E2; cbn [atomically] in E; try discriminate E.
  inversion E; subst hb yy. clear E.
  apply elsel_step in E2; [|apply trk_new|apply dirty_new|rewrite dirtyOf_app by exact Hxl; exact Dx].
  destruct E2 as (zv' & xv' & yv & Hz' & Hx' & Hy & -> & ->).
  rewrite val_new in Hz'. inversion Hz'; subst zv'.
  rewrite valOf_app in Hx' by exact Hxl. assert (xv' = xv) by congruence. subst xv'.
  rewrite !len_snoc. exists xv, zv, yv. cbv zeta. repeat (split; [solve [auto]|]).
  split; [apply isOld_snoc, isOld_snoc, isOld_refl|]. split.
  - apply isNode_old, isNode_new.
  - rewrite <- (len_snoc h (tnode zv [(x, RScale (length h) c0)] None)). apply isNode_new.
Qed.

(* observers of an explicit extension  h ++ l  at the new positions *)
Lemma at_app (h l : heap) k : nth_error (h ++ l) (length h + k) = nth_error l k.
Proof. rewrite nth_error_app2 by lia. f_equal. lia. Qed.
Lemma at_app0 (h l : heap) : nth_error (h ++ l) (length h) = nth_error l 0.
Proof. rewrite <- (at_app h l 0). f_equal. lia. Qed.

Lemma isOld_app (h l : heap) : isOld h (h ++ l).
Proof. split; [rewrite app_length; lia|]. intros i Hi. apply nth_error_app1. exact Hi. Qed.

Lemma isNode_at (h l : heap) k v es name :
  nth_error l k = Some (tnode v es name) -> isNode (h ++ l) (length h + k) v es.
Proof.
  intros E. unfold isNode, valOf, trackedOf, edgesOf, gradOf. rewrite at_app, E. cbn.
  split; [|auto]. rewrite app_length. assert (k < length l) by (apply nth_error_Some; congruence). lia.
Qed.
Lemma isNode_at0 (h l : heap) v es name :
  nth_error l 0 = Some (tnode v es name) -> isNode (h ++ l) (length h) v es.
Proof. intros E. rewrite <- (Nat.add_0_r (length h)). eapply isNode_at. exact E. Qed.

Ltac at_obs :=
  first
    [ rewrite valOf_app by assumption
    | rewrite trackedOf_app by assumption
    | rewrite dirtyOf_app by assumption
    | unfold valOf, trackedOf, dirtyOf;
      first [rewrite at_app | rewrite at_app0];
      cbn [nth_error tnode nval ntracked ndirty obind] ];
  try reflexivity; try assumption.

Ltac norm_in E :=
  rewrite <- ?app_assoc, ?app_length in E; cbn [app length] in E;
  rewrite <- ?Nat.add_succ_r in E; rewrite <- ?Nat.add_assoc in E; cbn [Nat.add] in E.

Lemma un_shape (u : unary) (t r : T) : wf t -> v_unary u t = Ok r -> dims r = dims t /\ wf r.
Proof.
  intros W E. destruct (v_unary_spec u t W) as (r' & E' & D & W' & _). rewrite E in E'. inversion E'; subst r'. auto.
Qed.
Lemma same_shape (b : binary) (t u r : T) : wf t -> wf u -> dims t = dims u -> v_same b t u = Ok r ->
  dims r = dims t /\ wf r.
Proof.
  intros Wt Wu D E. destruct (v_same_spec b t u Wt Wu) as [H _]. destruct (H D) as (r' & E' & D' & W' & _).
  rewrite E in E'. inversion E'; subst r'. auto.
Qed.

Lemma sigmoid_structure (h : heap) x name h1 y xv :
  sigmoid_forward h [Some x] name = (h1, Ok y) ->
  valOf h x = Some xv -> wf xv -> trackedOf h x = true -> dirtyOf h x = false ->
  exists onev nxv exv y1v yv, let a := length h in
    v_unary (UPow c0) xv = Ok onev /\ v_unary (UScale cm1) xv = Ok nxv /\ v_unary UExpo nxv = Ok exv /\
    v_arith BiAdd onev exv = Ok y1v /\ v_unary (UPow cm1) y1v = Ok yv /\
    y = a + 6 /\ length h1 = a + 7 /\ isOld h h1 /\
    isNode h1 a onev [(x, RPow a x c0 true)] /\
    isNode h1 (a + 1) nxv [(x, RScale (a + 1) cm1)] /\
    isNode h1 (a + 2) exv [(a + 1, RExp (a + 2))] /\
    isNode h1 (a + 3) onev [(a, RBroadcast (a + 3) a)] /\
    isNode h1 (a + 4) exv [(a + 2, RBroadcast (a + 4) (a + 2))] /\
    isNode h1 (a + 5) y1v [(a + 3, RId (a + 5)); (a + 4, RId (a + 5))] /\
    isNode h1 y yv [(a + 5, RPow y (a + 5) cm1 false)].
Proof.
  intros E Hx Wx Tx Dx. unfold sigmoid_forward in E. cbn [oneInput] in E.
  assert (Hxl : x < length h) by (apply tracked_lt; exact Tx).
  (* one = x.Pow(0) *)
  hstep E E1. unfold h_pow in E1. apply op1_step in E1; [|assumption|assumption].
  destruct E1 as (xv1 & onev & Hx1 & Hone & -> & ->). assert (xv1 = xv) by congruence. subst xv1.
  destruct (un_shape _ _ _ Wx Hone) as [Done Wone].
  (* nx = x.Scale(-1) *)
  hstep E E2. unfold h_scale in E2. apply op1_step in E2; [|at_obs|at_obs].
  destruct E2 as (xv2 & nxv & Hx2 & Hnx & -> & ->).
  assert (xv2 = xv) by (revert Hx2; at_obs; congruence). subst xv2. clear Hx2.
  destruct (un_shape _ _ _ Wx Hnx) as [Dnx Wnx].
  norm_in E.
  (* ex = nx.Exp() *)
  hstep E E3. unfold h_math in E3. apply op1_step in E3; [|at_obs|at_obs].
  destruct E3 as (nxv' & exv & Hnx' & Hex & -> & ->).
  assert (nxv' = nxv) by (revert Hnx'; at_obs; congruence). subst nxv'. clear Hnx'.
  destruct (un_shape _ _ _ Wnx Hex) as [Dex Wex].
  cbn [mathUnary mathRule] in *. norm_in E.
  (* y1 = one.Add(ex) *)
  hstep E E4. apply (arith_step _ BiAdd _ _ None _ _ onev exv) in E4;
    [|at_obs|at_obs|exact Wone|exact Wex|congruence|at_obs|at_obs|at_obs|at_obs].
  destruct E4 as (y1v & Hy1 & -> & ->). norm_in E.
  destruct (v_arith_same_dims BiAdd onev exv Wone Wex ltac:(congruence)) as (y1v' & Ey1' & Dy1 & Wy1 & _).
  assert (y1v' = y1v) by congruence. subst y1v'. clear Ey1'.
  (* y = y1.Pow(-1) *)
  destruct (h_pow _ (length h + 5) cm1 false name) as [hb [yy| |]] eqn:E5; cbn [atomically] in E; try discriminate E.
  inversion E; subst hb yy. clear E.
  unfold h_pow in E5. apply op1_step in E5; [|at_obs|at_obs].
  destruct E5 as (y1v' & yv & Hy1' & Hy & -> & ->).
  assert (y1v' = y1v) by (revert Hy1'; at_obs; congruence). subst y1v'. clear Hy1'.
  rewrite <- ?app_assoc, ?app_length. cbn [app length]. rewrite <- ?Nat.add_succ_r, <- ?Nat.add_assoc. cbn [Nat.add].
  exists onev, nxv, exv, y1v, yv. cbv zeta.
  repeat (split; [solve [assumption|reflexivity]|]).
  split; [apply isOld_app|].
  split; [eapply isNode_at0; reflexivity|].
  repeat (split; [eapply isNode_at; reflexivity|]). eapply isNode_at; reflexivity.
Qed.

Lemma leaky_structure (h : heap) (m : A) x name h1 y xv :
  leaky_forward h m [Some x] name = (h1, Ok y) ->
  valOf h x = Some xv -> wf xv -> trackedOf h x = true -> dirtyOf h x = false ->
  exists zv p1v p2v p3v yv, let a := length h in
    v_unary (UScale c0) xv = Ok zv /\ v_same BiElMax zv xv = Ok p1v /\ v_same BiElMin zv xv = Ok p2v /\
    v_unary (UScale m) p2v = Ok p3v /\ v_arith BiAdd p1v p3v = Ok yv /\
    y = a + 6 /\ length h1 = a + 7 /\ isOld h h1 /\
    isNode h1 a zv [(x, RScale a c0)] /\
    isNode h1 (a + 1) p1v [(a, RElSel (a + 1) a x); (x, RElSel (a + 1) x a)] /\
    isNode h1 (a + 2) p2v [(a, RElSel (a + 2) a x); (x, RElSel (a + 2) x a)] /\
    isNode h1 (a + 3) p3v [(a + 2, RScale (a + 3) m)] /\
    isNode h1 (a + 4) p1v [(a + 1, RBroadcast (a + 4) (a + 1))] /\
    isNode h1 (a + 5) p3v [(a + 3, RBroadcast (a + 5) (a + 3))] /\
    isNode h1 y yv [(a + 4, RId y); (a + 5, RId y)].
Proof.
  intros E Hx Wx Tx Dx. unfold leaky_forward in E. cbn [oneInput] in E.
  assert (Hxl : x < length h) by (apply tracked_lt; exact Tx).
  (* z = x.Scale(0) *)
  hstep E E1. unfold h_scale in E1. apply op1_step in E1; [|assumption|assumption].
  destruct E1 as (xv1 & zv & Hx1 & Hz & -> & ->). assert (xv1 = xv) by congruence. subst xv1.
  destruct (un_shape _ _ _ Wx Hz) as [Dz Wz].
  (* p1 = z.ElMax(x) *)
  hstep E E2. apply elsel_step in E2; [|at_obs|at_obs|at_obs].
  destruct E2 as (zv' & xv' & p1v & Hz' & Hx' & Hp1 & -> & ->).
  assert (zv' = zv) by (revert Hz'; at_obs; congruence). subst zv'. clear Hz'.
  assert (xv' = xv) by (revert Hx'; at_obs; congruence). subst xv'. clear Hx'.
  destruct (same_shape _ _ _ _ Wz Wx Dz Hp1) as [Dp1 Wp1].
  norm_in E.
  (* p2 = z.ElMin(x) *)
  hstep E E3. apply elsel_step in E3; [|at_obs|at_obs|at_obs].
  destruct E3 as (zv' & xv' & p2v & Hz' & Hx' & Hp2 & -> & ->).
  assert (zv' = zv) by (revert Hz'; at_obs; congruence). subst zv'. clear Hz'.
  assert (xv' = xv) by (revert Hx'; at_obs; congruence). subst xv'. clear Hx'.
  destruct (same_shape _ _ _ _ Wz Wx Dz Hp2) as [Dp2 Wp2].
  norm_in E.
  (* p3 = p2.Scale(m) *)
  hstep E E4. unfold h_scale in E4. apply op1_step in E4; [|at_obs|at_obs].
  destruct E4 as (p2v' & p3v & Hp2' & Hp3 & -> & ->).
  assert (p2v' = p2v) by (revert Hp2'; at_obs; congruence). subst p2v'. clear Hp2'.
  destruct (un_shape _ _ _ Wp2 Hp3) as [Dp3 Wp3].
  norm_in E.
  (* y = p1.Add(p3) *)
  destruct (h_arith _ BiAdd (length h + 1) (length h + 3) name) as [hb [yy| |]] eqn:E5;
    cbn [atomically] in E; try discriminate E.
  inversion E; subst hb yy. clear E.
  apply (arith_step _ BiAdd _ _ name _ _ p1v p3v) in E5;
    [|at_obs|at_obs|exact Wp1|exact Wp3|congruence|at_obs|at_obs|at_obs|at_obs].
  destruct E5 as (yv & Hy & -> & ->).
  rewrite <- ?app_assoc, ?app_length. cbn [app length]. rewrite <- ?Nat.add_succ_r, <- ?Nat.add_assoc. cbn [Nat.add].
  exists zv, p1v, p2v, p3v, yv. cbv zeta.
  repeat (split; [solve [assumption|reflexivity]|]).
  split; [apply isOld_app|].
  split; [eapply isNode_at0; reflexivity|].
  repeat (split; [eapply isNode_at; reflexivity|]). eapply isNode_at; reflexivity.
Qed.

End Gen.

(* 2. the real-number instance *)
Local Open Scope R_scope.

(* scalar identities behind the statements *)
Lemma tanh_deriv_identity x : / (cosh x) ^ 2 = 1 - (tanh x) ^ 2.
Proof.
  unfold tanh. pose proof (cosh_pos x) as Hc. pose proof (cosh2_sinh2 x) as E.
  replace (1 - (sinh x / cosh x) ^ 2) with ((cosh x * cosh x - sinh x * sinh x) / (cosh x) ^ 2) by (field; lra).
  rewrite E. field. lra.
Qed.

Definition logistic (x : R) : R := / (1 + exp (- x)).

Lemma logistic_den_pos x : 0 < 1 + exp (- x).
Proof. pose proof (exp_pos (- x)). lra. Qed.

Lemma logistic_range x : 0 < logistic x < 1.
Proof.
  unfold logistic. pose proof (exp_pos (- x)) as He. split.
  - apply Rinv_0_lt_compat. lra.
  - rewrite <- Rinv_1 at 2. apply Rinv_lt_contravar; lra.
Qed.

(* the chain  (-1 * y1^(-2)) * e^(-x) * (-1)  is  s (1 - s) *)
Lemma sigmoid_deriv_identity x :
  (-1 * / (1 + exp (- x)) ^ 2) * exp (- x) * -1 = logistic x * (1 - logistic x).
Proof. unfold logistic. pose proof (exp_pos (- x)). field. lra. Qed.

Section R.
Variables (thr : R) (draw : bool -> nat -> R).
Local Hint Extern 0 (Scalar R) => exact (R_scalar thr draw) : typeclass_instances.
Notation T := (tensor R).
Notation heap := (@heap R).
Notation idseal := (fun (_ : option nat) (g : T) => g).
Notation eqtR := (eqt thr).

(* the gradient already accumulated on the input by other consumers *)
Definition prior (o : option T) : assignment := fun idx => match o with Some g => elt g idx | None => 0 end.
Definition prior_ok (ds : list nat) (o : option T) : Prop :=
  match o with Some g => wf g /\ dims g = ds | None => True end.

Lemma acc1_R ds (o : option T) (g : T) : prior_ok ds o -> wf g -> dims g = ds ->
  exists s, acc1 o g = Some (Some s) /\ wf s /\ dims s = ds /\
    forall idx, validIdx ds idx -> elt s idx = prior o idx + elt g idx.
Proof.
  intros Hp Wg Dg. destruct o as [g0|]; cbn [acc1 prior].
  - destruct Hp as [W0 D0].
    destruct (ar_elt thr draw BiAdd g0 g W0 Wg ltac:(congruence)) as (s & Es & Ds & Ws & Gs).
    exists s. rewrite Es. split; [reflexivity|]. split; [exact Ws|]. split; [congruence|].
    intros idx Hv. rewrite Gs by (rewrite D0; exact Hv). reflexivity.
  - exists g. split; [reflexivity|]. split; [exact Wg|]. split; [exact Dg|]. intros idx _. ring.
Qed.

(* what a node contributes to the side conditions of the rules around it *)
Lemma isNode_isT (h1 : heap) i v es ds f : isNode h1 i v es -> isT ds f v ->
  Dm h1 i = ds /\ okv h1 i /\ Vl h1 i = elt v.
Proof.
  intros (_ & V & _) (D & W & _). split; [rewrite (Dm_val _ _ _ V); exact D|].
  split; [exact (okv_val _ _ _ V W)|exact (Vl_val _ _ _ V)].
Qed.
Lemma old_isT (h1 : heap) x xv : valOf h1 x = Some xv -> wf xv -> Dm h1 x = dims xv /\ okv h1 x /\ Vl h1 x = elt xv.
Proof. intros V W. split; [exact (Dm_val _ _ _ V)|]. split; [exact (okv_val _ _ _ V W)|exact (Vl_val _ _ _ V)]. Qed.

Lemma prior_ok_in (h1 hh : heap) x ds : Dm h1 x = ds -> prior_ok ds (gradOf hh x) ->
  forall j g, In j [x] -> gradOf hh j = Some g -> wf g /\ dims g = Dm h1 j.
Proof. intros D Hp j g [<-|[]] E. rewrite E in Hp. rewrite D. exact Hp. Qed.

(* an edge whose rule reads element by element between nodes of one shape *)
Ltac dm_eq := etransitivity; [eassumption|symmetry; eassumption].
Ltac esnd :=
  apply rsem_sound; [reflexivity|];
  cbn [rok]; repeat match goal with |- _ /\ _ => split end; first [assumption|reflexivity|dm_eq|left; dm_eq].

(* two node ids of a component differ, or lie on the stated side of the first new node [length h]:
   all that is needed is that the input lies below it *)
Ltac ne := idtac; match goal with L : (_ < length _)%nat |- _ => clear - L; lia end.
(* the state of [arun] at the input, in Hgx : match s x with ... end *)
Ltac at_input Hgx :=
  match type of Hgx with match ?s with _ => _ end =>
    let EL := fresh in eassert (EL : s = _) by alk ne; rewrite EL in Hgx; clear EL
  end.

(* Tanh:  y = x.Tanh() *)
Theorem tanh_grad rd (h h1 hh : heap) x y name xv gy log :
  valOf h x = Some xv -> wf xv -> trackedOf h x = true -> dirtyOf h x = false ->
  tanh_forward h [Some x] name = (h1, Ok y) ->
  sameS h1 hh -> gradOf hh y = Some gy -> wf gy -> dims gy = dims xv ->
  prior_ok (dims xv) (gradOf hh x) ->
  exists hh' gx,
    fold_left (process_node rd idseal) [y] (hh, log, Ok tt) = (hh', (y, gy) :: log, Ok tt) /\
    sameS hh hh' /\ (forall n, n <> x -> gradOf hh' n = gradOf hh n) /\
    gradOf hh' x = Some gx /\ dims gx = dims xv /\ wf gx /\
    forall idx, validIdx (dims xv) idx ->
      elt gx idx = prior (gradOf hh x) idx + elt gy idx * (1 - (tanh (elt xv idx)) ^ 2).
Proof.
  intros Hx Wx Tx Dx E S Hgy Wgy Dgy Hp.
  destruct (tanh_structure h x name h1 y E Tx Dx) as (xv' & yv & Hx' & Hyv & -> & L1 & Old & Ny).
  assert (xv' = xv) by congruence. subst xv'.
  assert (Hxl : (x < length h)%nat) by (apply tracked_lt; exact Tx).
  assert (Vx1 : valOf h1 x = Some xv) by (eapply isOld_val; eauto).
  assert (Tx1 : trackedOf h1 x = true) by (rewrite (isOld_trk h h1 x Old Hxl); exact Tx).
  destruct (old_isT h1 x xv Vx1 Wx) as (DX & OX & VX).
  destruct (isNode_isT h1 _ yv _ _ _ Ny (un_isT thr draw _ _ _ _ _ (isT_self xv Wx) Hyv)) as (DY & OY & VY).
  destruct Ny as (Ly & _ & _ & Ey & _).
  destruct (comp_run thr draw rd (rsem thr rd h1) h1 hh (length h) (length h) [] [x] gy log S (le_n _) Hgy Wgy
              ltac:(dm_eq)) as (hh' & lg & Ef & Hlg & S' & Hfr & Hgx).
  { intros j Hj. nlia. }
  { exact (prior_ok_in h1 hh x _ DX Hp). }
  { each_in. split; [nlia|]. split; [exact Ly|]. comp_edges Ey. esnd. }
  cbv zeta in Hlg, Hgx.
  match type of Hlg with snd ?r = _ =>
    eassert (ER : r = _) by (arun1 ne Ey; cbn [arun]; reflexivity)
  end.
  rewrite ER in Hlg, Hgx. cbn [fst snd] in Hlg, Hgx.
  apply (app_inj_tail [] (map fst lg)) in Hlg as [Hlg _]. symmetry in Hlg. apply map_eq_nil in Hlg. subst lg.
  specialize (Hgx x (or_introl eq_refl) Hxl). at_input Hgx. rewrite DX in Hgx. destruct Hgx as (gx & Egx & Dgx & Wgx & Ggx).
  exists hh', gx. split; [exact Ef|]. split; [exact S'|].
  split; [intros n Hn; apply Hfr; [intros [X|[]]; congruence|nlia]|].
  split; [exact Egx|]. split; [exact Dgx|]. split; [exact Wgx|].
  intros idx Hv. rewrite (Ggx idx Hv), aacc_prior. cbn [rsem]. rewrite VX, tanh_deriv_identity. reflexivity.
Qed.

(* Relu:  z0 = x.Scale(0);  y = z0.ElMax(x) *)
(* two paths into x: (x, RElSel y x z0) and, through z0, (x, RScale z0 0) which adds 0 *)

(* the factor of the ElSel rule on the path into x, at EVERY input value (threshold equality [eqt]):
   [y_i = x_i] - 1/2 [x_i = 0 * x_i] *)
Definition reluD (v : R) : R := eqtR (Rmax 0 v) v - / 2 * eqtR v 0.

Lemma Rabs_minus_0 v : Rabs (v - 0) = Rabs v.
Proof. f_equal. ring. Qed.

Lemma reluD_pos v : 0 <= thr -> thr < v -> reluD v = 1.
Proof.
  intros Ht Hv. unfold reluD. rewrite Rmax_right by lra. rewrite (eqt_same thr v Ht).
  rewrite eqt_far; [ring|]. rewrite Rabs_minus_0, Rabs_pos_eq; lra.
Qed.

Lemma reluD_neg v : 0 <= thr -> v < - thr -> reluD v = 0.
Proof.
  intros Ht Hv. unfold reluD. rewrite Rmax_left by lra.
  rewrite (eqt_far thr 0 v); [|replace (0 - v) with (- v) by ring; rewrite Rabs_pos_eq; lra].
  rewrite (eqt_far thr v 0); [ring|]. rewrite Rabs_minus_0, Rabs_left; lra.
Qed.

Lemma reluD_zero : 0 <= thr -> reluD 0 = / 2.
Proof.
  intros Ht. unfold reluD. rewrite Rmax_left by lra. rewrite (eqt_same thr 0 Ht). field.
Qed.


(* the recorded near-tie finding D10: within the threshold (0 < |x_i| <= thr) the rule hands over
   gy/2 although Relu is differentiable there with derivative 1 or 0; excluded by the guards above *)
Lemma reluD_near v : 0 <= thr -> Rabs v <= thr -> reluD v = / 2.
Proof.
  intros Ht Hv. unfold reluD.
  assert (E2 : eqtR v 0 = 1) by (apply eqt_near; rewrite Rabs_minus_0; exact Hv).
  assert (E1 : eqtR (Rmax 0 v) v = 1).
  { unfold Rmax. destruct (Rle_dec 0 v) as [L|N]; [apply eqt_same; exact Ht|].
    apply eqt_near. replace (0 - v) with (- v) by ring. rewrite Rabs_Ropp. exact Hv. }
  rewrite E1, E2. field.
Qed.
Theorem relu_grad rd (h h1 hh : heap) x y name xv gy log :
  0 <= thr ->
  valOf h x = Some xv -> wf xv -> trackedOf h x = true -> dirtyOf h x = false ->
  relu_forward h [Some x] name = (h1, Ok y) ->
  let z0 := length h in
  sameS h1 hh -> gradOf hh y = Some gy -> wf gy -> dims gy = dims xv ->
  gradOf hh z0 = None ->
  prior_ok (dims xv) (gradOf hh x) ->
  exists hh' gx gz,
    fold_left (process_node rd idseal) [y; z0] (hh, log, Ok tt) = (hh', (z0, gz) :: (y, gy) :: log, Ok tt) /\
    sameS hh hh' /\ (forall n, n <> x -> n <> z0 -> gradOf hh' n = gradOf hh n) /\
    gradOf hh' x = Some gx /\ dims gx = dims xv /\ wf gx /\
    forall idx, validIdx (dims xv) idx ->
      let p := prior (gradOf hh x) idx in
      elt gx idx = p + elt gy idx * reluD (elt xv idx) /\
      (thr < elt xv idx -> elt gx idx = p + elt gy idx * 1) /\
      (elt xv idx < - thr -> elt gx idx = p + elt gy idx * 0) /\
      (elt xv idx = 0 -> elt gx idx = p + elt gy idx * / 2).
Proof.
  intros Hthr Hx Wx Tx Dx E z0 S Hgy Wgy Dgy Hgz Hp. subst z0.
  pose proof (relu_structure h x name h1 y E Tx Dx) as St. cbv zeta in St.
  destruct St as (xv' & zv & yv & Hx' & Hzv & Hyv & -> & L1 & Old & Nz & Ny).
  assert (xv' = xv) by congruence. subst xv'.
  assert (Hxl : (x < length h)%nat) by (apply tracked_lt; exact Tx).
  assert (Vx1 : valOf h1 x = Some xv) by (eapply isOld_val; eauto).
  assert (Tx1 : trackedOf h1 x = true) by (rewrite (isOld_trk h h1 x Old Hxl); exact Tx).
  pose proof (un_isT thr draw _ _ _ _ _ (isT_self xv Wx) Hzv) as Tz0.
  pose proof (same_isT thr draw _ _ _ _ _ _ _ Tz0 (isT_self xv Wx) Hyv) as Ty0.
  destruct (old_isT h1 x xv Vx1 Wx) as (DX & OX & VX).
  destruct (isNode_isT h1 _ zv _ _ _ Nz Tz0) as (DZ & OZ & VZ).
  destruct (isNode_isT h1 _ yv _ _ _ Ny Ty0) as (DY & OY & VY).
  destruct Nz as (Lz & _ & Tz & Ez & _). destruct Ny as (Ly & _ & _ & Ey & _).
  destruct (comp_run thr draw rd (rsem thr rd h1) h1 hh (length h) (Datatypes.S (length h)) [length h] [x] gy log S
              (Nat.le_succ_diag_r _) Hgy Wgy ltac:(dm_eq)) as (hh' & lg & Ef & Hlg & S' & Hfr & Hgx).
  { intros j Hj. replace j with (length h) by nlia. exact Hgz. }
  { exact (prior_ok_in h1 hh x _ DX Hp). }
  { each_in; (split; [nlia|split; [assumption|]]).
    - comp_edges Ey; esnd.
    - comp_edges Ez. esnd. }
  cbv zeta in Hlg, Hgx.
  match type of Hlg with snd ?r = _ =>
    eassert (ER : r = _) by (arun2 ne Ey; arun1 ne Ez; cbn [arun]; reflexivity)
  end.
  rewrite ER in Hlg, Hgx. cbn [fst snd] in Hlg, Hgx.
  apply (app_inj_tail [length h] (map fst lg)) in Hlg as [Hlg _].
  destruct lg as [|[c gz] [|? ?]]; try discriminate Hlg. injection Hlg as <-.
  specialize (Hgx x (or_introl eq_refl) Hxl). at_input Hgx. rewrite DX in Hgx. destruct Hgx as (gx & Egx & Dgx & Wgx & Ggx).
  exists hh', gx, gz. split; [exact Ef|]. split; [exact S'|].
  split; [intros n Hn1 Hn2; apply Hfr; [intros [X|[]]; congruence|nlia]|].
  split; [exact Egx|]. split; [exact Dgx|]. split; [exact Wgx|].
  intros idx Hv. cbv zeta.
  assert (Zz : elt zv idx = 0) by (rewrite (proj2 (proj2 Tz0) idx Hv), uF_scale, cst_R, dec2R_0; ring).
  assert (F : elt gx idx = prior (gradOf hh x) idx + elt gy idx * reluD (elt xv idx)).
  { rewrite (Ggx idx Hv), !aacc_some, aacc_prior. cbn [rsem]. rewrite aacc_none, VX, VY, VZ.
    rewrite (proj2 (proj2 Ty0) idx Hv), bF_max, <- (proj2 (proj2 Tz0) idx Hv), Zz, cst_R, dec2R_0.
    unfold reluD, prior. ring. }
  split; [exact F|]. rewrite F. split; [|split].
  - intros Hc. rewrite (reluD_pos _ Hthr Hc). reflexivity.
  - intros Hc. rewrite (reluD_neg _ Hthr Hc). reflexivity.
  - intros Hc. rewrite Hc, (reluD_zero Hthr). reflexivity.
Qed.


(* Sigmoid:  one = x.Pow(0); nx = x.Scale(-1); ex = nx.Exp(); y1 = one.Add(ex) (two Broadcast *)
(* nodes b1, b2 of factor 1); y = y1.Pow(-1).   Ids: one = a, nx = a+1, ex = a+2, b1 = a+3, *)
(* b2 = a+4, y1 = a+5, y = a+6.  Two paths into x: through nx (Scale(-1)) and through one *)
(* (Pow(0): contributes exactly 0).  No guard on x: 1 + e^(-x) > 0 at every real x. *)
Lemma Rpow_m1m1 v : Rpow v (-1 - 1) = / v ^ 2.
Proof. replace (-1 - 1) with (-2) by lra. apply Rpow_m2. Qed.

Theorem sigmoid_grad rd (h h1 hh : heap) x y name xv gy log :
  valOf h x = Some xv -> wf xv -> trackedOf h x = true -> dirtyOf h x = false ->
  sigmoid_forward h [Some x] name = (h1, Ok y) ->
  let a := length h in
  sameS h1 hh -> gradOf hh y = Some gy -> wf gy -> dims gy = dims xv ->
  (forall k, (k < 6)%nat -> gradOf hh (a + k)%nat = None) ->
  prior_ok (dims xv) (gradOf hh x) ->
  exists hh' gx lg,
    fold_left (process_node rd idseal) [y; a + 5; a + 4; a + 2; a + 1; a + 3; a]%nat (hh, log, Ok tt)
      = (hh', lg ++ log, Ok tt) /\
    map fst lg = [a; a + 3; a + 1; a + 2; a + 4; a + 5; y]%nat /\
    sameS hh hh' /\
    (forall n, n <> x -> (n < a \/ a + 6 <= n)%nat -> gradOf hh' n = gradOf hh n) /\
    gradOf hh' x = Some gx /\ dims gx = dims xv /\ wf gx /\
    forall idx, validIdx (dims xv) idx ->
      elt gx idx = prior (gradOf hh x) idx
                   + elt gy idx * (logistic (elt xv idx) * (1 - logistic (elt xv idx))).
Proof.
  intros Hx Wx Tx Dx E a S Hgy Wgy Dgy Hint Hp. subst a.
  pose proof (sigmoid_structure h x name h1 y xv E Hx Wx Tx Dx) as St. cbv zeta in St.
  destruct St as (onev & nxv & exv & y1v & yv & Hone & Hnx & Hex & Hy1 & Hyv & -> & L1 & Old & N0 & N1 & N2 & N3 & N4 & N5 & N6).
  assert (Hxl : (x < length h)%nat) by (apply tracked_lt; exact Tx).
  assert (Vx1 : valOf h1 x = Some xv) by (eapply isOld_val; eauto).
  assert (Tx1 : trackedOf h1 x = true) by (rewrite (isOld_trk h h1 x Old Hxl); exact Tx).
  pose proof (un_isT thr draw _ _ _ _ _ (isT_self xv Wx) Hone) as T0.
  pose proof (un_isT thr draw _ _ _ _ _ (isT_self xv Wx) Hnx) as T1.
  pose proof (un_isT thr draw _ _ _ _ _ T1 Hex) as T2.
  pose proof (ar_isT thr draw _ _ _ _ _ _ _ T0 T2 Hy1) as T5.
  pose proof (un_isT thr draw _ _ _ _ _ T5 Hyv) as T6.
  destruct (old_isT h1 x xv Vx1 Wx) as (DX & OX & VX).
  destruct (isNode_isT h1 _ _ _ _ _ N0 T0) as (D0 & O0 & _). destruct (isNode_isT h1 _ _ _ _ _ N1 T1) as (D1 & O1 & _).
  destruct (isNode_isT h1 _ _ _ _ _ N2 T2) as (D2 & O2 & V2). destruct (isNode_isT h1 _ _ _ _ _ N3 T0) as (D3 & O3 & _).
  destruct (isNode_isT h1 _ _ _ _ _ N4 T2) as (D4 & O4 & _). destruct (isNode_isT h1 _ _ _ _ _ N5 T5) as (D5 & O5 & V5).
  destruct (isNode_isT h1 _ _ _ _ _ N6 T6) as (D6 & O6 & _).
  destruct N0 as (L0 & _ & Tr0 & E0 & _). destruct N1 as (Ln1 & _ & Tr1 & E1 & _). destruct N2 as (L2 & _ & Tr2 & E2 & _).
  destruct N3 as (L3 & _ & Tr3 & E3 & _). destruct N4 as (L4 & _ & Tr4 & E4 & _). destruct N5 as (L5 & _ & Tr5 & E5 & _).
  destruct N6 as (L6 & _ & _ & E6 & _).
  destruct (comp_run thr draw rd (rsem thr rd h1) h1 hh (length h) (length h + 6)
              [length h + 5; length h + 4; length h + 2; length h + 1; length h + 3; length h]%nat [x] gy log S
              (Nat.le_add_r _ _) Hgy Wgy ltac:(dm_eq)) as (hh' & lg & Ef & Hlg & S' & Hfr & Hgx).
  { intros j Hj. replace j with (length h + (j - length h))%nat by nlia. apply Hint. nlia. }
  { exact (prior_ok_in h1 hh x _ DX Hp). }
  { each_in; (split; [nlia|split; [assumption|]]).
    - comp_edges E6. esnd.
    - comp_edges E5; esnd.
    - comp_edges E4. esnd.
    - comp_edges E2. esnd.
    - comp_edges E1. esnd.
    - comp_edges E3. esnd.
    - comp_edges E0. esnd. }
  cbv zeta in Hlg, Hgx.
  match type of Hlg with snd ?r = _ =>
    eassert (ER : r = _) by (clear - E0 E1 E2 E3 E4 E5 E6 Tr0 Tr1 Tr2 Tr3 Tr4 Tr5 Tx1 Hxl;
                             arun1 ne E6; arun2 ne E5; arun1 ne E4; arun1 ne E2; arun1 ne E1; arun1 ne E3; arun1 ne E0; cbn [arun]; reflexivity)
  end.
  rewrite ER in Hlg, Hgx. cbn [fst snd] in Hlg, Hgx.
  specialize (Hgx x (or_introl eq_refl) Hxl). at_input Hgx. rewrite DX in Hgx. destruct Hgx as (gx & Egx & Dgx & Wgx & Ggx).
  exists hh', gx, (lg ++ [((length h + 6)%nat, gy)]). split; [rewrite <- app_assoc; exact Ef|].
  split; [rewrite map_app; symmetry; exact Hlg|]. split; [exact S'|].
  split; [intros n Hn Hr; apply Hfr; [intros [X|[]]; congruence|exact Hr]|].
  split; [exact Egx|]. split; [exact Dgx|]. split; [exact Wgx|].
  intros idx Hv.
  assert (EX : elt exv idx = exp (- elt xv idx)).
  { rewrite (proj2 (proj2 T2) idx Hv), uF_exp, uF_scale, cst_R, dec2R_m1. f_equal. ring. }
  assert (Y1 : elt y1v idx = 1 + exp (- elt xv idx)).
  { rewrite (proj2 (proj2 T5) idx Hv), bF_add, uF_pow, uF_exp, uF_scale, !cst_R, dec2R_0, dec2R_m1, Rpow_0.
    f_equal. f_equal. ring. }
  rewrite (Ggx idx Hv), !aacc_some, aacc_prior, ?aacc_none, !rsem_bcast_same by dm_eq. cbn [rsem].
  rewrite V5, V2, Y1, EX, cst_R, dec2R_m1, Rpow_m1m1, <- sigmoid_deriv_identity. unfold prior. ring.
Qed.

(* LeakyRelu(m):  z0 = x.Scale(0); s1 = z0.ElMax(x); s2 = z0.ElMin(x); s3 = s2.Scale(m); *)
(* y = s1.Add(s3) (Broadcast nodes b1, b2 of factor 1).  Ids: z0 = a, s1 = a+1, s2 = a+2, *)
(* s3 = a+3, b1 = a+4, b2 = a+5, y = a+6.  Three paths into x: ElSel of s1, ElSel of s2, Scale(0). *)
Definition minD (v : R) : R := eqtR (Rmin 0 v) v - / 2 * eqtR v 0.
Definition leakyD (m v : R) : R := reluD v + m * minD v.

Lemma minD_pos v : 0 <= thr -> thr < v -> minD v = 0.
Proof.
  intros Ht Hv. unfold minD. rewrite Rmin_left by lra.
  rewrite (eqt_far thr 0 v); [|replace (0 - v) with (- v) by ring; rewrite Rabs_Ropp, Rabs_pos_eq; lra].
  rewrite (eqt_far thr v 0); [ring|]. rewrite Rabs_minus_0, Rabs_pos_eq; lra.
Qed.
Lemma minD_neg v : 0 <= thr -> v < - thr -> minD v = 1.
Proof.
  intros Ht Hv. unfold minD. rewrite Rmin_right by lra. rewrite (eqt_same thr v Ht).
  rewrite (eqt_far thr v 0); [ring|]. rewrite Rabs_minus_0, Rabs_left; lra.
Qed.
Lemma minD_zero : 0 <= thr -> minD 0 = / 2.
Proof. intros Ht. unfold minD. rewrite Rmin_left by lra. rewrite (eqt_same thr 0 Ht). field. Qed.

Theorem leaky_grad rd (h h1 hh : heap) (m : R) x y name xv gy log :
  0 <= thr ->
  valOf h x = Some xv -> wf xv -> trackedOf h x = true -> dirtyOf h x = false ->
  leaky_forward h m [Some x] name = (h1, Ok y) ->
  let a := length h in
  sameS h1 hh -> gradOf hh y = Some gy -> wf gy -> dims gy = dims xv ->
  (forall k, (k < 6)%nat -> gradOf hh (a + k)%nat = None) ->
  prior_ok (dims xv) (gradOf hh x) ->
  exists hh' gx lg,
    fold_left (process_node rd idseal) [y; a + 5; a + 3; a + 2; a + 4; a + 1; a]%nat (hh, log, Ok tt)
      = (hh', lg ++ log, Ok tt) /\
    map fst lg = [a; a + 1; a + 4; a + 2; a + 3; a + 5; y]%nat /\
    sameS hh hh' /\
    (forall n, n <> x -> (n < a \/ a + 6 <= n)%nat -> gradOf hh' n = gradOf hh n) /\
    gradOf hh' x = Some gx /\ dims gx = dims xv /\ wf gx /\
    forall idx, validIdx (dims xv) idx ->
      let p := prior (gradOf hh x) idx in
      elt gx idx = p + elt gy idx * leakyD m (elt xv idx) /\
      (thr < elt xv idx -> elt gx idx = p + elt gy idx * 1) /\
      (elt xv idx < - thr -> elt gx idx = p + elt gy idx * m) /\
      (elt xv idx = 0 -> elt gx idx = p + elt gy idx * ((1 + m) / 2)).
Proof.
  intros Hthr Hx Wx Tx Dx E a S Hgy Wgy Dgy Hint Hp. subst a.
  pose proof (leaky_structure h m x name h1 y xv E Hx Wx Tx Dx) as St. cbv zeta in St.
  destruct St as (zv & p1v & p2v & p3v & yv & Hzv & Hp1 & Hp2 & Hp3 & Hyv & -> & L1 & Old & N0 & N1 & N2 & N3 & N4 & N5 & N6).
  assert (Hxl : (x < length h)%nat) by (apply tracked_lt; exact Tx).
  assert (Vx1 : valOf h1 x = Some xv) by (eapply isOld_val; eauto).
  assert (Tx1 : trackedOf h1 x = true) by (rewrite (isOld_trk h h1 x Old Hxl); exact Tx).
  pose proof (un_isT thr draw _ _ _ _ _ (isT_self xv Wx) Hzv) as T0.
  pose proof (same_isT thr draw _ _ _ _ _ _ _ T0 (isT_self xv Wx) Hp1) as T1.
  pose proof (same_isT thr draw _ _ _ _ _ _ _ T0 (isT_self xv Wx) Hp2) as T2.
  pose proof (un_isT thr draw _ _ _ _ _ T2 Hp3) as T3.
  pose proof (ar_isT thr draw _ _ _ _ _ _ _ T1 T3 Hyv) as T6.
  destruct (old_isT h1 x xv Vx1 Wx) as (DX & OX & VX).
  destruct (isNode_isT h1 _ _ _ _ _ N0 T0) as (D0 & O0 & V0). destruct (isNode_isT h1 _ _ _ _ _ N1 T1) as (D1 & O1 & V1).
  destruct (isNode_isT h1 _ _ _ _ _ N2 T2) as (D2 & O2 & V2). destruct (isNode_isT h1 _ _ _ _ _ N3 T3) as (D3 & O3 & _).
  destruct (isNode_isT h1 _ _ _ _ _ N4 T1) as (D4 & O4 & _). destruct (isNode_isT h1 _ _ _ _ _ N5 T3) as (D5 & O5 & _).
  destruct (isNode_isT h1 _ _ _ _ _ N6 T6) as (D6 & O6 & _).
  destruct N0 as (L0 & _ & Tr0 & E0 & _). destruct N1 as (Ln1 & _ & Tr1 & E1 & _). destruct N2 as (L2 & _ & Tr2 & E2 & _).
  destruct N3 as (L3 & _ & Tr3 & E3 & _). destruct N4 as (L4 & _ & Tr4 & E4 & _). destruct N5 as (L5 & _ & Tr5 & E5 & _).
  destruct N6 as (L6 & _ & _ & E6 & _).
  destruct (comp_run thr draw rd (rsem thr rd h1) h1 hh (length h) (length h + 6)
              [length h + 5; length h + 3; length h + 2; length h + 4; length h + 1; length h]%nat [x] gy log S
              (Nat.le_add_r _ _) Hgy Wgy ltac:(dm_eq)) as (hh' & lg & Ef & Hlg & S' & Hfr & Hgx).
  { intros j Hj. replace j with (length h + (j - length h))%nat by nlia. apply Hint. nlia. }
  { exact (prior_ok_in h1 hh x _ DX Hp). }
  { each_in; (split; [nlia|split; [assumption|]]).
    - comp_edges E6; esnd.
    - comp_edges E5. esnd.
    - comp_edges E3. esnd.
    - comp_edges E2; esnd.
    - comp_edges E4. esnd.
    - comp_edges E1; esnd.
    - comp_edges E0. esnd. }
  cbv zeta in Hlg, Hgx.
  match type of Hlg with snd ?r = _ =>
    eassert (ER : r = _) by (clear - E0 E1 E2 E3 E4 E5 E6 Tr0 Tr1 Tr2 Tr3 Tr4 Tr5 Tx1 Hxl;
                             arun2 ne E6; arun1 ne E5; arun1 ne E3; arun2 ne E2; arun1 ne E4; arun2 ne E1; arun1 ne E0; cbn [arun]; reflexivity)
  end.
  rewrite ER in Hlg, Hgx. cbn [fst snd] in Hlg, Hgx.
  specialize (Hgx x (or_introl eq_refl) Hxl). at_input Hgx. rewrite DX in Hgx. destruct Hgx as (gx & Egx & Dgx & Wgx & Ggx).
  exists hh', gx, (lg ++ [((length h + 6)%nat, gy)]). split; [rewrite <- app_assoc; exact Ef|].
  split; [rewrite map_app; symmetry; exact Hlg|]. split; [exact S'|].
  split; [intros n Hn Hr; apply Hfr; [intros [X|[]]; congruence|exact Hr]|].
  split; [exact Egx|]. split; [exact Dgx|]. split; [exact Wgx|].
  intros idx Hv. cbv zeta.
  assert (Zz : elt zv idx = 0) by (rewrite (proj2 (proj2 T0) idx Hv), uF_scale, cst_R, dec2R_0; ring).
  assert (P1 : elt p1v idx = Rmax 0 (elt xv idx)) by (rewrite (proj2 (proj2 T1) idx Hv), bF_max, uF_scale, cst_R, dec2R_0; f_equal; ring).
  assert (P2 : elt p2v idx = Rmin 0 (elt xv idx)) by (rewrite (proj2 (proj2 T2) idx Hv), bF_min, uF_scale, cst_R, dec2R_0; f_equal; ring).
  assert (F : elt gx idx = prior (gradOf hh x) idx + elt gy idx * leakyD m (elt xv idx)).
  { rewrite (Ggx idx Hv), !aacc_some, aacc_prior, ?aacc_none, !rsem_bcast_same by dm_eq. cbn [rsem].
    rewrite ?aacc_some, ?aacc_none. cbn [rsem].
    rewrite VX, V0, V1, V2, P1, P2, Zz, cst_R, dec2R_0. unfold leakyD, reluD, minD, prior. ring. }
  split; [exact F|]. rewrite F. unfold leakyD. split; [|split].
  - intros Hc. rewrite (reluD_pos _ Hthr Hc), (minD_pos _ Hthr Hc). f_equal. ring.
  - intros Hc. rewrite (reluD_neg _ Hthr Hc), (minD_neg _ Hthr Hc). f_equal. ring.
  - intros Hc. rewrite Hc, (reluD_zero Hthr), (minD_zero Hthr). f_equal. field.
Qed.


End R.

(* 3. examples: the theorems instantiated on a tiny heap whose input is an INTERIOR node *)
Module GradActExamples.
Section Ex.
Variable draw : bool -> nat -> R.
Local Hint Extern 0 (Scalar R) => exact (R_scalar 0 draw) : typeclass_instances.
Notation heap := (@heap R).
Notation idseal := (fun (_ : option nat) (g : tensor R) => g).

Definition vec2 (a b : R) : tensor R := mkT [2%nat] (Vec [Sc a; Sc b]).
Lemma wf_vec2 a b : wf (vec2 a b).
Proof. split; cbn; repeat constructor. Qed.
Lemma valid2 idx : validIdx [2%nat] idx -> idx = [0%nat] \/ idx = [1%nat].
Proof.
  intros H. inversion H as [|i d r ds Hi Hr]; subst. inversion Hr; subst.
  destruct i as [|[|i]]; [left; reflexivity|right; reflexivity|lia].
Qed.

(* w is a tracked leaf, x = w.Scale(2) an INTERIOR node, then the activation of x *)
Definition exw : tensor R := vec2 3 (-4).
Definition exg : tensor R := vec2 5 7.
Definition exh0 : heap := fst (leaf [] exw true (Some 0%nat)).
Definition exh : heap := fst (h_scale exh0 0 2 (Some 1%nat)).
Definition exx : tensor R := vec2 (2 * 3) (2 * -4).

Example exh_x : valOf exh 1 = Some exx /\ trackedOf exh 1 = true /\ dirtyOf exh 1 = false /\ edgesOf exh 1 = [(0%nat, RScale 1 2)].
Proof. repeat split. Qed.

Definition th1 : heap := fst (tanh_forward exh [Some 1%nat] (Some 2%nat)).
Lemma th1_eq : tanh_forward exh [Some 1%nat] (Some 2%nat) = (th1, Ok 2%nat).
Proof. reflexivity. Qed.

Example tanh_grad_ex rd :
  exists hh' gx,
    fold_left (process_node rd idseal) [2%nat] (setGrad th1 2 (Some exg), [], Ok tt) = (hh', [(2%nat, exg)], Ok tt) /\
    gradOf hh' 1 = Some gx /\
    elt gx [0%nat] = 5 * (1 - tanh (2 * 3) ^ 2) /\ elt gx [1%nat] = 7 * (1 - tanh (2 * -4) ^ 2).
Proof.
  destruct (tanh_grad 0 draw rd exh th1 (setGrad th1 2 (Some exg)) 1 2 (Some 2%nat) exx exg [])
    as (hh' & gx & Ef & _ & _ & Hg & _ & _ & F).
  - reflexivity.
  - apply wf_vec2.
  - reflexivity.
  - reflexivity.
  - exact th1_eq.
  - apply sameS_setGrad.
  - reflexivity.
  - apply wf_vec2.
  - reflexivity.
  - exact I.
  - exists hh', gx. split; [exact Ef|]. split; [exact Hg|]. split.
    + rewrite (F [0%nat]) by (repeat constructor). cbn. ring.
    + rewrite (F [1%nat]) by (repeat constructor). cbn. ring.
Qed.

(* Relu at  x = (6, -8)  with the exact equality (thr = 0): factors 1 and 0 *)
Definition rh1 : heap := fst (relu_forward exh [Some 1%nat] (Some 2%nat)).
Lemma rh1_eq : relu_forward exh [Some 1%nat] (Some 2%nat) = (rh1, Ok 3%nat).
Proof. reflexivity. Qed.

Example relu_order_ex : topoOrder rh1 3 = [3; 2; 1; 0]%nat.
Proof. reflexivity. Qed.

Example relu_grad_ex rd :
  exists hh' gx gz,
    fold_left (process_node rd idseal) [3; 2]%nat (setGrad rh1 3 (Some exg), [], Ok tt)
      = (hh', [(2%nat, gz); (3%nat, exg)], Ok tt) /\
    gradOf hh' 1 = Some gx /\ elt gx [0%nat] = 5 /\ elt gx [1%nat] = 0.
Proof.
  destruct (relu_grad 0 draw rd exh rh1 (setGrad rh1 3 (Some exg)) 1 3 (Some 2%nat) exx exg [])
    as (hh' & gx & gz & Ef & _ & _ & Hg & _ & _ & F).
  - lra.
  - reflexivity.
  - apply wf_vec2.
  - reflexivity.
  - reflexivity.
  - exact rh1_eq.
  - apply sameS_setGrad.
  - reflexivity.
  - apply wf_vec2.
  - reflexivity.
  - reflexivity.
  - exact I.
  - exists hh', gx, gz. split; [exact Ef|]. split; [exact Hg|]. split.
    + destruct (F [0%nat]) as (_ & P & _); [repeat constructor|]. cbn in P. rewrite P by lra. cbn. clear. lra.
    + destruct (F [1%nat]) as (_ & _ & N & _); [repeat constructor|]. cbn in N. rewrite N by lra. cbn. clear. lra.
Qed.

(* the tie x = 0 exactly: half of the upstream gradient *)
Definition zh0 : heap := fst (leaf [] (vec2 0 0) true (Some 0%nat)).
Definition zh1 : heap := fst (relu_forward zh0 [Some 0%nat] (Some 1%nat)).
Lemma zh1_eq : relu_forward zh0 [Some 0%nat] (Some 1%nat) = (zh1, Ok 2%nat).
Proof. reflexivity. Qed.

Example relu_tie_ex rd :
  exists hh' gx gz,
    fold_left (process_node rd idseal) [2; 1]%nat (setGrad zh1 2 (Some exg), [], Ok tt)
      = (hh', [(1%nat, gz); (2%nat, exg)], Ok tt) /\
    gradOf hh' 0 = Some gx /\ elt gx [0%nat] = 5 / 2 /\ elt gx [1%nat] = 7 / 2.
Proof.
  destruct (relu_grad 0 draw rd zh0 zh1 (setGrad zh1 2 (Some exg)) 0 2 (Some 1%nat) (vec2 0 0) exg [])
    as (hh' & gx & gz & Ef & _ & _ & Hg & _ & _ & F);
    [lra|reflexivity|apply wf_vec2|reflexivity|reflexivity|exact zh1_eq|apply sameS_setGrad|reflexivity
    |apply wf_vec2|reflexivity|reflexivity|exact I|].
  exists hh', gx, gz. split; [exact Ef|]. split; [exact Hg|]. split.
  - destruct (F [0%nat]) as (_ & _ & _ & Z); [repeat constructor|]. cbn in Z. rewrite Z by reflexivity. cbn. clear. lra.
  - destruct (F [1%nat]) as (_ & _ & _ & Z); [repeat constructor|]. cbn in Z. rewrite Z by reflexivity. cbn. clear. lra.
Qed.

(* LeakyRelu(m) at x = (6, -8): factors 1 and m *)
Definition lh1 (m : R) : heap := fst (leaky_forward exh m [Some 1%nat] (Some 2%nat)).
Lemma lh1_eq m : leaky_forward exh m [Some 1%nat] (Some 2%nat) = (lh1 m, Ok 8%nat).
Proof. reflexivity. Qed.

(* the order of the theorem is the order of bp_topo *)
Example leaky_order_ex m : topoOrder (lh1 m) 8 = [8; 7; 5; 4; 6; 3; 2; 1; 0]%nat.
Proof. reflexivity. Qed.

Example leaky_grad_ex rd m :
  exists hh' gx lg,
    fold_left (process_node rd idseal) [8; 7; 5; 4; 6; 3; 2]%nat (setGrad (lh1 m) 8 (Some exg), [], Ok tt)
      = (hh', lg, Ok tt) /\
    gradOf hh' 1 = Some gx /\ elt gx [0%nat] = 5 /\ elt gx [1%nat] = 7 * m.
Proof.
  destruct (leaky_grad 0 draw rd exh (lh1 m) (setGrad (lh1 m) 8 (Some exg)) m 1 8 (Some 2%nat) exx exg [])
    as (hh' & gx & lg & Ef & _ & _ & _ & Hg & _ & _ & F);
    [lra|reflexivity|apply wf_vec2|reflexivity|reflexivity|apply lh1_eq|apply sameS_setGrad|reflexivity
    |apply wf_vec2|reflexivity| |exact I|].
  - intros k Hk. do 6 (destruct k as [|k]; [reflexivity|]). lia.
  - assert (Pr : gradOf (setGrad (lh1 m) 8 (Some exg)) 1 = None) by reflexivity.
    exists hh', gx, (lg ++ []). split; [exact Ef|]. split; [exact Hg|]. split.
    + destruct (F [0%nat]) as (_ & P & _); [repeat constructor|]. rewrite P, Pr; cbn; clear; lra.
    + destruct (F [1%nat]) as (_ & _ & N & _); [repeat constructor|]. rewrite N, Pr; cbn; clear; lra.
Qed.

(* Sigmoid at x = (6, -8) *)
Definition sh1 : heap := fst (sigmoid_forward exh [Some 1%nat] (Some 2%nat)).
Lemma sh1_eq : sigmoid_forward exh [Some 1%nat] (Some 2%nat) = (sh1, Ok 8%nat).
Proof. reflexivity. Qed.

Example sigmoid_order_ex : topoOrder sh1 8 = [8; 7; 6; 4; 3; 5; 2; 1; 0]%nat.
Proof. reflexivity. Qed.

Example sigmoid_grad_ex rd :
  exists hh' gx lg,
    fold_left (process_node rd idseal) [8; 7; 6; 4; 3; 5; 2]%nat (setGrad sh1 8 (Some exg), [], Ok tt)
      = (hh', lg, Ok tt) /\
    gradOf hh' 1 = Some gx /\
    elt gx [0%nat] = 5 * (logistic (2 * 3) * (1 - logistic (2 * 3))) /\
    elt gx [1%nat] = 7 * (logistic (2 * -4) * (1 - logistic (2 * -4))).
Proof.
  destruct (sigmoid_grad 0 draw rd exh sh1 (setGrad sh1 8 (Some exg)) 1 8 (Some 2%nat) exx exg [])
    as (hh' & gx & lg & Ef & _ & _ & _ & Hg & _ & _ & F);
    [reflexivity|apply wf_vec2|reflexivity|reflexivity|apply sh1_eq|apply sameS_setGrad|reflexivity
    |apply wf_vec2|reflexivity| |exact I|].
  - intros k Hk. do 6 (destruct k as [|k]; [reflexivity|]). lia.
  - assert (Pr : gradOf (setGrad sh1 8 (Some exg)) 1 = None) by reflexivity.
    exists hh', gx, (lg ++ []). split; [exact Ef|]. split; [exact Hg|]. split.
    + rewrite (F [0%nat]) by (repeat constructor). rewrite Pr. cbn. ring.
    + rewrite (F [1%nat]) by (repeat constructor). rewrite Pr. cbn. ring.
Qed.
End Ex.
End GradActExamples.

Print Assumptions tanh_grad.
Print Assumptions relu_grad.
Print Assumptions leaky_grad.
Print Assumptions sigmoid_grad.
Print Assumptions sigmoid_structure.
