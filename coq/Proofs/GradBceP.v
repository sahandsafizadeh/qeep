(* GradBceP.v — C13 for the binary cross-entropy loss.  Built on Proofs/GradLossP.v. *)
From Coq Require Import List Arith ZArith Bool Lia Reals Lra.
From Coquelicot Require Import Coquelicot.
From Qeep Require Import Model.Scalar Model.Nd Model.Fill Model.Data Model.Valid Model.Api Model.Grad Model.Backprop
  Model.Components.
From Qeep Require Import Spec.RScalar Spec.VjpSpec.
From Qeep Require Import Proofs.NdP Proofs.ElemP Proofs.BroadcastP Proofs.ReduceP Proofs.ReduceRP Proofs.CompP Proofs.LossP
  Proofs.VjpElemP Proofs.VjpReduceP Proofs.TrackP Proofs.BackpropP Proofs.CompRP Proofs.GradLossP Proofs.OpsP Proofs.OpsXP Proofs.BpFoldP.
Import ListNotations.
Local Open Scope nat_scope.

Section BceStructure.
Context {A : Type} {SA : Scalar A}.
Notation T := (tensor A).
Notation heap := (@heap A).
Notation rule := (@rule A).
Notation c0 := (@cst A SA 0 0).
Notation c1 := (@cst A SA 1 0).
Notation cm1 := (@cst A SA (-1) 0).
Variables (eps ome : A).

(* the thirty nodes BCE.Compute appends; tp = is the prediction tracked *)
Definition bce_nodes (L p t : nat) (tp : bool) (name : option nat)
  (a0 a1 a2 a3 a4 b0 b1 b2 b3 b4 lpv k1 k2 sAv one2 d1 d2 t2v e1 e2 y2v ly2v f1 f2 sBv g1 g2 lv lnv lossv : T)
  : heap :=
  [ xnode a0 false [(t, RPow (L + 0) t c0 true)] None;
    xnode a1 false [(L + 0, RScale (L + 1) c0)] None;
    xnode a2 false [(L + 0, RScale (L + 2) c1)] None;
    xnode a3 false [(t, RElSel (L + 3) t (L + 2)); (L + 2, RElSel (L + 3) (L + 2) t)] None;
    xnode a4 false [(L + 1, RElSel (L + 4) (L + 1) (L + 3)); (L + 3, RElSel (L + 4) (L + 3) (L + 1))] None;
    xnode b0 tp [(p, RPow (L + 5) p c0 true)] None;
    xnode b1 tp [(L + 5, RScale (L + 6) eps)] None;
    xnode b2 tp [(L + 5, RScale (L + 7) ome)] None;
    xnode b3 tp [(p, RElSel (L + 8) p (L + 7)); (L + 7, RElSel (L + 8) (L + 7) p)] None;
    xnode b4 tp [(L + 6, RElSel (L + 9) (L + 6) (L + 8)); (L + 8, RElSel (L + 9) (L + 8) (L + 6))] None;
    xnode lpv tp [(L + 9, RLog (L + 10) (L + 9))] None;
    xnode k1 false [(L + 4, RBroadcast (L + 11) (L + 4))] None;
    xnode k2 tp [(L + 10, RBroadcast (L + 12) (L + 10))] None;
    xnode sAv tp (arithEdges BiMul (L + 13) (L + 11) (L + 12)) None;
    xnode one2 tp [(L + 9, RPow (L + 14) (L + 9) c0 true)] None;
    xnode d1 tp [(L + 14, RBroadcast (L + 15) (L + 14))] None;
    xnode d2 false [(L + 4, RBroadcast (L + 16) (L + 4))] None;
    xnode t2v tp (arithEdges BiSub (L + 17) (L + 15) (L + 16)) None;
    xnode e1 tp [(L + 14, RBroadcast (L + 18) (L + 14))] None;
    xnode e2 tp [(L + 9, RBroadcast (L + 19) (L + 9))] None;
    xnode y2v tp (arithEdges BiSub (L + 20) (L + 18) (L + 19)) None;
    xnode ly2v tp [(L + 20, RLog (L + 21) (L + 20))] None;
    xnode f1 tp [(L + 17, RBroadcast (L + 22) (L + 17))] None;
    xnode f2 tp [(L + 21, RBroadcast (L + 23) (L + 21))] None;
    xnode sBv tp (arithEdges BiMul (L + 24) (L + 22) (L + 23)) None;
    xnode g1 tp [(L + 13, RBroadcast (L + 25) (L + 13))] None;
    xnode g2 tp [(L + 24, RBroadcast (L + 26) (L + 24))] None;
    xnode lv tp (arithEdges BiAdd (L + 27) (L + 25) (L + 26)) None;
    xnode lnv tp [(L + 27, RScale (L + 28) cm1)] None;
    xnode lossv tp [(L + 28, RAvgAlong (L + 29) (L + 28) 0%Z)] name ].

(* where their edges lead, for a tracked prediction *)
Definition bce_tab : list (bool * list tgt) :=
  xent_tab ++
  [(true, [TNew 9]); (true, [TNew 14]); (false, []); (true, [TNew 15; TNew 16]);
   (true, [TNew 14]); (true, [TNew 9]); (true, [TNew 18; TNew 19]); (true, [TNew 20]);
   (true, [TNew 17]); (true, [TNew 21]); (true, [TNew 22; TNew 23]);
   (true, [TNew 13]); (true, [TNew 24]); (true, [TNew 25; TNew 26]); (true, [TNew 27]); (true, [TNew 28])].

(* the forward equations between the thirty values *)
Definition bce_fwd (pv tv : T)
  (a0 a1 a2 a3 a4 b0 b1 b2 b3 b4 lpv k1 k2 sAv one2 d1 d2 t2v e1 e2 y2v ly2v f1 f2 sBv g1 g2 lv lnv lossv : T) : Prop :=
  v_unary (UPow c0) tv = Ok a0 /\ v_unary (UScale c0) a0 = Ok a1 /\ v_unary (UScale c1) a0 = Ok a2 /\
  v_same BiElMin tv a2 = Ok a3 /\ v_same BiElMax a1 a3 = Ok a4 /\
  v_unary (UPow c0) pv = Ok b0 /\ v_unary (UScale eps) b0 = Ok b1 /\ v_unary (UScale ome) b0 = Ok b2 /\
  v_same BiElMin pv b2 = Ok b3 /\ v_same BiElMax b1 b3 = Ok b4 /\
  v_unary ULn b4 = Ok lpv /\
  v_broadcast a4 (bshape a4 lpv) = Ok k1 /\ v_broadcast lpv (bshape a4 lpv) = Ok k2 /\ apply2 (binaryF BiMul) k1 k2 = Some sAv /\
  v_unary (UPow c0) b4 = Ok one2 /\
  v_broadcast one2 (bshape one2 a4) = Ok d1 /\ v_broadcast a4 (bshape one2 a4) = Ok d2 /\ apply2 (binaryF BiSub) d1 d2 = Some t2v /\
  v_broadcast one2 (bshape one2 b4) = Ok e1 /\ v_broadcast b4 (bshape one2 b4) = Ok e2 /\ apply2 (binaryF BiSub) e1 e2 = Some y2v /\
  v_unary ULn y2v = Ok ly2v /\
  v_broadcast t2v (bshape t2v ly2v) = Ok f1 /\ v_broadcast ly2v (bshape t2v ly2v) = Ok f2 /\ apply2 (binaryF BiMul) f1 f2 = Some sBv /\
  v_broadcast sAv (bshape sAv sBv) = Ok g1 /\ v_broadcast sBv (bshape sAv sBv) = Ok g2 /\ apply2 (binaryF BiAdd) g1 g2 = Some lv /\
  v_unary (UScale cm1) lv = Ok lnv /\ v_reduceAlong RdMean lnv 0%Z = Ok lossv.

Lemma bce_structure (h : heap) p t name h1 l tp pv tv :
  valOf h p = Some pv -> valOf h t = Some tv ->
  trackedOf h p = tp -> dirtyOf h p = false -> trackedOf h t = false -> dirtyOf h t = false ->
  lossArgs1 h (Some p) (Some t) = Some (p, t) ->
  bce_compute eps ome h (Some p) (Some t) name = (h1, Ok l) ->
  exists a0 a1 a2 a3 a4 b0 b1 b2 b3 b4 lpv k1 k2 sAv one2 d1 d2 t2v e1 e2 y2v ly2v f1 f2 sBv g1 g2 lv lnv lossv,
    bce_fwd pv tv a0 a1 a2 a3 a4 b0 b1 b2 b3 b4 lpv k1 k2 sAv one2 d1 d2 t2v e1 e2 y2v ly2v f1 f2 sBv g1 g2 lv lnv lossv /\
    l = length h + 29 /\
    h1 = h ++ bce_nodes (length h) p t tp name
                a0 a1 a2 a3 a4 b0 b1 b2 b3 b4 lpv k1 k2 sAv one2 d1 d2 t2v e1 e2 y2v ly2v f1 f2 sBv g1 g2 lv lnv lossv.
Proof.
  intros Vp Vt Tp Dp Tt Dt Ea E. rewrite (bce_compute_ops eps ome h _ _ p t name Ea) in E. apply atomically_ok in E.
  apply (clip2_X eps ome h p t tp pv tv _ h1 l _ (conj Vp (conj Tp Dp)) (conj Vt (conj Tt Dt)) E).
  (* the instruction lists are run by lazy, the offsets and appends by cbn: cbn alone takes ten times as long, and
     lazy would unfold the additions and appends that are stuck on h *)
  lazy [opsX primX prim1 clip_ops pick map nth nnodes]. cbn [length Nat.add app orb].
  intros a0 Fa0 a1 Fa1 a2 Fa2 a3 Fa3 a4 Fa4 b0 Fb0 b1 Fb1 b2 Fb2 b3 Fb3 b4 Fb4 K E'.
  pattern h1, l. apply (runOps_X0 bce_ops _ (length h) 10 _ name h1 l _ K E'); [reflexivity|rewrite app_length; reflexivity|].
  lazy [opsX primX prim1 bce_ops pick map nth nnodes mathUnary mathRule alongRule]. cbn [length Nat.add app orb kid fst].
  intros lpv Flp k1 k2 sAv Fk1 Fk2 FsA one2 Fone2 d1 d2 t2v Fd1 Fd2 Ft2 e1 e2 y2v Fe1 Fe2 Fy2 ly2v Fly2
    f1 f2 sBv Ff1 Ff2 FsB g1 g2 lv Fg1 Fg2 Fl lnv Fln lossv Floss.
  exists a0, a1, a2, a3, a4, b0, b1, b2, b3, b4, lpv, k1, k2, sAv, one2, d1, d2, t2v, e1, e2, y2v, ly2v, f1, f2, sBv, g1, g2, lv, lnv, lossv.
  split; [repeat (split; [assumption|]); assumption|]. split; [reflexivity|]. rewrite <- app_assoc.
  (* the flags are disjunctions of tp and false *)
  destruct tp; reflexivity.
Qed.
End BceStructure.

Local Open Scope R_scope.

Section Bce.
Variables (thr : R) (draw : bool -> nat -> R).
Local Hint Extern 0 (Scalar R) => exact (R_scalar thr draw) : typeclass_instances.
Notation T := (tensor R).
Notation heap := (@heap R).
Notation rule := (@rule R).
Notation idseal := (fun (_ : option nat) (g : T) => g).
Notation c0 := (@cst R (R_scalar thr draw) 0 0).
Notation c1 := (@cst R (R_scalar thr draw) 1 0).
Notation cm1 := (@cst R (R_scalar thr draw) (-1) 0).
Variables (eps ome : R).

(* element-wise reading of the thirty forward values *)
Lemma bce_fwd_isT N (pv tv : T)
  (a0 a1 a2 a3 a4 b0 b1 b2 b3 b4 lpv k1 k2 sAv one2 d1 d2 t2v e1 e2 y2v ly2v f1 f2 sBv g1 g2 lv lnv lossv : T) :
  wf pv -> wf tv -> dims pv = [N] -> dims tv = [N] ->
  bce_fwd eps ome pv tv a0 a1 a2 a3 a4 b0 b1 b2 b3 b4 lpv k1 k2 sAv one2 d1 d2 t2v e1 e2 y2v ly2v f1 f2 sBv g1 g2 lv lnv lossv ->
  let P := elt pv in let Tt := elt tv in
  let A0 := fun i => Rpow (Tt i) c0 in
  let A4 := fun i => Rmax (c0 * A0 i) (Rmin (Tt i) (c1 * A0 i)) in
  let B0 := fun i => Rpow (P i) c0 in
  let B1 := fun i => eps * B0 i in let B2 := fun i => ome * B0 i in
  let B3 := fun i => Rmin (P i) (B2 i) in let B4 := fun i => Rmax (B1 i) (B3 i) in
  let O2 := fun i => Rpow (B4 i) c0 in
  exists FA1 FA2 FA3 FLp FsA FLy FsB FL FLn,
  Forall2 (isT [N])
    [A0; FA1; FA2; FA3; A4; B0; B1; B2; B3; B4; FLp; A4; FLp; FsA; O2; O2; A4; fun i => O2 i - A4 i;
     O2; B4; fun i => O2 i - B4 i; FLy; fun i => O2 i - A4 i; FLy; FsB; FsA; FsB; FL; FLn]
    [a0; a1; a2; a3; a4; b0; b1; b2; b3; b4; lpv; k1; k2; sAv; one2; d1; d2; t2v;
     e1; e2; y2v; ly2v; f1; f2; sBv; g1; g2; lv; lnv] /\
  dims lossv = [] /\ wf lossv.
Proof.
  intros Wp Wt Edp Edt Hf P Tt A0 A4 B0 B1 B2 B3 B4 O2.
  destruct Hf as (Fa0 & Fa1 & Fa2 & Fa3 & Fa4 & Fb0 & Fb1 & Fb2 & Fb3 & Fb4 & Flp & Fk1 & Fk2 & FsA & Fone2 & Fd1 & Fd2 & Ft2
                  & Fe1 & Fe2 & Fy2 & Fly2 & Ff1 & Ff2 & FsB & Fg1 & Fg2 & Fl & Fln & Floss).
  assert (Ttv : isT [N] Tt tv) by (rewrite <- Edt; apply isT_self, Wt).
  assert (Tpv : isT [N] P pv) by (rewrite <- Edp; apply isT_self, Wp).
  pose proof (un_isT thr draw _ _ _ _ _ Ttv Fa0) as Ta0.
  pose proof (un_isT thr draw _ _ _ _ _ Ta0 Fa1) as Ta1.
  pose proof (un_isT thr draw _ _ _ _ _ Ta0 Fa2) as Ta2.
  pose proof (same_isT thr draw _ _ _ _ _ _ _ Ttv Ta2 Fa3) as Ta3.
  pose proof (same_isT thr draw _ _ _ _ _ _ _ Ta1 Ta3 Fa4) as Ta4.
  pose proof (un_isT thr draw _ _ _ _ _ Tpv Fb0) as Tb0.
  pose proof (un_isT thr draw _ _ _ _ _ Tb0 Fb1) as Tb1.
  pose proof (un_isT thr draw _ _ _ _ _ Tb0 Fb2) as Tb2.
  pose proof (same_isT thr draw _ _ _ _ _ _ _ Tpv Tb2 Fb3) as Tb3.
  pose proof (same_isT thr draw _ _ _ _ _ _ _ Tb1 Tb3 Fb4) as Tb4.
  pose proof (un_isT thr draw _ _ _ _ _ Tb4 Flp) as Tlp.
  assert (ES : forall (x u : T) fx fu, isT [N] fx x -> isT [N] fu u -> bshape x u = map Z.of_nat [N]).
  { intros x u fx fu (Dx & _) (Du & _). unfold bshape. rewrite Dx, Du, targetBroadcastDims_same. reflexivity. }
  rewrite (ES _ _ _ _ Ta4 Tlp) in Fk1, Fk2.
  pose proof (bcast_same_isT _ _ _ _ Ta4 Fk1) as Tk1. pose proof (bcast_same_isT _ _ _ _ Tlp Fk2) as Tk2.
  pose proof (apply2_isT thr draw BiMul _ _ _ _ _ _ Tk1 Tk2 FsA) as TsA.
  pose proof (un_isT thr draw _ _ _ _ _ Tb4 Fone2) as Tone2.
  rewrite (ES _ _ _ _ Tone2 Ta4) in Fd1, Fd2.
  pose proof (bcast_same_isT _ _ _ _ Tone2 Fd1) as Td1. pose proof (bcast_same_isT _ _ _ _ Ta4 Fd2) as Td2.
  pose proof (apply2_isT thr draw BiSub _ _ _ _ _ _ Td1 Td2 Ft2) as Tt2.
  rewrite (ES _ _ _ _ Tone2 Tb4) in Fe1, Fe2.
  pose proof (bcast_same_isT _ _ _ _ Tone2 Fe1) as Te1. pose proof (bcast_same_isT _ _ _ _ Tb4 Fe2) as Te2.
  pose proof (apply2_isT thr draw BiSub _ _ _ _ _ _ Te1 Te2 Fy2) as Ty2.
  pose proof (un_isT thr draw _ _ _ _ _ Ty2 Fly2) as Tly2.
  rewrite (ES _ _ _ _ Tt2 Tly2) in Ff1, Ff2.
  pose proof (bcast_same_isT _ _ _ _ Tt2 Ff1) as Tf1. pose proof (bcast_same_isT _ _ _ _ Tly2 Ff2) as Tf2.
  pose proof (apply2_isT thr draw BiMul _ _ _ _ _ _ Tf1 Tf2 FsB) as TsB.
  rewrite (ES _ _ _ _ TsA TsB) in Fg1, Fg2.
  pose proof (bcast_same_isT _ _ _ _ TsA Fg1) as Tg1. pose proof (bcast_same_isT _ _ _ _ TsB Fg2) as Tg2.
  pose proof (apply2_isT thr draw BiAdd _ _ _ _ _ _ Tg1 Tg2 Fl) as Tl.
  pose proof (un_isT thr draw _ _ _ _ _ Tl Fln) as Tln.
  destruct (along_elt thr draw RdMean lnv 0 (proj1 (proj2 Tln))) as (lv' & Elv & Dlv & Wlv & _).
  { rewrite (proj1 Tln). cbn [length]. lia. }
  change (Z.of_nat 0) with 0%Z in Elv. assert (lv' = lossv) by congruence. subst lv'. clear Elv.
  rewrite (proj1 Tln) in Dlv. change (squeezeDims 0 [N]) with (@nil nat) in Dlv.
  do 9 eexists. split; [repeat (apply Forall2_cons; [eassumption|]); apply Forall2_nil|]. split; [exact Dlv|exact Wlv].
Qed.

End Bce.

(* back-propagation through the thirty nodes *)
Section BceBp.
Variables (thr : R) (draw : bool -> nat -> R).
Local Hint Extern 0 (Scalar R) => exact (R_scalar thr draw) : typeclass_instances.
Notation T := (tensor R).
Notation heap := (@heap R).
Notation rule := (@rule R).
Notation idseal := (fun (_ : option nat) (g : T) => g).
Notation c0 := (@cst R (R_scalar thr draw) 0 0).
Notation c1 := (@cst R (R_scalar thr draw) 1 0).
Notation cm1 := (@cst R (R_scalar thr draw) (-1) 0).
Variables (eps ome : R).

(* the element of the gradient at a prediction x with target t, as the rules compute it:
   t' = clipped target, y = clipped prediction, G27 = gradient of the sum l (mean, then negation),
   G9 = gradient of the clipped prediction (through log(1-y), the zero rule of the ones-like node 14,
   and log y), then the two tie-splitting ElMax / ElMin factors *)
Definition bceD (N : nat) (x t : R) : R :=
  let t' := Rmax 0 (Rmin t 1) in
  let m := Rmin x ome in
  let y := Rmax eps m in
  let G27 := 1 / INR N * -1 in
  let G9 := (G27 * (1 - t') * / (1 - y)) * -1 + 0 + G27 * t' * / y in
  G9 * (eqt thr y m - / 2 * eqt thr m eps) * (eqt thr m x - / 2 * eqt thr x ome).

Definition bceG (pv tv : T) : T :=
  let N := nth 0 (dims pv) 0%nat in ofFun [N] (fun idx => bceD N (elt pv idx) (elt tv idx)).

Lemma clipR_simpl lo up x : Rmax (lo * Rpow x c0) (Rmin x (up * Rpow x c0)) = Rmax lo (Rmin x up).
Proof. rewrite cst_R, dec2R_0, Rpow_0, !Rmult_1_r. reflexivity. Qed.

Lemma Rpow_c0 x : Rpow x c0 = 1.
Proof. rewrite cst_R, dec2R_0. apply Rpow_0. Qed.

(* The processing order from the loss (the literal list below, checked by evaluating [ldfs] on [bce_tab]): p is
   reached first through the lower clip bound (29 … 9, 8, 7, 6, 5, then p); the later edges into p and into
   5, 9, 14 find them visited. *)
Lemma bce_bp rd (h : heap) p t name pv tv g0 h1 l :
  rules_own h -> wf_heap h ->
  valOf h p = Some pv -> wf pv -> valOf h t = Some tv -> wf tv ->
  trackedOf h p = true -> dirtyOf h p = false -> trackedOf h t = false -> dirtyOf h t = false ->
  lossArgs1 h (Some p) (Some t) = Some (p, t) ->
  gradOf h p = g0 -> prior_ok (dims pv) g0 ->
  bce_compute eps ome h (Some p) (Some t) name = (h1, Ok l) ->
  bp_reaches thr draw rd h h1 l p t pv g0 (bceG pv tv).
Proof.
  intros Ho Hw Vp Wp Vt Wt Tp Dp Tt Dt Ea Eg0 Hprior E. unfold bceG. set (N := nth 0 (dims pv) 0%nat).
  destruct (lossArgs1_dims h (Some p) (Some t) p t pv tv Ea Vp Vt) as (n & Edp & Edt).
  assert (EN : N = n) by (unfold N; rewrite Edp; reflexivity). clearbody N. subst n.
  destruct (okw_own_wf h _ h1 l (StepP.okw_bce eps ome h (Some p) (Some t) name) E Ho Hw) as [HoH HwH].
  destruct (bce_structure eps ome h p t name h1 l true pv tv Vp Vt Tp Dp Tt Dt Ea E)
    as (a0 & a1 & a2 & a3 & a4 & b0 & b1 & b2 & b3 & b4 & lpv & k1 & k2 & sAv & one2 & d1 & d2 & t2v & e1 & e2 & y2v & ly2v & f1 & f2 & sBv & g1 & g2 & lv & lnv & lossv & Hf & -> & ->).
  destruct (bce_fwd_isT thr draw eps ome N pv tv _ _ _ _ _ _ _ _ _ _ _ _ _ _ _ _ _ _ _ _ _ _ _ _ _ _ _ _ _ _ Wp Wt Edp Edt Hf)
    as (FA1 & FA2 & FA3 & FLp & FsA & FLy & FsB & FL & FLn & F & Dlv & Wlv). cbv zeta in F. clear Hf.
  assert (Hp : (p < length h)%nat) by (eapply valOf_some_lt; eauto).
  assert (Ht : (t < length h)%nat) by (eapply valOf_some_lt; eauto).
  set (nodes := bce_nodes eps ome (length h) p t true name a0 a1 a2 a3 a4 b0 b1 b2 b3 b4 lpv k1 k2 sAv one2 d1 d2 t2v e1 e2 y2v ly2v f1 f2 sBv g1 g2 lv lnv lossv) in *.
  set (H := h ++ nodes) in *.
  assert (Ev : map (@nval R) nodes = [a0; a1; a2; a3; a4; b0; b1; b2; b3; b4; lpv; k1; k2; sAv; one2; d1; d2; t2v;
                                      e1; e2; y2v; ly2v; f1; f2; sBv; g1; g2; lv; lnv] ++ [lossv]) by reflexivity.
  pose proof (ext_shapes h nodes [N] _ _ _ p pv F Ev Hp Vp Wp Edp) as HP. cbn [length] in HP. fold H in HP.
  destruct (ext_vals h nodes [N] _ _ _ F Ev 28%nat _ eq_refl) as (D28 & O28 & _).
  destruct (ext_vals h nodes [N] _ _ _ F Ev 22%nat _ eq_refl) as (_ & _ & EV22).
  destruct (ext_vals h nodes [N] _ _ _ F Ev 20%nat _ eq_refl) as (_ & _ & EV20).
  destruct (ext_vals h nodes [N] _ _ _ F Ev 11%nat _ eq_refl) as (_ & _ & EV11).
  destruct (ext_vals h nodes [N] _ _ _ F Ev 9%nat _ eq_refl) as (_ & _ & EV9).
  destruct (ext_vals h nodes [N] _ _ _ F Ev 8%nat _ eq_refl) as (_ & _ & EV8).
  destruct (ext_vals h nodes [N] _ _ _ F Ev 7%nat _ eq_refl) as (_ & _ & EV7).
  destruct (ext_vals h nodes [N] _ _ _ F Ev 6%nat _ eq_refl) as (_ & _ & EV6).
  assert (D29 : Dm H (length h + 29) = []) by (unfold Dm, H; rewrite valOf_off; exact Dlv).
  fold H in D28, O28, EV22, EV20, EV11, EV9, EV8, EV7, EV6.
  rewrite Edp in Hprior.
  eapply (loss_bp_generic thr draw rd h nodes bce_tab p t 29 _
            [29; 28; 27; 26; 24; 23; 21; 20; 19; 18; 22; 17; 15; 14; 25; 13; 12; 10; 9; 8; 7; 6; 5]%nat [N] _ g0 pv lossv
            HoH HwH); try assumption; try reflexivity.
  - repeat constructor.
  - repeat first [reflexivity | constructor].
  - fold H. cbn [All edgesOf nth_error nodes bce_nodes nedges xnode arithEdges fst snd]. all_cases; intros _; try rok_in HP.
    cbn [rok]. split; [reflexivity|]. split; [exact O28|]. exists 0%nat. rewrite D28, D29.
    split; [reflexivity|]. split; [apply Nat.lt_0_succ|reflexivity].
  - fold H. unfold lseed. cbn [length bce_tab xent_tab app repeat lupd aacc].
    cbv [fold_left lnode ledge lupd aacc bce_tab xent_tab app nth nth_error nodes bce_nodes nedges xnode arithEdges
         combine map fst snd]. eexists. split; [reflexivity|]. intros idx Hv.
    assert (EVp : Vl H p idx = elt pv idx) by (unfold Vl, H; rewrite valOf_app by exact Hp; rewrite Vp; reflexivity).
    bcast_in HP.
    destruct g0 as [gp|]; cbn [option_map aacc prior rsem];
      rewrite (EV22 idx Hv), (EV20 idx Hv), (EV11 idx Hv), (EV9 idx Hv), (EV6 idx Hv), (EV8 idx Hv), (EV7 idx Hv), EVp, D28;
      change (Z.to_nat 0) with 0%nat; cbn [nth];
      rewrite !clipR_simpl, !Rpow_c0, !cst_R, dec2R_0, dec2R_1, dec2R_m1, !Rmult_1_r;
      unfold bceD; cbv zeta; unfold Rdiv.
    all: ring.
Qed.

(* C13, BCE.  Whatever the outcome of the back-propagation below the prediction (p may be a leaf or
   the result of earlier tracked operations: NO hypothesis restricts the back edges of p), the
   prediction ends with its previous gradient accumulated with the tensor bceG, which has the
   prediction's shape; the untracked target receives nothing and no value changes.  Holds for
   both variants rd of the Broadcast back edge (every implicit broadcast is between equal shapes). *)
Theorem bce_grad rd (h : heap) p t name pv tv g0 h1 l :
  rules_own h -> wf_heap h ->
  valOf h p = Some pv -> wf pv -> valOf h t = Some tv -> wf tv ->
  trackedOf h p = true -> dirtyOf h p = false -> trackedOf h t = false -> dirtyOf h t = false ->
  lossArgs1 h (Some p) (Some t) = Some (p, t) ->
  gradOf h p = g0 -> prior_ok (dims pv) g0 ->
  bce_compute eps ome h (Some p) (Some t) name = (h1, Ok l) ->
  forall h2 log r, bp_topo rd idseal h1 l = (h2, log, r) ->
    (exists g, gradOf h2 p = Some g /\ dims g = dims pv /\ wf g /\ acc1 g0 (bceG pv tv) = Some (Some g)) /\
    gradOf h2 t = gradOf h1 t /\
    (forall i, valOf h2 i = valOf h1 i).
Proof.
  intros Ho Hw Vp Wp Vt Wt Tp Dp Tt Dt Ea Eg0 Hprior E.
  apply (reaches_grad thr draw rd h h1 l p t pv g0 _ (bce_bp rd h p t name pv tv g0 h1 l Ho Hw Vp Wp Vt Wt Tp Dp Tt Dt Ea Eg0 Hprior E)).
  - eapply valOf_some_lt; eauto.
  - intros X; subst t; congruence.
Qed.

(* the same statement read for an interior prediction: it IS the same theorem *)
Definition bce_grad_interior := bce_grad.

(* never fails: a leaf prediction *)
Theorem bce_grad_leaf rd (h : heap) p t name pv tv g0 h1 l :
  rules_own h -> wf_heap h ->
  valOf h p = Some pv -> wf pv -> valOf h t = Some tv -> wf tv ->
  trackedOf h p = true -> dirtyOf h p = false -> trackedOf h t = false -> dirtyOf h t = false ->
  lossArgs1 h (Some p) (Some t) = Some (p, t) ->
  gradOf h p = g0 -> prior_ok (dims pv) g0 ->
  bce_compute eps ome h (Some p) (Some t) name = (h1, Ok l) ->
  edgesOf h p = [] ->
  exists h2 log, bp_topo rd idseal h1 l = (h2, log, Ok tt) /\
    (exists g, gradOf h2 p = Some g /\ dims g = dims pv /\ wf g /\ acc1 g0 (bceG pv tv) = Some (Some g)) /\
    gradOf h2 t = gradOf h1 t /\
    (forall i, valOf h2 i = valOf h1 i).
Proof.
  intros Ho Hw Vp Wp Vt Wt Tp Dp Tt Dt Ea Eg0 Hprior E.
  apply (reaches_leaf thr draw rd h h1 l p t pv g0 _ (bce_bp rd h p t name pv tv g0 h1 l Ho Hw Vp Wp Vt Wt Tp Dp Tt Dt Ea Eg0 Hprior E)).
  - eapply valOf_some_lt; eauto.
  - intros X; subst t; congruence.
Qed.

(* an untracked prediction: the loss is untracked and back-propagation changes nothing *)
Theorem bce_grad_untracked rd sealg (h : heap) p t name pv tv h1 l :
  valOf h p = Some pv -> valOf h t = Some tv ->
  trackedOf h p = false -> dirtyOf h p = false -> trackedOf h t = false -> dirtyOf h t = false ->
  lossArgs1 h (Some p) (Some t) = Some (p, t) ->
  bce_compute eps ome h (Some p) (Some t) name = (h1, Ok l) ->
  bp_topo rd sealg h1 l = (h1, [], Ok tt).
Proof.
  intros Vp Vt Tp Dp Tt Dt Ea E.
  destruct (bce_structure eps ome h p t name h1 l false pv tv Vp Vt Tp Dp Tt Dt Ea E)
    as (a0 & a1 & a2 & a3 & a4 & b0 & b1 & b2 & b3 & b4 & lpv & k1 & k2 & sAv & one2 & d1 & d2 & t2v & e1 & e2 & y2v
        & ly2v & f1 & f2 & sBv & g1 & g2 & lv & lnv & lossv & _ & -> & ->).
  apply bp_topo_untracked. rewrite trackedOf_off. reflexivity.
Qed.

(* the analytic reading of bceG *)
Definition bclip01 (t : R) : R := Rmax 0 (Rmin t 1).

Lemma bclip01_id t : 0 <= t <= 1 -> bclip01 t = t.
Proof. intros [H0 H1]. unfold bclip01. rewrite Rmin_left by exact H1. apply Rmax_right, H0. Qed.

Lemma bclip01_range t : 0 <= bclip01 t <= 1.
Proof.
  unfold bclip01. split; [apply Rmax_l|]. apply Rmax_lub; [lra|apply Rmin_r].
Qed.

(* bceD is the derivative of the loss at the clipped prediction times the clip factor *)
Lemma bceD_factor N x t :
  bceD N x t = ((1 - bclip01 t) / (1 - clipV eps ome x) - bclip01 t / clipV eps ome x) / INR N * clipF thr eps ome x.
Proof. unfold bceD, bclip01, clipF, clipV, Rdiv. cbv zeta. ring. Qed.

(* strictly inside the clipping interval: the derivative of the loss *)
Lemma bceD_inside N x t : 0 <= thr -> 0 < eps -> ome < 1 -> (0 < N)%nat -> eps + thr < x -> x < ome - thr ->
  bceD N x t = ((1 - bclip01 t) / (1 - x) - bclip01 t / x) / INR N.
Proof.
  intros Ht _ _ _ Hl Hu. rewrite bceD_factor. destruct (clip_inside thr eps ome x Ht Hl Hu) as [-> ->]. apply Rmult_1_r.
Qed.

(* clipped from below (x < eps, in particular x = 0): a finite zero *)
Lemma bceD_below N x t : 0 <= thr -> eps < ome -> x < eps - thr -> bceD N x t = 0.
Proof. intros Ht He Hl. rewrite bceD_factor, (clip_below thr eps ome x Ht He Hl). apply Rmult_0_r. Qed.

(* clipped from above (x > 1 - eps, in particular x = 1): a finite zero *)
Lemma bceD_above N x t : 0 <= thr -> ome + thr < x -> bceD N x t = 0.
Proof. intros Ht Hl. rewrite bceD_factor, (clip_above thr eps ome x Ht Hl). apply Rmult_0_r. Qed.

(* C13, the formula.  In Go eps = 1e-12, ome = 1 - 1e-12 and the equality threshold thr is 1e-240;
   at thr = 0 the guards are exactly  eps < p < ome,  p < eps,  p > ome. *)
Theorem bce_grad_formula (pv tv : T) N idx :
  0 <= thr -> 0 < eps -> eps < ome -> ome < 1 ->
  dims pv = [N] -> validIdx [N] idx ->
  let x := elt pv idx in let t := elt tv idx in
  dims (bceG pv tv) = [N] /\ wf (bceG pv tv) /\
  (eps + thr < x -> x < ome - thr ->
     elt (bceG pv tv) idx = ((1 - bclip01 t) / (1 - x) - bclip01 t / x) / INR N) /\
  (eps + thr < x -> x < ome - thr -> 0 <= t <= 1 ->
     elt (bceG pv tv) idx = ((1 - t) / (1 - x) - t / x) / INR N) /\
  (x < eps - thr -> elt (bceG pv tv) idx = 0) /\
  (ome + thr < x -> elt (bceG pv tv) idx = 0) /\
  (thr < eps -> x = 0 -> elt (bceG pv tv) idx = 0) /\
  (ome + thr < 1 -> x = 1 -> elt (bceG pv tv) idx = 0).
Proof.
  intros Ht He Heo Ho Edp Hv x t. unfold bceG. rewrite Edp. cbn [nth].
  assert (HN : (0 < N)%nat).
  { clear - Hv. inversion Hv as [|i0 n0 l1 l2 H1 H2]; subst. lia. }
  assert (Hpos : List.Forall (fun d : nat => (0 < d)%nat) [N]) by (repeat constructor; exact HN).
  split; [reflexivity|]. split; [apply ofFun_wf, Hpos|].
  rewrite (elt_ofFun _ _ _ Hv). fold x t.
  split; [intros Hl Hu; apply bceD_inside; assumption|].
  split; [intros Hl Hu Ht01; rewrite <- (bclip01_id t Ht01) at 2 3; apply bceD_inside; assumption|].
  split; [intros Hl; apply bceD_below; assumption|].
  split; [intros Hu; apply bceD_above; assumption|].
  split; [intros Hte Hp0; apply bceD_below; [assumption|assumption|lra]|].
  intros Hte Hp1; apply bceD_above; [assumption|lra].
Qed.

(* C13, BCE, end to end: bce_grad and bce_grad_formula combined, element by element *)
Theorem bce_grad_elementwise rd (h : heap) p t name pv tv g0 h1 l N :
  0 <= thr -> 0 < eps -> eps < ome -> ome < 1 ->
  rules_own h -> wf_heap h ->
  valOf h p = Some pv -> wf pv -> valOf h t = Some tv -> wf tv ->
  trackedOf h p = true -> dirtyOf h p = false -> trackedOf h t = false -> dirtyOf h t = false ->
  lossArgs1 h (Some p) (Some t) = Some (p, t) ->
  gradOf h p = g0 -> prior_ok (dims pv) g0 ->
  bce_compute eps ome h (Some p) (Some t) name = (h1, Ok l) ->
  dims pv = [N] ->
  forall h2 log r, bp_topo rd idseal h1 l = (h2, log, r) ->
    exists g, gradOf h2 p = Some g /\ dims g = [N] /\ wf g /\
      forall idx, validIdx [N] idx ->
        let pe := elt pv idx in let te := elt tv idx in
        (eps + thr < pe -> pe < ome - thr ->
           elt g idx = prior g0 idx + ((1 - bclip01 te) / (1 - pe) - bclip01 te / pe) / INR N) /\
        (eps + thr < pe -> pe < ome - thr -> 0 <= te <= 1 ->
           elt g idx = prior g0 idx + ((1 - te) / (1 - pe) - te / pe) / INR N) /\
        (pe < eps - thr \/ ome + thr < pe -> elt g idx = prior g0 idx) /\
        (thr < eps /\ pe = 0 \/ ome + thr < 1 /\ pe = 1 -> elt g idx = prior g0 idx).
Proof.
  intros Hthr He Heo Ho1 Ho Hw Vp Wp Vt Wt Tp Dp Tt Dt Ea Eg0 Hprior E Edp h2 log r E2.
  destruct (bce_grad rd h p t name pv tv g0 h1 l Ho Hw Vp Wp Vt Wt Tp Dp Tt Dt Ea Eg0 Hprior E h2 log r E2)
    as ((g & Eg & Dg & Wg & Hacc) & _ & _).
  exists g. split; [exact Eg|]. split; [congruence|]. split; [exact Wg|]. intros idx Hv pe te.
  destruct (bce_grad_formula pv tv N idx Hthr He Heo Ho1 Edp Hv) as (DG & WG & F1 & F2 & F3 & F4 & F5 & F6).
  fold pe te in F1, F2, F3, F4, F5, F6.
  rewrite Edp in Hprior.
  pose proof (acc1_elt thr draw [N] g0 (bceG pv tv) g Hprior WG DG Hacc idx Hv) as Hel.
  split; [intros Hl Hu; rewrite Hel, F1 by assumption; reflexivity|].
  split; [intros Hl Hu Ht; rewrite Hel, F2 by assumption; reflexivity|].
  split; [intros [Hl|Hu]; rewrite Hel; [rewrite F3 by exact Hl|rewrite F4 by exact Hu]; ring|].
  intros [[Hte H0]|[Hte H1']]; rewrite Hel; [rewrite F5 by assumption|rewrite F6 by assumption]; ring.
Qed.

(* exactly AT the bounds (excluded by the property) the ElMax/ElMin rules split the tie: half the
   interior value.  With thr > 0 the same happens in the band within thr of a bound (the recorded
   near-tie finding D10); at thr = 0 the band is the single point. *)
Lemma bceD_near_eps N x t : 0 <= thr -> 0 < eps -> ome < 1 -> (0 < N)%nat -> eps <= x -> x <= eps + thr -> x < ome - thr ->
  bceD N x t = / 2 * (((1 - bclip01 t) / (1 - x) - bclip01 t / x) / INR N).
Proof.
  intros Ht _ _ _ Hl Hn Hu. rewrite bceD_factor. destruct (clip_near_eps thr eps ome x Ht Hl Hn Hu) as [-> ->]. apply Rmult_comm.
Qed.

Lemma bceD_near_ome N x t : 0 <= thr -> 0 < eps -> ome < 1 -> (0 < N)%nat -> eps + thr < x -> ome - thr <= x -> x <= ome ->
  bceD N x t = / 2 * (((1 - bclip01 t) / (1 - x) - bclip01 t / x) / INR N).
Proof.
  intros Ht _ _ _ Hl Hn Hu. rewrite bceD_factor. destruct (clip_near_ome thr eps ome x Ht Hl Hn Hu) as [-> ->]. apply Rmult_comm.
Qed.

End BceBp.

(* the exact-threshold reading (thr = 0): the guards are the property's *)
Corollary bce_grad_formula_thr0 (eps ome : R) (pv tv : tensor R) N idx :
  0 < eps -> eps < ome -> ome < 1 -> dims pv = [N] -> validIdx [N] idx ->
  let x := elt pv idx in let t := elt tv idx in
  (eps < x -> x < ome -> elt (bceG 0 eps ome pv tv) idx = ((1 - bclip01 t) / (1 - x) - bclip01 t / x) / INR N) /\
  (eps < x -> x < ome -> 0 <= t <= 1 -> elt (bceG 0 eps ome pv tv) idx = ((1 - t) / (1 - x) - t / x) / INR N) /\
  (x < eps \/ ome < x -> elt (bceG 0 eps ome pv tv) idx = 0) /\
  (x = 0 \/ x = 1 -> elt (bceG 0 eps ome pv tv) idx = 0).
Proof.
  intros He Heo Ho Edp Hv x t.
  destruct (bce_grad_formula 0 eps ome pv tv N idx (Rle_refl 0) He Heo Ho Edp Hv)
    as (_ & _ & F1 & F2 & F3 & F4 & F5 & F6). fold x t in F1, F2, F3, F4, F5, F6.
  split; [intros Hl Hu; apply F1; lra|]. split; [intros Hl Hu Ht; apply F2; [lra|lra|exact Ht]|].
  split; [intros [Hl|Hu]; [apply F3; lra|apply F4; lra]|].
  intros [H0|H1]; [apply F5; [lra|exact H0]|apply F6; [lra|exact H1]].
Qed.

(* ---- non-vacuity: a leaf prediction [1/2; 1], target [1; 0], eps = 1/4, 1-eps = 3/4, exact equality
   (thr = 0): gradient [-1; 0] (zero at the clipped prediction 1) ---- *)
Section BceEx.
Variable draw : bool -> nat -> R.
Local Hint Extern 0 (Scalar R) => exact (R_scalar 0 draw) : typeclass_instances.
Local Open Scope R_scope.

Definition bexP : tensor R := mkT [2%nat] (Vec [Sc (1 / 2); Sc 1]).
Definition bexT : tensor R := mkT [2%nat] (Vec [Sc 1; Sc 0]).
Definition bexH : @heap R :=
  [mkNode bexP true false None [] (Some 0%nat); mkNode bexT false false None [] (Some 1%nat)].

Lemma wf_bv2 (a b : R) : wf (mkT [2%nat] (Vec [Sc a; Sc b])).
Proof. split; [cbn; repeat constructor|repeat constructor]. Qed.

Example bce_grad_ex rd : exists h1 l h2 log g,
  bce_compute (1 / 4) (3 / 4) bexH (Some 0%nat) (Some 1%nat) None = (h1, Ok l) /\
  bp_topo rd (fun _ g => g) h1 l = (h2, log, Ok tt) /\
  gradOf h2 0 = Some g /\ dims g = [2%nat] /\ elt g [0%nat] = -1 /\ elt g [1%nat] = 0.
Proof.
  assert (Ho : rules_own bexH) by (intros c n e Hn He; destruct c as [|[|[|c]]]; cbn in Hn; try discriminate; inversion Hn; subst n; destruct He).
  assert (Hw : wf_heap bexH) by (intros c n e Hn He; destruct c as [|[|[|c]]]; cbn in Hn; try discriminate; inversion Hn; subst n; destruct He).
  destruct (bce_compute_spec (1 / 4) (3 / 4) bexH (Some 0%nat) (Some 1%nat) 0%nat 1%nat None bexP bexT eq_refl eq_refl eq_refl
              (wf_bv2 _ _) (wf_bv2 _ _)) as (n & r & _ & _ & (h1 & l & E & _) & _).
  destruct (bce_grad_leaf 0 draw (1 / 4) (3 / 4) rd bexH 0%nat 1%nat None bexP bexT None h1 l Ho Hw eq_refl (wf_bv2 _ _)
              eq_refl (wf_bv2 _ _) eq_refl eq_refl eq_refl eq_refl eq_refl eq_refl I E eq_refl)
    as (h2 & log & E2 & (g & Eg & Dg & _ & Hacc) & _).
  exists h1, l, h2, log, g. split; [exact E|]. split; [exact E2|]. split; [exact Eg|]. split; [exact Dg|].
  cbn [acc1] in Hacc. assert (g = bceG 0 (1 / 4) (3 / 4) bexP bexT) by congruence. subst g.
  assert (V : forall i, (i < 2)%nat -> validIdx [2%nat] [i]) by (intros i Hi; constructor; [exact Hi|constructor]).
  assert (K1 : 0 < 1 / 4) by lra. assert (K2 : 1 / 4 < 3 / 4) by lra. assert (K3 : 3 / 4 < 1) by lra.
  assert (L0 : (0 < 2)%nat) by lia. assert (L1 : (1 < 2)%nat) by lia.
  destruct (bce_grad_formula_thr0 (1 / 4) (3 / 4) bexP bexT 2 [0%nat] K1 K2 K3 eq_refl (V _ L0)) as (_ & F0 & _ & _).
  destruct (bce_grad_formula_thr0 (1 / 4) (3 / 4) bexP bexT 2 [1%nat] K1 K2 K3 eq_refl (V _ L1)) as (_ & _ & _ & F1).
  assert (P0 : elt bexP [0%nat] = 1 / 2) by reflexivity.
  assert (P1 : elt bexP [1%nat] = 1) by reflexivity.
  assert (T0 : elt bexT [0%nat] = 1) by reflexivity.
  rewrite P0, T0 in F0. rewrite P1 in F1.
  split; [rewrite F0; [simpl INR; lra|lra|lra|lra]|]. apply F1; right; reflexivity.
Qed.
End BceEx.

Print Assumptions bce_structure.
Print Assumptions bce_bp.
Print Assumptions bce_grad.
Print Assumptions bce_grad_leaf.
Print Assumptions bce_grad_untracked.
Print Assumptions bce_grad_formula.
Print Assumptions bce_grad_elementwise.
Print Assumptions bce_grad_formula_thr0.
Print Assumptions bce_grad_ex.
