(* GradCeP.v — C13 for the categorical cross-entropy loss: back-propagating the loss value gives the
   prediction (shape [N; C], a leaf or the result of earlier tracked operations) the gradient
   -(t'/p)/N (t' = the target clipped to [0,1], N = batch size) at every prediction strictly inside
   the clipping interval (eps, 1-eps), and a finite ZERO where the prediction is clipped
   (including p = 0 and p = 1).  Built on the generic part Proofs/GradLossP.v.

   Graph (L = length of the heap before the call): L+0..L+4 clip of the target (untracked),
   L+5..L+9 clip of the prediction (p^0, eps*, ome*, ElMin p, ElMax), L+10 Log, L+11/L+12 the two
   same-shape Broadcasts of Mul, L+13 Mul, L+14 SumAlong(1), L+15 Scale(-1), L+16 MeanAlong(0).
   Processing order: L+16, L+15, L+14, L+13, L+12, L+10, L+9, L+8, L+7, L+6, L+5, p, ancestry of p.

   The equality test of the ElMax/ElMin rules uses the library's absolute threshold thr (1e-240 in
   Go): the formula is stated with the guards  eps + thr < p < ome - thr,  p < eps - thr,
   p > ome + thr  ([ce_grad_formula], [ce_grad_elementwise]); at thr = 0 these are exactly the
   property's ([ce_grad_formula_thr0]).  Inside the band of width thr above eps the model hands
   over HALF the gradient ([ceD_near_eps], the near-tie finding D10 again). *)
From Coq Require Import List Arith ZArith Bool Lia Reals Lra.
From Coquelicot Require Import Coquelicot.
From Qeep Require Import Model.Scalar Model.Nd Model.Fill Model.Data Model.Valid Model.Api Model.Grad Model.Backprop
  Model.Components.
From Qeep Require Import Spec.RScalar Spec.VjpSpec.
From Qeep Require Import Proofs.NdP Proofs.ElemP Proofs.BroadcastP Proofs.ReduceP Proofs.ReduceRP Proofs.CompP Proofs.LossP
  Proofs.VjpElemP Proofs.VjpReduceP Proofs.TrackP Proofs.BackpropP Proofs.GradLossP Proofs.OpsP Proofs.OpsXP Proofs.BpFoldP.
Import ListNotations.
Local Open Scope nat_scope.

Section CeStructure.
Context {A : Type} {SA : Scalar A}.
Notation T := (tensor A).
Notation heap := (@heap A).
Notation rule := (@rule A).
Notation c0 := (@cst A SA 0 0).
Notation c1 := (@cst A SA 1 0).
Notation cm1 := (@cst A SA (-1) 0).
Variables (eps ome : A).

(* the seventeen nodes CE.Compute appends; tp = is the prediction tracked *)
Definition ce_nodes (L p t : nat) (tp : bool) (name : option nat)
  (a0 a1 a2 a3 a4 b0 b1 b2 b3 b4 lpv k1 k2 sv lv lnv lossv : T) : heap :=
  [ xnode a0 false [(t, RPow (L + 0) t c0 true)] None;
    xnode a1 false [(L + 0, RScale (L + 1) c0)] None;
    xnode a2 false [(L + 0, RScale (L + 2) c1)] None;
    xnode a3 false [(t, RElSel (L + 3) t (L + 2)); (L + 2, RElSel (L + 3) (L + 2) t)] None;
    xnode a4 false [(L + 1, RElSel (L + 4) (L + 1) (L + 3)); (L + 3, RElSel (L + 4) (L + 3) (L + 1))] None;
    xnode b0 tp [(p, RPow (L + 5) p c0 true)] None;
    xnode b1 tp [(L + 5, RScale (L + 6) eps)] None;
    xnode b2 tp [(L + 5, RScale (L + 7) ome)] None;
    xnode b3 tp [(p, RElSel (L + 8) p (L + 7)); (L + 7, RElSel (L + 8) (L + 7) p)] None;
    xnode b4 tp [(L + 6, RElSel (L + 9) (L + 6) (L + 8)); (L + 8, RElSel (L + 9) (L + 8) (L + 6))] None;
    xnode lpv tp [(L + 9, RLog (L + 10) (L + 9))] None;
    xnode k1 false [(L + 4, RBroadcast (L + 11) (L + 4))] None;
    xnode k2 tp [(L + 10, RBroadcast (L + 12) (L + 10))] None;
    xnode sv tp (arithEdges BiMul (L + 13) (L + 11) (L + 12)) None;
    xnode lv tp [(L + 13, RSumAlong (L + 14) (L + 13) 1%Z)] None;
    xnode lnv tp [(L + 14, RScale (L + 15) cm1)] None;
    xnode lossv tp [(L + 15, RAvgAlong (L + 16) (L + 15) 0%Z)] name ].

(* where their edges lead, for a tracked prediction *)
Definition ce_tab : list (bool * list tgt) := xent_tab ++ [(true, [TNew 13]); (true, [TNew 14]); (true, [TNew 15])].

(* the forward equations between the seventeen values *)
Definition ce_fwd (pv tv : T) (a0 a1 a2 a3 a4 b0 b1 b2 b3 b4 lpv k1 k2 sv lv lnv lossv : T) : Prop :=
  v_unary (UPow c0) tv = Ok a0 /\ v_unary (UScale c0) a0 = Ok a1 /\ v_unary (UScale c1) a0 = Ok a2 /\
  v_same BiElMin tv a2 = Ok a3 /\ v_same BiElMax a1 a3 = Ok a4 /\
  v_unary (UPow c0) pv = Ok b0 /\ v_unary (UScale eps) b0 = Ok b1 /\ v_unary (UScale ome) b0 = Ok b2 /\
  v_same BiElMin pv b2 = Ok b3 /\ v_same BiElMax b1 b3 = Ok b4 /\
  v_unary ULn b4 = Ok lpv /\
  v_broadcast a4 (bshape a4 lpv) = Ok k1 /\ v_broadcast lpv (bshape a4 lpv) = Ok k2 /\ apply2 (binaryF BiMul) k1 k2 = Some sv /\
  v_reduceAlong RdSum sv 1%Z = Ok lv /\ v_unary (UScale cm1) lv = Ok lnv /\ v_reduceAlong RdMean lnv 0%Z = Ok lossv.

Lemma ce_structure (h : heap) p t name h1 l tp pv tv :
  valOf h p = Some pv -> valOf h t = Some tv ->
  trackedOf h p = tp -> dirtyOf h p = false -> trackedOf h t = false -> dirtyOf h t = false ->
  ceArgs h (Some p) (Some t) = Some (p, t) ->
  ce_compute eps ome h (Some p) (Some t) name = (h1, Ok l) ->
  exists a0 a1 a2 a3 a4 b0 b1 b2 b3 b4 lpv k1 k2 sv lv lnv lossv,
    ce_fwd pv tv a0 a1 a2 a3 a4 b0 b1 b2 b3 b4 lpv k1 k2 sv lv lnv lossv /\
    l = length h + 16 /\
    h1 = h ++ ce_nodes (length h) p t tp name a0 a1 a2 a3 a4 b0 b1 b2 b3 b4 lpv k1 k2 sv lv lnv lossv.
Proof.
  intros Vp Vt Tp Dp Tt Dt Ea E. rewrite ce_compute_unfold, Ea in E. apply atomically_ok in E.
  apply (clip2_X eps ome h p t tp pv tv (fun h2 env => runOps ce_ops h2 env name) h1 l _ (conj Vp (conj Tp Dp))
           (conj Vt (conj Tt Dt)) E).
  lazy [opsX primX prim1 clip_ops pick map nth nnodes]. cbn [length Nat.add app orb].
  intros a0 Fa0 a1 Fa1 a2 Fa2 a3 Fa3 a4 Fa4 b0 Fb0 b1 Fb1 b2 Fb2 b3 Fb3 b4 Fb4 K E'.
  pattern h1, l. apply (runOps_X0 ce_ops _ (length h) 10 _ name h1 l _ K E'); [reflexivity|rewrite app_length; reflexivity|].
  lazy [opsX primX prim1 ce_ops pick map nth nnodes mathUnary mathRule alongRule]. cbn [length Nat.add app orb kid fst].
  intros lpv Flp k1 k2 sv Fk1 Fk2 Fs lv Fl lnv Fln lossv Floss.
  exists a0, a1, a2, a3, a4, b0, b1, b2, b3, b4, lpv, k1, k2, sv, lv, lnv, lossv.
  split; [repeat (split; [assumption|]); assumption|]. split; [reflexivity|]. rewrite <- app_assoc.
  destruct tp; reflexivity.
Qed.
End CeStructure.

Local Open Scope R_scope.

Section Ce.
Variables (thr : R) (draw : bool -> nat -> R).
Local Hint Extern 0 (Scalar R) => exact (R_scalar thr draw) : typeclass_instances.
Notation T := (tensor R).
Notation heap := (@heap R).
Notation rule := (@rule R).
Notation idseal := (fun (_ : option nat) (g : T) => g).
Notation c0 := (@cst R (R_scalar thr draw) 0 0).
Notation c1 := (@cst R (R_scalar thr draw) 1 0).
Notation cm1 := (@cst R (R_scalar thr draw) (-1) 0).
Variables (eps ome : R).

Lemma ce_pow0_isT ds f (xv v : T) : isT ds f xv -> v_unary (UPow c0) xv = Ok v -> isT ds (fun _ => 1) v.
Proof.
  intros Tx E. apply (isT_ext _ _ _ _ (un_isT thr draw _ _ _ _ _ Tx E)). intros idx _.
  rewrite uF_pow, cst_R, dec2R_0. apply Rpow_0.
Qed.

Lemma ce_scale_isT ds f a (xv v : T) : isT ds f xv -> v_unary (UScale a) xv = Ok v -> isT ds (fun i => a * f i) v.
Proof. intros Tx E. exact (un_isT thr draw _ _ _ _ _ Tx E). Qed.

(* element-wise reading of the forward values *)
Lemma ce_fwd_isT N C (pv tv : T) (a0 a1 a2 a3 a4 b0 b1 b2 b3 b4 lpv k1 k2 sv lv lnv lossv : T) :
  wf pv -> wf tv -> dims pv = [N; C] -> dims tv = [N; C] ->
  ce_fwd eps ome pv tv a0 a1 a2 a3 a4 b0 b1 b2 b3 b4 lpv k1 k2 sv lv lnv lossv ->
  let P := elt pv in let Tt := elt tv in
  let A4 := fun i => Rmax 0 (Rmin (Tt i) 1) in
  let B3 := fun i => Rmin (P i) ome in let B4 := fun i => Rmax eps (B3 i) in
  exists FLp Fs Fl Fln,
  Forall2 (isT [N; C])
    [fun _ => 1; fun _ => 0; fun _ => 1; fun i => Rmin (Tt i) 1; A4;
     fun _ => 1; fun _ => eps; fun _ => ome; B3; B4; FLp; A4; FLp; Fs]
    [a0; a1; a2; a3; a4; b0; b1; b2; b3; b4; lpv; k1; k2; sv] /\
  isT [N] Fl lv /\ isT [N] Fln lnv /\ dims lossv = [] /\ wf lossv.
Proof.
  intros Wp Wt Edp Edt Hf P Tt A4 B3 B4.
  destruct Hf as (Fa0 & Fa1 & Fa2 & Fa3 & Fa4 & Fb0 & Fb1 & Fb2 & Fb3 & Fb4 & Flp & Fk1 & Fk2 & Fs & Fl & Fln & Floss).
  assert (Ttv : isT [N; C] Tt tv) by (rewrite <- Edt; apply isT_self, Wt).
  assert (Tpv : isT [N; C] P pv) by (rewrite <- Edp; apply isT_self, Wp).
  pose proof (ce_pow0_isT _ _ _ _ Ttv Fa0) as Ta0.
  assert (Ta1 : isT [N; C] (fun _ => 0) a1).
  { apply (isT_ext _ _ _ _ (ce_scale_isT _ _ _ _ _ Ta0 Fa1)). intros idx _. rewrite cst_R, dec2R_0. ring. }
  assert (Ta2 : isT [N; C] (fun _ => 1) a2).
  { apply (isT_ext _ _ _ _ (ce_scale_isT _ _ _ _ _ Ta0 Fa2)). intros idx _. rewrite cst_R, dec2R_1. ring. }
  pose proof (same_isT thr draw _ _ _ _ _ _ _ Ttv Ta2 Fa3) as Ta3.
  pose proof (same_isT thr draw _ _ _ _ _ _ _ Ta1 Ta3 Fa4) as Ta4.
  pose proof (ce_pow0_isT _ _ _ _ Tpv Fb0) as Tb0.
  assert (Tb1 : isT [N; C] (fun _ => eps) b1).
  { apply (isT_ext _ _ _ _ (ce_scale_isT _ _ _ _ _ Tb0 Fb1)). intros idx _. ring. }
  assert (Tb2 : isT [N; C] (fun _ => ome) b2).
  { apply (isT_ext _ _ _ _ (ce_scale_isT _ _ _ _ _ Tb0 Fb2)). intros idx _. ring. }
  pose proof (same_isT thr draw _ _ _ _ _ _ _ Tpv Tb2 Fb3) as Tb3.
  pose proof (same_isT thr draw _ _ _ _ _ _ _ Tb1 Tb3 Fb4) as Tb4.
  pose proof (un_isT thr draw _ _ _ _ _ Tb4 Flp) as Tlp.
  assert (ES : bshape a4 lpv = map Z.of_nat [N; C]).
  { unfold bshape. rewrite (proj1 Ta4), (proj1 Tlp), targetBroadcastDims_same. reflexivity. }
  rewrite ES in Fk1, Fk2.
  pose proof (bcast_same_isT _ _ _ _ Ta4 Fk1) as Tk1. pose proof (bcast_same_isT _ _ _ _ Tlp Fk2) as Tk2.
  pose proof (apply2_isT thr draw BiMul _ _ _ _ _ _ Tk1 Tk2 Fs) as Ts.
  destruct (along_elt thr draw RdSum sv 1 (proj1 (proj2 Ts))) as (lv' & Elv & Dlv & Wlv & _).
  { rewrite (proj1 Ts). cbn [length]. lia. }
  change (Z.of_nat 1) with 1%Z in Elv. assert (lv' = lv) by congruence. subst lv'. clear Elv.
  rewrite (proj1 Ts) in Dlv. change (squeezeDims 1 [N; C]) with [N] in Dlv.
  assert (Tl : isT [N] (elt lv) lv) by (rewrite <- Dlv; apply isT_self, Wlv).
  pose proof (un_isT thr draw _ _ _ _ _ Tl Fln) as Tln.
  destruct (along_elt thr draw RdMean lnv 0 (proj1 (proj2 Tln))) as (ls' & Els & Dls & Wls & _).
  { rewrite (proj1 Tln). cbn [length]. lia. }
  change (Z.of_nat 0) with 0%Z in Els. assert (ls' = lossv) by congruence. subst ls'. clear Els.
  rewrite (proj1 Tln) in Dls. change (squeezeDims 0 [N]) with (@nil nat) in Dls.
  do 4 eexists. split; [repeat (apply Forall2_cons; [eassumption|]); apply Forall2_nil|].
  split; [exact Tl|]. split; [exact Tln|]. split; [exact Dls|exact Wls].
Qed.

(* the factor the model hands to prediction element p with target element t *)
Definition ceD (N : nat) (p t : R) : R :=
  let tc := Rmax 0 (Rmin t 1) in
  let b3 := Rmin p ome in
  let b4 := Rmax eps b3 in
  1 / INR N * -1 * tc * / b4 * (eqt thr b4 b3 - / 2 * eqt thr b3 eps) * (eqt thr b3 p - / 2 * eqt thr p ome).

(* the tensor the property names *)
Definition ceG (pv tv : T) : T :=
  let N := nth 0 (dims pv) 0%nat in let C := nth 1 (dims pv) 0%nat in
  ofFun [N; C] (fun idx => ceD N (elt pv idx) (elt tv idx)).

Lemma ceArgs_dims (h : heap) p t pv tv :
  ceArgs h (Some p) (Some t) = Some (p, t) -> valOf h p = Some pv -> valOf h t = Some tv ->
  exists N C, dims pv = [N; C] /\ dims tv = [N; C].
Proof.
  intros E Vp Vt. apply ceArgs_spec in E as (_ & _ & vp & vt & m & k & Hvp & Hvt & Hdp & Hdt).
  exists m, k. split; congruence.
Qed.

Lemma ce_bp rd (h : heap) p t name pv tv g0 h1 l :
  rules_own h -> wf_heap h ->
  valOf h p = Some pv -> wf pv -> valOf h t = Some tv -> wf tv ->
  trackedOf h p = true -> dirtyOf h p = false -> trackedOf h t = false -> dirtyOf h t = false ->
  ceArgs h (Some p) (Some t) = Some (p, t) ->
  gradOf h p = g0 -> prior_ok (dims pv) g0 ->
  ce_compute eps ome h (Some p) (Some t) name = (h1, Ok l) ->
  bp_reaches thr draw rd h h1 l p t pv g0 (ceG pv tv).
Proof.
  intros Ho Hw Vp Wp Vt Wt Tp Dp Tt Dt Ea Eg0 Hprior E. unfold ceG.
  set (N := nth 0 (dims pv) 0%nat). set (C := nth 1 (dims pv) 0%nat).
  destruct (ceArgs_dims h p t pv tv Ea Vp Vt) as (n & c & Edp & Edt).
  assert (EN : N = n) by (unfold N; rewrite Edp; reflexivity).
  assert (EC : C = c) by (unfold C; rewrite Edp; reflexivity). clearbody N C. subst n c.
  destruct (okw_own_wf h _ h1 l (StepP.okw_ce eps ome h (Some p) (Some t) name) E Ho Hw) as [HoH HwH].
  destruct (ce_structure eps ome h p t name h1 l true pv tv Vp Vt Tp Dp Tt Dt Ea E)
    as (a0 & a1 & a2 & a3 & a4 & b0 & b1 & b2 & b3 & b4 & lpv & k1 & k2 & sv & lv & lnv & lossv & Hfwd & -> & ->).
  assert (Hp : (p < length h)%nat) by (eapply valOf_some_lt; eauto).
  assert (Ht : (t < length h)%nat) by (eapply valOf_some_lt; eauto).
  destruct (ce_fwd_isT N C pv tv _ _ _ _ _ _ _ _ _ _ _ _ _ _ _ _ _ Wp Wt Edp Edt Hfwd)
    as (FLp & Fs & Fl & Fln & F & Tl & Tln & Dls & Wls). cbv zeta in F. clear Hfwd.
  set (nodes := ce_nodes eps ome (length h) p t true name a0 a1 a2 a3 a4 b0 b1 b2 b3 b4 lpv k1 k2 sv lv lnv lossv) in *.
  set (H := h ++ nodes) in *.
  assert (Ev : map (@nval R) nodes = [a0; a1; a2; a3; a4; b0; b1; b2; b3; b4; lpv; k1; k2; sv] ++ [lv; lnv; lossv]) by reflexivity.
  pose proof (ext_shapes h nodes [N; C] _ _ _ p pv F Ev Hp Vp Wp Edp) as HP. cbn [length] in HP. fold H in HP.
  destruct (ext_vals h nodes [N; C] _ _ _ F Ev 13%nat _ eq_refl) as (D13 & O13 & _).
  destruct (ext_vals h nodes [N; C] _ _ _ F Ev 11%nat _ eq_refl) as (_ & _ & EV11).
  destruct (ext_vals h nodes [N; C] _ _ _ F Ev 9%nat _ eq_refl) as (_ & _ & EV9).
  destruct (ext_vals h nodes [N; C] _ _ _ F Ev 8%nat _ eq_refl) as (_ & _ & EV8).
  destruct (ext_vals h nodes [N; C] _ _ _ F Ev 7%nat _ eq_refl) as (_ & _ & EV7).
  destruct (ext_vals h nodes [N; C] _ _ _ F Ev 6%nat _ eq_refl) as (_ & _ & EV6).
  destruct (ext_val h nodes [N] 14%nat _ lv eq_refl Tl) as (D14 & _ & _).
  destruct (ext_val h nodes [N] 15%nat _ lnv eq_refl Tln) as (D15 & O15 & _).
  assert (D16 : Dm H (length h + 16) = []) by (unfold Dm, H; rewrite valOf_off; exact Dls).
  fold H in D13, O13, EV11, EV9, EV8, EV7, EV6, D14, D15, O15.
  rewrite Edp in Hprior.
  eapply (loss_bp_generic thr draw rd h nodes ce_tab p t 16 _ [16; 15; 14; 13; 12; 10; 9; 8; 7; 6; 5]%nat [N; C] _ g0 pv lossv
           HoH HwH); try assumption; try reflexivity.
  - repeat constructor.
  - repeat first [reflexivity | constructor].
  - fold H. cbn [All edgesOf nth_error nodes ce_nodes nedges xnode arithEdges fst snd]. all_cases; intros _; try rok_in HP.
    + cbn [rok]. split; [reflexivity|]. split; [exact O15|]. exists 0%nat. rewrite D15, D16.
      split; [reflexivity|]. split; [apply Nat.lt_0_succ|reflexivity].
    + cbn [rok]. congruence.
    + cbn [rok]. split; [reflexivity|]. split; [exact O13|]. exists 1%nat. rewrite D13, D14.
      split; [reflexivity|]. split; [cbn [length]; lia|reflexivity].
  - fold H. unfold lseed. cbn [length ce_tab xent_tab app repeat lupd aacc].
    cbv [fold_left lnode ledge lupd aacc ce_tab xent_tab app nth nth_error nodes ce_nodes nedges xnode arithEdges
         combine map fst snd]. eexists. split; [reflexivity|]. intros idx Hv.
    assert (EVp : Vl H p idx = elt pv idx) by (unfold Vl, H; rewrite valOf_app by exact Hp; rewrite Vp; reflexivity).
    unfold ceD.
    bcast_in HP.
    destruct g0 as [gp|]; cbn [option_map aacc prior rsem];
      rewrite D15, (EV11 idx Hv), (EV9 idx Hv), (EV8 idx Hv), (EV7 idx Hv), (EV6 idx Hv), EVp, cst_R, dec2R_m1;
      change (Z.to_nat 0) with 0%nat; cbn [nth]; unfold Rdiv; ring.
Qed.

(* C13, CE.  Whatever the outcome of the back-propagation below the prediction (p may be a leaf or
   the result of earlier tracked operations: NO hypothesis restricts the back edges of p), the
   prediction ends with its previous gradient accumulated with the tensor ceG, which has the
   prediction's shape; the untracked target receives nothing and no value changes. *)
Theorem ce_grad rd (h : heap) p t name pv tv g0 h1 l :
  rules_own h -> wf_heap h ->
  valOf h p = Some pv -> wf pv -> valOf h t = Some tv -> wf tv ->
  trackedOf h p = true -> dirtyOf h p = false -> trackedOf h t = false -> dirtyOf h t = false ->
  ceArgs h (Some p) (Some t) = Some (p, t) ->
  gradOf h p = g0 -> prior_ok (dims pv) g0 ->
  ce_compute eps ome h (Some p) (Some t) name = (h1, Ok l) ->
  forall h2 log r, bp_topo rd idseal h1 l = (h2, log, r) ->
    (exists g, gradOf h2 p = Some g /\ dims g = dims pv /\ wf g /\ acc1 g0 (ceG pv tv) = Some (Some g)) /\
    gradOf h2 t = gradOf h1 t /\
    (forall i, valOf h2 i = valOf h1 i).
Proof.
  intros Ho Hw Vp Wp Vt Wt Tp Dp Tt Dt Ea Eg0 Hprior E.
  apply (reaches_grad thr draw rd h h1 l p t pv g0 _ (ce_bp rd h p t name pv tv g0 h1 l Ho Hw Vp Wp Vt Wt Tp Dp Tt Dt Ea Eg0 Hprior E)).
  - eapply valOf_some_lt; eauto.
  - intros X; subst t; congruence.
Qed.

(* the same statement read for an interior prediction: it IS the same theorem *)
Definition ce_grad_interior := ce_grad.

(* the shape of the gradient tensor is the prediction's *)
Lemma ceG_dims (h : heap) p t pv tv :
  ceArgs h (Some p) (Some t) = Some (p, t) -> valOf h p = Some pv -> valOf h t = Some tv ->
  dims (ceG pv tv) = dims pv.
Proof.
  intros Ea Vp Vt. destruct (ceArgs_dims h p t pv tv Ea Vp Vt) as (N & C & Edp & _).
  unfold ceG. rewrite Edp. reflexivity.
Qed.

(* never fails: a leaf prediction *)
Theorem ce_grad_leaf rd (h : heap) p t name pv tv g0 h1 l :
  rules_own h -> wf_heap h ->
  valOf h p = Some pv -> wf pv -> valOf h t = Some tv -> wf tv ->
  trackedOf h p = true -> dirtyOf h p = false -> trackedOf h t = false -> dirtyOf h t = false ->
  ceArgs h (Some p) (Some t) = Some (p, t) ->
  gradOf h p = g0 -> prior_ok (dims pv) g0 ->
  ce_compute eps ome h (Some p) (Some t) name = (h1, Ok l) ->
  edgesOf h p = [] ->
  exists h2 log, bp_topo rd idseal h1 l = (h2, log, Ok tt) /\
    (exists g, gradOf h2 p = Some g /\ dims g = dims pv /\ wf g /\ acc1 g0 (ceG pv tv) = Some (Some g)) /\
    gradOf h2 t = gradOf h1 t /\
    (forall i, valOf h2 i = valOf h1 i).
Proof.
  intros Ho Hw Vp Wp Vt Wt Tp Dp Tt Dt Ea Eg0 Hprior E.
  apply (reaches_leaf thr draw rd h h1 l p t pv g0 _ (ce_bp rd h p t name pv tv g0 h1 l Ho Hw Vp Wp Vt Wt Tp Dp Tt Dt Ea Eg0 Hprior E)).
  - eapply valOf_some_lt; eauto.
  - intros X; subst t; congruence.
Qed.

(* an untracked prediction: the loss is untracked and back-propagation changes nothing *)
Theorem ce_grad_untracked rd sealg (h : heap) p t name pv tv h1 l :
  valOf h p = Some pv -> valOf h t = Some tv ->
  trackedOf h p = false -> dirtyOf h p = false -> trackedOf h t = false -> dirtyOf h t = false ->
  ceArgs h (Some p) (Some t) = Some (p, t) ->
  ce_compute eps ome h (Some p) (Some t) name = (h1, Ok l) ->
  bp_topo rd sealg h1 l = (h1, [], Ok tt).
Proof.
  intros Vp Vt Tp Dp Tt Dt Ea E.
  destruct (ce_structure eps ome h p t name h1 l false pv tv Vp Vt Tp Dp Tt Dt Ea E)
    as (a0 & a1 & a2 & a3 & a4 & b0 & b1 & b2 & b3 & b4 & lpv & k1 & k2 & sv & lv & lnv & lossv & _ & -> & ->).
  apply bp_topo_untracked. rewrite trackedOf_off. reflexivity.
Qed.

(* the analytic reading of ceD *)
Definition clip01 (t : R) : R := Rmax 0 (Rmin t 1).

Lemma clip01_id t : 0 <= t <= 1 -> clip01 t = t.
Proof. intros [H0 H1]. unfold clip01. rewrite Rmin_left by exact H1. apply Rmax_right, H0. Qed.

Lemma clip01_range t : 0 <= clip01 t <= 1.
Proof.
  unfold clip01. split; [apply Rmax_l|]. apply Rmax_lub; [lra|apply Rmin_r].
Qed.

(* ceD is the derivative of the loss at the clipped prediction times the clip factor *)
Lemma ceD_factor N p t : ceD N p t = - (clip01 t / clipV eps ome p) / INR N * clipF thr eps ome p.
Proof. unfold ceD, clip01, clipF, clipV, Rdiv. cbv zeta. ring. Qed.

(* strictly inside the clipping interval (beyond the equality threshold): -(t'/p)/N *)
Lemma ceD_inside N p t : 0 <= thr -> 0 < eps -> eps + thr < p -> p < ome - thr ->
  ceD N p t = - (clip01 t / p) / INR N.
Proof.
  intros Ht _ Hl Hu. rewrite ceD_factor. destruct (clip_inside thr eps ome p Ht Hl Hu) as [-> ->]. apply Rmult_1_r.
Qed.

(* clipped from below (p < eps, in particular p = 0): a finite zero *)
Lemma ceD_below N p t : 0 <= thr -> eps < ome -> p < eps - thr -> ceD N p t = 0.
Proof. intros Ht He Hl. rewrite ceD_factor, (clip_below thr eps ome p Ht He Hl). apply Rmult_0_r. Qed.

(* clipped from above (p > 1 - eps, in particular p = 1): a finite zero *)
Lemma ceD_above N p t : 0 <= thr -> eps < ome -> ome + thr < p -> ceD N p t = 0.
Proof. intros Ht _ Hl. rewrite ceD_factor, (clip_above thr eps ome p Ht Hl). apply Rmult_0_r. Qed.

(* C13, the formula.  In Go eps = 1e-12, ome = 1 - 1e-12 and the equality threshold thr is 1e-240;
   at thr = 0 the guards are exactly  eps < p < ome,  p < eps,  p > ome. *)
Theorem ce_grad_formula (pv tv : T) N C idx :
  0 <= thr -> 0 < eps -> eps < ome -> ome < 1 ->
  dims pv = [N; C] -> validIdx [N; C] idx ->
  let p := elt pv idx in let t := elt tv idx in
  dims (ceG pv tv) = [N; C] /\ wf (ceG pv tv) /\
  (eps + thr < p -> p < ome - thr -> elt (ceG pv tv) idx = - (clip01 t / p) / INR N) /\
  (eps + thr < p -> p < ome - thr -> 0 <= t <= 1 -> elt (ceG pv tv) idx = - (t / p) / INR N) /\
  (p < eps - thr -> elt (ceG pv tv) idx = 0) /\
  (ome + thr < p -> elt (ceG pv tv) idx = 0) /\
  (thr < eps -> p = 0 -> elt (ceG pv tv) idx = 0) /\
  (ome + thr < 1 -> p = 1 -> elt (ceG pv tv) idx = 0).
Proof.
  intros Ht He Heo Ho Edp Hv p t. unfold ceG. rewrite Edp. cbn [nth].
  assert (Hpos : List.Forall (fun d : nat => (0 < d)%nat) [N; C]).
  { clear - Hv. inversion Hv as [|i0 n0 l1 l2 H1 H2]; subst. inversion H2 as [|i1 n1 l3 l4 H3 H4]; subst.
    repeat constructor; lia. }
  split; [reflexivity|]. split; [apply ofFun_wf, Hpos|].
  rewrite (elt_ofFun _ _ _ Hv). fold p t.
  split; [intros Hl Hu; apply ceD_inside; assumption|].
  split; [intros Hl Hu Ht01; rewrite <- (clip01_id t Ht01) at 2; apply ceD_inside; assumption|].
  split; [intros Hl; apply ceD_below; assumption|].
  split; [intros Hu; apply ceD_above; assumption|].
  split; [intros Hte Hp0; apply ceD_below; [assumption|assumption|lra]|].
  intros Hte Hp1; apply ceD_above; [assumption|assumption|lra].
Qed.

(* C13, CE, end to end: ce_grad and ce_grad_formula combined, element by element *)
Theorem ce_grad_elementwise rd (h : heap) p t name pv tv g0 h1 l N C :
  0 <= thr -> 0 < eps -> eps < ome -> ome < 1 ->
  rules_own h -> wf_heap h ->
  valOf h p = Some pv -> wf pv -> valOf h t = Some tv -> wf tv ->
  trackedOf h p = true -> dirtyOf h p = false -> trackedOf h t = false -> dirtyOf h t = false ->
  ceArgs h (Some p) (Some t) = Some (p, t) ->
  gradOf h p = g0 -> prior_ok (dims pv) g0 ->
  ce_compute eps ome h (Some p) (Some t) name = (h1, Ok l) ->
  dims pv = [N; C] ->
  forall h2 log r, bp_topo rd idseal h1 l = (h2, log, r) ->
    exists g, gradOf h2 p = Some g /\ dims g = [N; C] /\ wf g /\
      forall idx, validIdx [N; C] idx ->
        let pe := elt pv idx in let te := elt tv idx in
        (eps + thr < pe -> pe < ome - thr -> elt g idx = prior g0 idx + - (clip01 te / pe) / INR N) /\
        (eps + thr < pe -> pe < ome - thr -> 0 <= te <= 1 -> elt g idx = prior g0 idx + - (te / pe) / INR N) /\
        (pe < eps - thr \/ ome + thr < pe -> elt g idx = prior g0 idx) /\
        (thr < eps /\ pe = 0 \/ ome + thr < 1 /\ pe = 1 -> elt g idx = prior g0 idx).
Proof.
  intros Hthr He Heo Ho1 Ho Hw Vp Wp Vt Wt Tp Dp Tt Dt Ea Eg0 Hprior E Edp h2 log r E2.
  destruct (ce_grad rd h p t name pv tv g0 h1 l Ho Hw Vp Wp Vt Wt Tp Dp Tt Dt Ea Eg0 Hprior E h2 log r E2)
    as ((g & Eg & Dg & Wg & Hacc) & _ & _).
  exists g. split; [exact Eg|]. split; [congruence|]. split; [exact Wg|]. intros idx Hv pe te.
  destruct (ce_grad_formula pv tv N C idx Hthr He Heo Ho1 Edp Hv) as (DG & WG & F1 & F2 & F3 & F4 & F5 & F6).
  fold pe te in F1, F2, F3, F4, F5, F6.
  rewrite Edp in Hprior.
  pose proof (acc1_elt thr draw [N; C] g0 (ceG pv tv) g Hprior WG DG Hacc idx Hv) as Hel.
  split; [intros Hl Hu; rewrite Hel, F1 by assumption; reflexivity|].
  split; [intros Hl Hu Ht; rewrite Hel, F2 by assumption; reflexivity|].
  split; [intros [Hl|Hu]; rewrite Hel; [rewrite F3 by exact Hl|rewrite F4 by exact Hu]; ring|].
  intros [[Hte H0]|[Hte H1']]; rewrite Hel; [rewrite F5 by assumption|rewrite F6 by assumption]; ring.
Qed.

(* the recorded near-tie finding (D10 again): a prediction inside the interval but within the
   equality threshold of eps receives HALF the gradient; excluded by the guards above (at thr = 0
   the band is empty) *)
Lemma ceD_near_eps N p t : 0 <= thr -> 0 < eps -> eps < p -> p <= eps + thr -> p < ome - thr ->
  ceD N p t = / 2 * (- (clip01 t / p) / INR N).
Proof.
  intros Ht _ Hl Hn Hu. rewrite ceD_factor. destruct (clip_near_eps thr eps ome p Ht (Rlt_le _ _ Hl) Hn Hu) as [-> ->].
  apply Rmult_comm.
Qed.

End Ce.

(* the exact-threshold reading (thr = 0): the guards are the property's *)
Corollary ce_grad_formula_thr0 (eps ome : R) (pv tv : tensor R) N C idx :
  0 < eps -> eps < ome -> ome < 1 -> dims pv = [N; C] -> validIdx [N; C] idx ->
  let p := elt pv idx in let t := elt tv idx in
  (eps < p -> p < ome -> elt (ceG 0 eps ome pv tv) idx = - (clip01 t / p) / INR N) /\
  (eps < p -> p < ome -> 0 <= t <= 1 -> elt (ceG 0 eps ome pv tv) idx = - (t / p) / INR N) /\
  (p < eps \/ ome < p -> elt (ceG 0 eps ome pv tv) idx = 0) /\
  (p = 0 \/ p = 1 -> elt (ceG 0 eps ome pv tv) idx = 0).
Proof.
  intros He Heo Ho Edp Hv p t.
  destruct (ce_grad_formula 0 eps ome pv tv N C idx (Rle_refl 0) He Heo Ho Edp Hv)
    as (_ & _ & F1 & F2 & F3 & F4 & F5 & F6). fold p t in F1, F2, F3, F4, F5, F6.
  split; [intros Hl Hu; apply F1; lra|]. split; [intros Hl Hu Ht; apply F2; [lra|lra|exact Ht]|].
  split; [intros [Hl|Hu]; [apply F3; lra|apply F4; lra]|].
  intros [H0|H1]; [apply F5; [lra|exact H0]|apply F6; [lra|exact H1]].
Qed.

(* ---- non-vacuity: a leaf prediction [[1/2; 0]; [1; 1/2]], targets all 1, eps = 1/4, 1-eps = 3/4, exact
   equality (thr = 0): gradient [[-1; 0]; [0; -1]] (zero at the clipped predictions 0 and 1) ---- *)
Section CeEx.
Variable draw : bool -> nat -> R.
Local Hint Extern 0 (Scalar R) => exact (R_scalar 0 draw) : typeclass_instances.
Local Open Scope R_scope.

Definition cexP : tensor R := mkT [2%nat; 2%nat] (Vec [Vec [Sc (1 / 2); Sc 0]; Vec [Sc 1; Sc (1 / 2)]]).
Definition cexT : tensor R := mkT [2%nat; 2%nat] (Vec [Vec [Sc 1; Sc 1]; Vec [Sc 1; Sc 1]]).
Definition cexH : @heap R :=
  [mkNode cexP true false None [] (Some 0%nat); mkNode cexT false false None [] (Some 1%nat)].

Lemma wf_m22 (a b c d : R) : wf (mkT [2%nat; 2%nat] (Vec [Vec [Sc a; Sc b]; Vec [Sc c; Sc d]])).
Proof. split; [cbn; repeat constructor|repeat constructor]. Qed.

Example ce_grad_ex rd : exists h1 l h2 log g,
  ce_compute (1 / 4) (3 / 4) cexH (Some 0%nat) (Some 1%nat) None = (h1, Ok l) /\
  bp_topo rd (fun _ g => g) h1 l = (h2, log, Ok tt) /\
  gradOf h2 0 = Some g /\ dims g = [2%nat; 2%nat] /\
  elt g [0%nat; 0%nat] = -1 /\ elt g [0%nat; 1%nat] = 0 /\ elt g [1%nat; 0%nat] = 0 /\ elt g [1%nat; 1%nat] = -1.
Proof.
  assert (Ho : rules_own cexH) by (intros c n e Hn He; destruct c as [|[|[|c]]]; cbn in Hn; try discriminate; inversion Hn; subst n; destruct He).
  assert (Hw : wf_heap cexH) by (intros c n e Hn He; destruct c as [|[|[|c]]]; cbn in Hn; try discriminate; inversion Hn; subst n; destruct He).
  destruct (ce_compute_spec (1 / 4) (3 / 4) cexH (Some 0%nat) (Some 1%nat) 0%nat 1%nat None cexP cexT 2 2
              (fun i j => elt cexP [i; j]) (fun i j => elt cexT [i; j]) eq_refl eq_refl eq_refl
              (wf_m22 _ _ _ _) (wf_m22 _ _ _ _) eq_refl) as (r & (h1 & l & E & _) & _).
  { intros i j Hi Hj. destruct i as [|[|i]]; [| |lia]; (destruct j as [|[|j]]; [reflexivity|reflexivity|lia]). }
  { intros i j Hi Hj. destruct i as [|[|i]]; [| |lia]; (destruct j as [|[|j]]; [reflexivity|reflexivity|lia]). }
  destruct (ce_grad_leaf 0 draw (1 / 4) (3 / 4) rd cexH 0%nat 1%nat None cexP cexT None h1 l Ho Hw eq_refl (wf_m22 _ _ _ _)
              eq_refl (wf_m22 _ _ _ _) eq_refl eq_refl eq_refl eq_refl eq_refl eq_refl I E eq_refl)
    as (h2 & log & E2 & (g & Eg & Dg & _ & Hacc) & _).
  exists h1, l, h2, log, g. split; [exact E|]. split; [exact E2|]. split; [exact Eg|]. split; [exact Dg|].
  cbn [acc1] in Hacc. assert (g = ceG 0 (1 / 4) (3 / 4) cexP cexT) by congruence. subst g.
  assert (V : forall i j, (i < 2)%nat -> (j < 2)%nat -> validIdx [2%nat; 2%nat] [i; j]) by (intros i j Hi Hj; constructor; [exact Hi|constructor; [exact Hj|constructor]]).
  assert (K1 : 0 < 1 / 4) by lra. assert (K2 : 1 / 4 < 3 / 4) by lra. assert (K3 : 3 / 4 < 1) by lra.
  assert (L0 : (0 < 2)%nat) by lia. assert (L1 : (1 < 2)%nat) by lia.
  destruct (ce_grad_formula_thr0 (1 / 4) (3 / 4) cexP cexT 2 2 [0%nat; 0%nat] K1 K2 K3 eq_refl (V _ _ L0 L0))
    as (_ & F00 & _ & _).
  destruct (ce_grad_formula_thr0 (1 / 4) (3 / 4) cexP cexT 2 2 [0%nat; 1%nat] K1 K2 K3 eq_refl (V _ _ L0 L1))
    as (_ & _ & _ & F01).
  destruct (ce_grad_formula_thr0 (1 / 4) (3 / 4) cexP cexT 2 2 [1%nat; 0%nat] K1 K2 K3 eq_refl (V _ _ L1 L0))
    as (_ & _ & _ & F10).
  destruct (ce_grad_formula_thr0 (1 / 4) (3 / 4) cexP cexT 2 2 [1%nat; 1%nat] K1 K2 K3 eq_refl (V _ _ L1 L1))
    as (_ & F11 & _ & _).
  assert (P00 : elt cexP [0%nat; 0%nat] = 1 / 2) by reflexivity.
  assert (P01 : elt cexP [0%nat; 1%nat] = 0) by reflexivity.
  assert (P10 : elt cexP [1%nat; 0%nat] = 1) by reflexivity.
  assert (P11 : elt cexP [1%nat; 1%nat] = 1 / 2) by reflexivity.
  assert (T00 : elt cexT [0%nat; 0%nat] = 1) by reflexivity.
  assert (T11 : elt cexT [1%nat; 1%nat] = 1) by reflexivity.
  rewrite P00, T00 in F00. rewrite P01 in F01. rewrite P10 in F10. rewrite P11, T11 in F11.
  split; [rewrite F00; [simpl INR; lra|lra|lra|lra]|]. split; [apply F01; left; reflexivity|].
  split; [apply F10; right; reflexivity|]. rewrite F11; [simpl INR; lra|lra|lra|lra].
Qed.
End CeEx.

Print Assumptions ce_structure.
Print Assumptions ce_bp.
Print Assumptions ce_grad.
Print Assumptions ce_grad_leaf.
Print Assumptions ce_grad_untracked.
Print Assumptions ce_grad_formula.
Print Assumptions ce_grad_elementwise.
Print Assumptions ce_grad_formula_thr0.
Print Assumptions ce_grad_ex.
