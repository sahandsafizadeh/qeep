(* GradChainFcP.v — the FC layer INSIDE a graph (lifting of GradFcP.v, companion of GradChainP.v).

   FINDING (order).  The nine nodes of the layer do NOT form a contiguous block of bp_topo's order,
   and [rev (seq (length h) 9)] (the order folded by [fc_backward]) is not the order in which bp_topo
   meets them: the bias b and the input x (with their whole ancestries) are visited between the
   layer's nodes ([fc_order_ex]:  y, n+7, b, n+6, n+5, n+4, n+3, n+1, x, n+2, n, w).  The block method
   of GradChainP.v therefore does not apply to a component with several operands.

   METHOD (order free).  Every internal node of the layer has exactly ONE consumer.  bp_topo's final
   heap solves the adjoint equations ([bp_topo_correct]); so does the final heap of [fc_backward]'s
   fold on an auxiliary heap holding y's final gradient ([bp_fold_seg]).  With a single consumer the
   equations determine the gradient of every internal node from the gradient of y, whatever the order
   ([single_grad_eq]); hence the contributions of the layer to w, b, x in the real run are the ones
   [fc_backward] computes, and the final gradients of w, b, x are
        prior + (sum of the contributions of the consumers OUTSIDE the layer, in H') + fc formula.  *)
From Coq Require Import List Arith ZArith Bool Lia Reals Lra.
From Coquelicot Require Import Coquelicot.
From Qeep Require Import Model.Scalar Model.Nd Model.Fill Model.Data Model.Valid Model.Api Model.Grad
  Model.Backprop Model.Components.
From Qeep Require Import Proofs.NdP Proofs.ElemP Proofs.BroadcastP Proofs.ArithP Proofs.TrackP Proofs.CompP
  Proofs.BackpropP Proofs.FcP Proofs.GradFcP.
From Qeep Require Import Spec.RScalar Spec.ScalarDeriv Spec.VjpSpec Proofs.VjpElemP Proofs.VjpGatherP Proofs.GradLossP Proofs.GradActP
  Proofs.GradChainP.
From Qeep Require Proofs.StepP.
Import ListNotations.
Local Open Scope nat_scope.

(* 1. generic: a node with a single consumer *)
Section GenA.
Context {A : Type} {SA : Scalar A}.
Notation T := (tensor A).
Notation heap := (@heap A).
Notation rule := (@rule A).
Variable rd : bred.

Lemma contributions_none (hf hs : heap) l n :
  (forall c e, In c l -> In e (edgesOf hs c) -> fst e <> n) -> contributions rd hf hs l n = [].
Proof.
  intros Hn. unfold contributions. apply flat_map_nil'. intros c Hc. apply flat_map_nil'. intros e He.
  unfold contrib_e. destruct (fst e =? n) eqn:Ee; [|reflexivity]. apply Nat.eqb_eq in Ee. exfalso. exact (Hn c e Hc He Ee).
Qed.

(* if p is the only node of the list with an edge to n, only p contributes *)
Lemma contributions_single (hf hs : heap) p n : forall l,
  In p l -> NoDup l -> (forall c e, In c l -> c <> p -> In e (edgesOf hs c) -> fst e <> n) ->
  contributions rd hf hs l n = flat_map (contrib_e rd hf n) (edgesOf hs p).
Proof.
  induction l as [|a l IH]; intros Hp Hnd Hs; [destruct Hp|].
  apply NoDup_cons_iff in Hnd. destruct Hnd as [Ha Hnd].
  change (contributions rd hf hs (a :: l) n) with (flat_map (contrib_e rd hf n) (edgesOf hs a) ++ contributions rd hf hs l n).
  destruct (Nat.eq_dec a p) as [->|Hap].
  - rewrite contributions_none; [apply app_nil_r|]. intros c e Hc He. apply (Hs c e); [right; exact Hc| |exact He].
    intros X. subst c. exact (Ha Hc).
  - destruct Hp as [Hp|Hp]; [contradiction|]. rewrite flat_map_nil'.
    + cbn [app]. apply IH; [exact Hp|exact Hnd|]. intros c e Hc. apply Hs. right. exact Hc.
    + intros e He. unfold contrib_e. destruct (fst e =? n) eqn:Ee; [|reflexivity]. apply Nat.eqb_eq in Ee. exfalso.
      exact (Hs a e (or_introl eq_refl) Hap He Ee).
Qed.

Lemma contrib_e_local (hf1 hf2 : heap) n (e : nat * rule) :
  (forall i, In i (rule_vals (snd e)) -> valOf hf1 i = valOf hf2 i) ->
  gradOf hf1 (rule_y (snd e)) = gradOf hf2 (rule_y (snd e)) ->
  contrib_e rd hf1 n e = contrib_e rd hf2 n e.
Proof. intros Hv Hg. unfold contrib_e. rewrite (eval_rule_local rd hf1 hf2 (snd e) Hv Hg). reflexivity. Qed.

(* two runs (R: the real one, A: an auxiliary one) on heaps with the same edges at p: if p is the single
   consumer of n in both processed lists and holds the same final gradient, so does n *)
Lemma single_grad_eq (HR HR' HA HA' : heap) lR lA p n es :
  edgesOf HR p = es -> edgesOf HA p = es ->
  In p lR -> NoDup lR -> (forall c e, In c lR -> c <> p -> In e (edgesOf HR c) -> fst e <> n) ->
  In p lA -> NoDup lA -> (forall c e, In c lA -> c <> p -> In e (edgesOf HA c) -> fst e <> n) ->
  (forall e, In e es -> fst e = n ->
     rule_y (snd e) = p /\ forall i, In i (rule_vals (snd e)) -> valOf HR' i = valOf HA' i) ->
  gradOf HR' p = gradOf HA' p ->
  accAll None (contributions rd HR' HR lR n) = Some (gradOf HR' n) ->
  accAll None (contributions rd HA' HA lA n) = Some (gradOf HA' n) ->
  gradOf HR' n = gradOf HA' n /\
  contributions rd HR' HR lR n = contributions rd HA' HA lA n.
Proof.
  intros ER EA PR NR SR PA NA SA' Hloc Hgp AccR AccA.
  rewrite (contributions_single HR' HR p n lR PR NR SR) in AccR |- *.
  rewrite (contributions_single HA' HA p n lA PA NA SA') in AccA |- *.
  rewrite ER in *. rewrite EA in *.
  assert (Eq : flat_map (contrib_e rd HR' n) es = flat_map (contrib_e rd HA' n) es).
  { apply flat_map_ext_in'. intros e He. unfold contrib_e at 1 2. destruct (fst e =? n) eqn:Ee; [|reflexivity].
    apply Nat.eqb_eq in Ee. destruct (Hloc e He Ee) as [Hy Hv].
    rewrite (eval_rule_local rd HR' HA' (snd e) Hv); [reflexivity|]. rewrite Hy. exact Hgp. }
  split; [|exact Eq]. rewrite Eq in AccR. congruence.
Qed.

(* membership and filtering of contributions *)
Lemma contributions_filter_in (hf hs : heap) (P : nat -> bool) n g : forall l,
  In g (contributions rd hf hs l n) ->
  In g (contributions rd hf hs (filter P l) n) \/ In g (contributions rd hf hs (filter (fun c => negb (P c)) l) n).
Proof.
  induction l as [|a l IH]; intros Hg; [destruct Hg|].
  change (contributions rd hf hs (a :: l) n) with (flat_map (contrib_e rd hf n) (edgesOf hs a) ++ contributions rd hf hs l n) in Hg.
  cbn [filter]. apply in_app_or in Hg. destruct (P a); cbn [negb].
  - destruct Hg as [Hg|Hg].
    + left. change (contributions rd hf hs (a :: filter P l) n)
        with (flat_map (contrib_e rd hf n) (edgesOf hs a) ++ contributions rd hf hs (filter P l) n).
      apply in_or_app. left. exact Hg.
    + destruct (IH Hg) as [X|X]; [left|right; exact X].
      change (contributions rd hf hs (a :: filter P l) n)
        with (flat_map (contrib_e rd hf n) (edgesOf hs a) ++ contributions rd hf hs (filter P l) n).
      apply in_or_app. right. exact X.
  - destruct Hg as [Hg|Hg].
    + right. change (contributions rd hf hs (a :: filter (fun c => negb (P c)) l) n)
        with (flat_map (contrib_e rd hf n) (edgesOf hs a) ++ contributions rd hf hs (filter (fun c => negb (P c)) l) n).
      apply in_or_app. left. exact Hg.
    + destruct (IH Hg) as [X|X]; [left; exact X|right].
      change (contributions rd hf hs (a :: filter (fun c => negb (P c)) l) n)
        with (flat_map (contrib_e rd hf n) (edgesOf hs a) ++ contributions rd hf hs (filter (fun c => negb (P c)) l) n).
      apply in_or_app. right. exact X.
Qed.

End GenA.

Lemma NoDup_filter' {X} (f : X -> bool) l : NoDup l -> NoDup (filter f l).
Proof.
  induction l as [|a l IH]; intros Hn; [constructor|]. apply NoDup_cons_iff in Hn. destruct Hn as [Ha Hn]. cbn [filter].
  destruct (f a); [|apply IH; exact Hn]. constructor; [|apply IH; exact Hn]. intros X0. apply filter_In in X0. apply Ha, X0.
Qed.

(* 2. reals: a target of the component with other consumers in the graph *)
Local Open Scope R_scope.

Section FcChain.
Variables (thr : R) (draw : bool -> nat -> R).
Local Hint Extern 0 (Scalar R) => exact (R_scalar thr draw) : typeclass_instances.
Notation T := (tensor R).
Notation heap := (@heap R).
Notation rule := (@rule R).
Notation idseal := (fun (_ : option nat) (g : T) => g).
Notation prior := GradActP.prior.
Notation prior_ok := GradActP.prior_ok.

Lemma sumC_filter_split rd (hf hs : heap) (P : nat -> bool) n idx : forall l,
  sumC (contributions rd hf hs l n) idx =
  sumC (contributions rd hf hs (filter P l) n) idx + sumC (contributions rd hf hs (filter (fun c => negb (P c)) l) n) idx.
Proof.
  induction l as [|a l IH]; [cbn; ring|].
  change (contributions rd hf hs (a :: l) n) with (flat_map (contrib_e rd hf n) (edgesOf hs a) ++ contributions rd hf hs l n).
  rewrite sumC_app, IH. cbn [filter]. destruct (P a); cbn [negb].
  - change (contributions rd hf hs (a :: filter P l) n)
      with (flat_map (contrib_e rd hf n) (edgesOf hs a) ++ contributions rd hf hs (filter P l) n).
    rewrite sumC_app. ring.
  - change (contributions rd hf hs (a :: filter (fun c => negb (P c)) l) n)
      with (flat_map (contrib_e rd hf n) (edgesOf hs a) ++ contributions rd hf hs (filter (fun c => negb (P c)) l) n).
    rewrite sumC_app. ring.
Qed.

Lemma okPrior_ok (o : option T) ds : GradFcP.okPrior o ds <-> prior_ok ds o.
Proof.
  unfold GradFcP.okPrior, GradActP.prior_ok. destruct o as [g|].
  - split; [intros Hk; apply Hk; reflexivity|intros Hk g0 Eg; inversion Eg; subst; exact Hk].
  - split; [trivial|intros _ g0 Eg; discriminate].
Qed.

(* TARGET LEMMA.  t is an operand of the component [comp]; inside the component its only consumer is p,
   through the single edge (t, rl); in the auxiliary run p contributes gA.  Then, in the real run,
   t ends with  prior + (contributions of the consumers outside comp) + gA. *)
Lemma target_grad rd (H H' hA hA' : heap) order lA comp p t rl ds gA :
  rules_own H ->
  NoDup order -> In p order -> In p comp ->
  (forall c e, In c comp -> c <> p -> In e (edgesOf H c) -> fst e <> t) ->
  In p lA -> NoDup lA -> (forall c e, In c lA -> c <> p -> In e (edgesOf hA c) -> fst e <> t) ->
  edgesOf H p = [(t, rl)] -> edgesOf hA p = [(t, rl)] ->
  rule_y rl = p -> (forall i, In i (rule_vals rl) -> valOf H' i = valOf hA' i) ->
  gradOf H' p = gradOf hA' p ->
  accAll (gradOf H t) (contributions rd H' H order t) = Some (gradOf H' t) ->
  accAll None (contributions rd hA' hA lA t) = Some (Some gA) ->
  wf gA -> dims gA = ds -> prior_ok ds (gradOf H t) ->
  let out := filter (fun c => negb (memb c comp)) order in
  (forall g, In g (contributions rd H' H out t) -> wf g /\ dims g = ds) ->
  exists gt, gradOf H' t = Some gt /\ dims gt = ds /\ wf gt /\
    forall idx, validIdx ds idx ->
      elt gt idx = prior (gradOf H t) idx + sumC (contributions rd H' H out t) idx + elt gA idx.
Proof.
  intros Hown Hnd Hpo Hpc Hsc HpA HndA HsA EH EA Hy Hv Hgp AccT AccA WgA DgA Hpr out Hout.
  set (P := fun c => negb (memb c comp)) in *.
  set (inC := filter (fun c => negb (P c)) order).
  assert (HinC : forall c, In c inC -> In c comp).
  { intros c Hc. apply filter_In in Hc. destruct Hc as [_ Hc]. unfold P in Hc. rewrite negb_involutive in Hc. apply memb_in. exact Hc. }
  assert (HpinC : In p inC).
  { apply filter_In. split; [exact Hpo|]. unfold P. rewrite negb_involutive. apply memb_in. exact Hpc. }
  (* the component's share, in both runs *)
  assert (CR : contributions rd H' H inC t = flat_map (contrib_e rd H' t) [(t, rl)]).
  { rewrite <- EH. apply contributions_single; [exact HpinC|apply NoDup_filter'; exact Hnd|].
    intros c e Hc. apply Hsc. apply HinC. exact Hc. }
  assert (CA : contributions rd hA' hA lA t = flat_map (contrib_e rd hA' t) [(t, rl)]).
  { rewrite <- EA. apply contributions_single; assumption. }
  assert (Eq : contrib_e rd H' t (t, rl) = contrib_e rd hA' t (t, rl)).
  { apply contrib_e_local; cbn [snd]; [exact Hv|rewrite Hy; exact Hgp]. }
  cbn [flat_map] in CR, CA. rewrite Eq in CR. rewrite CA in AccA.
  assert (EgA : contrib_e rd hA' t (t, rl) = [gA]).
  { destruct (contrib_e rd hA' t (t, rl)) as [|g1 [|g2 rest]] eqn:Ec.
    - cbn in AccA. discriminate.
    - cbn in AccA. congruence.
    - exfalso. unfold contrib_e in Ec. destruct (fst (t, rl) =? t)%nat; [|discriminate].
      destruct (eval_rule rd hA' (snd (t, rl))); discriminate. }
  rewrite EgA in CR. cbn [app] in CR.
  (* every contribution is well shaped *)
  assert (Hall : forall g, In g (contributions rd H' H order t) -> wf g /\ dims g = ds).
  { intros g Hg. destruct (contributions_filter_in rd H' H P t g order Hg) as [X|X]; [apply Hout; exact X|].
    fold inC in X. rewrite CR in X. destruct X as [<-|[]]. split; assumption. }
  destruct (accAll_R thr draw ds (contributions rd H' H order t) (gradOf H t) Hpr Hall) as (o' & Ea & Pok & _ & Sum).
  rewrite Ea in AccT. inversion AccT as [Eo]. clear AccT.
  assert (Hne : o' <> None).
  { apply (accAll_nonempty (gradOf H t) (contributions rd H' H order t) o' Ea).
    intros X. assert (In gA (contributions rd H' H order t)); [|rewrite X in *; contradiction].
    assert (In gA (contributions rd H' H inC t)) by (rewrite CR; left; reflexivity).
    unfold contributions in *. apply in_flat_map in H0. destruct H0 as (c & Hc & Hg). apply in_flat_map. exists c.
    split; [|exact Hg]. apply filter_In in Hc. apply Hc. }
  destruct o' as [gt|]; [|congruence]. exists gt. split; [symmetry; exact Eo|]. destruct Pok as [Wt Dt].
  split; [exact Dt|]. split; [exact Wt|]. intros idx Hi. specialize (Sum idx Hi). cbn [GradActP.prior] in Sum. rewrite Sum.
  rewrite (sumC_filter_split rd H' H P t idx order). fold inC. rewrite CR. fold out. cbn [sumC fold_right]. ring.
Qed.

End FcChain.

(* 3. helpers *)
Local Open Scope nat_scope.
Section Helpers.
Context {A : Type} {SA : Scalar A}.
Notation heap := (@heap A).

Lemma rules_own_prefS (h1 H : heap) : prefS h1 H -> rules_own H -> rules_own h1.
Proof.
  intros [_ P] Ho c nd e Hn He. assert (Hc : c < length h1) by (apply nth_error_Some; congruence).
  destruct (P c Hc) as (_ & _ & Ee). apply (rules_own_edgesOf _ Ho). rewrite <- Ee. unfold edgesOf. rewrite Hn. exact He.
Qed.

Lemma wf_heap_prefS (h1 H : heap) : prefS h1 H -> wf_heap H -> wf_heap h1.
Proof.
  intros [_ P] Ho c nd e Hn He. assert (Hc : c < length h1) by (apply nth_error_Some; congruence).
  destruct (P c Hc) as (_ & _ & Ee). apply (wf_heap_edgesOf _ Ho). rewrite <- Ee. unfold edgesOf. rewrite Hn. exact He.
Qed.

(* a strictly decreasing list of nodes of a heap whose edges point to smaller ids has no back edge *)
Fixpoint desc (l : list nat) : Prop :=
  match l with [] => True | c :: rest => (forall c', In c' rest -> c' < c) /\ desc rest end.

Lemma noback_desc (hh : heap) : wf_heap hh -> forall l, desc l -> noback hh l.
Proof.
  intros W. induction l as [|c l IH]; intros Hd; cbn [noback]; [trivial|]. destruct Hd as [Hc Hd]. split; [|apply IH; exact Hd].
  intros c' e Hc' He _ X. pose proof (wf_heap_edgesOf _ W _ _ He). specialize (Hc c' Hc'). lia.
Qed.

Lemma desc_NoDup : forall l, desc l -> NoDup l.
Proof.
  induction l as [|c l IH]; intros Hd; [constructor|]. destruct Hd as [Hc Hd]. constructor; [|apply IH; exact Hd].
  intros X. specialize (Hc c X). lia.
Qed.

Lemma gradOf_setGrad_same (h : heap) i g : i < length h -> gradOf (setGrad h i g) i = g.
Proof. intros Hi. rewrite gradOf_setGrad, Nat.eqb_refl. apply Nat.ltb_lt in Hi. rewrite Hi. reflexivity. Qed.

Lemma gradOf_setGrad_other (h : heap) i g j : j <> i -> gradOf (setGrad h i g) j = gradOf h j.
Proof. intros Hj. rewrite gradOf_setGrad. apply Nat.eqb_neq in Hj. rewrite Hj. reflexivity. Qed.

End Helpers.

(* the observers of the nine nodes of [fc_heap] *)
Section FcObs.
Context {A : Type} {SA : Scalar A}.
Notation T := (tensor A).
Notation heap := (@heap A).

Lemma fc_heap_obs (h : heap) w b x tx (w1v x1v bwv bxv y1v y2v by2v bbv yv : T) name :
  let h1 := fc_heap h w b x tx w1v x1v bwv bxv y1v y2v by2v bbv yv name in
  let n := length h in
  let n1 := S n in let n2 := S n1 in let n3 := S n2 in let n4 := S n3 in
  let n5 := S n4 in let n6 := S n5 in let n7 := S n6 in let n8 := S n7 in
  (edgesOf h1 n = [(w, RReshape n w)] /\ trackedOf h1 n = true) /\
  (edgesOf h1 n1 = (if tx then [(x, RReshape n1 x)] else []) /\ trackedOf h1 n1 = tx) /\
  (edgesOf h1 n2 = [(n, RBroadcast n2 n)] /\ trackedOf h1 n2 = true) /\
  (edgesOf h1 n3 = (if tx then [(n1, RBroadcast n3 n1)] else []) /\ trackedOf h1 n3 = tx) /\
  (edgesOf h1 n4 = [(n2, RMatMulA n4 n3); (n3, RMatMulB n4 n2)] /\ trackedOf h1 n4 = true) /\
  (edgesOf h1 n5 = [(n4, RSumAlong n5 n4 2%Z)] /\ trackedOf h1 n5 = true) /\
  (edgesOf h1 n6 = [(n5, RBroadcast n6 n5)] /\ trackedOf h1 n6 = true) /\
  (edgesOf h1 n7 = [(b, RBroadcast n7 b)] /\ trackedOf h1 n7 = true) /\
  (edgesOf h1 n8 = [(n6, RId n8); (n7, RId n8)] /\ trackedOf h1 n8 = true).
Proof.
  cbv zeta. unfold fc_heap. cbv zeta.
  repeat split.
  - at_rw edgesOf_at (length h) 0. reflexivity.
  - at_rw trackedOf_at (length h) 0. reflexivity.
  - at_rw edgesOf_at (S (length h)) 1. reflexivity.
  - at_rw trackedOf_at (S (length h)) 1. reflexivity.
  - at_rw edgesOf_at (S (S (length h))) 2. reflexivity.
  - at_rw trackedOf_at (S (S (length h))) 2. reflexivity.
  - at_rw edgesOf_at (S (S (S (length h)))) 3. reflexivity.
  - at_rw trackedOf_at (S (S (S (length h)))) 3. reflexivity.
  - at_rw edgesOf_at (S (S (S (S (length h))))) 4. reflexivity.
  - at_rw trackedOf_at (S (S (S (S (length h))))) 4. reflexivity.
  - at_rw edgesOf_at (S (S (S (S (S (length h)))))) 5. reflexivity.
  - at_rw trackedOf_at (S (S (S (S (S (length h)))))) 5. reflexivity.
  - at_rw edgesOf_at (S (S (S (S (S (S (length h))))))) 6. reflexivity.
  - at_rw trackedOf_at (S (S (S (S (S (S (length h))))))) 6. reflexivity.
  - at_rw edgesOf_at (S (S (S (S (S (S (S (length h)))))))) 7. reflexivity.
  - at_rw trackedOf_at (S (S (S (S (S (S (S (length h)))))))) 7. reflexivity.
  - at_rw edgesOf_at (S (S (S (S (S (S (S (S (length h))))))))) 8. reflexivity.
  - at_rw trackedOf_at (S (S (S (S (S (S (S (S (length h))))))))) 8. reflexivity.
Qed.
End FcObs.

(* 4. the FC layer in a graph *)
Local Open Scope R_scope.
Section FcMain.
Variables (thr : R) (draw : bool -> nat -> R).
Local Hint Extern 0 (Scalar R) => exact (R_scalar thr draw) : typeclass_instances.
Notation T := (tensor R).
Notation heap := (@heap R).
Notation rule := (@rule R).
Notation idseal := (fun (_ : option nat) (g : T) => g).
Notation prior := GradActP.prior.
Notation prior_ok := GradActP.prior_ok.

(* none but p has an edge to the node at hand: read off the table [Sing] of consumers *)
Ltac fc_sing Sing :=
  let c := fresh "c" in let e := fresh "e" in let Hc := fresh "Hc" in let Hne := fresh "Hne" in
  let He := fresh "He" in let X := fresh "X" in
  intros c e Hc Hne He X; apply Hne; decompose [and] (Sing c e Hc He); auto.

(* the edge of p into the node at hand reads p's gradient and values of the layer only *)
Ltac fc_loc :=
  let e := fresh "e" in let He := fresh "He" in let Hf := fresh "Hf" in
  intros e He Hf; cbn [In] in He;
  repeat (destruct He as [He|He];
    [subst e; cbn [fst snd] in Hf |- *;
     first [ exfalso; nlia
           | split; [reflexivity|]; let i := fresh "i" in let Hi := fresh "Hi" in
             cbn [rule_vals]; intros i Hi; cbn [In] in Hi; repeat (destruct Hi as [Hi|Hi]; [subst i; nlia|]); destruct Hi ]|]);
  destruct He.

Theorem fc_backward_in_graph rd (h h1 H H' : heap) w b x name (wv bv xv : T) O B F y r log gy :
  valOf h w = Some wv -> valOf h b = Some bv -> valOf h x = Some xv ->
  wf wv -> wf bv -> wf xv -> dims wv = [O] -> dims bv = [O] -> dims xv = [B; F] ->
  trackedOf h w = true -> dirtyOf h w = false -> trackedOf h b = true -> dirtyOf h b = false ->
  dirtyOf h x = false -> w <> b ->
  fc_forward h w b [Some x] name = (h1, Ok y) ->
  let n := length h in
  let ints := [n; S n; S (S n); S (S (S n)); S (S (S (S n))); S (S (S (S (S n)))); S (S (S (S (S (S n)))));
               S (S (S (S (S (S (S n))))))] in
  prefS h1 H -> rules_own H -> wf_heap H -> no_outside_edge H y ints ->
  In y (topoOrder H r) ->
  (forall c, In c ints -> gradOf H c = None) ->
  prior_ok [O] (gradOf H w) -> prior_ok [O] (gradOf H b) -> prior_ok [B; F] (gradOf H x) ->
  bp_topo rd idseal H r = (H', log, Ok tt) ->
  gradOf H' y = Some gy -> wf gy -> dims gy = [B; O] ->
  let out := outsideOf H r y ints in
  (forall g, In g (contributions rd H' H out w) -> wf g /\ dims g = [O]) ->
  (forall g, In g (contributions rd H' H out b) -> wf g /\ dims g = [O]) ->
  (forall g, In g (contributions rd H' H out x) -> wf g /\ dims g = [B; F]) ->
  y = S (S (S (S (S (S (S (S n))))))) /\
  (exists gw, gradOf H' w = Some gw /\ dims gw = [O] /\ wf gw /\
     forall o, (o < O)%nat ->
       elt gw [o] = prior (gradOf H w) [o] + sumC (contributions rd H' H out w) [o] +
                    rdc rd B * SumN B (fun bi => elt gy [bi; o] * SumN F (fun d => elt xv [bi; d]))) /\
  (exists gb, gradOf H' b = Some gb /\ dims gb = [O] /\ wf gb /\
     forall o, (o < O)%nat ->
       elt gb [o] = prior (gradOf H b) [o] + sumC (contributions rd H' H out b) [o] +
                    rdc rd B * SumN B (fun bi => elt gy [bi; o])) /\
  (trackedOf h x = true ->
   exists gx, gradOf H' x = Some gx /\ dims gx = [B; F] /\ wf gx /\
     forall bi d, (bi < B)%nat -> (d < F)%nat ->
       elt gx [bi; d] = prior (gradOf H x) [bi; d] + sumC (contributions rd H' H out x) [bi; d] +
                        SumN O (fun o => elt gy [bi; o] * elt wv [o])).
Proof.
  intros Vw Vb Vx Ww Wb Wx Dw Db Dx Tw Dtw Tb Dtb Dtx Nwb E n ints P Hown Hwf NE Hin Hint0 Pw Pb Px Ebp Hgy Wgy Dgy out
         Houtw Houtb Houtx.
  destruct (fc_structure h w b x name wv bv xv h1 y Vw Vb Vx Tw Dtw Tb Dtb Dtx E)
    as (w1v & x1v & bwv & bxv & y1v & y2v & by2v & bbv & yv & _ & _ & _ & _ & _ & _ & _ & _ & _ & Ey & Eh).
  fold n in Ey. subst y. split; [reflexivity|].
  remember (trackedOf h x) as tx eqn:Etx.
  set (n1 := S n) in *. set (n2 := S n1) in *. set (n3 := S n2) in *. set (n4 := S n3) in *.
  set (n5 := S n4) in *. set (n6 := S n5) in *. set (n7 := S n6) in *. set (n8 := S n7) in *.
  subst ints.
  assert (Hn1 : n1 = S n) by reflexivity. assert (Hn2 : n2 = S n1) by reflexivity. assert (Hn3 : n3 = S n2) by reflexivity.
  assert (Hn4 : n4 = S n3) by reflexivity. assert (Hn5 : n5 = S n4) by reflexivity. assert (Hn6 : n6 = S n5) by reflexivity.
  assert (Hn7 : n7 = S n6) by reflexivity. assert (Hn8 : n8 = S n7) by reflexivity.
  assert (Lw : (w < n)%nat) by (eapply valOf_some_lt; eauto).
  assert (Lb : (b < n)%nat) by (eapply valOf_some_lt; eauto).
  assert (Lx : (x < n)%nat) by (eapply valOf_some_lt; eauto).
  assert (Nwx : w <> x) by (intros X; subst x; assert (wv = xv) by congruence; subst xv; rewrite Dw in Dx; discriminate).
  assert (Nbx : b <> x) by (intros X; subst x; assert (bv = xv) by congruence; subst xv; rewrite Db in Dx; discriminate).
  assert (L1 : length h1 = S n8).
  { rewrite Eh. unfold fc_heap. rewrite app_length. cbn [length]. unfold n8, n7, n6, n5, n4, n3, n2, n1, n. clear. lia. }
  (* the nine nodes, in h1 and in H *)
  pose proof (fc_heap_obs h w b x tx w1v x1v bwv bxv y1v y2v by2v bbv yv name) as Ob. cbv zeta in Ob. rewrite <- Eh in Ob.
  fold n n1 n2 n3 n4 n5 n6 n7 n8 in Ob.
  destruct Ob as ((E0 & T0) & (E1 & T1) & (E2 & T2) & (E3 & T3) & (E4 & T4) & (E5 & T5) & (E6 & T6) & (E7 & T7) & (E8 & T8)).
  (* who feeds whom: every internal node, and each operand, has one consumer among the nine *)
  assert (Sing : forall c e, In c [n8; n; n1; n2; n3; n4; n5; n6; n7] -> In e (edgesOf h1 c) ->
            (fst e = n6 -> c = n8) /\ (fst e = n7 -> c = n8) /\ (fst e = n5 -> c = n6) /\ (fst e = n4 -> c = n5) /\
            (fst e = n2 -> c = n4) /\ (fst e = n3 -> c = n4) /\ (fst e = n -> c = n2) /\ (fst e = n1 -> c = n3) /\
            (fst e = w -> c = n) /\ (fst e = b -> c = n7) /\ (fst e = x -> c = n1)).
  { clear - E0 E1 E2 E3 E4 E5 E6 E7 E8 Hn1 Hn2 Hn3 Hn4 Hn5 Hn6 Hn7 Hn8 Lw Lb Lx Nwx Nbx Nwb.
    intros c e Hc He. cbn [In] in Hc.
    repeat (destruct Hc as [Hc|Hc];
      [subst c;
       first [rewrite E0 in He|rewrite E1 in He|rewrite E2 in He|rewrite E3 in He|rewrite E4 in He
             |rewrite E5 in He|rewrite E6 in He|rewrite E7 in He|rewrite E8 in He];
       try (match type of He with context [if ?t then _ else _] => destruct t end); cbn [In] in He;
       repeat (destruct He as [He|He]; [subst e; cbn [fst]; repeat split; intros; lia|]); destruct He|]);
    destruct Hc. }
  assert (EHall : forall i, (i < S n8)%nat -> edgesOf H i = edgesOf h1 i).
  { intros i Hi. symmetry. apply (proj2 P). rewrite L1. exact Hi. }
  assert (THall : forall i, (i < S n8)%nat -> trackedOf H i = trackedOf h1 i).
  { intros i Hi. symmetry. apply (proj2 P). rewrite L1. exact Hi. }
  assert (Told : forall i, (i < n)%nat -> trackedOf h1 i = trackedOf h i).
  { intros i Hi. rewrite Eh. unfold fc_heap. cbv zeta. apply trackedOf_app. exact Hi. }
  (* the real run *)
  assert (Hr : trackedOf H r = true) by (eapply in_topo_tracked; exact Hin).
  destruct (bp_topo_correct rd H r H' log Hown Hwf Hr Ebp) as (rv & ones & _ & _ & _ & RS & _ & Racc & _ & _ & _).
  destruct (topoOrder_facts H r Hwf Hr) as (Hnd & Htr & Hord & _ & _ & Hle & _). cbv zeta in Racc, Hnd, Htr, Hord, Hle.
  set (order := topoOrder H r) in *.
  assert (Hyr : (n8 <= r)%nat) by (apply Hle; exact Hin).
  (* the auxiliary run: y holds gy, nothing else holds a gradient *)
  set (hA := setGrad (setGrad (setGrad (setGrad h1 n8 (Some gy)) w None) b None) x None).
  assert (SA : sameS h1 hA) by (repeat (eapply sameS_trans; [|apply sameS_setGrad]); apply sameS_refl).
  assert (EAall : forall i, edgesOf hA i = edgesOf h1 i) by (intros i; symmetry; apply (sameS_edges _ _ SA)).
  assert (TAall : forall i, trackedOf hA i = trackedOf h1 i) by (intros i; symmetry; apply (sameS_trk _ _ SA)).
  assert (GAy : gradOf hA n8 = Some gy).
  { unfold hA. rewrite !gradOf_setGrad_other by nlia. apply gradOf_setGrad_same. rewrite L1. nlia. }
  assert (GAw : gradOf hA w = None).
  { unfold hA. rewrite !gradOf_setGrad_other by (first [exact Nwx|exact Nwb]). apply gradOf_setGrad_same.
    rewrite length_setGrad, L1. nlia. }
  assert (GAb : gradOf hA b = None).
  { unfold hA. rewrite gradOf_setGrad_other by exact Nbx. apply gradOf_setGrad_same. rewrite !length_setGrad, L1. nlia. }
  assert (GAx : gradOf hA x = None).
  { unfold hA. apply gradOf_setGrad_same. rewrite !length_setGrad, L1. nlia. }
  assert (GAi : forall i, (n <= i < n8)%nat -> gradOf hA i = None).
  { intros i Hi. unfold hA. rewrite !gradOf_setGrad_other by nlia. rewrite Eh. apply fc_heap_grad_new. fold n. nlia. }
  destruct (fc_backward thr draw rd h w b x name wv bv xv O B F h1 n8 hA [] gy
              Vw Vb Vx Ww Wb Wx Dw Db Dx Tw Dtw Tb Dtb Dtx Nwb E SA GAy Wgy Dgy)
    as (_ & _ & hA' & logA & EfA & SAA & _ & (gwA & GwA & DwA & WwA & FwA) & (gbA & GbA & DbA & WbA & FbA) & HxA);
    [exact GAi|rewrite GAw; apply okPrior_None|rewrite GAb; apply okPrior_None|rewrite GAx; apply okPrior_None|].
  rewrite <- Etx in HxA. rewrite GAw in FwA. rewrite GAb in FbA.
  set (lA := rev (seq (length h) 9)) in *.
  assert (ElA : lA = [n8; n7; n6; n5; n4; n3; n2; n1; n]) by reflexivity.
  assert (Dsc : desc lA).
  { rewrite ElA. cbn [desc]. repeat (split; [intros c' Hc'; cbn [In] in Hc'; first [contradiction|nlia]|]). exact I. }
  assert (NDA : NoDup lA) by (apply desc_NoDup; exact Dsc).
  assert (HownA : rules_own hA) by (eapply rules_own_sameS; [exact SA|]; eapply rules_own_prefS; eauto).
  assert (HwfA : wf_heap hA) by (eapply wf_heap_sameS; [exact SA|]; eapply wf_heap_prefS; eauto).
  destruct (bp_fold_seg rd lA hA [] hA' logA HownA HwfA NDA (noback_desc hA HwfA lA Dsc) EfA) as (_ & AccA & _).
  assert (Vag : forall i, (i < S n8)%nat -> valOf H' i = valOf hA' i).
  { intros i Hi. rewrite (proj1 (RS i)). rewrite <- (proj1 (proj2 P i ltac:(rewrite L1; exact Hi))).
    rewrite (sameS_val _ _ SA), (sameS_val _ _ SAA). reflexivity. }
  assert (LAcomp : forall c, In c lA -> In c [n8; n; n1; n2; n3; n4; n5; n6; n7]).
  { intros c Hc. rewrite ElA in Hc. cbn [In] in Hc |- *. clear - Hc. tauto. }
  assert (Lcomp : forall c, In c [n8; n; n1; n2; n3; n4; n5; n6; n7] -> (c < S n8)%nat).
  { intros c Hc. cbn [In] in Hc. nlia. }
  (* one step down the layer: p is the single consumer of the internal node nn *)
  assert (Step : forall p nn es,
     edgesOf h1 p = es -> (p < S n8)%nat -> In p order -> In p lA -> In nn [n; n1; n2; n3; n4; n5; n6; n7] -> trackedOf h1 nn = true ->
     (exists e, In e es /\ fst e = nn) ->
     (forall c e, In c [n8; n; n1; n2; n3; n4; n5; n6; n7] -> c <> p -> In e (edgesOf h1 c) -> fst e <> nn) ->
     (forall e, In e es -> fst e = nn ->
        rule_y (snd e) = p /\ forall i, In i (rule_vals (snd e)) -> (i < S n8)%nat) ->
     gradOf H' p = gradOf hA' p ->
     gradOf H' nn = gradOf hA' nn /\ In nn order).
  { intros p nn es Ep Lp Po Pa Hnn Tnn (e0 & He0 & Hf0) Hsing Hloc Hgp.
    assert (Lnn : (n <= nn < n8)%nat) by (cbn [In] in Hnn; nlia).
    assert (Onn : In nn order).
    { rewrite <- Hf0. apply (ordered_in H order Hord p e0 Po); [rewrite EHall by exact Lp; rewrite Ep; exact He0|].
      rewrite Hf0, THall by nlia. exact Tnn. }
    split; [|exact Onn].
    pose proof (Racc nn Onn) as AccR. rewrite (Hint0 nn Hnn) in AccR.
    assert (Xr : (nn =? r)%nat = false) by (apply Nat.eqb_neq; nlia). rewrite Xr in AccR. cbn [app] in AccR.
    pose proof (AccA nn ltac:(rewrite TAall; exact Tnn)) as AccAn. rewrite (GAi nn Lnn) in AccAn.
    apply (single_grad_eq rd H H' hA hA' order lA p nn es); try assumption.
    - rewrite EHall by exact Lp. exact Ep.
    - rewrite EAall. exact Ep.
    - intros c e Hc Hne He X. assert (Hcc : In c [n8; n; n1; n2; n3; n4; n5; n6; n7]) by (apply (NE c e He); rewrite X; exact Hnn).
      apply (Hsing c e Hcc Hne); [rewrite <- EHall by (apply Lcomp; exact Hcc); exact He|exact X].
    - intros c e Hc Hne He X. apply (Hsing c e (LAcomp c Hc) Hne); [rewrite <- EAall; exact He|exact X].
    - intros e He Hf. destruct (Hloc e He Hf) as [Hy Hv]. split; [exact Hy|]. intros i Hi. apply Vag. apply Hv. exact Hi. }
  (* y: the auxiliary run leaves gy on y *)
  assert (G8 : gradOf H' n8 = gradOf hA' n8).
  { pose proof (AccA n8 ltac:(rewrite TAall; exact T8)) as A8. rewrite GAy in A8.
    rewrite contributions_none in A8; [cbn [accAll] in A8; congruence|].
    intros c e Hc He X. pose proof (wf_heap_edgesOf _ HwfA _ _ He). pose proof (Lcomp c (LAcomp c Hc)). nlia. }
  assert (P8 : In n8 lA) by (rewrite ElA; in_solve). assert (P6 : In n6 lA) by (rewrite ElA; in_solve).
  assert (P5 : In n5 lA) by (rewrite ElA; in_solve). assert (P4 : In n4 lA) by (rewrite ElA; in_solve).
  assert (P3 : In n3 lA) by (rewrite ElA; in_solve). assert (P2 : In n2 lA) by (rewrite ElA; in_solve).
  assert (P1 : In n1 lA) by (rewrite ElA; in_solve). assert (P0 : In n lA) by (rewrite ElA; in_solve).
  assert (P7 : In n7 lA) by (rewrite ElA; in_solve).
  destruct (Step n8 n6 _ E8 ltac:(nlia) Hin P8 ltac:(in_solve) T6) as [G6 O6];
    [exists (n6, RId n8); split; [in_solve|reflexivity]|fc_sing Sing|fc_loc|exact G8|].
  destruct (Step n8 n7 _ E8 ltac:(nlia) Hin P8 ltac:(in_solve) T7) as [G7 O7];
    [exists (n7, RId n8); split; [in_solve|reflexivity]|fc_sing Sing|fc_loc|exact G8|].
  destruct (Step n6 n5 _ E6 ltac:(nlia) O6 P6 ltac:(in_solve) T5) as [G5 O5];
    [exists (n5, RBroadcast n6 n5); split; [in_solve|reflexivity]|fc_sing Sing|fc_loc|exact G6|].
  destruct (Step n5 n4 _ E5 ltac:(nlia) O5 P5 ltac:(in_solve) T4) as [G4 O4];
    [exists (n4, RSumAlong n5 n4 2%Z); split; [in_solve|reflexivity]|fc_sing Sing|fc_loc|exact G5|].
  destruct (Step n4 n2 _ E4 ltac:(nlia) O4 P4 ltac:(in_solve) T2) as [G2 O2];
    [exists (n2, RMatMulA n4 n3); split; [in_solve|reflexivity]|fc_sing Sing|fc_loc|exact G4|].
  destruct (Step n2 n _ E2 ltac:(nlia) O2 P2 ltac:(in_solve) T0) as [G0 O0];
    [exists (n, RBroadcast n2 n); split; [in_solve|reflexivity]|fc_sing Sing|fc_loc|exact G2|].
  assert (TwH : trackedOf H w = true) by (rewrite THall by nlia; rewrite Told by exact Lw; exact Tw).
  assert (Ow : In w order).
  { apply (ordered_in H order Hord n (w, RReshape n w) O0); [rewrite EHall by nlia; rewrite E0; left; reflexivity|exact TwH]. }
  pose proof (Racc w Ow) as Accw. assert (Xw : (w =? r)%nat = false) by (apply Nat.eqb_neq; nlia).
  rewrite Xw in Accw. cbn [app] in Accw.
  pose proof (AccA w ltac:(rewrite TAall, Told by exact Lw; exact Tw)) as AccwA. rewrite GAw, GwA in AccwA.
  destruct (target_grad thr draw rd H H' hA hA' order lA [n8; n; n1; n2; n3; n4; n5; n6; n7] n w (RReshape n w) [O] gwA Hown Hnd O0 ltac:(in_solve))
    as (gw & Hgw & Dgw & Wgw & Fw);
    [intros c e Hc Hne He; rewrite EHall in He by (apply Lcomp; exact Hc); revert c e Hc Hne He; fc_sing Sing
    |exact P0|exact NDA
    |intros c e Hc Hne He; rewrite EAall in He; apply LAcomp in Hc; revert c e Hc Hne He; fc_sing Sing
    |rewrite EHall by nlia; exact E0|rewrite EAall; exact E0|reflexivity
    |intros i Hi; cbn [rule_vals In] in Hi; repeat (destruct Hi as [Hi|Hi]; [subst i; apply Vag; nlia|]); destruct Hi
    |exact G0|exact Accw|exact AccwA|exact WwA|exact DwA|exact Pw|exact Houtw|].
  assert (TbH : trackedOf H b = true) by (rewrite THall by nlia; rewrite Told by exact Lb; exact Tb).
  assert (Ob : In b order).
  { apply (ordered_in H order Hord n7 (b, RBroadcast n7 b) O7); [rewrite EHall by nlia; rewrite E7; left; reflexivity|exact TbH]. }
  pose proof (Racc b Ob) as Accb. assert (Xb : (b =? r)%nat = false) by (apply Nat.eqb_neq; nlia).
  rewrite Xb in Accb. cbn [app] in Accb.
  pose proof (AccA b ltac:(rewrite TAall, Told by exact Lb; exact Tb)) as AccbA. rewrite GAb, GbA in AccbA.
  destruct (target_grad thr draw rd H H' hA hA' order lA [n8; n; n1; n2; n3; n4; n5; n6; n7] n7 b (RBroadcast n7 b) [O] gbA Hown Hnd O7 ltac:(in_solve))
    as (gb & Hgb & Dgb & Wgb & Fb);
    [intros c e Hc Hne He; rewrite EHall in He by (apply Lcomp; exact Hc); revert c e Hc Hne He; fc_sing Sing
    |exact P7|exact NDA
    |intros c e Hc Hne He; rewrite EAall in He; apply LAcomp in Hc; revert c e Hc Hne He; fc_sing Sing
    |rewrite EHall by nlia; exact E7|rewrite EAall; exact E7|reflexivity
    |intros i Hi; cbn [rule_vals In] in Hi; repeat (destruct Hi as [Hi|Hi]; [subst i; apply Vag; nlia|]); destruct Hi
    |exact G7|exact Accb|exact AccbA|exact WbA|exact DbA|exact Pb|exact Houtb|].
  split; [|split].
  - exists gw. split; [exact Hgw|]. split; [exact Dgw|]. split; [exact Wgw|]. intros o Ho.
    rewrite (Fw [o]) by (repeat constructor; exact Ho). rewrite (FwA o Ho). cbn [GradFcP.prior].
    change out with (filter (fun c => negb (memb c [n8; n; n1; n2; n3; n4; n5; n6; n7])) order). ring.
  - exists gb. split; [exact Hgb|]. split; [exact Dgb|]. split; [exact Wgb|]. intros o Ho.
    rewrite (Fb [o]) by (repeat constructor; exact Ho). rewrite (FbA o Ho). cbn [GradFcP.prior].
    change out with (filter (fun c => negb (memb c [n8; n; n1; n2; n3; n4; n5; n6; n7])) order). ring.
  - intros Htx. destruct tx; [|discriminate Htx]. clear Htx. cbn iota in E1, E3.
    destruct HxA as (gxA & GxA & DxA & WxA & FxA). rewrite GAx in FxA.
    destruct (Step n4 n3 _ E4 ltac:(nlia) O4 P4 ltac:(in_solve) T3) as [G3 O3];
      [exists (n3, RMatMulB n4 n2); split; [in_solve|reflexivity]|fc_sing Sing|fc_loc|exact G4|].
    destruct (Step n3 n1 _ E3 ltac:(nlia) O3 P3 ltac:(in_solve) T1) as [G1 O1];
      [exists (n1, RBroadcast n3 n1); split; [in_solve|reflexivity]|fc_sing Sing|fc_loc|exact G3|].
    assert (TxH : trackedOf H x = true) by (rewrite THall by nlia; rewrite Told by exact Lx; exact (eq_sym Etx)).
    assert (Ox : In x order).
    { apply (ordered_in H order Hord n1 (x, RReshape n1 x) O1); [rewrite EHall by nlia; rewrite E1; left; reflexivity|exact TxH]. }
    pose proof (Racc x Ox) as Accx. assert (Xx : (x =? r)%nat = false) by (apply Nat.eqb_neq; nlia).
    rewrite Xx in Accx. cbn [app] in Accx.
    pose proof (AccA x ltac:(rewrite TAall, Told by exact Lx; exact (eq_sym Etx))) as AccxA. rewrite GAx, GxA in AccxA.
    destruct (target_grad thr draw rd H H' hA hA' order lA [n8; n; n1; n2; n3; n4; n5; n6; n7] n1 x (RReshape n1 x) [B; F] gxA Hown Hnd O1 ltac:(in_solve))
    as (gx & Hgx & Dgx & Wgx & Fx);
    [intros c e Hc Hne He; rewrite EHall in He by (apply Lcomp; exact Hc); revert c e Hc Hne He; fc_sing Sing
    |exact P1|exact NDA
    |intros c e Hc Hne He; rewrite EAall in He; apply LAcomp in Hc; revert c e Hc Hne He; fc_sing Sing
    |rewrite EHall by nlia; exact E1|rewrite EAall; exact E1|reflexivity
    |intros i Hi; cbn [rule_vals In] in Hi; repeat (destruct Hi as [Hi|Hi]; [subst i; apply Vag; nlia|]); destruct Hi
    |exact G1|exact Accx|exact AccxA|exact WxA|exact DxA|exact Px|exact Houtx|].
    exists gx. split; [exact Hgx|]. split; [exact Dgx|]. split; [exact Wgx|]. intros bi d Hbi Hd.
    rewrite (Fx [bi; d]) by (repeat constructor; assumption). rewrite (FxA bi d Hbi Hd). cbn [GradFcP.prior].
    change out with (filter (fun c => negb (memb c [n8; n; n1; n2; n3; n4; n5; n6; n7])) order). ring.
Qed.

End FcMain.

(* 5. examples *)
Module GradChainFcExamples.
Section Ex.
Variable draw : bool -> nat -> R.
Local Hint Extern 0 (Scalar R) => exact (R_scalar 0 draw) : typeclass_instances.
Notation heap := (@heap R).
Notation idseal := (fun (_ : option nat) (g : tensor R) => g).
Local Open Scope R_scope.

Ltac rlazy := lazy -[Rpow Rmult Rplus Rminus Rdiv Rinv Ropp tanh cosh exp IZR dec2R Rmax Rmin Rabs Rle_dec].
Ltac rlazy_in Hyp := lazy -[Rpow Rmult Rplus Rminus Rdiv Rinv Ropp tanh cosh exp IZR dec2R Rmax Rmin Rabs Rle_dec] in Hyp.

Tactic Notation "own_cases" integer(n) :=
  let c := fresh "c" in let nd := fresh "nd" in let e := fresh "e" in let Hn := fresh "Hn" in let He := fresh "He" in
  intros c nd e Hn He;
  do n (destruct c as [|c]; [rlazy_in Hn; inversion Hn; subst nd; cbn [nedges In] in He;
                             repeat (destruct He as [He|He]; [subst e; first [reflexivity | cbn [fst]; lia]|]); destruct He|]);
  destruct c; rlazy_in Hn; discriminate Hn.

Tactic Notation "noe_cases" integer(n) :=
  let c := fresh "c" in let e := fresh "e" in let He := fresh "He" in let Hi := fresh "Hi" in
  intros c e He Hi;
  do n (destruct c as [|c];
        [rlazy_in He;
         repeat (destruct He as [He|He];
                 [subst e; first [ solve [in_solve]
                                 | exfalso; cbn [fst In] in Hi; repeat (destruct Hi as [Hi|Hi]; [discriminate Hi|]); exact Hi ]|]);
         try (destruct He)|]);
  destruct c; rlazy_in He; destruct He.

(* FINDING: W, B, x tracked leaves 0, 1, 2; the layer's nodes 3..11, y = 11.  bp_topo's order visits b
   between the layer's nodes 10 and 9 and x between 4 and 5: the nine nodes are not a contiguous block
   and the decreasing order [rev (seq 3 9)] folded by [fc_backward] is not bp_topo's order. *)
Definition fh1 : heap := fst (fc_forward eh 0 1 [Some 2%nat] None).

Example fc_order_ex :
  topoOrder fh1 11 = [11; 10; 1; 9; 8; 7; 6; 4; 2; 5; 3; 0]%nat /\
  ~ exists pre post, topoOrder fh1 11 = pre ++ rev (seq 3 9) ++ post.
Proof.
  assert (E : topoOrder fh1 11 = [11; 10; 1; 9; 8; 7; 6; 4; 2; 5; 3; 0]%nat) by reflexivity.
  split; [exact E|]. rewrite E. intros (pre & post & X). cbn [seq rev app] in X.
  destruct pre as [|a pre]; cbn [app] in X; [discriminate X|].
  inversion X as [[Ha Hrest]]. clear X.
  assert (Hin : In 11%nat [10; 1; 9; 8; 7; 6; 4; 2; 5; 3; 0]%nat) by (rewrite Hrest; apply in_or_app; right; left; reflexivity).
  cbn [In] in Hin. repeat (destruct Hin as [Hin|Hin]; [discriminate Hin|]). exact Hin.
Qed.

(* NON-VACUITY: x = x0.Scale(2) is an interior node (3), the layer's nodes are 4..12 (y = 12), the root
   is r = y.Scale(3) (13).  Order: [13; 12; 11; 1; 10; 9; 8; 7; 5; 3; 2; 6; 4; 0]. *)
Definition fh0 : heap := fst (h_scale eh 2 2 (Some 3%nat)).
Definition fh2 : heap := fst (fc_forward fh0 0 1 [Some 3%nat] (Some 4%nat)).
Definition fH : heap := fst (h_scale fh2 12 3 (Some 5%nat)).
Definition fX : tensor R := mkT [2%nat; 2%nat] (Vec [Vec [Sc (2 * 1); Sc (2 * 5)]; Vec [Sc (2 * 2); Sc (2 * 7)]]).
Definition m22 (a b c d : R) : tensor R := mkT [2%nat; 2%nat] (Vec [Vec [Sc a; Sc b]; Vec [Sc c; Sc d]]).
Lemma wf_m22 a b c d : wf (m22 a b c d).
Proof. split; cbn; repeat constructor. Qed.

Lemma fh2_eq : fc_forward fh0 0 1 [Some 3%nat] (Some 4%nat) = (fh2, Ok 12%nat).
Proof. reflexivity. Qed.
Lemma fH_pref : prefS fh2 fH.
Proof. split; [rlazy; lia|]. intros i Hi. do 13 (destruct i as [|i]; [repeat split|]). rlazy_in Hi. lia. Qed.
(* every tracked method keeps [wf_heap] and [rules_own] (the okw lemmas of StepP); the three leaves have no edges *)
Lemma fH_hinv : StepP.hinv fH.
Proof.
  apply (proj2 (proj2 (StepP.okw_scale _ _ _ _))), (proj2 (proj2 (StepP.okw_fc_forward _ _ _ _ _))),
    (proj2 (proj2 (StepP.okw_scale _ _ _ _))).
  split; own_cases 3.
Qed.
Lemma fH_own : rules_own fH.
Proof. exact (proj2 fH_hinv). Qed.
Lemma fH_wf : wf_heap fH.
Proof. exact (proj1 fH_hinv). Qed.
Lemma fH_noe : no_outside_edge fH 12 [4; 5; 6; 7; 8; 9; 10; 11]%nat.
Proof. noe_cases 14. Qed.

Example fc_in_graph_ex :
  topoOrder fH 13 = [13; 12; 11; 1; 10; 9; 8; 7; 5; 3; 2; 6; 4; 0]%nat /\
  exists H' log gy gw gb gx,
    bp_topo RedSum idseal fH 13 = (H', log, Ok tt) /\ gradOf H' 12 = Some gy /\
    gradOf H' 0 = Some gw /\ gradOf H' 1 = Some gb /\ gradOf H' 3 = Some gx /\
    (forall bi o, (bi < 2)%nat -> (o < 2)%nat -> elt gy [bi; o] = 3) /\
    elt gw [0%nat] = 90 /\ elt gw [1%nat] = 90 /\ elt gb [0%nat] = 6 /\ elt gb [1%nat] = 6 /\
    elt gx [0%nat; 0%nat] = 15 /\ elt gx [1%nat; 1%nat] = 15.
Proof.
  split; [reflexivity|].
  destruct (bp_topo RedSum idseal fH 13) as [[H' lg] r] eqn:E.
  assert (Er : r = Ok tt) by (change r with (snd (H', lg, r)); rewrite <- E; vm_compute; reflexivity). subst r.
  assert (Eg : exists a b c d, gradOf H' 12 = Some (m22 (3 * Rpow a (dec2R 0 0)) (3 * Rpow b (dec2R 0 0))
                                                       (3 * Rpow c (dec2R 0 0)) (3 * Rpow d (dec2R 0 0)))).
  { change H' with (fst (fst (H', lg, Ok tt))). rewrite <- E. rlazy. do 4 eexists. reflexivity. }
  destruct Eg as (ga & gb0 & gc & gd & Eg).
  set (gy := m22 (3 * Rpow ga (dec2R 0 0)) (3 * Rpow gb0 (dec2R 0 0)) (3 * Rpow gc (dec2R 0 0)) (3 * Rpow gd (dec2R 0 0))) in *.
  destruct (fc_backward_in_graph 0 draw RedSum fh0 fh2 fH H' 0 1 3 (Some 4%nat) eW eB fX 2 2 2 12 13 lg gy)
    as (_ & (gw & Hgw & _ & _ & Fw) & (gb & Hgb & _ & _ & Fb) & Hx);
    [reflexivity|reflexivity|reflexivity|apply wf_eW|apply wf_eB|apply wf_m22|reflexivity|reflexivity|reflexivity
    |reflexivity|reflexivity|reflexivity|reflexivity|reflexivity|lia|exact fh2_eq|apply fH_pref|apply fH_own|apply fH_wf
    |apply fH_noe|rlazy; auto 20| |exact I|exact I|exact I|exact E|exact Eg|apply wf_m22|reflexivity| | | |].
  - intros c Hc. cbn [In length eh fh0] in Hc. repeat (destruct Hc as [Hc|Hc]; [subst c; reflexivity|]). destruct Hc.
  - intros g Hg. exfalso. rlazy_in Hg. exact Hg.
  - intros g Hg. exfalso. rlazy_in Hg. exact Hg.
  - intros g Hg. exfalso. rlazy_in Hg. exact Hg.
  - destruct (Hx eq_refl) as (gx & Hgx & _ & _ & Fx).
    assert (Y : forall bi o, (bi < 2)%nat -> (o < 2)%nat -> elt gy [bi; o] = 3).
    { intros bi o Hb Ho. destruct bi as [|[|bi]]; [| |lia]; (destruct o as [|[|o]]; [| |lia]);
        unfold gy; cbn; rewrite dec2R_0, Rpow_0; ring. }
    exists H', lg, gy, gw, gb, gx. split; [reflexivity|]. split; [exact Eg|]. split; [exact Hgw|]. split; [exact Hgb|].
    split; [exact Hgx|]. split; [exact Y|].
    match type of Fw with context [contributions RedSum H' fH ?o 0%nat] =>
      assert (Cw : contributions RedSum H' fH o 0%nat = []) by (rlazy; reflexivity) end.
    match type of Fb with context [contributions RedSum H' fH ?o 1%nat] =>
      assert (Cb : contributions RedSum H' fH o 1%nat = []) by (rlazy; reflexivity) end.
    match type of Fx with context [contributions RedSum H' fH ?o 3%nat] =>
      assert (Cx : contributions RedSum H' fH o 3%nat = []) by (rlazy; reflexivity) end.
    assert (G0 : gradOf fH 0 = None) by reflexivity. assert (G1 : gradOf fH 1 = None) by reflexivity.
    assert (G3 : gradOf fH 3 = None) by reflexivity.
    repeat split.
    + rewrite (Fw 0%nat) by lia. rewrite Cw, G0. unfold SumN, ReduceRP.Rsum. cbn [map seq fold_right].
      rewrite !Y by lia. cbn. unfold rdc. ring.
    + rewrite (Fw 1%nat) by lia. rewrite Cw, G0. unfold SumN, ReduceRP.Rsum. cbn [map seq fold_right].
      rewrite !Y by lia. cbn. unfold rdc. ring.
    + rewrite (Fb 0%nat) by lia. rewrite Cb, G1. unfold SumN, ReduceRP.Rsum. cbn [map seq fold_right].
      rewrite !Y by lia. cbn. unfold rdc. ring.
    + rewrite (Fb 1%nat) by lia. rewrite Cb, G1. unfold SumN, ReduceRP.Rsum. cbn [map seq fold_right].
      rewrite !Y by lia. cbn. unfold rdc. ring.
    + rewrite (Fx 0%nat 0%nat) by lia. rewrite Cx, G3. unfold SumN, ReduceRP.Rsum. cbn [map seq fold_right].
      rewrite !Y by lia. cbn. ring.
    + rewrite (Fx 1%nat 1%nat) by lia. rewrite Cx, G3. unfold SumN, ReduceRP.Rsum. cbn [map seq fold_right].
      rewrite !Y by lia. cbn. ring.
Qed.

End Ex.
End GradChainFcExamples.

Print Assumptions single_grad_eq.
Print Assumptions contributions_single.
Print Assumptions fc_heap_obs.
Print Assumptions target_grad.
Print Assumptions fc_backward_in_graph.
Print Assumptions GradChainFcExamples.fc_order_ex.
Print Assumptions GradChainFcExamples.fc_in_graph_ex.
