(* GradChainP.v — property C15 IN A GRAPH: back-propagation through an activation whose input is a
   tracked leaf or the output of earlier tracked operations and whose output is consumed by an
   ARBITRARY deeper graph.  Closes the two gaps left by GradActP.v / GradSoftmaxP.v.

   GAP 1 (later nodes).  [prefS h1 H]: the heap H has, on its first [length h1] positions, the
     structure of the heap h1 returned by the component; anything may follow.  [eval_rule_local]: a
     rule only reads the values of the nodes it mentions ([rule_vals]) and the gradient of its owner.
     [trunc_fold]/[trunc_transfer] (generic): folding [process_node] over nodes < L whose rules only
     mention ids < L commutes with truncating the heap to its first L nodes; so every fold-based
     component theorem on [firstn (length h1) H] is one on H ([trunc_run]: with the gradients of H
     as hypotheses and the untouched gradients carried over).  [tanh_grad_ext], [relu_grad_ext],
     [leaky_grad_ext], [sigmoid_grad_ext], [softmax_grad_ext]: the fold-based theorems with [prefS]
     in place of [sameS].
   GAP 2 (order).  [dfs_find]/[topo_find]: if y occurs in [topoOrder H r], the order is
     [pre ++ snd (dfs f H y (V, R))] for a state (V, R) in which neither y nor any internal node of the
     component has been visited (internal nodes are reachable only through the component:
     [no_outside_edge]; [*_noe]: true when no later node points at an internal node).
     What the search below y posts is a finite fact about the component's edge lists: each component is
     described by a table of edge targets ([tab_at], [comp_at]; [tanh_table] ... [softmax_table], the
     one place where the component's structure lemma is opened) on which the evaluator [ldfs] of GradLossP.v runs the search ([ldfs_below]: the search posts
     [y :: internals (fixed order) ++ rest] whether or not x was already visited).  Hence
     [block_of_table] and [tanh_block] ... [softmax_block]: [topo_block H r x y ints], i.e.
     [topoOrder H r = pre ++ (y :: ints) ++ post], no node of the block in pre/post, x not in pre,
     every consumer of y in pre.
   IN-GRAPH THEOREMS.  [bp_fold_seg]: [bp_fold_spec] for a SEGMENT of the order.  [comp_in_graph]
     (generic glue: bp_topo = fold over pre, over the block, over post) and [tanh_grad_in_graph],
     [relu_grad_in_graph], [leaky_grad_in_graph], [sigmoid_grad_in_graph], [softmax_grad_in_graph]:
     for any heap H extending the component's heap ([prefS], [no_outside_edge], [rules_own],
     [wf_heap]), any root r with y in its order and [bp_topo rd idseal H r = (H', log, Ok tt)], the
     internal nodes holding no gradient in H and x an arbitrary well-shaped prior: with gy the FINAL
     gradient of y (assumed well formed, of x's shape — as are the contributions of x's other
     consumers; these theorems do not draw on the shape invariant of the rules, which TrainP.v
     proves later as [bp_sinv]),
       elt gx i = prior (gradOf H x) i
                  + sumC (contributions rd H' H (outsideOf H r y ints) x) i
                  + elt gy i * <derivative factor>
     where the middle term is the element-wise sum of the contributions of the consumers of x
     OUTSIDE the component, each evaluated in the final heap H'.
   EXAMPLES (non-vacuity): w leaf, x = w.Scale(2) interior, y = Tanh/Relu/Sigmoid(x), root
     r = y.Scale(3); and a Tanh whose input x has a second consumer created after the component. *)
From Coq Require Import List Arith ZArith Bool Lia Reals Lra.
From Coquelicot Require Import Coquelicot.
From Qeep Require Import Model.Scalar Model.Nd Model.Fill Model.Data Model.Valid Model.Api Model.Grad
  Model.Backprop Model.Components.
From Qeep Require Import Proofs.NdP Proofs.ElemP Proofs.ReshapeP Proofs.BroadcastP Proofs.ReduceP Proofs.ArithP
  Proofs.OdometerP Proofs.TrackP Proofs.CompP Proofs.BackpropP Proofs.SoftmaxP.
From Qeep Require Import Spec.RScalar Spec.ScalarDeriv Spec.VjpSpec Proofs.VjpElemP Proofs.VjpGatherP Proofs.VjpReduceP
  Proofs.ReduceRP Proofs.GradLossP Proofs.GradActP Proofs.GradSoftmaxP.
From Qeep Require Proofs.StepP.
Import ListNotations.
Local Open Scope nat_scope.

Lemma nth_error_firstn_lt {X} (l : list X) : forall n i, i < n -> nth_error (firstn n l) i = nth_error l i.
Proof.
  induction l as [|a l IH]; intros n i Hi.
  - rewrite firstn_nil. reflexivity.
  - destruct n as [|n]; [lia|]. destruct i as [|i]; cbn [firstn nth_error]; [reflexivity|]. apply IH. lia.
Qed.

Lemma nth_error_firstn_ge {X} (l : list X) n i : n <= i -> nth_error (firstn n l) i = None.
Proof. intros Hi. apply nth_error_None. pose proof (firstn_le_length n l). lia. Qed.

Lemma NoDup_app_inv {X} (l1 l2 : list X) :
  NoDup (l1 ++ l2) -> NoDup l1 /\ NoDup l2 /\ forall a, In a l1 -> In a l2 -> False.
Proof.
  induction l1 as [|b l1 IH]; cbn [app]; intros Hn; [split; [constructor|split; [exact Hn|intros a []]]|].
  apply NoDup_cons_iff in Hn. destruct Hn as [Hb Hn]. destruct (IH Hn) as (N1 & N2 & D).
  split; [constructor; [intros X0; apply Hb, in_or_app; left; exact X0|exact N1]|]. split; [exact N2|].
  intros a [->|H1] H2; [apply Hb, in_or_app; right; exact H2|exact (D a H1 H2)].
Qed.

Section Gen.
Context {A : Type} {SA : Scalar A}.
Notation T := (tensor A).
Notation heap := (@heap A).
Notation rule := (@rule A).
Notation node := (@node A).
Notation idseal := (fun (_ : option nat) (g : T) => g).

(* the nodes whose VALUE the rule reads *)
Definition rule_vals (r : rule) : list nat :=
  match r with
  | RConcat _ _ => [] | RSliceX _ x _ => [x] | RPatchX _ p _ => [p] | RPatchP _ p _ => [p]
  | RTranspose _ => [] | RReshape _ x => [x] | RBroadcast y x => [x; y]
  | RSumAlong _ x _ => [x] | RExtAlong y x _ => [x; y] | RAvgAlong _ x _ => [x]
  | RVarAlong _ x _ => [x] | RStdAlong y x _ => [x; y]
  | RScale _ _ => [] | RPow _ x _ _ => [x] | RExp y => [y] | RLog _ x => [x]
  | RSin _ x => [x] | RCos _ x => [x] | RTan _ x => [x]
  | RSinh _ x => [x] | RCosh _ x => [x] | RTanh _ x => [x]
  | RElSel y a b => [y; a; b] | RId _ => [] | RNeg _ => [] | RMul _ o => [o]
  | RDivA _ b => [b] | RDivB _ a b => [a; b] | RDot y o => [y; o]
  | RMatMulA _ b => [b] | RMatMulB _ a => [a]
  end.

Lemma eval_rule_local rd (h1 h2 : heap) (r : rule) :
  (forall i, In i (rule_vals r) -> valOf h1 i = valOf h2 i) ->
  gradOf h1 (rule_y r) = gradOf h2 (rule_y r) ->
  eval_rule rd h1 r = eval_rule rd h2 r.
Proof.
  intros Hv Hg. destruct r; cbn [rule_y rule_vals] in Hv, Hg; unfold eval_rule, gy_of, val_of; rewrite ?Hg;
    try rewrite (Hv _ (or_introl eq_refl));
    try rewrite (Hv _ (or_intror (or_introl eq_refl)));
    try rewrite (Hv _ (or_intror (or_intror (or_introl eq_refl))));
    reflexivity.
Qed.

(* H has, on its first [length h1] positions, the structure of h1 *)
Definition prefS (h1 H : heap) : Prop :=
  length h1 <= length H /\
  forall i, i < length h1 -> valOf h1 i = valOf H i /\ trackedOf h1 i = trackedOf H i /\ edgesOf h1 i = edgesOf H i.

Lemma prefS_sameS (h1 H H2 : heap) : prefS h1 H -> sameS H H2 -> prefS h1 H2.
Proof.
  intros [L P] [L2 S]. split; [lia|]. intros i Hi. destruct (P i Hi) as (a & b & c). destruct (S i) as (a2 & b2 & c2).
  repeat split; congruence.
Qed.

Lemma prefS_of_sameS (h1 H : heap) : sameS h1 H -> prefS h1 H.
Proof. intros [L S]. split; [lia|]. intros i _. apply S. Qed.

Lemma prefS_app (h1 more : heap) : prefS h1 (h1 ++ more).
Proof.
  split; [rewrite app_length; lia|]. intros i Hi. unfold valOf, trackedOf, edgesOf. rewrite nth_error_app1 by exact Hi.
  repeat split.
Qed.

(* hh and hT agree on the first L positions, hT has nothing else *)
Definition agreeL (L : nat) (hh hT : heap) : Prop :=
  length hT = L /\ L <= length hh /\ forall i, i < L -> nth_error hh i = nth_error hT i.

Lemma agreeL_firstn L (hh : heap) : L <= length hh -> agreeL L hh (firstn L hh).
Proof.
  intros HL. split; [apply firstn_length_le; exact HL|]. split; [exact HL|].
  intros i Hi. symmetry. apply nth_error_firstn_lt. exact Hi.
Qed.

Lemma agreeL_setGrad L (hh hT : heap) c g : agreeL L hh hT -> c < L -> agreeL L (setGrad hh c g) (setGrad hT c g).
Proof.
  intros (L1 & L2 & Hn) Hc. split; [rewrite length_setGrad; exact L1|]. split; [rewrite length_setGrad; exact L2|].
  intros i Hi. rewrite !nth_error_setGrad, (Hn i Hi). reflexivity.
Qed.

Lemma setGrad_beyond (hh : heap) c g i : c <> i -> nth_error (setGrad hh c g) i = nth_error hh i.
Proof.
  intros Hne. rewrite nth_error_setGrad. destruct (nth_error hh i) as [n|]; [|reflexivity].
  assert (E : (i =? c) = false) by (apply Nat.eqb_neq; lia). rewrite E. reflexivity.
Qed.

Lemma agreeL_val L (hh hT : heap) i : agreeL L hh hT -> i < L -> valOf hh i = valOf hT i.
Proof. intros (_ & _ & Hn) Hi. unfold valOf. rewrite (Hn i Hi). reflexivity. Qed.
Lemma agreeL_grad L (hh hT : heap) i : agreeL L hh hT -> i < L -> gradOf hh i = gradOf hT i.
Proof. intros (_ & _ & Hn) Hi. unfold gradOf. rewrite (Hn i Hi). reflexivity. Qed.
Lemma agreeL_trk L (hh hT : heap) i : agreeL L hh hT -> i < L -> trackedOf hh i = trackedOf hT i.
Proof. intros (_ & _ & Hn) Hi. unfold trackedOf. rewrite (Hn i Hi). reflexivity. Qed.
Lemma agreeL_edges L (hh hT : heap) i : agreeL L hh hT -> i < L -> edgesOf hh i = edgesOf hT i.
Proof. intros (_ & _ & Hn) Hi. unfold edgesOf. rewrite (Hn i Hi). reflexivity. Qed.

(* the truncation of a heap extending h1 has exactly the structure of h1 *)
Lemma prefS_firstn (h1 H : heap) : prefS h1 H -> sameS h1 (firstn (length h1) H).
Proof.
  intros [L P]. split; [symmetry; apply firstn_length_le; exact L|]. intros i.
  destruct (Nat.lt_ge_cases i (length h1)) as [Hi|Hi].
  - destruct (P i Hi) as (a & b & c). unfold valOf, trackedOf, edgesOf in *. rewrite nth_error_firstn_lt by exact Hi. auto.
  - unfold valOf, trackedOf, edgesOf. rewrite nth_error_firstn_ge by exact Hi.
    assert (E : nth_error h1 i = None) by (apply nth_error_None; exact Hi). rewrite E. auto.
Qed.

Lemma gradOf_firstn_lt (H : heap) L i : i < L -> gradOf (firstn L H) i = gradOf H i.
Proof. intros Hi. unfold gradOf. rewrite nth_error_firstn_lt by exact Hi. reflexivity. Qed.
Lemma gradOf_firstn_ge (H : heap) L i : L <= i -> gradOf (firstn L H) i = None.
Proof. intros Hi. unfold gradOf. rewrite nth_error_firstn_ge by exact Hi. reflexivity. Qed.

(* an edge of a node below L that only mentions nodes below L *)
Definition edge_local (L : nat) (e : nat * rule) : Prop :=
  fst e < L /\ rule_y (snd e) < L /\ forall i, In i (rule_vals (snd e)) -> i < L.

(* the nodes of l lie in h1 and their edges only mention nodes of h1 *)
Definition nodes_local (h1 : heap) (l : list nat) : Prop :=
  forall c, In c l -> c < length h1 /\ forall e, In e (edgesOf h1 c) -> edge_local (length h1) e.

Section Trunc.
Variable rd : bred.
Variable L : nat.

Lemma trunc_edge c (hh hT : heap) r0 e hT' r :
  agreeL L hh hT -> edge_local L e ->
  process_edge rd c (hT, r0) e = (hT', r) ->
  exists hh', process_edge rd c (hh, r0) e = (hh', r) /\ agreeL L hh' hT' /\
              (forall i, L <= i -> nth_error hh' i = nth_error hh i).
Proof.
  intros Ag (Hf & Hy & Hv) E. cbn [process_edge] in E |- *.
  destruct r0 as [u| |]; [|inversion E; subst; exists hh; auto|inversion E; subst; exists hh; auto].
  rewrite (agreeL_trk L hh hT _ Ag Hf).
  destruct (trackedOf hT (fst e)); [|inversion E; subst; exists hh; auto].
  assert (Eev : eval_rule rd hh (snd e) = eval_rule rd hT (snd e)).
  { apply eval_rule_local; [intros i Hi; apply (agreeL_val L); [exact Ag|apply Hv; exact Hi]|apply (agreeL_grad L); assumption]. }
  rewrite Eev. destruct (eval_rule rd hT (snd e)) as [g| |]; [|inversion E; subst; exists hh; auto|inversion E; subst; exists hh; auto].
  unfold accumulate in E |- *. rewrite (agreeL_grad L hh hT _ Ag Hf).
  assert (Hne : forall i, L <= i -> fst e <> i) by (intros i Hi; lia).
  destruct (gradOf hT (fst e)) as [g0|].
  - destruct (v_arith BiAdd g0 g) as [s| |]; inversion E; subst; try (exists hh; auto; fail).
    eexists. split; [reflexivity|]. split; [apply agreeL_setGrad; assumption|].
    intros i Hi. apply setGrad_beyond. apply Hne. exact Hi.
  - inversion E; subst. eexists. split; [reflexivity|]. split; [apply agreeL_setGrad; assumption|].
    intros i Hi. apply setGrad_beyond. apply Hne. exact Hi.
Qed.

Lemma trunc_edges c es : forall (hh hT : heap) r0 hT' r,
  agreeL L hh hT -> (forall e, In e es -> edge_local L e) ->
  fold_left (process_edge rd c) es (hT, r0) = (hT', r) ->
  exists hh', fold_left (process_edge rd c) es (hh, r0) = (hh', r) /\ agreeL L hh' hT' /\
              (forall i, L <= i -> nth_error hh' i = nth_error hh i).
Proof.
  induction es as [|e es IH]; intros hh hT r0 hT' r Ag Hl E.
  - cbn [fold_left] in E |- *. inversion E; subst. exists hh. auto.
  - cbn [fold_left] in E |- *. destruct (process_edge rd c (hT, r0) e) as [hT1 r1] eqn:E1.
    destruct (trunc_edge c hh hT r0 e hT1 r1 Ag (Hl e (or_introl eq_refl)) E1) as (hh1 & F1 & Ag1 & B1).
    rewrite F1. destruct (IH hh1 hT1 r1 hT' r Ag1 (fun e0 H0 => Hl e0 (or_intror H0)) E) as (hh' & F & Ag' & B).
    exists hh'. split; [exact F|]. split; [exact Ag'|]. intros i Hi. rewrite (B i Hi). apply B1. exact Hi.
Qed.

Lemma trunc_node (hh hT : heap) log r0 c hT' log' r :
  agreeL L hh hT -> c < L -> (forall e, In e (edgesOf hT c) -> edge_local L e) ->
  process_node rd idseal (hT, log, r0) c = (hT', log', r) ->
  exists hh', process_node rd idseal (hh, log, r0) c = (hh', log', r) /\ agreeL L hh' hT' /\
              (forall i, L <= i -> nth_error hh' i = nth_error hh i).
Proof.
  intros Ag Hc Hl E. cbn [process_node] in E |- *.
  destruct r0 as [u| |]; [|inversion E; subst; exists hh; auto|inversion E; subst; exists hh; auto].
  rewrite (proj2 (proj2 Ag) c Hc). unfold edgesOf in Hl.
  destruct (nth_error hT c) as [nd|]; [|inversion E; subst; exists hh; auto].
  destruct (ngrad nd) as [g|]; [|inversion E; subst; exists hh; auto].
  destruct (fold_left (process_edge rd c) (nedges nd) (setGrad hT c (Some g), Ok tt)) as [hT2 r2] eqn:Ef.
  inversion E; subst hT2 log' r2. clear E.
  destruct (trunc_edges c (nedges nd) (setGrad hh c (Some g)) (setGrad hT c (Some g)) (Ok tt) hT' r) as (hh' & F & Ag' & B);
    [apply agreeL_setGrad; assumption|exact Hl|exact Ef|].
  exists hh'. rewrite F. split; [reflexivity|]. split; [exact Ag'|].
  intros i Hi. rewrite (B i Hi). apply setGrad_beyond. lia.
Qed.

(* process_node never changes the structure *)
Lemma pn_sameS (h : heap) log r0 c h' log' r :
  process_node rd idseal (h, log, r0) c = (h', log', r) -> sameS h h'.
Proof.
  intros E. apply (pn_inv rd h (length h) h log r0 c h' log' r); [|apply sameS_refl|exact E].
  intros e _ Ht X. apply tracked_lt in Ht. lia.
Qed.

Lemma fold_sameS l : forall (h : heap) log r0 h' log' r,
  fold_left (process_node rd idseal) l (h, log, r0) = (h', log', r) -> sameS h h'.
Proof.
  intros h log r0 h' log' r E. apply (fold_inv rd h (length h) l h log r0 h' log' r); [|apply sameS_refl|exact E].
  intros c e _ _ Ht X. apply tracked_lt in Ht. lia.
Qed.

Lemma trunc_fold (h0 : heap) l : forall (hh hT : heap) log r0 hT' log' r,
  agreeL L hh hT -> sameS h0 hT ->
  (forall c, In c l -> c < L /\ forall e, In e (edgesOf h0 c) -> edge_local L e) ->
  fold_left (process_node rd idseal) l (hT, log, r0) = (hT', log', r) ->
  exists hh', fold_left (process_node rd idseal) l (hh, log, r0) = (hh', log', r) /\ agreeL L hh' hT' /\
              (forall i, L <= i -> nth_error hh' i = nth_error hh i).
Proof.
  induction l as [|c l IH]; intros hh hT log r0 hT' log' r Ag HS Hl E.
  - cbn [fold_left] in E |- *. inversion E; subst. exists hh. auto.
  - cbn [fold_left] in E |- *. destruct (process_node rd idseal (hT, log, r0) c) as [[hT1 log1] r1] eqn:E1.
    destruct (Hl c (or_introl eq_refl)) as [Hc Hle].
    destruct (trunc_node hh hT log r0 c hT1 log1 r1 Ag Hc) as (hh1 & F1 & Ag1 & B1);
      [rewrite <- (sameS_edges _ _ HS); exact Hle|exact E1|].
    rewrite F1.
    destruct (IH hh1 hT1 log1 r1 hT' log' r Ag1) as (hh' & F & Ag' & B);
      [eapply sameS_trans; [exact HS|eapply pn_sameS; exact E1]|intros c0 H0; apply Hl; right; exact H0|exact E|].
    exists hh'. split; [exact F|]. split; [exact Ag'|]. intros i Hi. rewrite (B i Hi). apply B1. exact Hi.
Qed.

End Trunc.

(* gap 1: a fold over component nodes on the truncation of H is a fold on H *)
Theorem trunc_transfer rd (h1 H : heap) l log hT' log' r :
  prefS h1 H ->
  (forall c, In c l -> c < length h1 /\ forall e, In e (edgesOf h1 c) -> edge_local (length h1) e) ->
  fold_left (process_node rd idseal) l (firstn (length h1) H, log, Ok tt) = (hT', log', r) ->
  exists H', fold_left (process_node rd idseal) l (H, log, Ok tt) = (H', log', r) /\ sameS H H' /\
    (forall i, i < length h1 -> gradOf H' i = gradOf hT' i) /\
    (forall i, length h1 <= i -> gradOf H' i = gradOf H i).
Proof.
  intros P Hl E.
  destruct (trunc_fold rd (length h1) h1 l H (firstn (length h1) H) log (Ok tt) hT' log' r) as (H' & F & Ag & B);
    [apply agreeL_firstn; exact (proj1 P)|apply prefS_firstn; exact P|exact Hl|exact E|].
  exists H'. split; [exact F|]. split; [eapply fold_sameS; exact F|]. split.
  - intros i Hi. apply (agreeL_grad (length h1)); assumption.
  - intros i Hi. unfold gradOf. rewrite (B i Hi). reflexivity.
Qed.

(* the same, read from H: the truncation has the structure of h1 and the gradients of H; a gradient that the
   fold on the truncation leaves alone is left alone by the fold on H *)
Lemma trunc_run rd (h1 H : heap) l log :
  prefS h1 H -> nodes_local h1 l ->
  let hT := firstn (length h1) H in
  sameS h1 hT /\ (forall i, i < length h1 -> gradOf hT i = gradOf H i) /\
  forall hT' log' r, fold_left (process_node rd idseal) l (hT, log, Ok tt) = (hT', log', r) ->
    exists H', fold_left (process_node rd idseal) l (H, log, Ok tt) = (H', log', r) /\ sameS H H' /\
      (forall i, i < length h1 -> gradOf H' i = gradOf hT' i) /\
      (forall n, gradOf hT' n = gradOf hT n -> gradOf H' n = gradOf H n).
Proof.
  intros P Hl hT. split; [apply prefS_firstn; exact P|]. split; [intros i Hi; apply gradOf_firstn_lt; exact Hi|].
  intros hT' log' r E. destruct (trunc_transfer rd h1 H l log hT' log' r P Hl E) as (H' & F & S & Glo & Ghi).
  exists H'. split; [exact F|]. split; [exact S|]. split; [exact Glo|].
  intros n Hn. destruct (Nat.lt_ge_cases n (length h1)) as [Hi|Hi]; [|apply Ghi; exact Hi].
  rewrite (Glo n Hi), Hn. apply gradOf_firstn_lt. exact Hi.
Qed.

End Gen.

Section Order.
Context {A : Type} {SA : Scalar A}.
Notation T := (tensor A).
Notation heap := (@heap A).
Notation rule := (@rule A).
Notation idseal := (fun (_ : option nat) (g : T) => g).

Lemma ordered_app_r (h : heap) : forall l1 l2, ordered h (l1 ++ l2) -> ordered h l2.
Proof. induction l1 as [|a l1 IH]; intros l2 Ho; [exact Ho|]. cbn [app ordered] in Ho. apply IH. apply Ho. Qed.

(* in an ordered duplicate-free list no node of a later segment has a tracked edge into an earlier one *)
Lemma ord_split (h : heap) l1 l2 c e :
  NoDup (l1 ++ l2) -> ordered h (l1 ++ l2) -> In c l2 -> In e (edgesOf h c) -> trackedOf h (fst e) = true ->
  ~ In (fst e) l1.
Proof.
  intros Hn Ho Hc He Ht X. apply (proj2 (proj2 (NoDup_app_inv l1 l2 Hn)) (fst e) X).
  eapply ordered_in; [eapply ordered_app_r; exact Ho|exact Hc|exact He|exact Ht].
Qed.

(* no node of the rest has a tracked edge into the head: what [bp_fold_spec] really needs *)
Fixpoint noback (h : heap) (l : list nat) : Prop :=
  match l with
  | [] => True
  | c :: rest => (forall c' e, In c' rest -> In e (edgesOf h c') -> trackedOf h (fst e) = true -> fst e <> c) /\ noback h rest
  end.

Lemma noback_sameS (h1 h2 : heap) l : sameS h1 h2 -> noback h1 l -> noback h2 l.
Proof.
  intros HS. induction l as [|c l IH]; cbn [noback]; [trivial|]. intros [Hc Hl]. split; [|auto].
  intros c' e Hc' He Ht. rewrite <- (sameS_edges _ _ HS) in He. rewrite <- (sameS_trk _ _ HS) in Ht. eauto.
Qed.

Lemma noback_of_ordered (h : heap) : forall l, NoDup l -> ordered h l -> noback h l.
Proof.
  induction l as [|c l IH]; intros Hn Ho; cbn [noback]; [trivial|].
  apply NoDup_cons_iff in Hn. destruct Hn as [Hc Hn]. destruct Ho as [_ Ho]. split; [|apply IH; assumption].
  intros c' e Hc' He Ht X. apply Hc. rewrite <- X. eapply ordered_in; eauto.
Qed.

Lemma noback_app_r (h : heap) : forall l1 l2, noback h (l1 ++ l2) -> noback h l2.
Proof. induction l1 as [|a l1 IH]; intros l2 Hb; [exact Hb|]. cbn [app noback] in Hb. apply IH. apply Hb. Qed.

Lemma noback_app_l (h : heap) : forall l1 l2, noback h (l1 ++ l2) -> noback h l1.
Proof.
  induction l1 as [|a l1 IH]; intros l2 Hb; cbn [noback]; [trivial|]. cbn [app noback] in Hb. destruct Hb as [Ha Hb].
  split; [|eapply IH; exact Hb]. intros c' e Hc'. apply Ha. apply in_or_app. left. exact Hc'.
Qed.

Section Run.
Variable rd : bred.

Lemma fold_app_ok l1 l2 (h : heap) log h' log' :
  fold_left (process_node rd idseal) (l1 ++ l2) (h, log, Ok tt) = (h', log', Ok tt) ->
  exists h1 log1, fold_left (process_node rd idseal) l1 (h, log, Ok tt) = (h1, log1, Ok tt) /\
                  fold_left (process_node rd idseal) l2 (h1, log1, Ok tt) = (h', log', Ok tt).
Proof.
  rewrite fold_left_app. destruct (fold_left (process_node rd idseal) l1 (h, log, Ok tt)) as [[h1 log1] r1].
  intros E. destruct r1 as [[]| |].
  - exists h1, log1. auto.
  - rewrite pn_sticky in E by discriminate. inversion E.
  - rewrite pn_sticky in E by discriminate. inversion E.
Qed.

(* [bp_fold_spec] for a SEGMENT of the order: the targets of the segment's edges may lie outside it *)
Lemma bp_fold_seg l : forall (h : heap) log h' log',
  rules_own h -> wf_heap h -> NoDup l -> noback h l ->
  fold_left (process_node rd idseal) l (h, log, Ok tt) = (h', log', Ok tt) ->
  sameS h h' /\
  (forall n, trackedOf h n = true -> accAll (gradOf h n) (contributions rd h' h l n) = Some (gradOf h' n)) /\
  (forall n, trackedOf h n = false -> gradOf h' n = gradOf h n).
Proof.
  induction l as [|c l IH]; intros h log h' log' Hown Hwf Hnd Hnb E.
  - cbn [fold_left] in E. inversion E; subst h' log'. split; [apply sameS_refl|]. split; intros n _; reflexivity.
  - destruct (pn_fold_cons rd _ _ _ _ _ _ E) as (h1 & log1 & E1 & E2).
    destruct (process_node_spec rd _ _ _ _ _ Hown Hwf E1) as (NS & Nc & Nacc & Nun & _ & _).
    apply NoDup_cons_iff in Hnd. destruct Hnd as [Hnc Hnd']. destruct Hnb as [Hc Hnb'].
    assert (Hown1 : rules_own h1) by (eapply rules_own_sameS; eauto).
    assert (Hwf1 : wf_heap h1) by (eapply wf_heap_sameS; eauto).
    assert (Hnb1 : noback h1 l) by (eapply noback_sameS; eauto).
    destruct (IH h1 log1 h' log' Hown1 Hwf1 Hnd' Hnb1 E2) as (IS & Iacc & Iun). clear IH.
    assert (Hfin : gradOf h' c = gradOf h c).
    { rewrite <- Nc. destruct (trackedOf h1 c) eqn:Hct1; [|apply Iun; exact Hct1].
      assert (Hct : trackedOf h c = true) by (rewrite (sameS_trk _ _ NS); exact Hct1).
      specialize (Iacc c Hct1). unfold contributions in Iacc. rewrite flat_map_nil' in Iacc; [cbn [accAll] in Iacc; congruence|].
      intros c' Hc'. apply flat_map_nil'. intros e He. unfold contrib_e.
      destruct (fst e =? c) eqn:Ee; [|reflexivity]. apply Nat.eqb_eq in Ee. exfalso.
      apply (Hc c' e Hc'); [rewrite (sameS_edges _ _ NS); exact He|rewrite Ee; exact Hct|exact Ee]. }
    assert (HSf : sameS h h') by (eapply sameS_trans; eauto).
    assert (Hextc : forall n e, In e (edgesOf h c) -> contrib_e rd h' n e = contrib_e rd h n e).
    { intros n e He. apply contrib_e_ext; [intros i; symmetry; apply (sameS_val _ _ HSf)|].
      rewrite (rules_own_edgesOf _ Hown _ _ He). exact Hfin. }
    split; [exact HSf|]. split.
    + intros n Hn. unfold contributions. cbn [flat_map]. fold (contributions rd h' h l n).
      rewrite accAll_app. rewrite (flat_map_ext_in' _ _ _ (Hextc n)). rewrite (Nacc n Hn).
      rewrite (contributions_sameS rd h' h h1 l n NS). apply Iacc. rewrite <- (sameS_trk _ _ NS). exact Hn.
    + intros n Hn. rewrite Iun; [apply Nun; exact Hn|]. rewrite <- (sameS_trk _ _ NS). exact Hn.
Qed.

(* contributions evaluated in two heaps in which the consumers hold the same gradients *)
Lemma contributions_ext (hf1 hf2 hs : heap) l n :
  rules_own hs -> (forall i, valOf hf1 i = valOf hf2 i) -> (forall c, In c l -> gradOf hf1 c = gradOf hf2 c) ->
  contributions rd hf1 hs l n = contributions rd hf2 hs l n.
Proof.
  intros Hown Hv Hg. unfold contributions. apply flat_map_ext_in'. intros c Hc. apply flat_map_ext_in'. intros e He.
  apply contrib_e_ext; [exact Hv|]. rewrite (rules_own_edgesOf _ Hown _ _ He). apply Hg. exact Hc.
Qed.

Lemma contributions_app (hf hs : heap) l1 l2 n :
  contributions rd hf hs (l1 ++ l2) n = contributions rd hf hs l1 n ++ contributions rd hf hs l2 n.
Proof. unfold contributions. apply flat_map_app. Qed.

End Run.

Section Find.
Variable H : heap.
Hypothesis W : wf_heap H.
Variables (y : nat) (ints : list nat).

(* internal nodes are reachable only through the component *)
Definition no_outside_edge : Prop :=
  forall c e, In e (edgesOf H c) -> In (fst e) ints -> In c (y :: ints).
Hypothesis NE : no_outside_edge.

(* an internal node is visited only after y *)
Definition Iv (V : list nat) : Prop := forall n, In n ints -> In n V -> In y V.

Lemma dfs_mono fuel n st : incl (fst st) (fst (dfs fuel H n st)).
Proof.
  destruct (dfs_grow H W fuel n st) as (nv & nr & E & _). rewrite E. cbn [fst]. intros a Ha. apply in_or_app. right. exact Ha.
Qed.

Lemma dfs_snd_grow fuel n st : exists nr, snd (dfs fuel H n st) = nr ++ snd st.
Proof. destruct (dfs_grow H W fuel n st) as (nv & nr & E & _). rewrite E. exists nr. reflexivity. Qed.

Lemma dfs_fold_snd_grow fuel (es : list (nat * rule)) : forall s,
  exists nr, snd (fold_left (fun s e => dfs fuel H (fst e) s) es s) = nr ++ snd s.
Proof.
  induction es as [|e es IH]; intros s; cbn [fold_left]; [exists []; reflexivity|].
  destruct (IH (dfs fuel H (fst e) s)) as (nr2 & E2). destruct (dfs_snd_grow fuel (fst e) s) as (nr1 & E1).
  exists (nr2 ++ nr1). rewrite E2, E1, app_assoc. reflexivity.
Qed.

(* the invariant is kept, and FIRST VISIT: if y is posted during a call, the posted list is
   [pre ++ (what the call at y posts)] and that call starts from a state satisfying the invariant in which y
   is not visited *)
Lemma dfs_find fuel : forall n st,
  Iv (fst st) -> (In n ints -> In y (fst st)) ->
  Iv (fst (dfs fuel H n st)) /\
  (n < fuel -> In y (snd (dfs fuel H n st)) -> ~ In y (snd st) ->
   exists f V R pre, y < f /\ memb y V = false /\ trackedOf H y = true /\ Iv V /\
     snd (dfs fuel H n st) = pre ++ snd (dfs f H y (V, R))).
Proof.
  induction fuel as [|f IH]; intros n st HI Hn; [split; [exact HI|lia]|]. cbn [dfs].
  destruct (negb (trackedOf H n) || memb n (fst st)) eqn:Ec; [split; [exact HI|contradiction]|].
  apply orb_false_iff in Ec. destruct Ec as [Et Em]. apply negb_false_iff in Et. cbn [fst snd].
  assert (Hfold : forall (es : list (nat * rule)) s, (forall e, In e es -> In e (edgesOf H n)) ->
            Iv (fst s) -> In n (fst s) -> (In n ints -> In y (fst s)) ->
            Iv (fst (fold_left (fun s e => dfs f H (fst e) s) es s)) /\
            (n < S f -> In y (snd (fold_left (fun s e => dfs f H (fst e) s) es s)) -> ~ In y (snd s) ->
             exists f' V R pre, y < f' /\ memb y V = false /\ trackedOf H y = true /\ Iv V /\
               snd (fold_left (fun s e => dfs f H (fst e) s) es s) = pre ++ snd (dfs f' H y (V, R)))).
  { induction es as [|e es IHes]; intros s Hes HIs Hns Hys; cbn [fold_left]; [split; [exact HIs|contradiction]|].
    assert (Hpre : In (fst e) ints -> In y (fst s)).
    { intros Hi. destruct (NE n e (Hes e (or_introl eq_refl)) Hi) as [<-|Hni]; [exact Hns|apply Hys; exact Hni]. }
    destruct (IH (fst e) s HIs Hpre) as [I1 F1].
    destruct (IHes (dfs f H (fst e) s)) as [I2 F2];
      [intros e0 H0; apply Hes; right; exact H0|exact I1|apply dfs_mono; exact Hns
      |intros Hni; apply dfs_mono, Hys, Hni|].
    split; [exact I2|]. intros Hlt Hiny Hnoty.
    destruct (in_dec Nat.eq_dec y (snd (dfs f H (fst e) s))) as [Hy1|Hy1]; [|exact (F2 Hlt Hiny Hy1)].
    destruct F1 as (f' & V & R & pre & A1 & A2 & A3 & A4 & A5); [|exact Hy1|exact Hnoty|].
    { pose proof (wf_heap_edgesOf _ W _ _ (Hes e (or_introl eq_refl))). lia. }
    destruct (dfs_fold_snd_grow f es (dfs f H (fst e) s)) as (nr & Enr).
    exists f', V, R, (nr ++ pre). repeat (split; [assumption|]). rewrite Enr, A5, app_assoc. reflexivity. }
  destruct (Hfold (edgesOf H n) (n :: fst st, snd st)) as [I F];
    [intros e He; exact He
    |cbn [fst]; intros m Hm [<-|Hv]; [right; apply Hn; exact Hm|right; exact (HI m Hm Hv)]
    |left; reflexivity|intros Hni; right; apply Hn; exact Hni|].
  split; [exact I|]. intros Hlt Hin Hnot. destruct (Nat.eq_dec n y) as [->|Hny].
  - exists (S f), (fst st), (snd st), []. split; [exact Hlt|]. split; [exact Em|]. split; [exact Et|]. split; [exact HI|].
    cbn [app dfs fst snd]. rewrite Et, Em. reflexivity.
  - destruct Hin as [Hin|Hin]; [congruence|].
    destruct (F Hlt Hin Hnot) as (f' & V & R & pre & A1 & A2 & A3 & A4 & A5).
    exists f', V, R, (n :: pre). repeat (split; [assumption|]). rewrite A5. reflexivity.
Qed.

Hypothesis Hlow : forall n, In n ints -> n < y.

Theorem topo_find r : In y (topoOrder H r) ->
  exists f V R pre, y < f /\ ~ In y V /\ (forall n, In n ints -> ~ In n V) /\ trackedOf H y = true /\
    topoOrder H r = pre ++ snd (dfs f H y (V, R)).
Proof.
  intros Hin. unfold topoOrder in *.
  assert (Hyr : y <= r).
  { destruct (dfs_new H W (S r) r ([], [])) as (new & En & Hnew). rewrite En in Hin. cbn [snd] in Hin. rewrite app_nil_r in Hin.
    apply (Hnew y Hin). }
  destruct (dfs_find (S r) r ([], [])) as [_ F]; [intros n _ []|intros Hi; specialize (Hlow r Hi); lia|].
  destruct F as (f & V & R & pre & A1 & A2 & A3 & A4 & A5); [lia|exact Hin|intros []|].
  exists f, V, R, pre. split; [exact A1|]. assert (Hyv : ~ In y V) by (intros X; apply memb_in in X; congruence).
  split; [exact Hyv|]. split; [intros n Hn X; apply Hyv; apply (A4 n Hn X)|]. split; [exact A3|exact A5].
Qed.

End Find.

Definition topo_block (H : heap) (r x y : nat) (ints : list nat) : Prop :=
  exists pre post,
    topoOrder H r = pre ++ (y :: ints) ++ post /\
    (forall n, In n (y :: ints) -> ~ In n pre /\ ~ In n post) /\
    ~ In x pre /\
    (forall c e, In c (topoOrder H r) -> In e (edgesOf H c) -> fst e = y -> In c pre).

Lemma topo_block_intro (H : heap) r x y ints pre post cx ex :
  wf_heap H -> trackedOf H r = true ->
  topoOrder H r = pre ++ (y :: ints) ++ post ->
  In cx (y :: ints) -> In ex (edgesOf H cx) -> fst ex = x -> trackedOf H x = true ->
  topo_block H r x y ints.
Proof.
  intros W Hr E Hcx Hex Hfx Tx.
  destruct (topoOrder_facts H r W Hr) as (Hnd & Htr & Hord & _). cbv zeta in *. rewrite E in Hnd, Hord, Htr.
  exists pre, post. split; [exact E|]. split; [|split].
  - intros n Hn. split; intros X.
    + apply (proj2 (proj2 (NoDup_app_inv pre _ Hnd)) n X). apply in_or_app. left. exact Hn.
    + rewrite app_assoc in Hnd. apply (proj2 (proj2 (NoDup_app_inv _ post Hnd)) n); [apply in_or_app; right; exact Hn|exact X].
  - intros X. subst x. apply (ord_split H pre ((y :: ints) ++ post) cx ex Hnd Hord); [apply in_or_app; left; exact Hcx|exact Hex|exact Tx|exact X].
  - intros c e Hc He Hfe. rewrite E in Hc. apply in_app_or in Hc. destruct Hc as [Hc|Hc]; [exact Hc|exfalso].
    assert (Ty : trackedOf H y = true) by (apply Htr; apply in_or_app; right; left; reflexivity).
    destruct Hc as [<-|Hc].
    + pose proof (wf_heap_edgesOf _ W _ _ He). lia.
    + change (pre ++ (y :: ints) ++ post) with (pre ++ [y] ++ (ints ++ post)) in Hnd, Hord. rewrite app_assoc in Hnd, Hord.
      apply (ord_split H (pre ++ [y]) (ints ++ post) c e Hnd Hord Hc He); [rewrite Hfe; exact Ty|].
      rewrite Hfe. apply in_or_app. right. left. reflexivity.
Qed.

End Order.

(* [lia] on the arithmetic hypotheses only *)
Ltac nlia :=
  repeat match goal with
         | H : ?P |- _ =>
             lazymatch type of P with Prop => idtac end;
             lazymatch P with
             | @eq nat _ _ => fail | lt _ _ => fail | le _ _ => fail | not (@eq nat _ _) => fail
             | or _ _ => fail | and _ _ => fail | _ => idtac
             end; clear H
         end; lia.

Ltac in_solve :=
  repeat match goal with
         | Hyp : ?G |- ?G => exact Hyp
         | |- In _ (_ :: _) => first [left; reflexivity | right]
         | |- In _ (_ ++ _) => apply in_or_app; right
         end.

Section Blocks.
Context {A : Type} {SA : Scalar A}.
Notation T := (tensor A).
Notation heap := (@heap A).
Notation rule := (@rule A).

Lemma in_topo_tracked (H : heap) r y : In y (topoOrder H r) -> trackedOf H r = true.
Proof.
  intros Hin. destruct (trackedOf H r) eqn:E; [reflexivity|]. unfold topoOrder in Hin. cbn [dfs] in Hin.
  rewrite E in Hin. cbn [negb orb snd] in Hin. destruct Hin.
Qed.

Lemma block_of_dfs (H : heap) r x y ints cx (ex : nat * rule) :
  wf_heap H -> no_outside_edge H y ints -> (forall n, In n ints -> n < y) ->
  In y (topoOrder H r) -> In cx (y :: ints) -> In ex (edgesOf H cx) -> fst ex = x -> trackedOf H x = true ->
  (forall f V R, y < f -> ~ In y V -> (forall n, In n ints -> ~ In n V) ->
     exists V' rest, dfs f H y (V, R) = (V', (y :: ints) ++ rest ++ R)) ->
  topo_block H r x y ints.
Proof.
  intros W NE Hlow Hin Hcx Hex Hfx Tx Hdfs.
  destruct (topo_find H W y ints NE Hlow r Hin) as (f & V & R & pre & A1 & A2 & A3 & A4 & A5).
  destruct (Hdfs f V R A1 A2 A3) as (V' & rest & E). rewrite E in A5. cbn [snd] in A5.
  apply (topo_block_intro H r x y ints pre (rest ++ R) cx ex W (in_topo_tracked H r y Hin) A5 Hcx Hex Hfx Tx).
Qed.

(* The order below the output of a component is a finite fact about its edge lists: it is read off a
   table by the evaluator [ldfs] of GradLossP.v.  Row k of the table g gives the tracking flag and the
   edge targets of the node a + k of H; x is the one tracked node below a that edges may lead to. *)
Definition tab_at (H : heap) (a x : nat) (g : list (bool * list tgt)) : Prop :=
  forall k tr ts, nth_error g k = Some (tr, ts) ->
    trackedOf H (a + k) = tr /\ (tr = true -> Forall2 (conc H a x) ts (edgesOf H (a + k))).

(* a component appended at a whose one tracked input is x: described by g, and some node of g has an edge to x *)
Definition comp_at (H : heap) (a x : nat) (g : list (bool * list tgt)) : Prop :=
  x < a /\ trackedOf H x = true /\ tab_at H a x g /\
  exists j ex, j < length g /\ In ex (edgesOf H (a + j)) /\ fst ex = x.

(* the search below a + k, from any state in which no node of the table has been visited, posts what
   the evaluation posts and then whatever the search below x adds *)
Lemma ldfs_below (H : heap) a x g m k lv sx lr f V R :
  wf_heap H -> x < a -> trackedOf H x = true -> tab_at H a x g ->
  ldfs g m k ([], false, []) = Some (lv, sx, lr) -> a + k < f ->
  (forall j, j < length g -> ~ In (a + j) V) ->
  exists V' rest, dfs f H (a + k) (V, R) = (V', map (Nat.add a) lr ++ rest ++ R).
Proof.
  intros W Hxa Tx Hg E Hf Hn.
  destruct (ldfs_sound H W a x Hxa Tx g Hg R (memb x V) m f k _ _ [] V R Hf E) as (V' & nr & Rr & D & _ & _ & R3 & _).
  { split; [intros j Hj; apply memb_false, Hn, Hj|]. split; [discriminate|]. split; [reflexivity|].
    split; [split; reflexivity|]. split; [intros c []|]. split; [discriminate|]. split; [discriminate|]. intros c []. }
  exists V', nr. rewrite D, R3. reflexivity.
Qed.

Lemma offsets_below a k lr : forallb (fun j => j <? k) lr = true -> forall n, In n (map (Nat.add a) lr) -> n < a + k.
Proof.
  intros Hlow n Hn. apply in_map_iff in Hn as (j & <- & Hj).
  apply (proj1 (forallb_forall _ _) Hlow), Nat.ltb_lt in Hj. lia.
Qed.

(* k :: lr lists all of the first n rows *)
Lemma rows_in a n k lr : forallb (fun j => memb j (k :: lr)) (seq 0 n) = true ->
  forall j, j < n -> In (a + j) (a + k :: map (Nat.add a) lr).
Proof.
  intros Hall j Hj. apply (in_map (Nat.add a) (k :: lr)), memb_in, (proj1 (forallb_forall _ _) Hall), in_seq. lia.
Qed.

(* the component is the nodes a .. a + n - 1 and no later node has an edge to an internal node: then
   internal nodes are reachable only through the component *)
Lemma noe_of_rows (H : heap) a n k lr y ints L :
  wf_heap H -> forallb (fun j => memb j (k :: lr)) (seq 0 n) = true ->
  a + k = y -> map (Nat.add a) lr = ints -> L = a + n ->
  (forall c e, L <= c -> In e (edgesOf H c) -> ~ In (fst e) ints) ->
  no_outside_edge H y ints.
Proof.
  intros W Hall <- <- -> Hhi c e He Hi.
  destruct (Nat.lt_ge_cases c (a + n)) as [Hc|Hc]; [|exfalso; exact (Hhi c e Hc He Hi)].
  pose proof (wf_heap_edgesOf _ W _ _ He) as Hlt. apply in_map_iff in Hi as (j & Ej & _).
  replace c with (a + (c - a)) by lia. apply (rows_in a n k lr Hall). lia.
Qed.

(* the three evaluated facts: the search from row k posts k and then lr; these are all the rows; the
   offsets in lr are below k *)
Lemma block_of_table (H : heap) a x g r m k lv sx lr y ints :
  wf_heap H -> comp_at H a x g ->
  ldfs g m k ([], false, []) = Some (lv, sx, k :: lr) ->
  forallb (fun j => memb j (k :: lr)) (seq 0 (length g)) = true ->
  forallb (fun j => j <? k) lr = true ->
  a + k = y -> map (Nat.add a) lr = ints ->
  no_outside_edge H y ints -> In y (topoOrder H r) ->
  topo_block H r x y ints.
Proof.
  intros W (Hxa & Tx & Hg & j0 & ex & Hj0 & Hex & Hfx) E Hall Hlow <- <- NE Hin.
  pose proof (rows_in a _ k lr Hall) as Hrow.
  apply (block_of_dfs H r x (a + k) _ (a + j0) ex W NE (offsets_below a k lr Hlow) Hin (Hrow j0 Hj0) Hex Hfx Tx).
  intros f V R Hf Ny Ni. apply (ldfs_below H a x g m k lv sx (k :: lr) f V R W Hxa Tx Hg E Hf).
  intros j Hj X. destruct (Hrow j Hj) as [Ej|Hb]; [rewrite <- Ej in X; exact (Ny X)|exact (Ni _ Hb X)].
Qed.

Lemma prefS_node (h1 H : heap) i v es : prefS h1 H -> isNode h1 i v es ->
  valOf H i = Some v /\ trackedOf H i = true /\ edgesOf H i = es.
Proof. intros [_ P] (Hl & Hv & Ht & He & _). destruct (P i Hl) as (a & b & c). repeat split; congruence. Qed.

(* the input of a component appended to h is below its nodes and tracked in every heap extending it *)
Lemma prefS_input (h h1 H : heap) x : isOld h h1 -> prefS h1 H -> trackedOf h x = true ->
  x < length h /\ trackedOf H x = true.
Proof.
  intros [Lo Ho] [_ P] Tx. assert (Hx : x < length h) by (apply tracked_lt; exact Tx). split; [exact Hx|].
  destruct (P x ltac:(lia)) as (_ & b & _). unfold trackedOf in *. rewrite (Ho x Hx) in b. congruence.
Qed.

Lemma tab_row (h1 H : heap) a x i v es ts : prefS h1 H -> isNode h1 i v es -> Forall2 (conc H a x) ts es ->
  trackedOf H i = true /\ (true = true -> Forall2 (conc H a x) ts (edgesOf H i)).
Proof. intros P N F. destruct (prefS_node _ _ _ _ _ P N) as (_ & Ht & He). rewrite He. split; [exact Ht|intros _; exact F]. Qed.

(* an explicit edge only mentions nodes below L *)
Ltac elocal :=
  unfold edge_local; cbn [fst snd rule_y rule_vals]; split; [nlia|split; [nlia|]];
  let i := fresh "i" in let Hi := fresh "Hi" in
  intros i Hi; cbn [In] in Hi; repeat (destruct Hi as [Hi|Hi]; [subst i; nlia|]); destruct Hi.

(* the nodes c of an explicit list are below L and their (known) edges are local *)
Ltac local_cases :=
  let c := fresh "c" in let Hc := fresh "Hc" in let e := fresh "e" in let He := fresh "He" in
  intros c Hc; cbn [In] in Hc;
  repeat (destruct Hc as [Hc|Hc];
          [subst c; split; [nlia|];
           match goal with Eq : edgesOf ?h1 ?n = _ |- forall e0, In e0 (edgesOf ?h1 ?n) -> _ => rewrite Eq end;
           intros e He; cbn [In] in He; repeat (destruct He as [He|He]; [subst e; elocal|]); destruct He|]);
  destruct Hc.

(* the n rows of a table, each from the [isNode] hypothesis about its node in a prefix of H *)
Tactic Notation "tab_rows" integer(n) constr(P) :=
  let k := fresh "k" in let tr := fresh "tr" in let ts := fresh "ts" in let Ek := fresh "Ek" in
  intros k tr ts Ek;
  do n (destruct k as [|k];
        [cbn in Ek; inversion Ek; subst tr ts; rewrite ?Nat.add_0_r;
         eapply tab_row; [exact P|eassumption|repeat constructor; cbn; nlia]|]);
  destruct k; discriminate Ek.

Definition tanh_tab := [(true, [TIn])].
Definition relu_tab := [(true, [TIn]); (true, [TNew 0; TIn])].
(* LeakyRelu: z0 = a, s1 = a+1, s2 = a+2, s3 = a+3, b1 = a+4, b2 = a+5, y = a+6 *)
Definition leaky_tab :=
  [(true, [TIn]); (true, [TNew 0; TIn]); (true, [TNew 0; TIn]); (true, [TNew 2]); (true, [TNew 1]); (true, [TNew 3]);
   (true, [TNew 4; TNew 5])].
(* Sigmoid: one = a, nx = a+1, ex = a+2, b1 = a+3, b2 = a+4, y1 = a+5, y = a+6 *)
Definition sigmoid_tab :=
  [(true, [TIn]); (true, [TIn]); (true, [TNew 1]); (true, [TNew 0]); (true, [TNew 2]); (true, [TNew 3; TNew 4]);
   (true, [TNew 5])].
(* Softmax: ex = a, s = a+1, su = a+2, b1 = a+3, b2 = a+4, y = a+5 *)
Definition softmax_tab :=
  [(true, [TIn]); (true, [TNew 0]); (true, [TNew 1]); (true, [TNew 0]); (true, [TNew 2]); (true, [TNew 3; TNew 4])].

Lemma tanh_table (h h1 H : heap) x y name :
  tanh_forward h [Some x] name = (h1, Ok y) -> trackedOf h x = true -> dirtyOf h x = false -> prefS h1 H ->
  y = length h /\ length h1 = S (length h) /\ comp_at H (length h) x tanh_tab /\ nodes_local h1 [y].
Proof.
  intros E Tx Dx P.
  destruct (tanh_structure h x name h1 y E Tx Dx) as (xv & yv & _ & _ & Ey & L1 & Old & Ny). subst y.
  destruct (prefS_input _ _ _ x Old P Tx) as [Hxa TX].
  split; [reflexivity|]. split; [exact L1|]. split.
  - split; [exact Hxa|]. split; [exact TX|]. split; [tab_rows 1 P|].
    exists 0. eexists. destruct (prefS_node _ _ _ _ _ P Ny) as (_ & _ & E0).
    rewrite Nat.add_0_r, E0. split; [apply Nat.lt_0_1|]. split; [left|]; reflexivity.
  - destruct Ny as (_ & _ & _ & E0 & _). local_cases.
Qed.

Lemma relu_table (h h1 H : heap) x y name :
  relu_forward h [Some x] name = (h1, Ok y) -> trackedOf h x = true -> dirtyOf h x = false -> prefS h1 H ->
  let a := length h in
  y = a + 1 /\ length h1 = a + 2 /\ comp_at H a x relu_tab /\ nodes_local h1 [a + 1; a].
Proof.
  intros E Tx Dx P a.
  pose proof (relu_structure h x name h1 y E Tx Dx) as St. cbv zeta in St. fold a in St.
  destruct St as (xv & zv & yv & _ & _ & _ & Ey & L1 & Old & Nz & Ny).
  rewrite <- Nat.add_1_r in Ey. subst y.
  destruct (prefS_input _ _ _ x Old P Tx) as [Hxa TX]. fold a in Hxa.
  split; [reflexivity|]. split; [nlia|]. split.
  - split; [exact Hxa|]. split; [exact TX|]. split; [tab_rows 2 P|].
    exists 0. eexists. destruct (prefS_node _ _ _ _ _ P Nz) as (_ & _ & E0).
    rewrite Nat.add_0_r, E0. split; [apply Nat.lt_0_2|]. split; [left|]; reflexivity.
  - destruct Nz as (_ & _ & _ & E0 & _). destruct Ny as (_ & _ & _ & E1 & _). local_cases.
Qed.

Lemma leaky_table (h h1 H : heap) (m : A) x y name xv :
  leaky_forward h m [Some x] name = (h1, Ok y) ->
  valOf h x = Some xv -> wf xv -> trackedOf h x = true -> dirtyOf h x = false -> prefS h1 H ->
  let a := length h in
  y = a + 6 /\ length h1 = a + 7 /\ comp_at H a x leaky_tab /\
  nodes_local h1 [a + 6; a + 5; a + 3; a + 2; a + 4; a + 1; a].
Proof.
  intros E Hx Wx Tx Dx P a.
  pose proof (leaky_structure h m x name h1 y xv E Hx Wx Tx Dx) as St. cbv zeta in St. fold a in St.
  destruct St as (zv & p1v & p2v & p3v & yv & _ & _ & _ & _ & _ & Ey & L1 & Old & N0 & N1 & N2 & N3 & N4 & N5 & N6).
  subst y. destruct (prefS_input _ _ _ x Old P Tx) as [Hxa TX]. fold a in Hxa.
  split; [reflexivity|]. split; [exact L1|]. split.
  - split; [exact Hxa|]. split; [exact TX|]. split; [tab_rows 7 P|].
    exists 0. eexists. destruct (prefS_node _ _ _ _ _ P N0) as (_ & _ & E0).
    rewrite Nat.add_0_r, E0. split; [cbn; lia|]. split; [left|]; reflexivity.
  - destruct N0 as (_ & _ & _ & E0 & _). destruct N1 as (_ & _ & _ & E1 & _). destruct N2 as (_ & _ & _ & E2 & _).
    destruct N3 as (_ & _ & _ & E3 & _). destruct N4 as (_ & _ & _ & E4 & _). destruct N5 as (_ & _ & _ & E5 & _).
    destruct N6 as (_ & _ & _ & E6 & _). local_cases.
Qed.

Lemma sigmoid_table (h h1 H : heap) x y name xv :
  sigmoid_forward h [Some x] name = (h1, Ok y) ->
  valOf h x = Some xv -> wf xv -> trackedOf h x = true -> dirtyOf h x = false -> prefS h1 H ->
  let a := length h in
  y = a + 6 /\ length h1 = a + 7 /\ comp_at H a x sigmoid_tab /\
  nodes_local h1 [a + 6; a + 5; a + 4; a + 2; a + 1; a + 3; a].
Proof.
  intros E Hx Wx Tx Dx P a.
  pose proof (sigmoid_structure h x name h1 y xv E Hx Wx Tx Dx) as St. cbv zeta in St. fold a in St.
  destruct St as (onev & nxv & exv & y1v & yv & _ & _ & _ & _ & _ & Ey & L1 & Old & N0 & N1 & N2 & N3 & N4 & N5 & N6).
  subst y. destruct (prefS_input _ _ _ x Old P Tx) as [Hxa TX]. fold a in Hxa.
  split; [reflexivity|]. split; [exact L1|]. split.
  - split; [exact Hxa|]. split; [exact TX|]. split; [tab_rows 7 P|].
    exists 0. eexists. destruct (prefS_node _ _ _ _ _ P N0) as (_ & _ & E0).
    rewrite Nat.add_0_r, E0. split; [cbn; lia|]. split; [left|]; reflexivity.
  - destruct N0 as (_ & _ & _ & E0 & _). destruct N1 as (_ & _ & _ & E1 & _). destruct N2 as (_ & _ & _ & E2 & _).
    destruct N3 as (_ & _ & _ & E3 & _). destruct N4 as (_ & _ & _ & E4 & _). destruct N5 as (_ & _ & _ & E5 & _).
    destruct N6 as (_ & _ & _ & E6 & _). local_cases.
Qed.

Lemma softmax_table (h h1 H : heap) dim x y name xv :
  softmax_forward h dim [Some x] name = (h1, Ok y) ->
  valOf h x = Some xv -> wf xv -> trackedOf h x = true -> dirtyOf h x = false -> prefS h1 H ->
  let a := length h in
  y = a + 5 /\ length h1 = a + 6 /\ comp_at H a x softmax_tab /\
  nodes_local h1 [a + 5; a + 4; a + 2; a + 1; a + 3; a].
Proof.
  intros E Hx Wx Tx Dx P a.
  pose proof (softmax_structure h dim x name h1 y xv E Hx Wx Tx Dx) as St. cbv zeta in St. fold a in St.
  destruct St as (exv & sv & suv & subv & yv & _ & _ & _ & _ & _ & _ & Ey & L1 & Old & N0 & N1 & N2 & N3 & N4 & N5).
  subst y. destruct (prefS_input _ _ _ x Old P Tx) as [Hxa TX]. fold a in Hxa.
  split; [reflexivity|]. split; [exact L1|]. split.
  - split; [exact Hxa|]. split; [exact TX|]. split; [tab_rows 6 P|].
    exists 0. eexists. destruct (prefS_node _ _ _ _ _ P N0) as (_ & _ & E0).
    rewrite Nat.add_0_r, E0. split; [cbn; lia|]. split; [left|]; reflexivity.
  - destruct N0 as (_ & _ & _ & E0 & _). destruct N1 as (_ & _ & _ & E1 & _). destruct N2 as (_ & _ & _ & E2 & _).
    destruct N3 as (_ & _ & _ & E3 & _). destruct N4 as (_ & _ & _ & E4 & _). destruct N5 as (_ & _ & _ & E5 & _).
    local_cases.
Qed.

Theorem tanh_block (h h1 H : heap) x y name r :
  tanh_forward h [Some x] name = (h1, Ok y) -> trackedOf h x = true -> dirtyOf h x = false ->
  prefS h1 H -> wf_heap H -> In y (topoOrder H r) ->
  topo_block H r x y [].
Proof.
  intros E Tx Dx P W Hin. destruct (tanh_table h h1 H x y name E Tx Dx P) as (Ey & _ & C & _).
  apply (block_of_table H (length h) x tanh_tab r 1 0 _ _ [] y [] W C eq_refl eq_refl eq_refl);
    [rewrite Nat.add_0_r; symmetry; exact Ey|reflexivity|intros c e _ []|exact Hin].
Qed.

Theorem relu_block (h h1 H : heap) x y name r :
  relu_forward h [Some x] name = (h1, Ok y) -> trackedOf h x = true -> dirtyOf h x = false ->
  prefS h1 H -> wf_heap H -> no_outside_edge H y [length h] -> In y (topoOrder H r) ->
  topo_block H r x y [length h].
Proof.
  intros E Tx Dx P W NE Hin. destruct (relu_table h h1 H x y name E Tx Dx P) as (Ey & _ & C & _).
  apply (block_of_table H (length h) x relu_tab r 2 1 _ _ [0] y _ W C eq_refl eq_refl eq_refl);
    [symmetry; exact Ey|cbn [map]; rewrite Nat.add_0_r; reflexivity|exact NE|exact Hin].
Qed.

Theorem leaky_block (h h1 H : heap) (m : A) x y name xv r :
  leaky_forward h m [Some x] name = (h1, Ok y) ->
  valOf h x = Some xv -> wf xv -> trackedOf h x = true -> dirtyOf h x = false ->
  let a := length h in
  prefS h1 H -> wf_heap H -> no_outside_edge H y [a + 5; a + 3; a + 2; a + 4; a + 1; a] -> In y (topoOrder H r) ->
  topo_block H r x y [a + 5; a + 3; a + 2; a + 4; a + 1; a].
Proof.
  intros E Hx Wx Tx Dx a P W NE Hin. destruct (leaky_table h h1 H m x y name xv E Hx Wx Tx Dx P) as (Ey & _ & C & _).
  apply (block_of_table H a x leaky_tab r 7 6 _ _ [5; 3; 2; 4; 1; 0] y _ W C eq_refl eq_refl eq_refl);
    [symmetry; exact Ey|cbn [map]; rewrite Nat.add_0_r; reflexivity|exact NE|exact Hin].
Qed.

Theorem sigmoid_block (h h1 H : heap) x y name xv r :
  sigmoid_forward h [Some x] name = (h1, Ok y) ->
  valOf h x = Some xv -> wf xv -> trackedOf h x = true -> dirtyOf h x = false ->
  let a := length h in
  prefS h1 H -> wf_heap H -> no_outside_edge H y [a + 5; a + 4; a + 2; a + 1; a + 3; a] -> In y (topoOrder H r) ->
  topo_block H r x y [a + 5; a + 4; a + 2; a + 1; a + 3; a].
Proof.
  intros E Hx Wx Tx Dx a P W NE Hin. destruct (sigmoid_table h h1 H x y name xv E Hx Wx Tx Dx P) as (Ey & _ & C & _).
  apply (block_of_table H a x sigmoid_tab r 7 6 _ _ [5; 4; 2; 1; 3; 0] y _ W C eq_refl eq_refl eq_refl);
    [symmetry; exact Ey|cbn [map]; rewrite Nat.add_0_r; reflexivity|exact NE|exact Hin].
Qed.

Theorem softmax_block (h h1 H : heap) dim x y name xv r :
  softmax_forward h dim [Some x] name = (h1, Ok y) ->
  valOf h x = Some xv -> wf xv -> trackedOf h x = true -> dirtyOf h x = false ->
  let a := length h in
  prefS h1 H -> wf_heap H -> no_outside_edge H y [a + 4; a + 2; a + 1; a + 3; a] -> In y (topoOrder H r) ->
  topo_block H r x y [a + 4; a + 2; a + 1; a + 3; a].
Proof.
  intros E Hx Wx Tx Dx a P W NE Hin. destruct (softmax_table h h1 H dim x y name xv E Hx Wx Tx Dx P) as (Ey & _ & C & _).
  apply (block_of_table H a x softmax_tab r 6 5 _ _ [4; 2; 1; 3; 0] y _ W C eq_refl eq_refl eq_refl);
    [symmetry; exact Ey|cbn [map]; rewrite Nat.add_0_r; reflexivity|exact NE|exact Hin].
Qed.

(* [no_outside_edge] for heaps whose later nodes never point at an internal node *)
Lemma relu_noe (h h1 H : heap) x y name :
  relu_forward h [Some x] name = (h1, Ok y) -> trackedOf h x = true -> dirtyOf h x = false ->
  wf_heap H ->
  (forall c e, length h1 <= c -> In e (edgesOf H c) -> ~ In (fst e) [length h]) ->
  no_outside_edge H y [length h].
Proof.
  intros E Tx Dx W Hhi.
  destruct (relu_table h h1 h1 x y name E Tx Dx (prefS_of_sameS _ _ (sameS_refl _))) as (Ey & L1 & _).
  apply (noe_of_rows H (length h) 2 1 [0] y _ (length h1) W eq_refl);
    [symmetry; exact Ey|cbn [map]; rewrite Nat.add_0_r; reflexivity|exact L1|exact Hhi].
Qed.

Lemma leaky_noe (h h1 H : heap) (m : A) x y name xv :
  leaky_forward h m [Some x] name = (h1, Ok y) ->
  valOf h x = Some xv -> wf xv -> trackedOf h x = true -> dirtyOf h x = false ->
  let a := length h in
  wf_heap H ->
  (forall c e, length h1 <= c -> In e (edgesOf H c) -> ~ In (fst e) [a + 5; a + 3; a + 2; a + 4; a + 1; a]) ->
  no_outside_edge H y [a + 5; a + 3; a + 2; a + 4; a + 1; a].
Proof.
  intros E Hx Wx Tx Dx a W Hhi.
  destruct (leaky_table h h1 h1 m x y name xv E Hx Wx Tx Dx (prefS_of_sameS _ _ (sameS_refl _))) as (Ey & L1 & _).
  apply (noe_of_rows H a 7 6 [5; 3; 2; 4; 1; 0] y _ (length h1) W eq_refl);
    [symmetry; exact Ey|cbn [map]; rewrite Nat.add_0_r; reflexivity|exact L1|exact Hhi].
Qed.

Lemma sigmoid_noe (h h1 H : heap) x y name xv :
  sigmoid_forward h [Some x] name = (h1, Ok y) ->
  valOf h x = Some xv -> wf xv -> trackedOf h x = true -> dirtyOf h x = false ->
  let a := length h in
  wf_heap H ->
  (forall c e, length h1 <= c -> In e (edgesOf H c) -> ~ In (fst e) [a + 5; a + 4; a + 2; a + 1; a + 3; a]) ->
  no_outside_edge H y [a + 5; a + 4; a + 2; a + 1; a + 3; a].
Proof.
  intros E Hx Wx Tx Dx a W Hhi.
  destruct (sigmoid_table h h1 h1 x y name xv E Hx Wx Tx Dx (prefS_of_sameS _ _ (sameS_refl _))) as (Ey & L1 & _).
  apply (noe_of_rows H a 7 6 [5; 4; 2; 1; 3; 0] y _ (length h1) W eq_refl);
    [symmetry; exact Ey|cbn [map]; rewrite Nat.add_0_r; reflexivity|exact L1|exact Hhi].
Qed.

Lemma softmax_noe (h h1 H : heap) dim x y name xv :
  softmax_forward h dim [Some x] name = (h1, Ok y) ->
  valOf h x = Some xv -> wf xv -> trackedOf h x = true -> dirtyOf h x = false ->
  let a := length h in
  wf_heap H ->
  (forall c e, length h1 <= c -> In e (edgesOf H c) -> ~ In (fst e) [a + 4; a + 2; a + 1; a + 3; a]) ->
  no_outside_edge H y [a + 4; a + 2; a + 1; a + 3; a].
Proof.
  intros E Hx Wx Tx Dx a W Hhi.
  destruct (softmax_table h h1 h1 dim x y name xv E Hx Wx Tx Dx (prefS_of_sameS _ _ (sameS_refl _))) as (Ey & L1 & _).
  apply (noe_of_rows H a 6 5 [4; 2; 1; 3; 0] y _ (length h1) W eq_refl);
    [symmetry; exact Ey|cbn [map]; rewrite Nat.add_0_r; reflexivity|exact L1|exact Hhi].
Qed.

End Blocks.

Lemma filter_none {X} (f : X -> bool) l : (forall x, In x l -> f x = false) -> filter f l = [].
Proof.
  induction l as [|a l IH]; intros Hf; [reflexivity|]. cbn [filter]. rewrite (Hf a (or_introl eq_refl)).
  apply IH. intros x Hx. apply Hf. right. exact Hx.
Qed.

(* the nodes of the order outside the component *)
Definition outsideOf {A} (H : @heap A) (r y : nat) (ints : list nat) : list nat :=
  filter (fun c => negb (memb c (y :: ints))) (topoOrder H r).

Lemma outsideOf_block {A} (H : @heap A) r y ints pre post :
  topoOrder H r = pre ++ (y :: ints) ++ post ->
  (forall n, In n (y :: ints) -> ~ In n pre /\ ~ In n post) ->
  outsideOf H r y ints = pre ++ post.
Proof.
  intros E Hd. unfold outsideOf. rewrite E, !filter_app. rewrite (filter_none _ (y :: ints)).
  - cbn [app]. f_equal; apply filter_all; intros c Hc; apply negb_true_iff; apply memb_false; intros X;
      destruct (Hd c X) as [D1 D2]; contradiction.
  - intros c Hc. apply negb_false_iff. apply memb_in. exact Hc.
Qed.

Local Open Scope R_scope.

Section R.
Variables (thr : R) (draw : bool -> nat -> R).
Local Hint Extern 0 (Scalar R) => exact (R_scalar thr draw) : typeclass_instances.
Notation T := (tensor R).
Notation heap := (@heap R).
Notation idseal := (fun (_ : option nat) (g : T) => g).

(* element-wise sum of a list of contributions *)
Definition sumC (l : list T) (idx : list nat) : R := fold_right (fun g s => elt g idx + s) 0 l.

Lemma sumC_app l1 l2 idx : sumC (l1 ++ l2) idx = sumC l1 idx + sumC l2 idx.
Proof. unfold sumC. induction l1 as [|g l1 IH]; cbn [app fold_right]; [ring|]. rewrite IH. ring. Qed.

Lemma accAll_R ds : forall (l : list T) (o : option T), prior_ok ds o -> (forall g, In g l -> wf g /\ dims g = ds) ->
  exists o', accAll o l = Some o' /\ prior_ok ds o' /\ (o <> None -> o' <> None) /\
    forall idx, validIdx ds idx -> prior o' idx = prior o idx + sumC l idx.
Proof.
  induction l as [|g l IH]; intros o Hp Hl.
  - exists o. cbn [accAll sumC fold_right]. split; [reflexivity|]. split; [exact Hp|]. split; [auto|]. intros idx _. ring.
  - destruct (Hl g (or_introl eq_refl)) as [Wg Dg].
    destruct (acc1_R thr draw ds o g Hp Wg Dg) as (s & Es & Ws & Ds & Gs).
    destruct (IH (Some s) (conj Ws Ds) (fun g0 H0 => Hl g0 (or_intror H0))) as (o' & Ea & Hp' & Hn' & Gs').
    exists o'. cbn [accAll]. rewrite Es. split; [exact Ea|]. split; [exact Hp'|]. split; [intros _; apply Hn'; discriminate|].
    intros idx Hv. rewrite (Gs' idx Hv). cbn [prior]. rewrite (Gs idx Hv). cbn [sumC fold_right]. fold (sumC l idx). ring.
Qed.

(* the fold-based statement of a component inside the heap H: y's gradient final, internals empty, x any prior *)
Definition comp_fold (rd : bred) (H : heap) (x y : nat) (ints : list nat) (ds : list nat) (F : T -> assignment) : Prop :=
  forall (hh : heap) log gy, sameS H hh -> gradOf hh y = Some gy -> wf gy -> dims gy = ds ->
    (forall n, In n ints -> gradOf hh n = None) -> prior_ok ds (gradOf hh x) ->
    exists hh' gx lg, fold_left (process_node rd idseal) (y :: ints) (hh, log, Ok tt) = (hh', lg ++ log, Ok tt) /\
      gradOf hh' x = Some gx /\ dims gx = ds /\ wf gx /\
      forall idx, validIdx ds idx -> elt gx idx = prior (gradOf hh x) idx + F gy idx.

(* bp_topo from any root above y: fold over pre, over the block, over post *)
Theorem comp_in_graph rd (H : heap) r x y ints ds F H' log gy :
  rules_own H -> wf_heap H -> topo_block H r x y ints -> no_outside_edge H y ints ->
  (forall n, In n ints -> (n < y)%nat) -> (x < y)%nat -> trackedOf H x = true ->
  comp_fold rd H x y ints ds F ->
  (forall n, In n ints -> gradOf H n = None) -> prior_ok ds (gradOf H x) ->
  bp_topo rd idseal H r = (H', log, Ok tt) ->
  gradOf H' y = Some gy -> wf gy -> dims gy = ds ->
  (forall g, In g (contributions rd H' H (outsideOf H r y ints) x) -> wf g /\ dims g = ds) ->
  exists gx, gradOf H' x = Some gx /\ dims gx = ds /\ wf gx /\
    forall idx, validIdx ds idx ->
      elt gx idx = prior (gradOf H x) idx + sumC (contributions rd H' H (outsideOf H r y ints) x) idx + F gy idx.
Proof.
  intros Hown Hwf (pre & post & Eord & Hdisj & Hxpre & Hcons) NE Hlow Hxy Tx Hfold Hint Hpx E Hgy Wgy Dgy Hout.
  rewrite (outsideOf_block H r y ints pre post Eord Hdisj) in *.
  assert (Hyin : In y (topoOrder H r)) by (rewrite Eord; apply in_or_app; right; left; reflexivity).
  assert (Hr : trackedOf H r = true) by (eapply in_topo_tracked; exact Hyin).
  destruct (topoOrder_facts H r Hwf Hr) as (Hnd & Htr & Hord & _ & _ & Hle & _). cbv zeta in *.
  assert (Hyr : (y <= r)%nat) by (apply Hle; exact Hyin).
  rewrite Eord in Hnd, Htr, Hord.
  unfold bp_topo in E. rewrite Hr in E. cbn [negb] in E. rewrite Eord in E.
  set (order := pre ++ (y :: ints) ++ post) in *.
  destruct (valOf (markDirty H order) r) as [rv|] eqn:Ev; [|inversion E].
  destruct (toOnes rv) as [ones| |] eqn:Eo; [|inversion E|inversion E].
  destruct (accumulate (markDirty H order) r ones) as [H2 ra] eqn:Ea.
  destruct ra as [[]| |]; [|inversion E|inversion E].
  destruct (accumulate_ok _ _ _ _ _ Ea eq_refl) as (o' & Hacc & HH2).
  assert (S2 : sameS H H2).
  { eapply sameS_trans; [apply sameS_markDirty|]. subst H2. apply sameS_setGrad. }
  assert (Hg2 : forall j, j <> r -> gradOf H2 j = gradOf H j).
  { intros j Hj. subst H2. rewrite gradOf_setGrad. apply Nat.eqb_neq in Hj. rewrite Hj. apply gradOf_markDirty. }
  clear Ea Hacc HH2 Ev Eo.
  unfold order in E.
  destruct (fold_app_ok rd pre ((y :: ints) ++ post) H2 [] H' log E) as (Hp & logp & E1 & E23).
  destruct (fold_app_ok rd (y :: ints) post Hp logp H' log E23) as (Hb & logb & E2 & E3).
  assert (SP : sameS H Hp) by (eapply sameS_trans; [exact S2|eapply fold_sameS; exact E1]).
  assert (SB : sameS H Hb) by (eapply sameS_trans; [exact SP|eapply fold_sameS; exact E2]).
  assert (SF : sameS H H') by (eapply sameS_trans; [exact SB|eapply fold_sameS; exact E3]).
  unfold order in Hnd, Hord, Htr.
  destruct (NoDup_app_inv pre _ Hnd) as (NDpre & NDrest & Hdpre).
  assert (NDpost : NoDup post) by (apply (NoDup_app_inv (y :: ints) post NDrest)).
  pose proof (noback_of_ordered H _ Hnd Hord) as NB.
  assert (NBpre : noback H pre) by (eapply noback_app_l; exact NB).
  assert (NBpost : noback H post) by (eapply noback_app_r; eapply noback_app_r; exact NB).
  (* (a) y holds its final gradient when the block starts: every consumer of y is in pre *)
  assert (GyP : gradOf Hp y = Some gy).
  { rewrite <- Hgy. symmetry.
    apply (fold_inv rd H y ((y :: ints) ++ post) Hp logp (Ok tt) H' log (Ok tt)); [|exact SP|exact E23].
    intros c e Hc He _ X.
    assert (Hcp : In c pre) by (apply (Hcons c e); [rewrite Eord; apply in_or_app; right; exact Hc|exact He|exact X]).
    exact (Hdpre c Hcp Hc). }
  (* (b) no node of pre has an edge to an internal node *)
  assert (IntP : forall n, In n ints -> gradOf Hp n = None).
  { intros n Hn. rewrite <- (Hint n Hn). transitivity (gradOf H2 n).
    - apply (fold_inv rd H n pre H2 [] (Ok tt) Hp logp (Ok tt)); [|exact S2|exact E1].
      intros c e Hc He _ X. assert (Hcb : In c (y :: ints)) by (apply (NE c e He); rewrite X; exact Hn).
      destruct (Hdisj c Hcb) as [D1 _]. exact (D1 Hc).
    - apply Hg2. specialize (Hlow n Hn). lia. }
  (* (c) x before the block: its prior and the contributions of its consumers in pre *)
  assert (Tx2 : trackedOf H2 x = true) by (rewrite <- (sameS_trk _ _ S2); exact Tx).
  destruct (bp_fold_seg rd pre H2 [] Hp logp) as (_ & AccP & _);
    [eapply rules_own_sameS; eauto|eapply wf_heap_sameS; eauto|exact NDpre|eapply noback_sameS; eauto|exact E1|].
  specialize (AccP x Tx2). rewrite (Hg2 x ltac:(lia)) in AccP.
  rewrite <- (contributions_sameS rd Hp H H2 pre x S2) in AccP.
  rewrite (contributions_ext rd Hp H' H pre x Hown) in AccP.
  2:{ intros i. rewrite <- (sameS_val _ _ SP), <- (sameS_val _ _ SF). reflexivity. }
  2:{ intros c Hc. symmetry.
      apply (fold_inv rd H c ((y :: ints) ++ post) Hp logp (Ok tt) H' log (Ok tt)); [|exact SP|exact E23].
      intros c' e Hc' He Ht X. apply (ord_split H pre ((y :: ints) ++ post) c' e Hnd Hord Hc' He Ht). rewrite X. exact Hc. }
  rewrite contributions_app in Hout.
  destruct (accAll_R ds (contributions rd H' H pre x) (gradOf H x) Hpx) as (oP & EaP & PokP & _ & SumP).
  { intros g Hg. apply Hout. apply in_or_app. left. exact Hg. }
  rewrite EaP in AccP. inversion AccP as [EoP]. clear AccP.
  destruct (Hfold Hp logp gy SP GyP Wgy Dgy IntP ltac:(rewrite <- EoP; exact PokP)) as (hb & gb & lg & Eb & Gb & Db & Wb & Fb).
  rewrite Eb in E2. inversion E2; subst hb logb. clear E2.
  (* (e) after the block: only accumulation of the contributions of the consumers in post *)
  destruct (bp_fold_seg rd post Hb (lg ++ logp) H' log) as (_ & AccF & _);
    [eapply rules_own_sameS; eauto|eapply wf_heap_sameS; eauto|exact NDpost|eapply noback_sameS; eauto|exact E3|].
  specialize (AccF x ltac:(rewrite <- (sameS_trk _ _ SB); exact Tx)). rewrite Gb in AccF.
  rewrite <- (contributions_sameS rd H' H Hb post x SB) in AccF.
  destruct (accAll_R ds (contributions rd H' H post x) (Some gb) (conj Wb Db)) as (oF & EaF & PokF & NnF & SumF).
  { intros g Hg. apply Hout. apply in_or_app. right. exact Hg. }
  rewrite EaF in AccF. inversion AccF as [EoF]. clear AccF.
  destruct oF as [gx|]; [|exfalso; apply NnF; [discriminate|reflexivity]].
  exists gx. split; [symmetry; exact EoF|]. destruct PokF as [Wx Dx]. split; [exact Dx|]. split; [exact Wx|].
  intros idx Hv. specialize (SumF idx Hv). cbn [prior] in SumF. rewrite SumF, (Fb idx Hv), <- EoP, (SumP idx Hv).
  rewrite contributions_app, sumC_app. ring.
Qed.

End R.

Section R1.
Variables (thr : R) (draw : bool -> nat -> R).
Local Hint Extern 0 (Scalar R) => exact (R_scalar thr draw) : typeclass_instances.
Notation T := (tensor R).
Notation heap := (@heap R).
Notation idseal := (fun (_ : option nat) (g : T) => g).

Theorem tanh_grad_ext rd (h h1 HH : heap) x y name xv gy log :
  valOf h x = Some xv -> wf xv -> trackedOf h x = true -> dirtyOf h x = false ->
  tanh_forward h [Some x] name = (h1, Ok y) ->
  prefS h1 HH -> gradOf HH y = Some gy -> wf gy -> dims gy = dims xv ->
  prior_ok (dims xv) (gradOf HH x) ->
  exists HH' gx,
    fold_left (process_node rd idseal) [y] (HH, log, Ok tt) = (HH', (y, gy) :: log, Ok tt) /\
    sameS HH HH' /\ (forall n, n <> x -> gradOf HH' n = gradOf HH n) /\
    gradOf HH' x = Some gx /\ dims gx = dims xv /\ wf gx /\
    forall idx, validIdx (dims xv) idx ->
      elt gx idx = prior (gradOf HH x) idx + elt gy idx * (1 - (tanh (elt xv idx)) ^ 2).
Proof.
  intros Hx Wx Tx Dx E P Hgy Wgy Dgy Hp.
  destruct (tanh_table h h1 HH x y name E Tx Dx P) as (Ey & L1 & (Hxa & _) & Loc).
  assert (Ly : (y < length h1)%nat) by nlia. assert (HxL : (x < length h1)%nat) by nlia.
  destruct (trunc_run rd h1 HH _ log P Loc) as (ST & Gf & Run).
  destruct (tanh_grad thr draw rd h h1 _ x y name xv gy log Hx Wx Tx Dx E ST)
    as (hT' & gx & Ef & _ & Hoth & Hgx & Dgx & Wgx & F);
    [rewrite Gf by exact Ly; exact Hgy|exact Wgy|exact Dgy|rewrite Gf by exact HxL; exact Hp|].
  destruct (Run _ _ _ Ef) as (HH' & F' & S' & Glo & Hfr).
  exists HH', gx. split; [exact F'|]. split; [exact S'|]. split; [intros n Hn; apply Hfr, Hoth, Hn|].
  split; [rewrite (Glo x HxL); exact Hgx|]. split; [exact Dgx|]. split; [exact Wgx|].
  intros idx Hv. rewrite (F idx Hv), Gf by exact HxL. reflexivity.
Qed.

Theorem relu_grad_ext rd (h h1 HH : heap) x y name xv gy log :
  0 <= thr ->
  valOf h x = Some xv -> wf xv -> trackedOf h x = true -> dirtyOf h x = false ->
  relu_forward h [Some x] name = (h1, Ok y) ->
  let z0 := length h in
  prefS h1 HH -> gradOf HH y = Some gy -> wf gy -> dims gy = dims xv ->
  gradOf HH z0 = None ->
  prior_ok (dims xv) (gradOf HH x) ->
  exists HH' gx gz,
    fold_left (process_node rd idseal) [y; z0] (HH, log, Ok tt) = (HH', (z0, gz) :: (y, gy) :: log, Ok tt) /\
    sameS HH HH' /\ (forall n, n <> x -> n <> z0 -> gradOf HH' n = gradOf HH n) /\
    gradOf HH' x = Some gx /\ dims gx = dims xv /\ wf gx /\
    forall idx, validIdx (dims xv) idx ->
      let p := prior (gradOf HH x) idx in
      elt gx idx = p + elt gy idx * reluD thr (elt xv idx) /\
      (thr < elt xv idx -> elt gx idx = p + elt gy idx * 1) /\
      (elt xv idx < - thr -> elt gx idx = p + elt gy idx * 0) /\
      (elt xv idx = 0 -> elt gx idx = p + elt gy idx * / 2).
Proof.
  intros Hthr Hx Wx Tx Dx E z0 P Hgy Wgy Dgy Hgz Hp.
  destruct (relu_table h h1 HH x y name E Tx Dx P) as (Ey & L1 & (Hxa & _) & Loc). fold z0 in Ey, L1, Hxa, Loc. subst y.
  assert (Ly : (z0 + 1 < length h1)%nat) by nlia. assert (Lz : (z0 < length h1)%nat) by nlia.
  assert (HxL : (x < length h1)%nat) by nlia.
  destruct (trunc_run rd h1 HH _ log P Loc) as (ST & Gf & Run).
  destruct (relu_grad thr draw rd h h1 _ x (z0 + 1)%nat name xv gy log Hthr Hx Wx Tx Dx E ST)
    as (hT' & gx & gz & Ef & _ & Hoth & Hgx & Dgx & Wgx & F);
    [rewrite Gf by exact Ly; exact Hgy|exact Wgy|exact Dgy
    |fold z0; rewrite Gf by exact Lz; exact Hgz|rewrite Gf by exact HxL; exact Hp|].
  fold z0 in Ef, Hoth.
  destruct (Run _ _ _ Ef) as (HH' & F' & S' & Glo & Hfr).
  exists HH', gx, gz. split; [exact F'|]. split; [exact S'|]. split; [intros n Hn Hn2; apply Hfr, Hoth; assumption|].
  split; [rewrite (Glo x HxL); exact Hgx|]. split; [exact Dgx|]. split; [exact Wgx|].
  intros idx Hv. pose proof (F idx Hv) as Fi. cbv zeta in Fi |- *. rewrite Gf in Fi by exact HxL. exact Fi.
Qed.

Theorem leaky_grad_ext rd (h h1 HH : heap) (m : R) x y name xv gy log :
  0 <= thr ->
  valOf h x = Some xv -> wf xv -> trackedOf h x = true -> dirtyOf h x = false ->
  leaky_forward h m [Some x] name = (h1, Ok y) ->
  let a := length h in
  prefS h1 HH -> gradOf HH y = Some gy -> wf gy -> dims gy = dims xv ->
  (forall k, (k < 6)%nat -> gradOf HH (a + k)%nat = None) ->
  prior_ok (dims xv) (gradOf HH x) ->
  exists HH' gx lg,
    fold_left (process_node rd idseal) [y; a + 5; a + 3; a + 2; a + 4; a + 1; a]%nat (HH, log, Ok tt)
      = (HH', lg ++ log, Ok tt) /\
    map fst lg = [a; a + 1; a + 4; a + 2; a + 3; a + 5; y]%nat /\
    sameS HH HH' /\
    (forall n, n <> x -> (n < a \/ a + 6 <= n)%nat -> gradOf HH' n = gradOf HH n) /\
    gradOf HH' x = Some gx /\ dims gx = dims xv /\ wf gx /\
    forall idx, validIdx (dims xv) idx ->
      let p := prior (gradOf HH x) idx in
      elt gx idx = p + elt gy idx * leakyD thr m (elt xv idx) /\
      (thr < elt xv idx -> elt gx idx = p + elt gy idx * 1) /\
      (elt xv idx < - thr -> elt gx idx = p + elt gy idx * m) /\
      (elt xv idx = 0 -> elt gx idx = p + elt gy idx * ((1 + m) / 2)).
Proof.
  intros Hthr Hx Wx Tx Dx E a P Hgy Wgy Dgy Hint Hp.
  destruct (leaky_table h h1 HH m x y name xv E Hx Wx Tx Dx P) as (Ey & L1 & (Hxa & _) & Loc). fold a in Ey, L1, Hxa, Loc. subst y.
  assert (HxL : (x < length h1)%nat) by nlia.
  destruct (trunc_run rd h1 HH _ log P Loc) as (ST & Gf & Run).
  destruct (leaky_grad thr draw rd h h1 _ m x (a + 6)%nat name xv gy log Hthr Hx Wx Tx Dx E ST)
    as (hT' & gx & lg & Ef & Hlg & _ & Hoth & Hgx & Dgx & Wgx & F);
    [rewrite Gf by nlia; exact Hgy|exact Wgy|exact Dgy
    |intros k Hk; fold a; rewrite Gf by nlia; apply Hint; exact Hk|rewrite Gf by exact HxL; exact Hp|].
  fold a in Ef, Hlg, Hoth.
  destruct (Run _ _ _ Ef) as (HH' & F' & S' & Glo & Hfr).
  exists HH', gx, lg. split; [exact F'|]. split; [exact Hlg|]. split; [exact S'|].
  split; [intros n Hn Hn2; apply Hfr, Hoth; assumption|].
  split; [rewrite (Glo x HxL); exact Hgx|]. split; [exact Dgx|]. split; [exact Wgx|].
  intros idx Hv. pose proof (F idx Hv) as Fi. cbv zeta in Fi |- *. rewrite Gf in Fi by exact HxL. exact Fi.
Qed.

Theorem sigmoid_grad_ext rd (h h1 HH : heap) x y name xv gy log :
  valOf h x = Some xv -> wf xv -> trackedOf h x = true -> dirtyOf h x = false ->
  sigmoid_forward h [Some x] name = (h1, Ok y) ->
  let a := length h in
  prefS h1 HH -> gradOf HH y = Some gy -> wf gy -> dims gy = dims xv ->
  (forall k, (k < 6)%nat -> gradOf HH (a + k)%nat = None) ->
  prior_ok (dims xv) (gradOf HH x) ->
  exists HH' gx lg,
    fold_left (process_node rd idseal) [y; a + 5; a + 4; a + 2; a + 1; a + 3; a]%nat (HH, log, Ok tt)
      = (HH', lg ++ log, Ok tt) /\
    map fst lg = [a; a + 3; a + 1; a + 2; a + 4; a + 5; y]%nat /\
    sameS HH HH' /\
    (forall n, n <> x -> (n < a \/ a + 6 <= n)%nat -> gradOf HH' n = gradOf HH n) /\
    gradOf HH' x = Some gx /\ dims gx = dims xv /\ wf gx /\
    forall idx, validIdx (dims xv) idx ->
      elt gx idx = prior (gradOf HH x) idx
                   + elt gy idx * (logistic (elt xv idx) * (1 - logistic (elt xv idx))).
Proof.
  intros Hx Wx Tx Dx E a P Hgy Wgy Dgy Hint Hp.
  destruct (sigmoid_table h h1 HH x y name xv E Hx Wx Tx Dx P) as (Ey & L1 & (Hxa & _) & Loc). fold a in Ey, L1, Hxa, Loc. subst y.
  assert (HxL : (x < length h1)%nat) by nlia.
  destruct (trunc_run rd h1 HH _ log P Loc) as (ST & Gf & Run).
  destruct (sigmoid_grad thr draw rd h h1 _ x (a + 6)%nat name xv gy log Hx Wx Tx Dx E ST)
    as (hT' & gx & lg & Ef & Hlg & _ & Hoth & Hgx & Dgx & Wgx & F);
    [rewrite Gf by nlia; exact Hgy|exact Wgy|exact Dgy
    |intros k Hk; fold a; rewrite Gf by nlia; apply Hint; exact Hk|rewrite Gf by exact HxL; exact Hp|].
  fold a in Ef, Hlg, Hoth.
  destruct (Run _ _ _ Ef) as (HH' & F' & S' & Glo & Hfr).
  exists HH', gx, lg. split; [exact F'|]. split; [exact Hlg|]. split; [exact S'|].
  split; [intros n Hn Hn2; apply Hfr, Hoth; assumption|].
  split; [rewrite (Glo x HxL); exact Hgx|]. split; [exact Dgx|]. split; [exact Wgx|].
  intros idx Hv. rewrite (F idx Hv), Gf by exact HxL. reflexivity.
Qed.

Theorem softmax_grad_ext rd (h h1 HH : heap) dim x y name xv gy log :
  valOf h x = Some xv -> wf xv -> trackedOf h x = true -> dirtyOf h x = false ->
  softmax_forward h dim [Some x] name = (h1, Ok y) ->
  let a := length h in
  let n := nth dim (dims xv) 0%nat in
  prefS h1 HH -> gradOf HH y = Some gy -> wf gy -> dims gy = dims xv ->
  (forall k, (k < 5)%nat -> gradOf HH (a + k)%nat = None) ->
  prior_ok (dims xv) (gradOf HH x) ->
  exists yv HH' gx lg,
    valOf h1 y = Some yv /\ dims yv = dims xv /\
    (forall i, validIdx (dims xv) i ->
       elt yv i = exp (elt xv i) / VjpGatherP.sumN n (fun k => exp (elt xv (setAt dim k i)))) /\
    fold_left (process_node rd idseal) [y; a + 4; a + 2; a + 1; a + 3; a]%nat (HH, log, Ok tt)
      = (HH', lg ++ log, Ok tt) /\
    map fst lg = [a; a + 3; a + 1; a + 2; a + 4; y]%nat /\
    sameS HH HH' /\
    (forall m, m <> x -> (m < a \/ a + 5 <= m)%nat -> gradOf HH' m = gradOf HH m) /\
    gradOf HH' x = Some gx /\ dims gx = dims xv /\ wf gx /\
    forall i, validIdx (dims xv) i ->
      elt gx i = prior (gradOf HH x) i +
                 elt yv i * (elt gy i - rdc rd n * VjpGatherP.sumN n (fun k => elt yv (setAt dim k i) * elt gy (setAt dim k i))).
Proof.
  intros Hx Wx Tx Dx E a n P Hgy Wgy Dgy Hint Hp.
  destruct (softmax_table h h1 HH dim x y name xv E Hx Wx Tx Dx P) as (Ey & L1 & (Hxa & _) & Loc). fold a in Ey, L1, Hxa, Loc. subst y.
  assert (HxL : (x < length h1)%nat) by nlia.
  destruct (trunc_run rd h1 HH _ log P Loc) as (ST & Gf & Run).
  destruct (softmax_grad thr draw rd h h1 _ dim x (a + 5)%nat name xv gy log Hx Wx Tx Dx E ST)
    as (yv & hT' & gx & lg & Vy & Dy & Fy & Ef & Hlg & _ & Hoth & Hgx & Dgx & Wgx & F);
    [rewrite Gf by nlia; exact Hgy|exact Wgy|exact Dgy
    |intros k Hk; fold a; rewrite Gf by nlia; apply Hint; exact Hk|rewrite Gf by exact HxL; exact Hp|].
  fold a in Ef, Hlg, Hoth. fold n in Fy, F.
  destruct (Run _ _ _ Ef) as (HH' & F' & S' & Glo & Hfr).
  exists yv, HH', gx, lg. split; [exact Vy|]. split; [exact Dy|]. split; [exact Fy|].
  split; [exact F'|]. split; [exact Hlg|]. split; [exact S'|].
  split; [intros m Hm Hm2; apply Hfr, Hoth; assumption|].
  split; [rewrite (Glo x HxL); exact Hgx|]. split; [exact Dgx|]. split; [exact Wgx|].
  intros i Hv. rewrite (F i Hv), Gf by exact HxL. reflexivity.
Qed.

End R1.

Section R2.
Variables (thr : R) (draw : bool -> nat -> R).
Local Hint Extern 0 (Scalar R) => exact (R_scalar thr draw) : typeclass_instances.
Notation T := (tensor R).
Notation heap := (@heap R).
Notation idseal := (fun (_ : option nat) (g : T) => g).

Theorem tanh_grad_in_graph rd (h h1 H H' : heap) x y name xv r log gy :
  valOf h x = Some xv -> wf xv -> trackedOf h x = true -> dirtyOf h x = false ->
  tanh_forward h [Some x] name = (h1, Ok y) ->
  prefS h1 H -> rules_own H -> wf_heap H ->
  In y (topoOrder H r) ->
  prior_ok (dims xv) (gradOf H x) ->
  bp_topo rd idseal H r = (H', log, Ok tt) ->
  gradOf H' y = Some gy -> wf gy -> dims gy = dims xv ->
  (forall g, In g (contributions rd H' H (outsideOf H r y []) x) -> wf g /\ dims g = dims xv) ->
  exists gx, gradOf H' x = Some gx /\ dims gx = dims xv /\ wf gx /\
    forall idx, validIdx (dims xv) idx ->
      elt gx idx = prior (gradOf H x) idx + sumC (contributions rd H' H (outsideOf H r y []) x) idx
                   + elt gy idx * (1 - (tanh (elt xv idx)) ^ 2).
Proof.
  intros Hx Wx Tx Dx E P Hown Hwf Hin Hp Ebp Hgy Wgy Dgy Hout.
  destruct (tanh_table h h1 H x y name E Tx Dx P) as (Ey & _ & (Hxa & TX & _) & _).
  apply (comp_in_graph thr draw rd H r x y [] (dims xv) (fun gy idx => elt gy idx * (1 - (tanh (elt xv idx)) ^ 2)) H' log gy Hown Hwf);
    try assumption.
  - eapply tanh_block; eassumption.
  - intros c e _ [].
  - intros n [].
  - nlia.
  - intros hh lg gy0 S Hgy0 Wgy0 Dgy0 _ Hp0.
    destruct (tanh_grad_ext thr draw rd h h1 hh x y name xv gy0 lg Hx Wx Tx Dx E (prefS_sameS _ _ _ P S) Hgy0 Wgy0 Dgy0 Hp0)
      as (hh' & gx & Ef & _ & _ & Hgx & Dgx & Wgx & F).
    exists hh', gx, [(y, gy0)]. split; [exact Ef|]. auto.
  - intros n [].
Qed.

Theorem relu_grad_in_graph rd (h h1 H H' : heap) x y name xv r log gy :
  0 <= thr ->
  valOf h x = Some xv -> wf xv -> trackedOf h x = true -> dirtyOf h x = false ->
  relu_forward h [Some x] name = (h1, Ok y) ->
  let z0 := length h in
  prefS h1 H -> rules_own H -> wf_heap H -> no_outside_edge H y [z0] ->
  In y (topoOrder H r) ->
  gradOf H z0 = None -> prior_ok (dims xv) (gradOf H x) ->
  bp_topo rd idseal H r = (H', log, Ok tt) ->
  gradOf H' y = Some gy -> wf gy -> dims gy = dims xv ->
  (forall g, In g (contributions rd H' H (outsideOf H r y [z0]) x) -> wf g /\ dims g = dims xv) ->
  exists gx, gradOf H' x = Some gx /\ dims gx = dims xv /\ wf gx /\
    forall idx, validIdx (dims xv) idx ->
      let p := prior (gradOf H x) idx + sumC (contributions rd H' H (outsideOf H r y [z0]) x) idx in
      elt gx idx = p + elt gy idx * reluD thr (elt xv idx) /\
      (thr < elt xv idx -> elt gx idx = p + elt gy idx * 1) /\
      (elt xv idx < - thr -> elt gx idx = p + elt gy idx * 0) /\
      (elt xv idx = 0 -> elt gx idx = p + elt gy idx * / 2).
Proof.
  intros Hthr Hx Wx Tx Dx E z0 P Hown Hwf NE Hin Hgz Hp Ebp Hgy Wgy Dgy Hout.
  destruct (relu_table h h1 H x y name E Tx Dx P) as (Ey & _ & (Hxa & TX & _) & _). fold z0 in Ey, Hxa.
  destruct (comp_in_graph thr draw rd H r x y [z0] (dims xv) (fun gy idx => elt gy idx * reluD thr (elt xv idx)) H' log gy Hown Hwf)
    as (gx & Hgx & Dgx & Wgx & F); try assumption.
  - eapply relu_block; eassumption.
  - intros n [<-|[]]. nlia.
  - nlia.
  - intros hh lg gy0 S Hgy0 Wgy0 Dgy0 Hi0 Hp0.
    destruct (relu_grad_ext thr draw rd h h1 hh x y name xv gy0 lg Hthr Hx Wx Tx Dx E (prefS_sameS _ _ _ P S) Hgy0 Wgy0 Dgy0
                (Hi0 _ (or_introl eq_refl)) Hp0)
      as (hh' & gx & gz & Ef & _ & _ & Hgx & Dgx & Wgx & F).
    exists hh', gx, [(z0, gz); (y, gy0)]. split; [exact Ef|]. split; [exact Hgx|]. split; [exact Dgx|]. split; [exact Wgx|].
    intros idx Hv. apply (F idx Hv).
  - intros n [<-|[]]. exact Hgz.
  - exists gx. split; [exact Hgx|]. split; [exact Dgx|]. split; [exact Wgx|]. intros idx Hv. cbv zeta.
    split; [apply (F idx Hv)|]. rewrite (F idx Hv). split; [|split].
    + intros Hc. rewrite (reluD_pos thr _ Hthr Hc). reflexivity.
    + intros Hc. rewrite (reluD_neg thr _ Hthr Hc). reflexivity.
    + intros Hc. rewrite Hc, (reluD_zero thr Hthr). reflexivity.
Qed.

Theorem leaky_grad_in_graph rd (h h1 H H' : heap) (m : R) x y name xv r log gy :
  0 <= thr ->
  valOf h x = Some xv -> wf xv -> trackedOf h x = true -> dirtyOf h x = false ->
  leaky_forward h m [Some x] name = (h1, Ok y) ->
  let a := length h in
  let ints := [a + 5; a + 3; a + 2; a + 4; a + 1; a]%nat in
  prefS h1 H -> rules_own H -> wf_heap H -> no_outside_edge H y ints ->
  In y (topoOrder H r) ->
  (forall n, In n ints -> gradOf H n = None) -> prior_ok (dims xv) (gradOf H x) ->
  bp_topo rd idseal H r = (H', log, Ok tt) ->
  gradOf H' y = Some gy -> wf gy -> dims gy = dims xv ->
  (forall g, In g (contributions rd H' H (outsideOf H r y ints) x) -> wf g /\ dims g = dims xv) ->
  exists gx, gradOf H' x = Some gx /\ dims gx = dims xv /\ wf gx /\
    forall idx, validIdx (dims xv) idx ->
      let p := prior (gradOf H x) idx + sumC (contributions rd H' H (outsideOf H r y ints) x) idx in
      elt gx idx = p + elt gy idx * leakyD thr m (elt xv idx) /\
      (thr < elt xv idx -> elt gx idx = p + elt gy idx * 1) /\
      (elt xv idx < - thr -> elt gx idx = p + elt gy idx * m) /\
      (elt xv idx = 0 -> elt gx idx = p + elt gy idx * ((1 + m) / 2)).
Proof.
  intros Hthr Hx Wx Tx Dx E a ints P Hown Hwf NE Hin Hint Hp Ebp Hgy Wgy Dgy Hout.
  destruct (leaky_table h h1 H m x y name xv E Hx Wx Tx Dx P) as (Ey & _ & (Hxa & TX & _) & _). fold a in Ey, Hxa.
  destruct (comp_in_graph thr draw rd H r x y ints (dims xv) (fun gy idx => elt gy idx * leakyD thr m (elt xv idx)) H' log gy Hown Hwf)
    as (gx & Hgx & Dgx & Wgx & F); try assumption.
  - eapply leaky_block; eassumption.
  - intros n Hn. unfold ints in Hn. cbn [In] in Hn. nlia.
  - nlia.
  - intros hh lg gy0 S Hgy0 Wgy0 Dgy0 Hi0 Hp0.
    destruct (leaky_grad_ext thr draw rd h h1 hh m x y name xv gy0 lg Hthr Hx Wx Tx Dx E (prefS_sameS _ _ _ P S) Hgy0 Wgy0 Dgy0)
      as (hh' & gx & lg' & Ef & _ & _ & _ & Hgx & Dgx & Wgx & F); [|exact Hp0|].
    { intros k Hk. apply Hi0. unfold ints. fold a. do 6 (destruct k as [|k]; [rewrite ?Nat.add_0_r; in_solve|]). exfalso. nlia. }
    exists hh', gx, lg'. split; [exact Ef|]. split; [exact Hgx|]. split; [exact Dgx|]. split; [exact Wgx|].
    intros idx Hv. apply (F idx Hv).
  - exists gx. split; [exact Hgx|]. split; [exact Dgx|]. split; [exact Wgx|]. intros idx Hv. cbv zeta.
    split; [apply (F idx Hv)|]. rewrite (F idx Hv). unfold leakyD. split; [|split].
    + intros Hc. rewrite (reluD_pos thr _ Hthr Hc), (minD_pos thr _ Hthr Hc). f_equal. ring.
    + intros Hc. rewrite (reluD_neg thr _ Hthr Hc), (minD_neg thr _ Hthr Hc). f_equal. ring.
    + intros Hc. rewrite Hc, (reluD_zero thr Hthr), (minD_zero thr Hthr). f_equal. field.
Qed.

Theorem sigmoid_grad_in_graph rd (h h1 H H' : heap) x y name xv r log gy :
  valOf h x = Some xv -> wf xv -> trackedOf h x = true -> dirtyOf h x = false ->
  sigmoid_forward h [Some x] name = (h1, Ok y) ->
  let a := length h in
  let ints := [a + 5; a + 4; a + 2; a + 1; a + 3; a]%nat in
  prefS h1 H -> rules_own H -> wf_heap H -> no_outside_edge H y ints ->
  In y (topoOrder H r) ->
  (forall n, In n ints -> gradOf H n = None) -> prior_ok (dims xv) (gradOf H x) ->
  bp_topo rd idseal H r = (H', log, Ok tt) ->
  gradOf H' y = Some gy -> wf gy -> dims gy = dims xv ->
  (forall g, In g (contributions rd H' H (outsideOf H r y ints) x) -> wf g /\ dims g = dims xv) ->
  exists gx, gradOf H' x = Some gx /\ dims gx = dims xv /\ wf gx /\
    forall idx, validIdx (dims xv) idx ->
      elt gx idx = prior (gradOf H x) idx + sumC (contributions rd H' H (outsideOf H r y ints) x) idx
                   + elt gy idx * (logistic (elt xv idx) * (1 - logistic (elt xv idx))).
Proof.
  intros Hx Wx Tx Dx E a ints P Hown Hwf NE Hin Hint Hp Ebp Hgy Wgy Dgy Hout.
  destruct (sigmoid_table h h1 H x y name xv E Hx Wx Tx Dx P) as (Ey & _ & (Hxa & TX & _) & _). fold a in Ey, Hxa.
  apply (comp_in_graph thr draw rd H r x y ints (dims xv)
           (fun gy idx => elt gy idx * (logistic (elt xv idx) * (1 - logistic (elt xv idx)))) H' log gy Hown Hwf); try assumption.
  - eapply sigmoid_block; eassumption.
  - intros n Hn. unfold ints in Hn. cbn [In] in Hn. nlia.
  - nlia.
  - intros hh lg gy0 S Hgy0 Wgy0 Dgy0 Hi0 Hp0.
    destruct (sigmoid_grad_ext thr draw rd h h1 hh x y name xv gy0 lg Hx Wx Tx Dx E (prefS_sameS _ _ _ P S) Hgy0 Wgy0 Dgy0)
      as (hh' & gx & lg' & Ef & _ & _ & _ & Hgx & Dgx & Wgx & F); [|exact Hp0|].
    { intros k Hk. apply Hi0. unfold ints. fold a. do 6 (destruct k as [|k]; [rewrite ?Nat.add_0_r; in_solve|]). exfalso. nlia. }
    exists hh', gx, lg'. split; [exact Ef|]. auto.
Qed.

(* the forward value of the component, read off the fold-based theorem on an auxiliary heap *)
Lemma softmax_fw (h h1 : heap) dim x y name xv yv :
  valOf h x = Some xv -> wf xv -> trackedOf h x = true -> dirtyOf h x = false ->
  softmax_forward h dim [Some x] name = (h1, Ok y) -> valOf h1 y = Some yv ->
  dims yv = dims xv /\
  forall i, validIdx (dims xv) i ->
    elt yv i = exp (elt xv i) / VjpGatherP.sumN (nth dim (dims xv) 0%nat) (fun k => exp (elt xv (setAt dim k i))).
Proof.
  intros Hx Wx Tx Dx E Vy.
  pose proof (softmax_structure h dim x name h1 y xv E Hx Wx Tx Dx) as St. cbv zeta in St.
  destruct St as (exv & sv & suv & subv & yv0 & _ & _ & _ & _ & _ & _ & Ey & L1 & Old & M0 & M1 & M2 & M3 & M4 & _).
  assert (Hxl : (x < length h)%nat) by (apply tracked_lt; exact Tx).
  set (hh0 := setGrad (setGrad h1 y (Some xv)) x None).
  assert (S0 : sameS h1 hh0) by (eapply sameS_trans; apply sameS_setGrad).
  assert (Ly : (y <? length h1)%nat = true) by (apply Nat.ltb_lt; nlia).
  assert (Lx : (x <? length (setGrad h1 y (Some xv)))%nat = true) by (rewrite length_setGrad; apply Nat.ltb_lt; nlia).
  destruct (softmax_grad thr draw RedSum h h1 hh0 dim x y name xv xv [] Hx Wx Tx Dx E S0)
    as (yv' & _ & _ & _ & Vy' & Dy' & Fy' & _); [|exact Wx|reflexivity| | |].
  - unfold hh0. rewrite !gradOf_setGrad. assert (X : (y =? x)%nat = false) by (apply Nat.eqb_neq; nlia).
    rewrite X, Nat.eqb_refl, Ly. reflexivity.
  - intros k Hk. unfold hh0. rewrite !gradOf_setGrad.
    assert (X1 : (length h + k =? x)%nat = false) by (apply Nat.eqb_neq; nlia).
    assert (X2 : (length h + k =? y)%nat = false) by (apply Nat.eqb_neq; nlia). rewrite X1, X2.
    do 5 (destruct k as [|k]; [rewrite ?Nat.add_0_r; first [apply M0|apply M1|apply M2|apply M3|apply M4]|]). exfalso. nlia.
  - unfold hh0. rewrite gradOf_setGrad, Nat.eqb_refl, Lx. exact I.
  - assert (yv' = yv) by congruence. subst yv'. split; [exact Dy'|exact Fy'].
Qed.

Theorem softmax_grad_in_graph rd (h h1 H H' : heap) dim x y name xv r log gy :
  valOf h x = Some xv -> wf xv -> trackedOf h x = true -> dirtyOf h x = false ->
  softmax_forward h dim [Some x] name = (h1, Ok y) ->
  let a := length h in
  let n := nth dim (dims xv) 0%nat in
  let ints := [a + 4; a + 2; a + 1; a + 3; a]%nat in
  prefS h1 H -> rules_own H -> wf_heap H -> no_outside_edge H y ints ->
  In y (topoOrder H r) ->
  (forall c, In c ints -> gradOf H c = None) -> prior_ok (dims xv) (gradOf H x) ->
  bp_topo rd idseal H r = (H', log, Ok tt) ->
  gradOf H' y = Some gy -> wf gy -> dims gy = dims xv ->
  (forall g, In g (contributions rd H' H (outsideOf H r y ints) x) -> wf g /\ dims g = dims xv) ->
  exists yv gx,
    valOf H y = Some yv /\ dims yv = dims xv /\
    (forall i, validIdx (dims xv) i ->
       elt yv i = exp (elt xv i) / VjpGatherP.sumN n (fun k => exp (elt xv (setAt dim k i)))) /\
    gradOf H' x = Some gx /\ dims gx = dims xv /\ wf gx /\
    forall i, validIdx (dims xv) i ->
      elt gx i = prior (gradOf H x) i + sumC (contributions rd H' H (outsideOf H r y ints) x) i
                 + elt yv i * (elt gy i - rdc rd n * VjpGatherP.sumN n (fun k => elt yv (setAt dim k i) * elt gy (setAt dim k i))).
Proof.
  intros Hx Wx Tx Dx E a n ints P Hown Hwf NE Hin Hint Hp Ebp Hgy Wgy Dgy Hout.
  pose proof (softmax_structure h dim x name h1 y xv E Hx Wx Tx Dx) as St. cbv zeta in St. fold a in St.
  destruct St as (exv & sv & suv & subv & yv & _ & _ & _ & _ & _ & _ & Ey & _ & _ & _ & _ & _ & _ & _ & N5).
  destruct (softmax_table h h1 H dim x y name xv E Hx Wx Tx Dx P) as (_ & _ & (Hxa & TX & _) & _). fold a in Hxa.
  destruct (prefS_node _ _ _ _ _ P N5) as (VY & _ & _). destruct N5 as (_ & Vy1 & _).
  destruct (softmax_fw h h1 dim x y name xv yv Hx Wx Tx Dx E Vy1) as [Dyv Fyv]. fold n in Fyv.
  destruct (comp_in_graph thr draw rd H r x y ints (dims xv)
              (fun gy i => elt yv i * (elt gy i - rdc rd n * VjpGatherP.sumN n (fun k => elt yv (setAt dim k i) * elt gy (setAt dim k i))))
              H' log gy Hown Hwf) as (gx & Hgx & Dgx & Wgx & F); try assumption.
  - eapply softmax_block; eassumption.
  - intros c Hc. unfold ints in Hc. cbn [In] in Hc. nlia.
  - nlia.
  - intros hh lg gy0 S Hgy0 Wgy0 Dgy0 Hi0 Hp0.
    destruct (softmax_grad_ext thr draw rd h h1 hh dim x y name xv gy0 lg Hx Wx Tx Dx E (prefS_sameS _ _ _ P S) Hgy0 Wgy0 Dgy0)
      as (yv' & hh' & gx & lg' & Vy' & _ & _ & Ef & _ & _ & _ & Hgx & Dgx & Wgx & F); [|exact Hp0|].
    { intros k Hk. apply Hi0. unfold ints. fold a. do 5 (destruct k as [|k]; [rewrite ?Nat.add_0_r; in_solve|]). exfalso. nlia. }
    assert (yv' = yv) by congruence. subst yv'.
    exists hh', gx, lg'. split; [exact Ef|]. split; [exact Hgx|]. split; [exact Dgx|]. split; [exact Wgx|].
    intros i Hv. apply (F i Hv).
  - exists yv, gx. split; [exact VY|]. split; [exact Dyv|]. split; [exact Fyv|]. split; [exact Hgx|]. split; [exact Dgx|].
    split; [exact Wgx|]. exact F.
Qed.

End R2.

(* non-vacuity: w leaf, x = w.Scale(2) (interior), y = activation(x), r = y.Scale(3) root *)
Module GradChainExamples.
Import GradActExamples.
Section Ex.
Variable draw : bool -> nat -> R.
Local Hint Extern 0 (Scalar R) => exact (R_scalar 0 draw) : typeclass_instances.
Notation heap := (@heap R).
Notation idseal := (fun (_ : option nat) (g : tensor R) => g).

(* evaluate the structure, keep the real-number expressions *)
Ltac rlazy := lazy -[Rpow Rmult Rplus Rminus Rdiv Rinv Ropp tanh cosh exp IZR dec2R Rmax Rmin Rabs Rle_dec].
Ltac rlazy_in Hyp := lazy -[Rpow Rmult Rplus Rminus Rdiv Rinv Ropp tanh cosh exp IZR dec2R Rmax Rmin Rabs Rle_dec] in Hyp.

(* [rules_own] and [wf_heap] of the example heaps: every tracked method keeps them (the okw lemmas of StepP) *)
Lemma exh_hinv : StepP.hinv (exh draw).
Proof.
  apply (proj2 (proj2 (StepP.okw_scale _ _ _ _))). apply (StepP.hinv_alloc_noedges [] exw true false (Some 0%nat)).
  apply StepP.hinv_nil.
Qed.
Lemma scale_hinv (h : heap) x a nm : StepP.hinv h -> StepP.hinv (fst (h_scale h x a nm)).
Proof. apply (proj2 (proj2 (StepP.okw_scale _ _ _ _))). Qed.

Definition tH : heap := fst (h_scale (th1 draw) 2 3 (Some 3%nat)).

Lemma tH_pref : prefS (th1 draw) tH.
Proof. split; [rlazy; lia|]. intros i Hi. do 3 (destruct i as [|i]; [repeat split|]). rlazy_in Hi. lia. Qed.

Lemma tH_hinv : StepP.hinv tH.
Proof. apply scale_hinv, (proj2 (proj2 (StepP.okw_tanh _ _ _))), exh_hinv. Qed.
Lemma tH_own : rules_own tH.
Proof. exact (proj2 tH_hinv). Qed.

Lemma tH_wf : wf_heap tH.
Proof. exact (proj1 tH_hinv). Qed.

Example tanh_block_ex : topoOrder tH 3 = [3; 2; 1; 0]%nat /\ topo_block tH 3 1 2 [].
Proof.
  split; [reflexivity|].
  eapply (tanh_block (exh draw) (th1 draw) tH 1 2 (Some 2%nat) 3); [apply th1_eq|reflexivity|reflexivity|apply tH_pref|apply tH_wf|].
  rlazy. auto.
Qed.

Example tanh_in_graph_ex rd :
  exists H' log gy gx,
    bp_topo rd idseal tH 3 = (H', log, Ok tt) /\ gradOf H' 2 = Some gy /\ gradOf H' 1 = Some gx /\
    elt gy [0%nat] = 3 /\ elt gy [1%nat] = 3 /\
    elt gx [0%nat] = 3 * (1 - tanh (2 * 3) ^ 2) /\ elt gx [1%nat] = 3 * (1 - tanh (2 * -4) ^ 2).
Proof.
  destruct (bp_topo rd idseal tH 3) as [[H' lg] r] eqn:E.
  assert (Er : r = Ok tt) by (change r with (snd (H', lg, r)); rewrite <- E; vm_compute; reflexivity). subst r.
  set (gy := vec2 (3 * Rpow (3 * tanh (2 * 3)) (dec2R 0 0)) (3 * Rpow (3 * tanh (2 * -4)) (dec2R 0 0))).
  assert (Eg : gradOf H' 2 = Some gy) by (change H' with (fst (fst (H', lg, Ok tt))); rewrite <- E; rlazy; reflexivity).
  destruct (tanh_grad_in_graph 0 draw rd (exh draw) (th1 draw) tH H' 1 2 (Some 2%nat) exx 3 lg gy)
    as (gx & Hgx & _ & _ & F);
    [reflexivity|apply wf_vec2|reflexivity|reflexivity|apply th1_eq|apply tH_pref|apply tH_own|apply tH_wf
    |rlazy; auto|exact I|exact E|exact Eg|apply wf_vec2|reflexivity| |].
  - intros g Hg. exfalso. rlazy_in Hg. exact Hg.
  - assert (C0 : contributions rd H' tH (outsideOf tH 3 2 []) 1 = []) by (rlazy; reflexivity).
    assert (G0 : gradOf tH 1 = None) by reflexivity.
    exists H', lg, gy, gx. split; [reflexivity|]. split; [exact Eg|]. split; [exact Hgx|].
    assert (Y0 : elt gy [0%nat] = 3) by (unfold gy; cbn; rewrite dec2R_0, Rpow_0; ring).
    assert (Y1 : elt gy [1%nat] = 3) by (unfold gy; cbn; rewrite dec2R_0, Rpow_0; ring).
    split; [exact Y0|]. split; [exact Y1|]. split.
    + rewrite (F [0%nat]) by (repeat constructor). rewrite C0, G0, Y0. cbn. ring.
    + rewrite (F [1%nat]) by (repeat constructor). rewrite C0, G0, Y1. cbn. ring.
Qed.

(* the heap cases of [no_outside_edge] on an explicit heap of n nodes *)
Tactic Notation "noe_cases" integer(n) :=
  let c := fresh "c" in let e := fresh "e" in let He := fresh "He" in let Hi := fresh "Hi" in
  intros c e He Hi;
  do n (destruct c as [|c];
        [rlazy_in He;
         repeat (destruct He as [He|He];
                 [subst e; first [ solve [in_solve]
                                 | exfalso; cbn [fst In] in Hi; repeat (destruct Hi as [Hi|Hi]; [discriminate Hi|]); exact Hi ]|]);
         try (destruct He)|]);
  destruct c; rlazy_in He; destruct He.

(* ---- Tanh with a SECOND consumer of x created after the component:
        0 w, 1 x = w.Scale(2), 2 y = x.Tanh(), 3 u = x.Scale(5), 4/5 Broadcast nodes, 6 r = y.Add(u).
        The order is [6; 5; 3; 4; 2; 1; 0]: the outside consumer u is processed BEFORE the block [2]
        and x receives  5 (from u)  +  1 * (1 - tanh^2 x)  (through the component) ---- *)
Definition dH : heap := fst (h_arith (fst (h_scale (th1 draw) 1 5 (Some 3%nat))) BiAdd 2 3 (Some 4%nat)).

Lemma dH_pref : prefS (th1 draw) dH.
Proof. split; [rlazy; lia|]. intros i Hi. do 3 (destruct i as [|i]; [repeat split|]). rlazy_in Hi. lia. Qed.
Lemma dH_hinv : StepP.hinv dH.
Proof. apply (proj2 (proj2 (StepP.okw_arith _ _ _ _ _))), scale_hinv, (proj2 (proj2 (StepP.okw_tanh _ _ _))), exh_hinv. Qed.
Lemma dH_own : rules_own dH.
Proof. exact (proj2 dH_hinv). Qed.
Lemma dH_wf : wf_heap dH.
Proof. exact (proj1 dH_hinv). Qed.

Example tanh_two_consumers_ex rd :
  topoOrder dH 6 = [6; 5; 3; 4; 2; 1; 0]%nat /\
  exists H' log gy gx,
    bp_topo rd idseal dH 6 = (H', log, Ok tt) /\ gradOf H' 2 = Some gy /\ gradOf H' 1 = Some gx /\
    elt gy [0%nat] = 1 /\ elt gy [1%nat] = 1 /\
    elt gx [0%nat] = 5 + 1 * (1 - tanh (2 * 3) ^ 2) /\ elt gx [1%nat] = 5 + 1 * (1 - tanh (2 * -4) ^ 2).
Proof.
  split; [reflexivity|].
  destruct (bp_topo rd idseal dH 6) as [[H' lg] r] eqn:E.
  assert (Er : r = Ok tt) by (change r with (snd (H', lg, r)); rewrite <- E; vm_compute; reflexivity). subst r.
  assert (Eg : exists a b, gradOf H' 2 = Some (vec2 (Rpow a (dec2R 0 0)) (Rpow b (dec2R 0 0))) /\
             contributions rd H' dH (outsideOf dH 6 2 []) 1 = [vec2 (5 * Rpow a (dec2R 0 0)) (5 * Rpow b (dec2R 0 0))]).
  { change H' with (fst (fst (H', lg, Ok tt))). rewrite <- E. rlazy. eexists. eexists. split; reflexivity. }
  destruct Eg as (ga & gb & Eg & C0). set (gy := vec2 (Rpow ga (dec2R 0 0)) (Rpow gb (dec2R 0 0))) in *.
  destruct (tanh_grad_in_graph 0 draw rd (exh draw) (th1 draw) dH H' 1 2 (Some 2%nat) exx 6 lg gy)
    as (gx & Hgx & _ & _ & F);
    [reflexivity|apply wf_vec2|reflexivity|reflexivity|apply th1_eq|apply dH_pref|apply dH_own|apply dH_wf
    |rlazy; auto 10|exact I|exact E|exact Eg|apply wf_vec2|reflexivity| |].
  - rewrite C0. intros g [<-|[]]. split; [apply wf_vec2|reflexivity].
  - assert (G0 : gradOf dH 1 = None) by reflexivity.
    assert (Y0 : elt gy [0%nat] = 1) by (unfold gy; cbn; rewrite dec2R_0, Rpow_0; ring).
    assert (Y1 : elt gy [1%nat] = 1) by (unfold gy; cbn; rewrite dec2R_0, Rpow_0; ring).
    exists H', lg, gy, gx. split; [reflexivity|]. split; [exact Eg|]. split; [exact Hgx|].
    split; [exact Y0|]. split; [exact Y1|]. split.
    + rewrite (F [0%nat]) by (repeat constructor). rewrite C0, G0, Y0. cbn. rewrite dec2R_0, Rpow_0. ring.
    + rewrite (F [1%nat]) by (repeat constructor). rewrite C0, G0, Y1. cbn. rewrite dec2R_0, Rpow_0. ring.
Qed.

(* ---- Relu:  nodes 0 w, 1 x, 2 z0, 3 y, 4 r ---- *)
Definition rH : heap := fst (h_scale (rh1 draw) 3 3 (Some 4%nat)).

Lemma rH_pref : prefS (rh1 draw) rH.
Proof. split; [rlazy; lia|]. intros i Hi. do 4 (destruct i as [|i]; [repeat split|]). rlazy_in Hi. lia. Qed.
Lemma rH_hinv : StepP.hinv rH.
Proof. apply scale_hinv, (proj2 (proj2 (StepP.okw_relu _ _ _))), exh_hinv. Qed.
Lemma rH_own : rules_own rH.
Proof. exact (proj2 rH_hinv). Qed.
Lemma rH_wf : wf_heap rH.
Proof. exact (proj1 rH_hinv). Qed.
Lemma rH_noe : no_outside_edge rH 3 [2%nat].
Proof. noe_cases 5. Qed.

Example relu_block_ex : topoOrder rH 4 = [4; 3; 2; 1; 0]%nat /\ topo_block rH 4 1 3 [2%nat].
Proof.
  split; [reflexivity|].
  eapply (relu_block (exh draw) (rh1 draw) rH 1 3 (Some 2%nat) 4);
    [apply rh1_eq|reflexivity|reflexivity|apply rH_pref|apply rH_wf|apply rH_noe|]. rlazy. auto.
Qed.

Example relu_in_graph_ex rd :
  exists H' log gy gx,
    bp_topo rd idseal rH 4 = (H', log, Ok tt) /\ gradOf H' 3 = Some gy /\ gradOf H' 1 = Some gx /\
    elt gy [0%nat] = 3 /\ elt gy [1%nat] = 3 /\ elt gx [0%nat] = 3 /\ elt gx [1%nat] = 0.
Proof.
  destruct (bp_topo rd idseal rH 4) as [[H' lg] r] eqn:E.
  assert (Er : r = Ok tt) by (change r with (snd (H', lg, r)); rewrite <- E; vm_compute; reflexivity). subst r.
  assert (Eg : exists a b, gradOf H' 3 = Some (vec2 (3 * Rpow a (dec2R 0 0)) (3 * Rpow b (dec2R 0 0)))).
  { change H' with (fst (fst (H', lg, Ok tt))). rewrite <- E. rlazy. eexists. eexists. reflexivity. }
  destruct Eg as (ga & gb & Eg). set (gy := vec2 (3 * Rpow ga (dec2R 0 0)) (3 * Rpow gb (dec2R 0 0))) in *.
  destruct (relu_grad_in_graph 0 draw rd (exh draw) (rh1 draw) rH H' 1 3 (Some 2%nat) exx 4 lg gy)
    as (gx & Hgx & _ & _ & F);
    [lra|reflexivity|apply wf_vec2|reflexivity|reflexivity|apply rh1_eq|apply rH_pref|apply rH_own|apply rH_wf|apply rH_noe
    |rlazy; auto|reflexivity|exact I|exact E|exact Eg|apply wf_vec2|reflexivity| |].
  - intros g Hg. exfalso. rlazy_in Hg. exact Hg.
  - assert (C0 : contributions rd H' rH (outsideOf rH 4 3 [length (exh draw)]) 1 = []) by (rlazy; reflexivity).
    assert (G0 : gradOf rH 1 = None) by reflexivity.
    assert (Y0 : elt gy [0%nat] = 3) by (unfold gy; cbn; rewrite dec2R_0, Rpow_0; ring).
    assert (Y1 : elt gy [1%nat] = 3) by (unfold gy; cbn; rewrite dec2R_0, Rpow_0; ring).
    exists H', lg, gy, gx. split; [reflexivity|]. split; [exact Eg|]. split; [exact Hgx|].
    split; [exact Y0|]. split; [exact Y1|]. split.
    + destruct (F [0%nat]) as (_ & Pp & _); [repeat constructor|]. cbv zeta in Pp. rewrite Pp by (cbn; lra).
      rewrite C0, G0, Y0. cbn. ring.
    + destruct (F [1%nat]) as (_ & _ & Nn & _); [repeat constructor|]. cbv zeta in Nn. rewrite Nn by (cbn; lra).
      rewrite C0, G0, Y1. cbn. ring.
Qed.

(* ---- Sigmoid:  nodes 0 w, 1 x, 2..7 internal, 8 y, 9 r ---- *)
Definition sH : heap := fst (h_scale (sh1 draw) 8 3 (Some 9%nat)).

Lemma sH_pref : prefS (sh1 draw) sH.
Proof. split; [rlazy; lia|]. intros i Hi. do 9 (destruct i as [|i]; [repeat split|]). rlazy_in Hi. lia. Qed.
Lemma sH_hinv : StepP.hinv sH.
Proof. apply scale_hinv, (proj2 (proj2 (StepP.okw_sigmoid _ _ _))), exh_hinv. Qed.
Lemma sH_own : rules_own sH.
Proof. exact (proj2 sH_hinv). Qed.
Lemma sH_wf : wf_heap sH.
Proof. exact (proj1 sH_hinv). Qed.
Lemma sH_noe : no_outside_edge sH 8 [7; 6; 4; 3; 5; 2]%nat.
Proof. noe_cases 10. Qed.

Example sigmoid_block_ex : topoOrder sH 9 = [9; 8; 7; 6; 4; 3; 5; 2; 1; 0]%nat /\ topo_block sH 9 1 8 [7; 6; 4; 3; 5; 2]%nat.
Proof.
  split; [reflexivity|].
  eapply (sigmoid_block (exh draw) (sh1 draw) sH 1 8 (Some 2%nat) exx 9);
    [apply sh1_eq|reflexivity|apply wf_vec2|reflexivity|reflexivity|apply sH_pref|apply sH_wf|apply sH_noe|]. rlazy. auto 12.
Qed.

Example sigmoid_in_graph_ex rd :
  exists H' log gy gx,
    bp_topo rd idseal sH 9 = (H', log, Ok tt) /\ gradOf H' 8 = Some gy /\ gradOf H' 1 = Some gx /\
    elt gy [0%nat] = 3 /\ elt gy [1%nat] = 3 /\
    elt gx [0%nat] = 3 * (logistic (2 * 3) * (1 - logistic (2 * 3))) /\
    elt gx [1%nat] = 3 * (logistic (2 * -4) * (1 - logistic (2 * -4))).
Proof.
  destruct (bp_topo rd idseal sH 9) as [[H' lg] r] eqn:E.
  assert (Er : r = Ok tt) by (change r with (snd (H', lg, r)); rewrite <- E; vm_compute; reflexivity). subst r.
  assert (Eg : exists a b, gradOf H' 8 = Some (vec2 (3 * Rpow a (dec2R 0 0)) (3 * Rpow b (dec2R 0 0)))).
  { change H' with (fst (fst (H', lg, Ok tt))). rewrite <- E. rlazy. eexists. eexists. reflexivity. }
  destruct Eg as (ga & gb & Eg). set (gy := vec2 (3 * Rpow ga (dec2R 0 0)) (3 * Rpow gb (dec2R 0 0))) in *.
  destruct (sigmoid_grad_in_graph 0 draw rd (exh draw) (sh1 draw) sH H' 1 8 (Some 2%nat) exx 9 lg gy)
    as (gx & Hgx & _ & _ & F);
    [reflexivity|apply wf_vec2|reflexivity|reflexivity|apply sh1_eq|apply sH_pref|apply sH_own|apply sH_wf|apply sH_noe
    |rlazy; auto 12| |exact I|exact E|exact Eg|apply wf_vec2|reflexivity| |].
  - intros n Hn. cbn [In length exh] in Hn. repeat (destruct Hn as [Hn|Hn]; [subst n; reflexivity|]). destruct Hn.
  - intros g Hg. exfalso. rlazy_in Hg. exact Hg.
  - match type of F with context [contributions rd H' sH ?o 1] =>
      assert (C0 : contributions rd H' sH o 1 = []) by (rlazy; reflexivity) end.
    assert (G0 : gradOf sH 1 = None) by reflexivity.
    assert (Y0 : elt gy [0%nat] = 3) by (unfold gy; cbn; rewrite dec2R_0, Rpow_0; ring).
    assert (Y1 : elt gy [1%nat] = 3) by (unfold gy; cbn; rewrite dec2R_0, Rpow_0; ring).
    exists H', lg, gy, gx. split; [reflexivity|]. split; [exact Eg|]. split; [exact Hgx|].
    split; [exact Y0|]. split; [exact Y1|]. split.
    + rewrite (F [0%nat]) by (repeat constructor). rewrite C0, G0, Y0. cbn. ring.
    + rewrite (F [1%nat]) by (repeat constructor). rewrite C0, G0, Y1. cbn. ring.
Qed.

End Ex.
End GradChainExamples.

Print Assumptions trunc_transfer.
Print Assumptions topo_find.
Print Assumptions tanh_block.
Print Assumptions relu_block.
Print Assumptions leaky_block.
Print Assumptions sigmoid_block.
Print Assumptions softmax_block.
Print Assumptions leaky_noe.
Print Assumptions bp_fold_seg.
Print Assumptions comp_in_graph.
Print Assumptions tanh_grad_ext.
Print Assumptions relu_grad_ext.
Print Assumptions leaky_grad_ext.
Print Assumptions sigmoid_grad_ext.
Print Assumptions softmax_grad_ext.
Print Assumptions tanh_grad_in_graph.
Print Assumptions relu_grad_in_graph.
Print Assumptions leaky_grad_in_graph.
Print Assumptions sigmoid_grad_in_graph.
Print Assumptions softmax_grad_in_graph.
Print Assumptions GradChainExamples.sigmoid_in_graph_ex.
