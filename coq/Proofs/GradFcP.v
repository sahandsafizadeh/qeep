(* GradFcP.v — property C16, gradients of the fully connected layer (component/layers/fc.go):
   back-propagation through  y = W.UnSqueeze(1).MatMul(x.UnSqueeze(1)).SumAlong(2).Add(B)
   delivers to W, B and to a tracked input x the derivatives of
        y[b][o] = W[o] * Σ_d x[b][d] + B[o]
   contracted with the upstream gradient gy (shape [B;O]) that reached y:
        dW[o]    = c * Σ_b gy[b][o] * Σ_d x[b][d]
        dB[o]    = c * Σ_b gy[b][o]
        dx[b][d] =     Σ_o gy[b][o] * W[o]
   where c = 1 for the summing Broadcast back edge ([RedSum], what the property demands) and
   c = 1 / B (B the batch size) for the averaging one ([RedAvg], the pinned library, known finding D2).

   FORMULATION.  [h] is any heap; w, b are tracked, not spent nodes of it with values of shape [O],
   x a not spent node with a value of shape [B;F], tracked or not (a leaf OR the result of earlier
   operations: nothing is assumed about the edges of w, b, x); [(h1, Ok y)] the outcome of
   [fc_forward h w b [Some x] name].  [hh] is ANY heap with the structure of [h1] ([sameS h1 hh])
   in which a back-propagation from some root above y has already delivered the final gradient
   [gy] to [y], the eight internal nodes hold no gradient yet, and w, b, x hold arbitrary prior
   gradients (none, or a well-formed tensor of the node's shape).  The theorem runs the model's
   own [process_node rd (fun _ g => g)] over the nine nodes of the layer in decreasing id order,
   concludes that the fold is [Ok] (no rule evaluation and no accumulation fails), that the
   structure is unchanged, that every other old node keeps its gradient, and gives the gradients
   of w, b, x element by element (prior + the formula above).  If x is not tracked the edge to
   it is skipped and x keeps what it had.

   HYPOTHESES worth noticing: [w <> b] (two distinct parameter tensors; x differs from both because
   the shapes differ), x not spent (a spent input makes the whole result untracked).

   1. generic (any scalar): a heap seen through its observers ([HS h0 G hh]) and the run of one
      node's edges on the gradient map ([accEdges], [edge_ev]).
   2. generic: the exact heap built by [fc_forward]: [fc_structure] (the nine nodes [fc_heap]).
   3. reals: the values stored in the nodes ([fc_values]); the reading [fsem] of the rules of the
      layer: [BpFoldP.rsem] (the two Broadcast back edges that reduce over the batch have the
      factor [rdc rd B] = 1 (RedSum) or 1/B (RedAvg)) and the two MatMul back edges
      ([matmul_a_eval], [matmul_b_eval]); all nine nodes by [BpFoldP.comp_run]: [fc_core];
      MAIN THEOREM [fc_backward]; its readings [fc_grad_B], [fc_grad_x], [fc_grad_W] (both
      variants spelled out); [fc_fresh_upstream] (the hypotheses about hh hold on the fresh graph
      with an upstream gradient put on y); [fcY_dW], [fcY_dB], [fcY_dX]: the factors in the
      formulas are the partial derivatives of y[b][o] = W[o] * Σ_d x[b][d] + B[o];
      [fc_backward_ex]: a concrete instance with numbers. *)
From Coq Require Import List Arith ZArith Bool Lia Reals Lra.
From Coquelicot Require Import Coquelicot.
From Qeep Require Import Model.Scalar Model.Nd Model.Fill Model.Data Model.Valid Model.Api Model.Grad
  Model.Backprop Model.Components.
From Qeep Require Import Proofs.NdP Proofs.ElemP Proofs.ReshapeP Proofs.BroadcastP Proofs.ReduceP Proofs.ArithP
  Proofs.MatMulP Proofs.TrackP Proofs.BackpropP Proofs.CompP Proofs.FcP.
From Qeep Require Import Spec.RScalar Spec.VjpSpec Proofs.VjpElemP Proofs.VjpGatherP Proofs.VjpReduceP
  Proofs.VjpLinalgP Proofs.ReduceRP Proofs.BpFoldP.
Import ListNotations.
Local Open Scope nat_scope.

(* 1. generic part: a heap seen through its observers *)
Section Gen.
Context {A : Type} {SA : Scalar A}.
Notation T := (tensor A).
Notation heap := (@heap A).
Notation rule := (@rule A).
Notation node := (@node A).
Notation hres := (@hres A).

Definition upd (G : nat -> option T) (t : nat) (o : option T) : nat -> option T :=
  fun i => if i =? t then o else G i.

(* hh has the structure of h0 (values, flags, edges, size) and the gradients G *)
Definition HS (h0 : heap) (G : nat -> option T) (hh : heap) : Prop :=
  sameS h0 hh /\ forall i, gradOf hh i = G i.

Section Run.
Variable rd : bred.

(* accumulateGrad on the gradient map; [None] = the edge is skipped (untracked target) *)
Fixpoint accEdges (G : nat -> option T) (l : list (nat * option T)) : option (nat -> option T) :=
  match l with
  | [] => Some G
  | (t, None) :: r => accEdges G r
  | (t, Some g) :: r => match acc1 (G t) g with Some o => accEdges (upd G t o) r | None => None end
  end.

(* edge e of node c: either its target is untracked (skipped), or it is tracked, is not c itself,
   the rule reads the gradient of c, and evaluates (in hh) to the paired gradient *)
Definition edge_ev (h0 hh : heap) (c : nat) (e : nat * rule) (tg : nat * option T) : Prop :=
  fst tg = fst e /\
  match snd tg with
  | None => trackedOf h0 (fst e) = false
  | Some g => trackedOf h0 (fst e) = true /\ fst e <> c /\ rule_y (snd e) = c /\ eval_rule rd hh (snd e) = Ok g
  end.

End Run.

End Gen.

(* 2. the exact heap built by fc_forward *)
Section Structure.
Context {A : Type} {SA : Scalar A}.
Notation T := (tensor A).
Notation heap := (@heap A).
Notation rule := (@rule A).
Notation node := (@node A).
Notation hres := (@hres A).

(* a node allocated from not-spent operands: tracked iff some operand is, edges only if tracked *)
Definition nd (v : T) (t : bool) (es : list (nat * rule)) (name : option nat) : node :=
  mkNode v t false None (if t then es else []) name.

Lemma mkCtx1 (h : heap) x es : dirtyOf h x = false ->
  mkCtx h [x] es = (trackedOf h x, false, if trackedOf h x then es else []).
Proof.
  intros Hd. unfold mkCtx. cbn [existsb]. rewrite Hd. cbn [orb]. rewrite orb_false_r.
  destruct (trackedOf h x); reflexivity.
Qed.

Lemma mkCtx2 (h : heap) x u es : dirtyOf h x = false -> dirtyOf h u = false ->
  mkCtx h [x; u] es = (trackedOf h x || trackedOf h u, false, if trackedOf h x || trackedOf h u then es else []).
Proof.
  intros Hd Hd2. unfold mkCtx. cbn [existsb]. rewrite Hd, Hd2. cbn [orb]. rewrite orb_false_r.
  destruct (trackedOf h x || trackedOf h u); reflexivity.
Qed.

(* observers of an appended suffix *)
Lemma nth_error_at (h l : heap) i k : i = length h + k -> nth_error (h ++ l) i = nth_error l k.
Proof. intros ->. rewrite nth_error_app2 by lia. f_equal. lia. Qed.

Lemma valOf_at (h l : heap) i k n : i = length h + k -> nth_error l k = Some n -> valOf (h ++ l) i = Some (nval n).
Proof. intros Hi Hn. unfold valOf. rewrite (nth_error_at h l i k Hi), Hn. reflexivity. Qed.
Lemma trackedOf_at (h l : heap) i k n : i = length h + k -> nth_error l k = Some n -> trackedOf (h ++ l) i = ntracked n.
Proof. intros Hi Hn. unfold trackedOf. rewrite (nth_error_at h l i k Hi), Hn. reflexivity. Qed.
Lemma dirtyOf_at (h l : heap) i k n : i = length h + k -> nth_error l k = Some n -> dirtyOf (h ++ l) i = ndirty n.
Proof. intros Hi Hn. unfold dirtyOf. rewrite (nth_error_at h l i k Hi), Hn. reflexivity. Qed.
Lemma edgesOf_at (h l : heap) i k n : i = length h + k -> nth_error l k = Some n -> edgesOf (h ++ l) i = nedges n.
Proof. intros Hi Hn. unfold edgesOf. rewrite (nth_error_at h l i k Hi), Hn. reflexivity. Qed.
Lemma gradOf_at (h l : heap) i k n : i = length h + k -> nth_error l k = Some n -> gradOf (h ++ l) i = ngrad n.
Proof. intros Hi Hn. unfold gradOf. rewrite (nth_error_at h l i k Hi), Hn. reflexivity. Qed.

Lemma gradOf_app (h l : heap) i : i < length h -> gradOf (h ++ l) i = gradOf h i.
Proof. intros Hi. unfold gradOf. rewrite nth_error_app1 by exact Hi. reflexivity. Qed.
Lemma edgesOf_app (h l : heap) i : i < length h -> edgesOf (h ++ l) i = edgesOf h i.
Proof. intros Hi. unfold edgesOf. rewrite nth_error_app1 by exact Hi. reflexivity. Qed.

Tactic Notation "at_rw" constr(lem) constr(i) constr(k) := erewrite (lem _ _ i k); [|rewrite ?Nat.add_succ_r, ?Nat.add_0_r; reflexivity|reflexivity].
Tactic Notation "at_rw" constr(lem) constr(i) constr(k) "in" hyp(H) := erewrite (lem _ _ i k) in H; [|rewrite ?Nat.add_succ_r, ?Nat.add_0_r; reflexivity|reflexivity].

Lemma op1_step (h : heap) x f mk name h' id :
  h_op1 h x f mk name = (h', Ok id) -> dirtyOf h x = false ->
  exists xv v, valOf h x = Some xv /\ f xv = Ok v /\ id = length h /\
               h' = h ++ [nd v (trackedOf h x) [(x, mk (length h))] name].
Proof.
  intros E Hd. apply h_op1_inv in E. destruct E as (xv & v & Hx & Hf & -> & ->). exists xv, v.
  rewrite (mkCtx1 h x _ Hd). auto.
Qed.

Lemma binop_step (h : heap) x u s1 s2 f edges name h' id :
  h_binop h x u s1 s2 f edges name = (h', Ok id) -> u < length h ->
  dirtyOf h x = false -> dirtyOf h u = false ->
  exists xv uv v1 v2 v, valOf h x = Some xv /\ v_broadcast xv s1 = Ok v1 /\
    valOf h u = Some uv /\ v_broadcast uv s2 = Ok v2 /\ f v1 v2 = Some v /\ id = S (S (length h)) /\
    h' = h ++ [nd v1 (trackedOf h x) [(x, RBroadcast (length h) x)] None;
               nd v2 (trackedOf h u) [(u, RBroadcast (S (length h)) u)] None;
               nd v (trackedOf h x || trackedOf h u) (edges (S (S (length h))) (length h) (S (length h))) name].
Proof.
  intros E Hul Dx Du. apply h_binop_inv in E.
  destruct E as (xv & uv & v1 & v2 & v & Hx & Hb1 & Hu & Hb2 & Hf & -> & ->).
  rewrite valOf_app in Hu by exact Hul.
  exists xv, uv, v1, v2, v. repeat (split; [assumption || reflexivity|]).
  assert (B1 : bnode1 h x v1 = nd v1 (trackedOf h x) [(x, RBroadcast (length h) x)] None).
  { unfold bnode1. rewrite (mkCtx1 h x _ Dx). reflexivity. }
  assert (B2 : bnode2 h x u v1 v2 = nd v2 (trackedOf h u) [(u, RBroadcast (S (length h)) u)] None).
  { unfold bnode2. rewrite mkCtx1 by (rewrite dirtyOf_app by exact Hul; exact Du).
    rewrite trackedOf_app by exact Hul. reflexivity. }
  assert (B3 : rnode h x u v1 v2 v edges name =
               nd v (trackedOf h x || trackedOf h u) (edges (S (S (length h))) (length h) (S (length h))) name).
  { unfold rnode. rewrite B1, B2. cbn [app].
    rewrite mkCtx2.
    - at_rw trackedOf_at (length h) 0.
      at_rw trackedOf_at (S (length h)) 1. reflexivity.
    - at_rw dirtyOf_at (length h) 0. reflexivity.
    - at_rw dirtyOf_at (S (length h)) 1. reflexivity. }
  rewrite B1, B2, B3. reflexivity.
Qed.

(* the nine nodes of the layer, appended to h; [tx] = the input is tracked *)
Definition fc_heap (h : heap) (w b x : nat) (tx : bool) (w1v x1v bwv bxv y1v y2v by2v bbv yv : T)
  (name : option nat) : heap :=
  let n := length h in
  let n1 := S n in let n2 := S n1 in let n3 := S n2 in let n4 := S n3 in
  let n5 := S n4 in let n6 := S n5 in let n7 := S n6 in let n8 := S n7 in
  h ++ [ nd w1v true [(w, RReshape n w)] None;
         nd x1v tx [(x, RReshape n1 x)] None;
         nd bwv true [(n, RBroadcast n2 n)] None;
         nd bxv tx [(n1, RBroadcast n3 n1)] None;
         nd y1v true [(n2, RMatMulA n4 n3); (n3, RMatMulB n4 n2)] None;
         nd y2v true [(n4, RSumAlong n5 n4 2%Z)] None;
         nd by2v true [(n5, RBroadcast n6 n5)] None;
         nd bbv true [(b, RBroadcast n7 b)] None;
         nd yv true [(n6, RId n8); (n7, RId n8)] name ].

(* the new nodes hold no gradient; the old nodes are untouched *)
Lemma fc_heap_grad_new (h : heap) w b x tx w1v x1v bwv bxv y1v y2v by2v bbv yv name i :
  length h <= i -> gradOf (fc_heap h w b x tx w1v x1v bwv bxv y1v y2v by2v bbv yv name) i = None.
Proof.
  intros Hi. unfold gradOf, fc_heap. rewrite nth_error_app2 by exact Hi.
  remember (i - length h) as k eqn:Ek. clear Ek Hi.
  do 9 (destruct k as [|k]; [reflexivity|]). destruct k; reflexivity.
Qed.

Lemma fc_heap_grad_old (h : heap) w b x tx w1v x1v bwv bxv y1v y2v by2v bbv yv name i :
  i < length h -> gradOf (fc_heap h w b x tx w1v x1v bwv bxv y1v y2v by2v bbv yv name) i = gradOf h i.
Proof. intros Hi. unfold fc_heap. apply gradOf_app. exact Hi. Qed.

Ltac norm_len := rewrite ?app_length; cbn [length]; rewrite ?Nat.add_succ_r, ?Nat.add_0_r.

Theorem fc_structure (h : heap) w b x name (wv bv xv : T) h1 y :
  valOf h w = Some wv -> valOf h b = Some bv -> valOf h x = Some xv ->
  trackedOf h w = true -> dirtyOf h w = false -> trackedOf h b = true -> dirtyOf h b = false ->
  dirtyOf h x = false ->
  fc_forward h w b [Some x] name = (h1, Ok y) ->
  exists w1v x1v bwv bxv y1v y2v by2v bbv yv,
    v_unsqueeze wv 1%Z = Ok w1v /\ v_unsqueeze xv 1%Z = Ok x1v /\
    v_broadcast w1v (map Z.of_nat (mmShape (targetBroadcastDims (dims w1v) (dims x1v)) (dims w1v))) = Ok bwv /\
    v_broadcast x1v (map Z.of_nat (mmShape (targetBroadcastDims (dims w1v) (dims x1v)) (dims x1v))) = Ok bxv /\
    matMul bwv bxv = Some y1v /\
    v_reduceAlong RdSum y1v 2%Z = Ok y2v /\
    v_broadcast y2v (map Z.of_nat (targetBroadcastDims (dims y2v) (dims bv))) = Ok by2v /\
    v_broadcast bv (map Z.of_nat (targetBroadcastDims (dims y2v) (dims bv))) = Ok bbv /\
    apply2 (binaryF BiAdd) by2v bbv = Some yv /\
    y = S (S (S (S (S (S (S (S (length h)))))))) /\
    h1 = fc_heap h w b x (trackedOf h x) w1v x1v bwv bxv y1v y2v by2v bbv yv name.
Proof.
  intros Vw Vb Vx Tw Dw Tb Db Dx E.
  assert (Lw : w < length h) by (eapply valOf_some_lt; eauto).
  assert (Lb : b < length h) by (eapply valOf_some_lt; eauto).
  assert (Lx : x < length h) by (eapply valOf_some_lt; eauto).
  unfold fc_forward in E. cbn [oneInput] in E.
  destruct (negb (rankOf h x =? 2)); [discriminate|].
  (* w1 = w.UnSqueeze(1) *)
  destruct (h_unsqueeze h w 1%Z None) as [ha ra] eqn:E1.
  destruct ra as [w1| |]; cbn [hbind atomically] in E; try discriminate.
  unfold h_unsqueeze in E1. apply op1_step in E1; [|exact Dw].
  destruct E1 as (wv' & w1v & Vw' & U1 & -> & ->). assert (wv' = wv) by congruence. subst wv'. rewrite Tw in E.
  (* x1 = x.UnSqueeze(1) *)
  match type of E with context [h_unsqueeze ?hh x 1%Z None] => destruct (h_unsqueeze hh x 1%Z None) as [hb rb] eqn:E2 end.
  destruct rb as [x1| |]; cbn [hbind atomically] in E; try discriminate.
  unfold h_unsqueeze in E2. apply op1_step in E2; [|rewrite dirtyOf_app by exact Lx; exact Dx].
  destruct E2 as (xv' & x1v & Vx' & U2 & -> & ->).
  rewrite valOf_app in Vx' by exact Lx. assert (xv' = xv) by congruence. subst xv'.
  rewrite trackedOf_app in E by exact Lx. rewrite <- app_assoc in E. cbn [app] in E.
  revert E. norm_len. intros E.
  (* y1 = w1.MatMul(x1) *)
  match type of E with context [h_matmul ?hh ?a ?c None] => destruct (h_matmul hh a c None) as [hc rc] eqn:E3 end.
  destruct rc as [y1| |]; cbn [hbind atomically] in E; try discriminate.
  unfold h_matmul in E3.
  at_rw valOf_at (length h) 0 in E3.
  at_rw valOf_at (S (length h)) 1 in E3. cbn [nval nd] in E3.
  destruct (validateMatMulDims (zdims w1v) (zdims x1v)); [|discriminate]. cbv zeta in E3.
  apply binop_step in E3.
  2:{ norm_len. lia. }
  2:{ at_rw dirtyOf_at (length h) 0. reflexivity. }
  2:{ at_rw dirtyOf_at (S (length h)) 1. reflexivity. }
  destruct E3 as (w1v' & x1v' & bwv & bxv & y1v & Vw1 & Bw & Vx1 & Bx & MM & -> & ->).
  at_rw valOf_at (length h) 0 in Vw1.
  at_rw valOf_at (S (length h)) 1 in Vx1. cbn [nval nd] in Vw1, Vx1.
  inversion Vw1; subst w1v'. inversion Vx1; subst x1v'. clear Vw1 Vx1.
  at_rw trackedOf_at (length h) 0 in E.
  at_rw trackedOf_at (S (length h)) 1 in E. cbn [ntracked nd orb] in E.
  rewrite <- app_assoc in E. cbn [app] in E. revert E. norm_len. intros E.
  (* y2 = y1.SumAlong(2) *)
  match type of E with context [h_reduceAlong ?hh RdSum ?a 2%Z None] =>
    destruct (h_reduceAlong hh RdSum a 2%Z None) as [hd rd'] eqn:E4 end.
  destruct rd' as [y2| |]; cbn [hbind atomically] in E; try discriminate.
  unfold h_reduceAlong in E4. apply op1_step in E4.
  2:{ at_rw dirtyOf_at (S (S (S (S (length h))))) 4. reflexivity. }
  destruct E4 as (y1v' & y2v & Vy1 & RS & -> & ->).
  at_rw valOf_at (S (S (S (S (length h))))) 4 in Vy1. cbn [nval nd] in Vy1.
  inversion Vy1; subst y1v'. clear Vy1.
  at_rw trackedOf_at (S (S (S (S (length h))))) 4 in E. cbn [ntracked nd] in E.
  rewrite <- app_assoc in E. cbn [app alongRule] in E. revert E. norm_len. intros E.
  (* y = y2.Add(b) *)
  match type of E with context [h_arith ?hh BiAdd ?a b name] => destruct (h_arith hh BiAdd a b name) as [he re] eqn:E5 end.
  destruct re as [yid| |]; cbn [hbind atomically] in E; try discriminate.
  inversion E; subst he yid. clear E.
  unfold h_arith in E5.
  at_rw valOf_at (S (S (S (S (S (length h)))))) 5 in E5. cbn [nval nd] in E5.
  rewrite valOf_app in E5 by exact Lb. rewrite Vb in E5. cbv zeta in E5.
  apply binop_step in E5.
  2:{ norm_len. lia. }
  2:{ at_rw dirtyOf_at (S (S (S (S (S (length h)))))) 5. reflexivity. }
  2:{ rewrite dirtyOf_app by exact Lb. exact Db. }
  destruct E5 as (y2v' & bv' & by2v & bbv & yv & Vy2 & By & Vb' & Bb & AD & -> & ->).
  at_rw valOf_at (S (S (S (S (S (length h)))))) 5 in Vy2. cbn [nval nd] in Vy2.
  inversion Vy2; subst y2v'. clear Vy2.
  rewrite valOf_app in Vb' by exact Lb. assert (bv' = bv) by congruence. subst bv'.
  at_rw trackedOf_at (S (S (S (S (S (length h)))))) 5. cbn [ntracked nd orb].
  rewrite trackedOf_app by exact Lb. rewrite Tb.
  rewrite <- app_assoc. cbn [app arithEdges]. norm_len.
  exists w1v, x1v, bwv, bxv, y1v, y2v, by2v, bbv, yv.
  repeat (split; [assumption || reflexivity|]). reflexivity.
Qed.

End Structure.

Tactic Notation "at_rw" uconstr(lem) constr(i) constr(k) := erewrite (lem _ _ i k); [|rewrite ?Nat.add_succ_r, ?Nat.add_0_r; reflexivity|reflexivity].
Tactic Notation "at_rw" uconstr(lem) constr(i) constr(k) "in" hyp(H) := erewrite (lem _ _ i k) in H; [|rewrite ?Nat.add_succ_r, ?Nat.add_0_r; reflexivity|reflexivity].

Lemma upd_same {A} (G : nat -> option (tensor A)) t o : upd G t o t = o.
Proof. unfold upd. rewrite Nat.eqb_refl. reflexivity. Qed.
Lemma upd_other {A} (G : nat -> option (tensor A)) t o i : i <> t -> upd G t o i = G i.
Proof. intros H. unfold upd. destruct (Nat.eqb_spec i t); [contradiction|reflexivity]. Qed.

(* a successful Broadcast call, read backwards *)
Lemma v_broadcast_ok_inv {A} {SA : Scalar A} (t r : tensor A) ns :
  wf t -> v_broadcast t (map Z.of_nat ns) = Ok r -> broadcasted A t r ns /\ bcompat (dims t) ns.
Proof.
  intros Wt E. destruct (v_broadcast_spec A t (map Z.of_nat ns) Wt) as [H1 H2].
  destruct (validateInputDims (map Z.of_nat ns) && validateBroadcast (zdims t) (map Z.of_nat ns)) eqn:V;
    [|rewrite (H2 eq_refl) in E; discriminate].
  destruct (H1 eq_refl) as (r' & Er & Hb). assert (r' = r) by congruence. subst r'.
  rewrite natsOf_of_nat in Hb. split; [exact Hb|].
  apply validateBroadcast_shape_iff in V as (ns' & Ens & _ & Hc).
  assert (ns' = ns).
  { rewrite <- (natsOf_of_nat ns), <- (natsOf_of_nat ns'). rewrite Ens. reflexivity. }
  subst ns'. exact Hc.
Qed.

(* 3. the reals *)
Section FcGrad.
Variables (thr : R) (draw : bool -> nat -> R).
Local Hint Extern 0 (Scalar R) => exact (R_scalar thr draw) : typeclass_instances.
Notation T := (tensor R).
Notation heap := (@heap R).
Notation rule := (@rule R).
Notation idseal := (fun (_ : option nat) (g : T) => g).
Local Open Scope R_scope.

(* Σ_{k < n} f k *)
Definition SumN (n : nat) (f : nat -> R) : R := Rsum (map f (seq 0 n)).

Lemma SumN_sumN n f : SumN n f = VjpLinalgP.sumN n f.
Proof. reflexivity. Qed.

(* the gradient a node held before, read as an assignment (0 where there was none) *)
Definition prior (o : option T) : assignment := fun i => match o with Some g0 => elt g0 i | None => 0 end.
(* a prior gradient, if any, is a well-formed tensor of the node's shape *)
Definition okPrior (o : option T) (ds : list nat) : Prop := forall g0, o = Some g0 -> wf g0 /\ dims g0 = ds.

Lemma okPrior_None ds : okPrior None ds.
Proof. intros g0 E. discriminate. Qed.

(* accumulateGrad never fails on a prior of the right shape, and adds element by element *)
Lemma acc1_R (o : option T) (g : T) ds : okPrior o ds -> wf g -> dims g = ds ->
  exists s, acc1 o g = Some (Some s) /\ dims s = ds /\ wf s /\
    forall i, validIdx ds i -> elt s i = prior o i + elt g i.
Proof.
  intros Ho Wg Dg. destruct o as [g0|].
  - destruct (Ho g0 eq_refl) as [W0 D0].
    destruct (ArithP.v_arith_same_dims BiAdd g0 g W0 Wg ltac:(congruence)) as (_ & _ & s & Es & Ds & Ws & Hs).
    exists s. unfold acc1. rewrite Es. split; [reflexivity|]. split; [congruence|]. split; [exact Ws|].
    intros i Hi. rewrite <- D0 in Hi. destruct (Hs i Hi) as (a & c & Ea & Ec & Er).
    unfold prior, elt. rewrite Ea, Ec, Er. reflexivity.
  - exists g. split; [reflexivity|]. split; [exact Dg|]. split; [exact Wg|].
    intros i _. unfold prior. ring.
Qed.

(* ---------- the values stored in the layer's nodes ---------- *)
Lemma fc_values (wv bv xv w1v x1v bwv bxv y1v y2v by2v bbv yv : T) O B F :
  wf wv -> wf bv -> wf xv -> dims wv = [O] -> dims bv = [O] -> dims xv = [B; F] ->
  v_unsqueeze wv 1%Z = Ok w1v -> v_unsqueeze xv 1%Z = Ok x1v ->
  v_broadcast w1v (map Z.of_nat (mmShape (targetBroadcastDims (dims w1v) (dims x1v)) (dims w1v))) = Ok bwv ->
  v_broadcast x1v (map Z.of_nat (mmShape (targetBroadcastDims (dims w1v) (dims x1v)) (dims x1v))) = Ok bxv ->
  matMul bwv bxv = Some y1v ->
  v_reduceAlong RdSum y1v 2%Z = Ok y2v ->
  v_broadcast y2v (map Z.of_nat (targetBroadcastDims (dims y2v) (dims bv))) = Ok by2v ->
  v_broadcast bv (map Z.of_nat (targetBroadcastDims (dims y2v) (dims bv))) = Ok bbv ->
  apply2 (binaryF BiAdd) by2v bbv = Some yv ->
  (wf w1v /\ dims w1v = [O; 1%nat]) /\
  (wf x1v /\ dims x1v = [B; 1%nat; F] /\
   forall bi d, (bi < B)%nat -> (d < F)%nat -> elt x1v [bi; 0%nat; d] = elt xv [bi; d]) /\
  (wf bwv /\ dims bwv = [B; O; 1%nat] /\
   forall bi o, (bi < B)%nat -> (o < O)%nat -> elt bwv [bi; o; 0%nat] = elt wv [o]) /\
  bxv = x1v /\ (wf y1v /\ dims y1v = [B; O; F]) /\ (wf y2v /\ dims y2v = [B; O]) /\ by2v = y2v /\
  (wf bbv /\ dims bbv = [B; O]) /\ dims yv = [B; O].
Proof.
  intros Ww Wb Wx Dw Db Dx U1 U2 Bw Bx MM RS By Bb AD.
  (* w1, x1 *)
  pose proof (repr_self wv Ww) as Rw. rewrite Dw in Rw.
  destruct (unsqueeze_repr wv [O] (elt wv) 1 Rw ltac:(cbn; lia)) as (r1 & Er1 & Dw1 & Ww1 & Ew1).
  change (Z.of_nat 1) with 1%Z in Er1. assert (r1 = w1v) by congruence. subst r1.
  cbn [ins firstn skipn app] in Dw1, Ew1.
  pose proof (repr_self xv Wx) as Rx. rewrite Dx in Rx.
  destruct (unsqueeze_repr xv [B; F] (elt xv) 1 Rx ltac:(cbn; lia)) as (r2 & Er2 & Dx1 & Wx1 & Ex1).
  change (Z.of_nat 1) with 1%Z in Er2. assert (r2 = x1v) by congruence. subst r2.
  cbn [ins firstn skipn app] in Dx1, Ex1.
  (* bw, bx *)
  rewrite Dw1, Dx1 in Bw, Bx.
  change (mmShape (targetBroadcastDims [O; 1%nat] [B; 1%nat; F]) [O; 1%nat]) with [B; O; 1%nat] in Bw.
  change (mmShape (targetBroadcastDims [O; 1%nat] [B; 1%nat; F]) [B; 1%nat; F]) with [B; 1%nat; F] in Bx.
  destruct (v_broadcast_ok_inv w1v bwv [B; O; 1%nat] Ww1 Bw) as [(Dbw & Wbw & Gbw) _].
  rewrite <- Dx1 in Bx. rewrite (v_broadcast_id x1v Wx1) in Bx. inversion Bx; subst bxv. clear Bx.
  (* y1 *)
  destruct (matMul_spec bwv x1v [B] O 1 F Wbw Wx1 Dbw Dx1) as (r3 & Er3 & Dy1 & Wy1 & _).
  assert (r3 = y1v) by congruence. subst r3. cbn [app] in Dy1.
  (* y2 *)
  destruct (v_reduceAlong_elems RdSum y1v 2%Z Wy1 ltac:(rewrite Dy1; cbn; lia)) as (r4 & Er4 & Dy2 & Wy2 & _).
  assert (r4 = y2v) by congruence. subst r4.
  change (Z.to_nat 2) with 2%nat in Dy2. rewrite Dy1 in Dy2. cbn [squeezeDims firstn skipn app] in Dy2.
  (* by2, bb *)
  rewrite Dy2, Db in By, Bb.
  assert (Et : targetBroadcastDims [B; O] [O] = [B; O])
    by (unfold targetBroadcastDims; cbn; rewrite Nat.max_id; reflexivity).
  rewrite Et in By, Bb.
  rewrite <- Dy2 in By. rewrite (v_broadcast_id y2v Wy2) in By. inversion By; subst by2v. clear By.
  destruct (v_broadcast_ok_inv bv bbv [B; O] Wb Bb) as [(Dbb & Wbb & _) _].
  destruct (apply2_spec (binaryF BiAdd) y2v bbv Wy2 Wbb ltac:(congruence)) as (r5 & Er5 & Dyv & _).
  assert (r5 = yv) by congruence. subst r5.
  split; [split; [exact Ww1|exact Dw1]|]. split.
  { split; [exact Wx1|]. split; [exact Dx1|]. intros bi d Hbi Hd.
    rewrite (Ex1 [bi; 0%nat; d]) by (repeat constructor; lia). reflexivity. }
  split.
  { split; [exact Wbw|]. split; [exact Dbw|]. intros bi o Hbi Ho.
    assert (Hv : validIdx [B; O; 1%nat] [bi; o; 0%nat]) by (repeat constructor; lia).
    unfold elt at 1. rewrite (Gbw _ Hv). rewrite Dw1. unfold bproj.
    cbn [length Nat.sub skipn combine map fst snd Nat.eqb].
    assert (Ep : (if (O =? 1)%nat then 0%nat else o) = o) by (destruct (Nat.eqb_spec O 1); [lia|reflexivity]).
    rewrite Ep. fold (elt w1v [o; 0%nat]). rewrite (Ew1 [o; 0%nat]) by (apply validIdx2; lia). reflexivity. }
  split; [reflexivity|]. split; [split; assumption|]. split; [split; assumption|]. split; [reflexivity|].
  split; [split; assumption|congruence].
Qed.

Lemma in_if {X} (t : bool) (l : list X) e : In e (if t then l else []) -> In e l.
Proof. destruct t; [auto|intros []]. Qed.

Lemma validIdx3_inv a b c idx : validIdx [a; b; c] idx ->
  exists i j k, idx = [i; j; k] /\ (i < a)%nat /\ (j < b)%nat /\ (k < c)%nat.
Proof.
  intros H. apply validIdx_cons in H as (i & r & -> & Hi & H). apply validIdx_cons in H as (j & r' & -> & Hj & H).
  apply validIdx_cons in H as (k & r'' & -> & Hk & H). apply validIdx_nil in H. subst r''. exists i, j, k. auto.
Qed.

(* ---------- the nine nodes ---------- *)
Section Core.
Variable rd : bred.
Variables (h : heap) (w b x : nat) (name : option nat) (tx : bool).
Variables (wv bv xv w1v x1v bwv y1v y2v bbv yv : T) (O B F : nat).
Local Notation n := (length h).
Local Notation n1 := (S n).
Local Notation n2 := (S (S n)).
Local Notation n3 := (S (S (S n))).
Local Notation n4 := (S (S (S (S n)))).
Local Notation n5 := (S (S (S (S (S n))))).
Local Notation n6 := (S (S (S (S (S (S n)))))).
Local Notation n7 := (S (S (S (S (S (S (S n))))))).
Local Notation n8 := (S (S (S (S (S (S (S (S n)))))))).
Local Notation h1 := (fc_heap h w b x tx w1v x1v bwv x1v y1v y2v y2v bbv yv name).
Hypotheses (Vw : valOf h w = Some wv) (Vb : valOf h b = Some bv) (Vx : valOf h x = Some xv).
Hypotheses (Tw : trackedOf h w = true) (Tb : trackedOf h b = true) (Tx : trackedOf h x = tx).
Hypothesis Nwb : w <> b.
Hypotheses (Ww : wf wv) (Wb : wf bv) (Wx : wf xv) (Dw : dims wv = [O]) (Db : dims bv = [O]) (Dx : dims xv = [B; F]).
Hypotheses (Ww1 : wf w1v) (Dw1 : dims w1v = [O; 1%nat]).
Hypotheses (Wx1 : wf x1v) (Dx1 : dims x1v = [B; 1%nat; F])
  (Ex1 : forall bi d, (bi < B)%nat -> (d < F)%nat -> elt x1v [bi; 0%nat; d] = elt xv [bi; d]).
Hypotheses (Wbw : wf bwv) (Dbw : dims bwv = [B; O; 1%nat])
  (Ebw : forall bi o, (bi < B)%nat -> (o < O)%nat -> elt bwv [bi; o; 0%nat] = elt wv [o]).
Hypotheses (Wy1 : wf y1v) (Dy1 : dims y1v = [B; O; F]) (Wy2 : wf y2v) (Dy2 : dims y2v = [B; O])
  (Wbb : wf bbv) (Dbb : dims bbv = [B; O]) (Dyv : dims yv = [B; O]).

Lemma Lw : (w < n)%nat.  Proof. eapply valOf_some_lt; eauto. Qed.
Lemma Lb : (b < n)%nat.  Proof. eapply valOf_some_lt; eauto. Qed.
Lemma Lx : (x < n)%nat.  Proof. eapply valOf_some_lt; eauto. Qed.
Lemma Nwx : w <> x.
Proof. intros E. subst x. assert (wv = xv) by congruence. subst xv. rewrite Dw in Dx. discriminate. Qed.
Lemma Nbx : b <> x.
Proof. intros E. subst x. assert (bv = xv) by congruence. subst xv. rewrite Db in Dx. discriminate. Qed.

Lemma L1 : length h1 = S n8.
Proof. unfold fc_heap. rewrite app_length. cbn [length]. lia. Qed.

Lemma old_val i : (i < n)%nat -> valOf h1 i = valOf h i.
Proof. intros Hi. unfold fc_heap. apply valOf_app. exact Hi. Qed.
Lemma old_trk i : (i < n)%nat -> trackedOf h1 i = trackedOf h i.
Proof. intros Hi. unfold fc_heap. apply trackedOf_app. exact Hi. Qed.

Lemma SumN_ext m f g : (forall k, (k < m)%nat -> f k = g k) -> SumN m f = SumN m g.
Proof. apply (VjpLinalgP.sumN_ext m). Qed.
Lemma SumN_scal m c f : SumN m (fun k => c * f k) = c * SumN m f.
Proof. apply (VjpLinalgP.sumN_scal m). Qed.

(* MatMul, first operand (the broadcast weight): gy.MatMul(bx^T) *)
Lemma matmul_a_eval hh g4 :
  valOf hh n3 = Some x1v -> gradOf hh n4 = Some g4 -> wf g4 -> dims g4 = [B; O; F] ->
  exists gA, eval_rule rd hh (RMatMulA n4 n3) = Ok gA /\ dims gA = [B; O; 1%nat] /\ wf gA /\
    forall bi o, (bi < B)%nat -> (o < O)%nat ->
      elt gA [bi; o; 0%nat] = SumN F (fun d => elt g4 [bi; o; d] * elt xv [bi; d]).
Proof.
  intros V3 G4 W4 D4.
  destruct (rmatmula_eval thr draw rd hh n4 n3 x1v g4 [B] O 1 F V3 G4 Wx1 W4 Dx1 D4) as (gA & EA & DA & WA & HA).
  exists gA. split; [exact EA|]. split; [exact DA|]. split; [exact WA|].
  intros bi o Hbi Ho. pose proof (HA [bi] o 0%nat ltac:(apply validIdx1; exact Hbi) Ho ltac:(lia)) as E.
  cbn [app] in E. rewrite E. apply (VjpLinalgP.sumN_ext F). intros d Hd. rewrite (Ex1 bi d Hbi Hd). reflexivity.
Qed.

(* MatMul, second operand (the broadcast input): bw^T.MatMul(gy) *)
Lemma matmul_b_eval hh g4 :
  valOf hh n2 = Some bwv -> gradOf hh n4 = Some g4 -> wf g4 -> dims g4 = [B; O; F] ->
  exists gB, eval_rule rd hh (RMatMulB n4 n2) = Ok gB /\ dims gB = [B; 1%nat; F] /\ wf gB /\
    forall bi d, (bi < B)%nat -> (d < F)%nat ->
      elt gB [bi; 0%nat; d] = SumN O (fun o => elt wv [o] * elt g4 [bi; o; d]).
Proof.
  intros V2 G4 W4 D4.
  destruct (rmatmulb_eval thr draw rd hh n4 n2 bwv g4 [B] O 1 F V2 G4 Wbw W4 Dbw D4) as (gB & EB & DB & WB & HB).
  exists gB. split; [exact EB|]. split; [exact DB|]. split; [exact WB|].
  intros bi d Hbi Hd. pose proof (HB [bi] 0%nat d ltac:(apply validIdx1; exact Hbi) ltac:(lia) Hd) as E.
  cbn [app] in E. rewrite E. apply (VjpLinalgP.sumN_ext O). intros o Ho. rewrite (Ebw bi o Hbi Ho). reflexivity.
Qed.

(* the rules as [rsem] reads them, and the two back edges of the MatMul node at its shapes
   [B;O;1] x [B;1;F] -> [B;O;F] *)
Definition fsem (r : rule) : assignment -> assignment :=
  match r with
  | RMatMulA _ _ =>
      fun fy i => SumN F (fun d => fy [nth 0 i 0%nat; nth 1 i 0%nat; d] * elt xv [nth 0 i 0%nat; d])
  | RMatMulB _ _ =>
      fun fy i => SumN O (fun o => elt wv [o] * fy [nth 0 i 0%nat; o; nth 2 i 0%nat])
  | _ => rsem thr rd h1 r
  end.

Lemma fsem_a_sound : valOf h1 n3 = Some x1v -> Dm h1 n4 = [B; O; F] -> Dm h1 n2 = [B; O; 1%nat] ->
  esound thr draw rd h1 fsem n4 n2 (RMatMulA n4 n3).
Proof.
  intros V3 D4 D2 hh gc fc Hv Hg (Dg & Wg & Gg). rewrite D4 in Dg, Gg.
  destruct (matmul_a_eval hh gc) as (gA & EA & DA & WA & HA); [rewrite Hv; exact V3|exact Hg|exact Wg|exact Dg|].
  exists gA. split; [exact EA|]. rewrite D2. split; [exact DA|]. split; [exact WA|].
  intros i Hi. apply validIdx3_inv in Hi as (bi & o & z & -> & Hbi & Ho & Hz). assert (z = 0)%nat by lia. subst z.
  rewrite (HA bi o Hbi Ho). cbn [fsem nth]. apply SumN_ext. intros d Hd.
  rewrite Gg by (repeat constructor; assumption). reflexivity.
Qed.

Lemma fsem_b_sound : valOf h1 n2 = Some bwv -> Dm h1 n4 = [B; O; F] -> Dm h1 n3 = [B; 1%nat; F] ->
  esound thr draw rd h1 fsem n4 n3 (RMatMulB n4 n2).
Proof.
  intros V2 D4 D3 hh gc fc Hv Hg (Dg & Wg & Gg). rewrite D4 in Dg, Gg.
  destruct (matmul_b_eval hh gc) as (gB & EB & DB & WB & HB); [rewrite Hv; exact V2|exact Hg|exact Wg|exact Dg|].
  exists gB. split; [exact EB|]. rewrite D3. split; [exact DB|]. split; [exact WB|].
  intros i Hi. apply validIdx3_inv in Hi as (bi & z & d & -> & Hbi & Hz & Hd). assert (z = 0)%nat by lia. subst z.
  rewrite (HB bi d Hbi Hd). cbn [fsem nth]. apply SumN_ext. intros o Ho.
  rewrite Gg by (repeat constructor; assumption). reflexivity.
Qed.

(* what the paths from y deliver, element by element; fy stands for the gradient on y *)
Lemma fsem_y2 (fy : assignment) bi o d : Dm h1 n6 = Dm h1 n5 ->
  fsem (RSumAlong n5 n4 2%Z) (fsem (RBroadcast n6 n5) (fsem (RId n8) fy)) [bi; o; d] = fy [bi; o].
Proof. intros E. cbn [fsem]. rewrite (rsem_bcast_same thr rd h1 _ _ _ E). reflexivity. Qed.

Lemma fsem_b (fy : assignment) o : Dm h1 n7 = [B; O] -> Dm h1 b = [O] ->
  fsem (RBroadcast n7 b) (fsem (RId n8) fy) [o] = rdc rd B * SumN B (fun bi => fy [bi; o]).
Proof. intros D7 DB. cbn [fsem rsem]. rewrite D7, DB. reflexivity. Qed.

Lemma fsem_w (f4 fy : assignment) o : Dm h1 n = [O; 1%nat] -> Dm h1 w = [O] -> Dm h1 n2 = [B; O; 1%nat] ->
  (o < O)%nat -> (forall bi o d, f4 [bi; o; d] = fy [bi; o]) ->
  fsem (RReshape n w) (fsem (RBroadcast n2 n) (fsem (RMatMulA n4 n3) f4)) [o] =
  rdc rd B * SumN B (fun bi => fy [bi; o] * SumN F (fun d => elt xv [bi; d])).
Proof.
  intros D0 DW D2 Ho H4. cbn [fsem rsem]. rewrite D0, DW, D2. cbn [length Nat.eqb hd].
  replace (flatIdx [O] [o]) with (flatIdx [O; 1%nat] [o; 0%nat]) by (cbn; ring).
  rewrite unflatIdx_flatIdx by (apply validIdx2; lia). f_equal. apply SumN_ext. intros bi Hbi. cbn [nth].
  rewrite <- SumN_scal. apply SumN_ext. intros d Hd. rewrite H4. reflexivity.
Qed.

Lemma fsem_x (f4 fy : assignment) bi d : Dm h1 n1 = [B; 1%nat; F] -> Dm h1 x = [B; F] -> Dm h1 n3 = Dm h1 n1 ->
  (bi < B)%nat -> (d < F)%nat -> (forall bi o d, f4 [bi; o; d] = fy [bi; o]) ->
  fsem (RReshape n1 x) (fsem (RBroadcast n3 n1) (fsem (RMatMulB n4 n2) f4)) [bi; d] =
  SumN O (fun o => fy [bi; o] * elt wv [o]).
Proof.
  intros D1 DX D3 Hbi Hd H4. cbn [fsem]. rewrite (rsem_bcast_same thr rd h1 _ _ _ D3). cbn [rsem]. rewrite D1, DX.
  replace (flatIdx [B; F] [bi; d]) with (flatIdx [B; 1%nat; F] [bi; 0%nat; d]) by (cbn; ring).
  rewrite unflatIdx_flatIdx by (repeat constructor; lia). cbn [nth]. apply SumN_ext. intros o Ho. rewrite H4. ring.
Qed.

Tactic Notation "node" constr(i) constr(k) "as" simple_intropattern(p) :=
  let X := fresh "X" in
  eassert (X : nth_error h1 i = Some _)
    by (unfold fc_heap; apply (app_at h _ i k); [rewrite ?Nat.add_succ_r, ?Nat.add_0_r; reflexivity|reflexivity]);
  destruct (obs_at h1 i _ X) as p; clear X.

Ltac dm_eq := etransitivity; [eassumption|symmetry; eassumption].
(* an edge that [rsem] reads *)
Ltac esnd :=
  apply (esound_ext thr draw rd h1 (rsem thr rd h1)); [reflexivity|]; apply rsem_sound; [reflexivity|];
  cbn [rok]; repeat match goal with |- _ /\ _ => split end; first [assumption|reflexivity|dm_eq|idtac].

(* the ids are told apart from these order facts alone: [lia] is called on them only *)
Ltac ne :=
  idtac;
  match goal with
  | A : (w < n)%nat, A' : (b < n)%nat, A'' : (x < n)%nat, N : w <> x, N' : b <> x |- _ => clear - A A' A'' N N' Nwb; lia
  end.

Local Notation order := [n8; n7; n6; n5; n4; n3; n2; n1; n].

Theorem fc_core (hh : heap) log gy :
  sameS h1 hh -> gradOf hh n8 = Some gy -> wf gy -> dims gy = [B; O] ->
  (forall k, (k < 8)%nat -> gradOf hh (n + k) = None) ->
  okPrior (gradOf hh w) [O] -> okPrior (gradOf hh b) [O] -> okPrior (gradOf hh x) [B; F] ->
  exists hh' log',
    fold_left (process_node rd idseal) order (hh, log, Ok tt) = (hh', log', Ok tt) /\
    sameS hh hh' /\
    (forall k, (k < n)%nat -> k <> w -> k <> b -> k <> x -> gradOf hh' k = gradOf hh k) /\
    (exists gw, gradOf hh' w = Some gw /\ dims gw = [O] /\ wf gw /\
       forall o, (o < O)%nat ->
         elt gw [o] = prior (gradOf hh w) [o] +
                      rdc rd B * SumN B (fun bi => elt gy [bi; o] * SumN F (fun d => elt xv [bi; d]))) /\
    (exists gb, gradOf hh' b = Some gb /\ dims gb = [O] /\ wf gb /\
       forall o, (o < O)%nat ->
         elt gb [o] = prior (gradOf hh b) [o] + rdc rd B * SumN B (fun bi => elt gy [bi; o])) /\
    (if tx
     then exists gx, gradOf hh' x = Some gx /\ dims gx = [B; F] /\ wf gx /\
            forall bi d, (bi < B)%nat -> (d < F)%nat ->
              elt gx [bi; d] = prior (gradOf hh x) [bi; d] + SumN O (fun o => elt gy [bi; o] * elt wv [o])
     else gradOf hh' x = gradOf hh x).
Proof.
  intros HSm Gy Wgy Dgy Gint Pw Pb Px.
  pose proof Lw as Lw. pose proof Lb as Lb. pose proof Lx as Lx. pose proof Nwx as Nwx. pose proof Nbx as Nbx.
  (* the nine nodes and the three operands: values, flags, edges *)
  node n 0%nat as (V0 & T0 & _ & E0 & _ & L0). node n1 1%nat as (V1 & T1 & _ & E1 & _ & Ln1).
  node n2 2%nat as (V2 & T2 & _ & E2 & _ & L2). node n3 3%nat as (V3 & T3 & _ & E3 & _ & L3).
  node n4 4%nat as (V4 & T4 & _ & E4 & _ & L4). node n5 5%nat as (V5 & T5 & _ & E5 & _ & L5).
  node n6 6%nat as (V6 & T6 & _ & E6 & _ & L6). node n7 7%nat as (V7 & T7 & _ & E7 & _ & L7).
  node n8 8%nat as (V8 & _ & _ & E8 & _ & L8).
  cbn [nd nval ntracked nedges] in V0, V1, V2, V3, V4, V5, V6, V7, V8, T0, T1, T2, T3, T4, T5, T6, T7, E0, E1, E2, E3, E4, E5, E6, E7, E8.
  assert (Vw1 : valOf h1 w = Some wv) by (rewrite old_val by exact Lw; exact Vw).
  assert (Vb1 : valOf h1 b = Some bv) by (rewrite old_val by exact Lb; exact Vb).
  assert (Vx1 : valOf h1 x = Some xv) by (rewrite old_val by exact Lx; exact Vx).
  assert (Tw1 : trackedOf h1 w = true) by (rewrite old_trk by exact Lw; exact Tw).
  assert (Tb1 : trackedOf h1 b = true) by (rewrite old_trk by exact Lb; exact Tb).
  assert (Tx1 : trackedOf h1 x = tx) by (rewrite old_trk by exact Lx; exact Tx).
  pose proof (Dm_val h1 _ _ Vw1) as DW. pose proof (Dm_val h1 _ _ Vb1) as DB. pose proof (Dm_val h1 _ _ Vx1) as DX.
  pose proof (Dm_val h1 _ _ V0) as D0. pose proof (Dm_val h1 _ _ V1) as D1. pose proof (Dm_val h1 _ _ V2) as D2.
  pose proof (Dm_val h1 _ _ V3) as D3. pose proof (Dm_val h1 _ _ V4) as D4. pose proof (Dm_val h1 _ _ V5) as D5.
  pose proof (Dm_val h1 _ _ V6) as D6. pose proof (Dm_val h1 _ _ V7) as D7. pose proof (Dm_val h1 _ _ V8) as D8.
  rewrite Dw in DW. rewrite Db in DB. rewrite Dx in DX. rewrite Dw1 in D0. rewrite Dx1 in D1, D3. rewrite Dbw in D2.
  rewrite Dy1 in D4. rewrite Dy2 in D5, D6. rewrite Dbb in D7. rewrite Dyv in D8.
  pose proof (okv_val h1 _ _ Vw1 Ww) as OW. pose proof (okv_val h1 _ _ Vb1 Wb) as OB. pose proof (okv_val h1 _ _ Vx1 Wx) as OX.
  pose proof (okv_val h1 _ _ V0 Ww1) as O0. pose proof (okv_val h1 _ _ V1 Wx1) as O1. pose proof (okv_val h1 _ _ V2 Wbw) as O2.
  pose proof (okv_val h1 _ _ V3 Wx1) as O3. pose proof (okv_val h1 _ _ V4 Wy1) as O4. pose proof (okv_val h1 _ _ V5 Wy2) as O5.
  pose proof (okv_val h1 _ _ V6 Wy2) as O6. pose proof (okv_val h1 _ _ V7 Wbb) as O7.
  assert (Ctx : tx = true \/ tx = false) by (clear; destruct tx; auto).
  destruct (comp_run thr draw rd fsem h1 hh n n8 [n7; n6; n5; n4; n3; n2; n1; n] [w; b; x] gy log HSm
              ltac:(clear; lia) Gy Wgy ltac:(dm_eq)) as (hh' & lg & Ef & Hlg & S' & Hfr & Hgx).
  { intros j Hj. replace j with (n + (j - n))%nat by (clear - Hj; lia). apply Gint. clear - Hj. lia. }
  { intros j g [<-|[<-|[<-|[]]]] Eg; [rewrite DW; exact (Pw g Eg)|rewrite DB; exact (Pb g Eg)|rewrite DX; exact (Px g Eg)]. }
  { each_in; (split; [clear; lia|split; [assumption|]]).
    - comp_edges E8; esnd.
    - comp_edges E7. esnd. right. exists B. rewrite D7, DB. reflexivity.
    - comp_edges E6. esnd. left. dm_eq.
    - comp_edges E5. esnd. exists 2%nat. rewrite D4, D5. split; [reflexivity|]. split; [clear; cbn; lia|reflexivity].
    - comp_edges E4; [exact (fsem_a_sound V3 D4 D2)|exact (fsem_b_sound V2 D4 D3)].
    - rewrite E3. intros e He. apply in_if in He. revert e He. each_in. intros _. cbn [fst snd].
      split; [right; nlia|]. esnd. left. dm_eq.
    - comp_edges E2. esnd. right. exists B. rewrite D2, D0. reflexivity.
    - rewrite E1. intros e He. apply in_if in He. revert e He. each_in. intros _. cbn [fst snd].
      split; [left; split; [nlia|cbn [In]; tauto]|]. esnd. rewrite D1, DX. cbn. ring.
    - comp_edges E0. esnd. rewrite D0, DW. cbn. ring. }
  cbv zeta in Hlg, Hgx.
  assert (Y2 : forall bi o d, fsem (RSumAlong n5 n4 2%Z) (fsem (RBroadcast n6 n5) (fsem (RId n8) (elt gy))) [bi; o; d] = elt gy [bi; o])
    by (intros bi o d; apply fsem_y2; dm_eq).
  exists hh', (lg ++ (n8, gy) :: log). split; [exact Ef|]. split; [exact S'|].
  split.
  { intros k Hk N1 N2 N3. apply Hfr; [intros [X|[X|[X|[]]]]; congruence|left; exact Hk]. }
  destruct Ctx as [Etx|Etx]; rewrite Etx;
    pose proof (eq_trans T1 Etx) as T1'; pose proof (eq_trans T3 Etx) as T3'; pose proof (eq_trans Tx1 Etx) as Tx1';
    assert (E1' := E1); assert (E3' := E3); rewrite Etx in E1' at 2; rewrite Etx in E3' at 2; clear T1 T3 Tx1 E1 E3.
  - match type of Hlg with snd ?r = _ =>
      eassert (ER : r = _) by (clear - E0 E1' E2 E3' E4 E5 E6 E7 E8 T0 T1' T2 T3' T4 T5 T6 T7 Tw1 Tb1 Tx1' Lw Lb Lx Nwx Nbx Nwb;
        arun2 ne E8; arun1 ne E7; arun1 ne E6; arun1 ne E5; arun2 ne E4; arun1 ne E3'; arun1 ne E2; arun1 ne E1'; arun1 ne E0; cbn [arun]; reflexivity)
    end.
    rewrite ER in Hgx. cbn [fst] in Hgx. clear ER Hlg.
    match type of Hgx with forall x, _ -> _ -> match ?s x with _ => _ end =>
      eassert (ELw : s w = _) by (alk ne);
      eassert (ELb : s b = _) by (alk ne);
      eassert (ELx : s x = _) by (alk ne)
    end.
    pose proof (Hgx w (or_introl eq_refl) Lw) as Hw. pose proof (Hgx b (or_intror (or_introl eq_refl)) Lb) as Hb.
    pose proof (Hgx x (or_intror (or_intror (or_introl eq_refl))) Lx) as Hx. clear Hgx.
    rewrite ELw in Hw. rewrite ELb in Hb. rewrite ELx in Hx. clear ELw ELb ELx.
    revert Hw Hb Hx. rewrite DW, DB, DX. intros (gw & Egw & Dgw & Wgw & Ggw) (gb & Egb & Dgb & Wgb & Ggb) (gx & Egx & Dgx & Wgx & Ggx).
    split.
    { exists gw. split; [exact Egw|]. split; [exact Dgw|]. split; [exact Wgw|]. intros o Ho.
      rewrite (Ggw [o]) by (apply validIdx1; exact Ho). rewrite aacc_prior, !aacc_none.
      rewrite (fsem_w _ (elt gy) o D0 DW D2 Ho Y2). reflexivity. }
    split.
    { exists gb. split; [exact Egb|]. split; [exact Dgb|]. split; [exact Wgb|]. intros o Ho.
      rewrite (Ggb [o]) by (apply validIdx1; exact Ho). rewrite aacc_prior, !aacc_none.
      rewrite (fsem_b (elt gy) o D7 DB). reflexivity. }
    exists gx. split; [exact Egx|]. split; [exact Dgx|]. split; [exact Wgx|]. intros bi d Hbi Hd.
    rewrite (Ggx [bi; d]) by (apply validIdx2; split; assumption). rewrite aacc_prior, !aacc_none.
    rewrite (fsem_x _ (elt gy) bi d D1 DX ltac:(dm_eq) Hbi Hd Y2). reflexivity.
  - (* the input is not tracked: the edge to bx is skipped, bx and x1 hold no gradient when met *)
    match type of Hlg with snd ?r = _ =>
      eassert (ER : r = _) by (clear - E0 E1' E2 E3' E4 E5 E6 E7 E8 T0 T1' T2 T3' T4 T5 T6 T7 Tw1 Tb1 Tx1' Lw Lb Lx Nwx Nbx Nwb;
        arun2 ne E8; arun1 ne E7; arun1 ne E6; arun1 ne E5; arun2u ne E4; arun_skip ne; arun1 ne E2; arun_skip ne; arun1 ne E0; cbn [arun]; reflexivity)
    end.
    rewrite ER in Hgx. cbn [fst] in Hgx. clear ER Hlg.
    match type of Hgx with forall x, _ -> _ -> match ?s x with _ => _ end =>
      eassert (ELw : s w = _) by (alk ne);
      eassert (ELb : s b = _) by (alk ne);
      eassert (ELx : s x = _) by (alk ne)
    end.
    pose proof (Hgx w (or_introl eq_refl) Lw) as Hw. pose proof (Hgx b (or_intror (or_introl eq_refl)) Lb) as Hb.
    pose proof (Hgx x (or_intror (or_intror (or_introl eq_refl))) Lx) as Hx. clear Hgx.
    rewrite ELw in Hw. rewrite ELb in Hb. rewrite ELx in Hx. clear ELw ELb ELx.
    revert Hw Hb Hx. rewrite DW, DB, DX. intros (gw & Egw & Dgw & Wgw & Ggw) (gb & Egb & Dgb & Wgb & Ggb) Hx.
    split.
    { exists gw. split; [exact Egw|]. split; [exact Dgw|]. split; [exact Wgw|]. intros o Ho.
      rewrite (Ggw [o]) by (apply validIdx1; exact Ho). rewrite aacc_prior, !aacc_none.
      rewrite (fsem_w _ (elt gy) o D0 DW D2 Ho Y2). reflexivity. }
    split.
    { exists gb. split; [exact Egb|]. split; [exact Dgb|]. split; [exact Wgb|]. intros o Ho.
      rewrite (Ggb [o]) by (apply validIdx1; exact Ho). rewrite aacc_prior, !aacc_none.
      rewrite (fsem_b (elt gy) o D7 DB). reflexivity. }
    destruct (gradOf hh x) as [g|] eqn:Eg; cbn [option_map] in Hx; [|exact Hx].
    destruct Hx as (gx & Egx & Tgx). rewrite Egx. f_equal. destruct (Px g eq_refl) as [Wg Dg].
    apply (isT_eq _ _ _ _ Tgx). rewrite <- Dg. apply isT_self, Wg.
Qed.

End Core.

(* MAIN THEOREM *)
(* [rev (seq (length h) 9)]: the nine nodes of the layer, result first, in decreasing id order *)
Theorem fc_backward rd (h : heap) w b x name (wv bv xv : T) O B F h1 y (hh : heap) log gy :
  (* the layer's operands *)
  valOf h w = Some wv -> valOf h b = Some bv -> valOf h x = Some xv ->
  wf wv -> wf bv -> wf xv -> dims wv = [O] -> dims bv = [O] -> dims xv = [B; F] ->
  trackedOf h w = true -> dirtyOf h w = false -> trackedOf h b = true -> dirtyOf h b = false ->
  dirtyOf h x = false -> w <> b ->
  (* the forward call *)
  fc_forward h w b [Some x] name = (h1, Ok y) ->
  (* an upstream gradient has reached y; the internal nodes hold none; arbitrary priors on w, b, x *)
  sameS h1 hh -> gradOf hh y = Some gy -> wf gy -> dims gy = [B; O] ->
  (forall i, (length h <= i < y)%nat -> gradOf hh i = None) ->
  okPrior (gradOf hh w) [O] -> okPrior (gradOf hh b) [O] -> okPrior (gradOf hh x) [B; F] ->
  y = (length h + 8)%nat /\ length h1 = (length h + 9)%nat /\
  exists hh' log',
    fold_left (process_node rd idseal) (rev (seq (length h) 9)) (hh, log, Ok tt) = (hh', log', Ok tt) /\
    sameS hh hh' /\
    (forall k, (k < length h)%nat -> k <> w -> k <> b -> k <> x -> gradOf hh' k = gradOf hh k) /\
    (exists gw, gradOf hh' w = Some gw /\ dims gw = [O] /\ wf gw /\
       forall o, (o < O)%nat ->
         elt gw [o] = prior (gradOf hh w) [o] +
                      rdc rd B * SumN B (fun bi => elt gy [bi; o] * SumN F (fun d => elt xv [bi; d]))) /\
    (exists gb, gradOf hh' b = Some gb /\ dims gb = [O] /\ wf gb /\
       forall o, (o < O)%nat ->
         elt gb [o] = prior (gradOf hh b) [o] + rdc rd B * SumN B (fun bi => elt gy [bi; o])) /\
    (if trackedOf h x
     then exists gx, gradOf hh' x = Some gx /\ dims gx = [B; F] /\ wf gx /\
            forall bi d, (bi < B)%nat -> (d < F)%nat ->
              elt gx [bi; d] = prior (gradOf hh x) [bi; d] + SumN O (fun o => elt gy [bi; o] * elt wv [o])
     else gradOf hh' x = gradOf hh x).
Proof.
  intros Vw Vb Vx Ww Wb Wx Dw Db Dx Tw Dtw Tb Dtb Dtx Nwb E HSm Gy Wgy Dgy Gint Pw Pb Px.
  destruct (fc_structure h w b x name wv bv xv h1 y Vw Vb Vx Tw Dtw Tb Dtb Dtx E)
    as (w1v & x1v & bwv & bxv & y1v & y2v & by2v & bbv & yv & U1 & U2 & Bw & Bx & MM & RS & By & Bb & AD & Ey & Eh).
  destruct (fc_values wv bv xv w1v x1v bwv bxv y1v y2v by2v bbv yv O B F Ww Wb Wx Dw Db Dx U1 U2 Bw Bx MM RS By Bb AD)
    as ((Ww1 & Dw1) & (Wx1 & Dx1 & Ex1) & (Wbw & Dbw & Ebw) & Ebx & (Wy1 & Dy1) & (Wy2 & Dy2) & Eby & (Wbb & Dbb) & Dyv).
  subst bxv by2v y h1.
  split; [lia|]. split; [unfold fc_heap; rewrite app_length; cbn [length]; lia|].
  cbn [seq rev app].
  apply (fc_core rd h w b x name (trackedOf h x) wv bv xv w1v x1v bwv y1v y2v bbv yv O B F); try assumption.
  - reflexivity.
  - intros k Hk. apply Gint. lia.
Qed.

(* ---------- the three gradients, each on its own, in both variants ---------- *)

(* the hypotheses of [fc_backward], bundled *)
Definition fc_setting (h : heap) w b x name (wv bv xv : T) O B F h1 y (hh : heap) (gy : T) : Prop :=
  valOf h w = Some wv /\ valOf h b = Some bv /\ valOf h x = Some xv /\
  wf wv /\ wf bv /\ wf xv /\ dims wv = [O] /\ dims bv = [O] /\ dims xv = [B; F] /\
  trackedOf h w = true /\ dirtyOf h w = false /\ trackedOf h b = true /\ dirtyOf h b = false /\
  dirtyOf h x = false /\ w <> b /\
  fc_forward h w b [Some x] name = (h1, Ok y) /\
  sameS h1 hh /\ gradOf hh y = Some gy /\ wf gy /\ dims gy = [B; O] /\
  (forall i, (length h <= i < y)%nat -> gradOf hh i = None) /\
  okPrior (gradOf hh w) [O] /\ okPrior (gradOf hh b) [O] /\ okPrior (gradOf hh x) [B; F].

Lemma fc_setting_run rd h w b x name wv bv xv O B F h1 y hh gy log :
  fc_setting h w b x name wv bv xv O B F h1 y hh gy ->
  exists hh' log',
    fold_left (process_node rd idseal) (rev (seq (length h) 9)) (hh, log, Ok tt) = (hh', log', Ok tt) /\
    sameS hh hh' /\
    (forall k, (k < length h)%nat -> k <> w -> k <> b -> k <> x -> gradOf hh' k = gradOf hh k) /\
    (exists gw, gradOf hh' w = Some gw /\ dims gw = [O] /\ wf gw /\
       forall o, (o < O)%nat ->
         elt gw [o] = prior (gradOf hh w) [o] +
                      rdc rd B * SumN B (fun bi => elt gy [bi; o] * SumN F (fun d => elt xv [bi; d]))) /\
    (exists gb, gradOf hh' b = Some gb /\ dims gb = [O] /\ wf gb /\
       forall o, (o < O)%nat ->
         elt gb [o] = prior (gradOf hh b) [o] + rdc rd B * SumN B (fun bi => elt gy [bi; o])) /\
    (if trackedOf h x
     then exists gx, gradOf hh' x = Some gx /\ dims gx = [B; F] /\ wf gx /\
            forall bi d, (bi < B)%nat -> (d < F)%nat ->
              elt gx [bi; d] = prior (gradOf hh x) [bi; d] + SumN O (fun o => elt gy [bi; o] * elt wv [o])
     else gradOf hh' x = gradOf hh x).
Proof.
  intros (a1 & a2 & a3 & a4 & a5 & a6 & a7 & a8 & a9 & a10 & a11 & a12 & a13 & a14 & a15 & a16 & a17 & a18 & a19 &
          a20 & a21 & a22 & a23 & a24).
  exact (proj2 (proj2 (fc_backward rd h w b x name wv bv xv O B F h1 y hh log gy
    a1 a2 a3 a4 a5 a6 a7 a8 a9 a10 a11 a12 a13 a14 a15 a16 a17 a18 a19 a20 a21 a22 a23 a24))).
Qed.

(* dB[o] = Σ_b gy[b][o]   (pinned library: divided by the batch size) *)
Theorem fc_grad_B rd h w b x name wv bv xv O B F h1 y hh gy log :
  fc_setting h w b x name wv bv xv O B F h1 y hh gy ->
  exists hh' log' gb,
    fold_left (process_node rd idseal) (rev (seq (length h) 9)) (hh, log, Ok tt) = (hh', log', Ok tt) /\
    gradOf hh' b = Some gb /\ dims gb = [O] /\ wf gb /\
    forall o, (o < O)%nat ->
      elt gb [o] = prior (gradOf hh b) [o] +
                   match rd with
                   | RedSum => SumN B (fun bi => elt gy [bi; o])
                   | RedAvg => SumN B (fun bi => elt gy [bi; o]) / INR B
                   end.
Proof.
  intros S. destruct (fc_setting_run rd _ _ _ _ _ _ _ _ _ _ _ _ _ _ _ log S)
    as (hh' & log' & E & _ & _ & _ & (gb & Gb & Db & Wb & Hb) & _).
  exists hh', log', gb. repeat (split; [assumption|]). intros o Ho. rewrite (Hb o Ho).
  destruct rd; unfold rdc; [ring|unfold Rdiv; ring].
Qed.

(* dx[b][d] = Σ_o gy[b][o] * W[o]   (both variants: x' is broadcast to its own shape) *)
Theorem fc_grad_x rd h w b x name wv bv xv O B F h1 y hh gy log :
  fc_setting h w b x name wv bv xv O B F h1 y hh gy ->
  exists hh' log',
    fold_left (process_node rd idseal) (rev (seq (length h) 9)) (hh, log, Ok tt) = (hh', log', Ok tt) /\
    (trackedOf h x = true ->
     exists gx, gradOf hh' x = Some gx /\ dims gx = [B; F] /\ wf gx /\
       forall bi d, (bi < B)%nat -> (d < F)%nat ->
         elt gx [bi; d] = prior (gradOf hh x) [bi; d] + SumN O (fun o => elt gy [bi; o] * elt wv [o])) /\
    (trackedOf h x = false -> gradOf hh' x = gradOf hh x).
Proof.
  intros S. destruct (fc_setting_run rd _ _ _ _ _ _ _ _ _ _ _ _ _ _ _ log S)
    as (hh' & log' & E & _ & _ & _ & _ & Hx).
  exists hh', log'. split; [exact E|]. split; intros Et; rewrite Et in Hx; exact Hx.
Qed.

(* dW[o] = Σ_b gy[b][o] * Σ_d x[b][d]   (pinned library: divided by the batch size) *)
Theorem fc_grad_W rd h w b x name wv bv xv O B F h1 y hh gy log :
  fc_setting h w b x name wv bv xv O B F h1 y hh gy ->
  exists hh' log' gw,
    fold_left (process_node rd idseal) (rev (seq (length h) 9)) (hh, log, Ok tt) = (hh', log', Ok tt) /\
    gradOf hh' w = Some gw /\ dims gw = [O] /\ wf gw /\
    forall o, (o < O)%nat ->
      elt gw [o] = prior (gradOf hh w) [o] +
                   match rd with
                   | RedSum => SumN B (fun bi => elt gy [bi; o] * SumN F (fun d => elt xv [bi; d]))
                   | RedAvg => SumN B (fun bi => elt gy [bi; o] * SumN F (fun d => elt xv [bi; d])) / INR B
                   end.
Proof.
  intros S. destruct (fc_setting_run rd _ _ _ _ _ _ _ _ _ _ _ _ _ _ _ log S)
    as (hh' & log' & E & _ & _ & (gw & Gw & Dw & Ww & Hw) & _ & _).
  exists hh', log', gw. repeat (split; [assumption|]). intros o Ho. rewrite (Hw o Ho).
  destruct rd; unfold rdc; [ring|unfold Rdiv; ring].
Qed.

(* the formulas are the derivatives of  y[b][o] = W[o] * Σ_d x[b][d] + B[o]  contracted with gy *)
Definition fcY (W Bs : nat -> R) (X : nat -> nat -> R) (F : nat) (bi o : nat) : R :=
  W o * SumN F (fun d => X bi d) + Bs o.

Lemma fcY_dW W Bs X F bi o : is_derive (fun t => fcY (fun o' => if (o' =? o)%nat then t else W o') Bs X F bi o) (W o)
                                       (SumN F (fun d => X bi d)).
Proof. unfold fcY. rewrite Nat.eqb_refl. auto_derive; [exact I|ring]. Qed.

Lemma fcY_dB W Bs X F bi o : is_derive (fun t => fcY W (fun o' => if (o' =? o)%nat then t else Bs o') X F bi o) (Bs o) 1.
Proof. unfold fcY. rewrite Nat.eqb_refl. auto_derive; [exact I|ring]. Qed.

Lemma fcY_dX W Bs X F bi o d : (d < F)%nat ->
  is_derive (fun t => fcY W Bs (fun b' d' => if (b' =? bi)%nat && (d' =? d)%nat then X b' d' + t else X b' d') F bi o) 0 (W o).
Proof.
  intros Hd. unfold fcY.
  apply (is_derive_ext (fun t => W o * (SumN F (fun d' => X bi d') + t) + Bs o)).
  - intros t. f_equal. f_equal.
    transitivity (VjpReduceP.sumN F (bump (fun d' => X bi d') d t));
      [symmetry; exact (VjpReduceP.sumN_bump F (fun d' => X bi d') d t Hd)|].
    apply SumN_ext. intros k Hk. unfold bump. rewrite Nat.eqb_refl. cbn [andb]. destruct (k =? d)%nat; ring.
  - auto_derive; [exact I|ring].
Qed.

(* the hypotheses about [hh] hold in particular right after the forward call, once an upstream
   gradient has been put on y: the new nodes hold no gradient, the old ones keep theirs *)
Lemma fc_fresh_upstream (h : heap) w b x name (wv bv xv : T) h1 y (gy : T) :
  valOf h w = Some wv -> valOf h b = Some bv -> valOf h x = Some xv ->
  trackedOf h w = true -> dirtyOf h w = false -> trackedOf h b = true -> dirtyOf h b = false ->
  dirtyOf h x = false ->
  fc_forward h w b [Some x] name = (h1, Ok y) ->
  let hh := setGrad h1 y (Some gy) in
  sameS h1 hh /\ gradOf hh y = Some gy /\
  (forall i, (length h <= i < y)%nat -> gradOf hh i = None) /\
  (forall i, (i < length h)%nat -> gradOf hh i = gradOf h i).
Proof.
  intros Vw Vb Vx Tw Dtw Tb Dtb Dtx E hh.
  destruct (fc_structure h w b x name wv bv xv h1 y Vw Vb Vx Tw Dtw Tb Dtb Dtx E)
    as (w1v & x1v & bwv & bxv & y1v & y2v & by2v & bbv & yv & _ & _ & _ & _ & _ & _ & _ & _ & _ & Ey & Eh).
  assert (L : length h1 = S y).
  { subst h1 y. unfold fc_heap. rewrite app_length. cbn [length]. lia. }
  split; [apply sameS_setGrad|]. unfold hh.
  split; [rewrite gradOf_setGrad, Nat.eqb_refl; destruct (Nat.ltb_spec y (length h1)); [reflexivity|lia]|].
  split.
  - intros i Hi. rewrite gradOf_setGrad. destruct (Nat.eqb_spec i y); [lia|].
    subst h1. apply fc_heap_grad_new. lia.
  - intros i Hi. rewrite gradOf_setGrad. destruct (Nat.eqb_spec i y); [lia|].
    subst h1. apply fc_heap_grad_old. exact Hi.
Qed.

End FcGrad.

(* Example: W = [2;3], B = [10;20], x = [[1;5];[2;7]] (tracked leaves), upstream gradient  *)
(* gy = [[1;2];[3;4]] on the fresh graph *)
Section Ex.
Variables (thr : R) (draw : bool -> nat -> R).
Local Hint Extern 0 (Scalar R) => exact (R_scalar thr draw) : typeclass_instances.
Local Open Scope R_scope.

Definition eW : tensor R := mkT [2%nat] (Vec [Sc 2; Sc 3]).
Definition eB : tensor R := mkT [2%nat] (Vec [Sc 10; Sc 20]).
Definition eX : tensor R := mkT [2%nat; 2%nat] (Vec [Vec [Sc 1; Sc 5]; Vec [Sc 2; Sc 7]]).
Definition eG : tensor R := mkT [2%nat; 2%nat] (Vec [Vec [Sc 1; Sc 2]; Vec [Sc 3; Sc 4]]).
Definition eh : @heap R :=
  [mkNode eW true false None [] None; mkNode eB true false None [] None; mkNode eX true false None [] None].

Lemma wf_eW : wf eW.  Proof. split; cbn; repeat constructor. Qed.
Lemma wf_eB : wf eB.  Proof. split; cbn; repeat constructor. Qed.
Lemma wf_eX : wf eX.  Proof. split; cbn; repeat constructor. Qed.
Lemma wf_eG : wf eG.  Proof. split; cbn; repeat constructor. Qed.

Example fc_backward_ex :
  exists h1 y, fc_forward eh 0 1 [Some 2%nat] None = (h1, Ok y) /\
  let hh := setGrad h1 y (Some eG) in
  fc_setting thr draw eh 0 1 2 None eW eB eX 2 2 2 h1 y hh eG /\
  forall rd log, exists hh' log' gw gb gx,
    fold_left (process_node rd (fun _ g => g)) (rev (seq 3 9)) (hh, log, Ok tt) = (hh', log', Ok tt) /\
    gradOf hh' 0%nat = Some gw /\ gradOf hh' 1%nat = Some gb /\ gradOf hh' 2%nat = Some gx /\
    elt gb [0%nat] = rdc rd 2 * 4 /\ elt gb [1%nat] = rdc rd 2 * 6 /\
    elt gw [0%nat] = rdc rd 2 * 33 /\ elt gw [1%nat] = rdc rd 2 * 48 /\
    elt gx [0%nat; 0%nat] = 8 /\ elt gx [1%nat; 1%nat] = 18.
Proof.
  destruct (fc_forward_spec eh 0 1 2 None eW eB eX 2 2 2 eq_refl eq_refl eq_refl wf_eW wf_eB wf_eX eq_refl eq_refl eq_refl)
    as (r & (h1 & y & E & _) & _).
  exists h1, y. split; [exact E|]. intros hh.
  destruct (fc_fresh_upstream thr draw eh 0 1 2 None eW eB eX h1 y eG
              eq_refl eq_refl eq_refl eq_refl eq_refl eq_refl eq_refl eq_refl E) as (S1 & S2 & S3 & S4).
  fold hh in S1, S2, S3, S4.
  assert (P0 : gradOf hh 0%nat = None) by (rewrite S4 by (cbn; lia); reflexivity).
  assert (P1 : gradOf hh 1%nat = None) by (rewrite S4 by (cbn; lia); reflexivity).
  assert (P2 : gradOf hh 2%nat = None) by (rewrite S4 by (cbn; lia); reflexivity).
  assert (St : fc_setting thr draw eh 0 1 2 None eW eB eX 2 2 2 h1 y hh eG).
  { unfold fc_setting.
    split; [reflexivity|]. split; [reflexivity|]. split; [reflexivity|].
    split; [exact wf_eW|]. split; [exact wf_eB|]. split; [exact wf_eX|].
    split; [reflexivity|]. split; [reflexivity|]. split; [reflexivity|].
    split; [reflexivity|]. split; [reflexivity|]. split; [reflexivity|]. split; [reflexivity|]. split; [reflexivity|].
    split; [lia|]. split; [exact E|]. split; [exact S1|]. split; [exact S2|]. split; [exact wf_eG|].
    split; [reflexivity|]. split; [exact S3|].
    split; [rewrite P0; apply okPrior_None|]. split; [rewrite P1; apply okPrior_None|].
    rewrite P2. apply okPrior_None. }
  split; [exact St|]. intros rd log.
  destruct (fc_setting_run thr draw rd _ _ _ _ _ _ _ _ _ _ _ _ _ _ _ log St)
    as (hh' & log' & Ef & _ & _ & (gw & Gw & _ & _ & Hw) & (gb & Gb & _ & _ & Hb) & Hx).
  change (trackedOf eh 2) with true in Hx. destruct Hx as (gx & Gx & _ & _ & Hx).
  exists hh', log', gw, gb, gx. split; [exact Ef|]. split; [exact Gw|]. split; [exact Gb|]. split; [exact Gx|].
  rewrite P0 in Hw. rewrite P1 in Hb. rewrite P2 in Hx.
  rewrite (Hb 0%nat), (Hb 1%nat), (Hw 0%nat), (Hw 1%nat), (Hx 0%nat 0%nat), (Hx 1%nat 1%nat) by lia.
  unfold SumN, Rsum, prior, elt. cbn.
  repeat split; ring.
Qed.

(* the two variants on the numbers of the example: RedSum gives dB = [4;6], RedAvg (pinned) [2;3] *)
Example rdc_values : rdc RedSum 2 * 4 = 4 /\ rdc RedAvg 2 * 4 = 2 /\ rdc RedSum 2 * 6 = 6 /\ rdc RedAvg 2 * 6 = 3.
Proof. unfold rdc. cbn [INR]. repeat split; field. Qed.

End Ex.

Print Assumptions fc_structure.
Print Assumptions fc_backward.
Print Assumptions fc_grad_B.
Print Assumptions fc_grad_x.
Print Assumptions fc_grad_W.
Print Assumptions fc_backward_ex.
