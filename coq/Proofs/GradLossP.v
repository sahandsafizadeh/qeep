(* GradLossP.v — C13, generic part: back-propagation of a scalar loss through its component, on the
   reals, read element-wise.  The description [isT ds f g] of a tensor by its elements, the reading
   [rsem] of the back-edge rules with its shape conditions [rok], and the lemma [fold_abs] about
   [process_node] over a known list of nodes are those of BpFoldP.v.

   1. forward calls element-wise ([apply2_isT], [bcast_same_isT]); the accumulation onto a previous
      gradient ([acc1_final], [acc1_elt]).
   2. [rok_same]: the shape conditions of the element-wise rules between nodes of one shape;
      [edges_rok_own]: in a heap built through the API, [rok] of the tracked edges of a node is all
      that [fold_abs] asks about it.
   3. depth-first search: [dfs_cut], below a node p the search only adds nodes <= p; and an
      evaluator [ldfs] for the search through nodes appended at a + k above one tracked input,
      described by a table of edge targets ([ldfs_sound], [ldfs_order]).
   4. [bp_topo_split]: bp_topo = the fold over a known prefix of the order, then over the rest;
      [fold_inv]: what the fold can never change, whatever its outcome.
   5. exact result heaps of the tracked methods for operands with known flags ([op1_X], [elsel_X],
      [arith_X]); for a whole chain of them see OpsXP.v.
   6. [lfold_sound]: the abstract fold over appended nodes, computed on a state indexed by the
      offset k.
   7. [loss_bp_generic]: the back-propagation of a scalar loss down to its prediction.
   8. the clip of BCE and CE on one element.
   9. [isT], [Dm], [Vl], [okv] under the names of this file. *)
From Coq Require Import List Arith ZArith Bool Lia Reals Lra.
From Coquelicot Require Import Coquelicot.
From Qeep Require Import Model.Scalar Model.Nd Model.Fill Model.Data Model.Valid Model.Api Model.Grad Model.Backprop
  Model.Components.
From Qeep Require Import Spec.RScalar Spec.VjpSpec.
From Qeep Require Import Proofs.NdP Proofs.ElemP Proofs.BroadcastP Proofs.ReduceP Proofs.ReduceRP Proofs.CompP
  Proofs.VjpElemP Proofs.VjpReduceP Proofs.TrackP Proofs.BackpropP Proofs.BpFoldP.
From Qeep Require Proofs.StepP.
Import ListNotations.
Local Open Scope nat_scope.

(* 0. offsets into an extended heap *)

Lemma eqb_off L a b : (L + a =? L + b) = (a =? b).
Proof. destruct (Nat.eqb_spec a b) as [->|N]; [apply Nat.eqb_refl|]. apply Nat.eqb_neq. lia. Qed.
Lemma eqb_off0l L b : (L =? L + S b) = false.
Proof. apply Nat.eqb_neq. lia. Qed.
Lemma eqb_off0r L a : (L + S a =? L) = false.
Proof. apply Nat.eqb_neq. lia. Qed.
Lemma eqb_lt_base p L : p < L -> (p =? L) = false.
Proof. intros H. apply Nat.eqb_neq. lia. Qed.
Lemma eqb_base_lt p L : p < L -> (L =? p) = false.
Proof. intros H. apply Nat.eqb_neq. lia. Qed.

Lemma nth_error_off {X} (h l : list X) k : nth_error (h ++ l) (length h + k) = nth_error l k.
Proof. rewrite nth_error_app2 by lia. f_equal. lia. Qed.
Lemma nth_error_off0 {X} (h l : list X) : nth_error (h ++ l) (length h) = nth_error l 0.
Proof. rewrite nth_error_app2 by lia. f_equal. lia. Qed.

Lemma Forall2_nth {X Y} (P : X -> Y -> Prop) l l' : Forall2 P l l' ->
  forall k u, nth_error l k = Some u -> exists v, nth_error l' k = Some v /\ P u v.
Proof.
  induction 1 as [|u0 v0 l l' Huv F IH]; intros [|k] u E; cbn [nth_error] in E |- *; try discriminate.
  - inversion E; subst. exists v0. auto.
  - apply IH, E.
Qed.

Lemma Forall2_len {X Y} (P : X -> Y -> Prop) l l' : Forall2 P l l' -> length l = length l'.
Proof. induction 1 as [|u0 v0 l l' Huv F IH]; [reflexivity|]. cbn [length]. rewrite IH. reflexivity. Qed.

Lemma Forall2_In_r {X Y} (P : X -> Y -> Prop) l l' v : Forall2 P l l' -> In v l' -> exists u, P u v.
Proof.
  induction 1 as [|u0 v0 l l' Huv F IH]; intros Hv; [destruct Hv|].
  destruct Hv as [<-|Hv]; [exists u0; exact Huv|apply IH, Hv].
Qed.

Lemma nth_repeat_none {X} n i : nth i (repeat (@None X) n) None = None.
Proof. revert i. induction n as [|n IH]; intros [|i]; cbn [repeat nth]; auto. Qed.

(* a conjunction over a list; on an explicit list it computes to the conjunction of the cases *)
Fixpoint All {X} (P : X -> Prop) (l : list X) : Prop :=
  match l with [] => True | u :: l' => P u /\ All P l' end.
(* the cases of a computed [All] *)
Ltac all_cases := repeat match goal with |- _ /\ _ => split | |- True => exact I end.
Lemma All_In {X} (P : X -> Prop) l u : All P l -> In u l -> P u.
Proof. induction l as [|v l IH]; intros HA Hu; [destruct Hu|]. destruct Hu as [<-|Hu]; [apply HA|apply IH; [apply HA|exact Hu]]. Qed.

Section Off.
Context {A : Type} {SA : Scalar A}.
Notation heap := (@heap A).

Lemma valOf_off (h l : heap) k : valOf (h ++ l) (length h + k) = valOf l k.
Proof. unfold valOf. rewrite nth_error_off. reflexivity. Qed.
Lemma gradOf_off (h l : heap) k : gradOf (h ++ l) (length h + k) = gradOf l k.
Proof. unfold gradOf. rewrite nth_error_off. reflexivity. Qed.
Lemma trackedOf_off (h l : heap) k : trackedOf (h ++ l) (length h + k) = trackedOf l k.
Proof. unfold trackedOf. rewrite nth_error_off. reflexivity. Qed.
Lemma dirtyOf_off (h l : heap) k : dirtyOf (h ++ l) (length h + k) = dirtyOf l k.
Proof. unfold dirtyOf. rewrite nth_error_off. reflexivity. Qed.
Lemma edgesOf_off (h l : heap) k : edgesOf (h ++ l) (length h + k) = edgesOf l k.
Proof. unfold edgesOf. rewrite nth_error_off. reflexivity. Qed.
Lemma valOf_off0 (h l : heap) : valOf (h ++ l) (length h) = valOf l 0.
Proof. unfold valOf. rewrite nth_error_off0. reflexivity. Qed.
Lemma gradOf_off0 (h l : heap) : gradOf (h ++ l) (length h) = gradOf l 0.
Proof. unfold gradOf. rewrite nth_error_off0. reflexivity. Qed.
Lemma trackedOf_off0 (h l : heap) : trackedOf (h ++ l) (length h) = trackedOf l 0.
Proof. unfold trackedOf. rewrite nth_error_off0. reflexivity. Qed.
Lemma dirtyOf_off0 (h l : heap) : dirtyOf (h ++ l) (length h) = dirtyOf l 0.
Proof. unfold dirtyOf. rewrite nth_error_off0. reflexivity. Qed.
Lemma edgesOf_off0 (h l : heap) : edgesOf (h ++ l) (length h) = edgesOf l 0.
Proof. unfold edgesOf. rewrite nth_error_off0. reflexivity. Qed.

Lemma gradOf_old (h l : heap) i : i < length h -> gradOf (h ++ l) i = gradOf h i.
Proof. intros H. unfold gradOf. rewrite nth_error_app1 by exact H. reflexivity. Qed.
Lemma edgesOf_old (h l : heap) i : i < length h -> edgesOf (h ++ l) i = edgesOf h i.
Proof. intros H. unfold edgesOf. rewrite nth_error_app1 by exact H. reflexivity. Qed.

Lemma gradOf_beyond (h : heap) i : length h <= i -> gradOf h i = None.
Proof. intros H. unfold gradOf. apply nth_error_None in H. rewrite H. reflexivity. Qed.
End Off.

(* 1. forward calls and the accumulation onto a previous gradient, element-wise *)
Local Open Scope R_scope.

Section Gen.
Variables (thr : R) (draw : bool -> nat -> R).
Local Hint Extern 0 (Scalar R) => exact (R_scalar thr draw) : typeclass_instances.
Notation T := (tensor R).
Notation heap := (@heap R).
Notation rule := (@rule R).
Notation node := (@node R).
Notation idseal := (fun (_ : option nat) (g : T) => g).

Lemma isT_ofFun ds f : List.Forall (fun d : nat => (0 < d)%nat) ds -> isT ds f (ofFun ds f).
Proof. intros H. split; [reflexivity|]. split; [apply ofFun_wf, H|]. intros idx Hv. apply elt_ofFun, Hv. Qed.

Lemma apply2_isT (b : binary) ds f1 f2 (v1 v2 v : T) : isT ds f1 v1 -> isT ds f2 v2 ->
  apply2 (binaryF b) v1 v2 = Some v -> isT ds (fun i => binaryF b (f1 i) (f2 i)) v.
Proof.
  intros (D1 & W1 & G1) (D2 & W2 & G2) E.
  destruct (apply2_spec (binaryF b) v1 v2 W1 W2 ltac:(congruence)) as (r & Er & Dr & Wr & Gr).
  assert (r = v) by congruence. subst r. split; [congruence|]. split; [exact Wr|].
  intros idx Hv. pose proof Hv as Hv1. rewrite <- D1 in Hv1. specialize (Gr idx Hv1).
  pose proof Hv as Hv2. rewrite <- D2 in Hv2.
  destruct (get_wf R _ _ _ (proj1 W1) Hv1) as (x & Ex). destruct (get_wf R _ _ _ (proj1 W2) Hv2) as (y & Ey).
  rewrite Ex, Ey in Gr. rewrite (elt_get _ _ _ Gr).
  rewrite <- (G1 idx Hv), <- (G2 idx Hv). rewrite (elt_get _ _ _ Ex), (elt_get _ _ _ Ey). reflexivity.
Qed.

(* Broadcast to the own shape copies the tensor *)
Lemma bcast_same_isT ds f (xv v : T) : isT ds f xv -> v_broadcast xv (map Z.of_nat ds) = Ok v -> isT ds f v.
Proof.
  intros (D & W & G) E. destruct (v_broadcast_spec R xv (map Z.of_nat ds) W) as [H1 H2].
  destruct (validateInputDims (map Z.of_nat ds) && validateBroadcast (zdims xv) (map Z.of_nat ds)) eqn:Ev.
  - destruct (H1 eq_refl) as (r & Er & (Dr & Wr & Gr)). assert (r = v) by congruence. subst r.
    unfold natsOf in Dr, Gr. rewrite map_map in Dr, Gr.
    assert (Eid : map (fun x : nat => Z.to_nat (Z.of_nat x)) ds = ds).
    { rewrite <- (map_id ds) at 2. apply map_ext. intros a. apply Nat2Z.id. }
    rewrite Eid in Dr, Gr. split; [exact Dr|]. split; [exact Wr|]. intros idx Hv.
    unfold elt at 1. rewrite (Gr idx Hv), D. rewrite bproj_same by exact Hv. apply (G idx Hv).
  - rewrite (H2 eq_refl) in E. discriminate.
Qed.

(* a previous gradient must have the shape of the node (otherwise the accumulating Add fails) *)
Definition prior_ok (ds : list nat) (o : option T) : Prop :=
  match o with Some g => wf g /\ dims g = ds | None => True end.
Definition prior (o : option T) : assignment := fun idx => match o with Some g => elt g idx | None => 0 end.

Lemma acc1_final (g0 : option T) ds (F f : assignment) (g : T) :
  prior_ok ds g0 -> List.Forall (fun d : nat => (0 < d)%nat) ds -> isT ds f g ->
  (forall idx, validIdx ds idx -> f idx = prior g0 idx + F idx) ->
  acc1 g0 (ofFun ds F) = Some (Some g).
Proof.
  intros Hp Hpos Tg Hf. pose proof (isT_ofFun ds F Hpos) as TG. unfold acc1. destruct g0 as [gp|].
  - destruct Hp as [Wgp Dgp]. assert (Tgp : isT ds (elt gp) gp) by (rewrite <- Dgp; apply isT_self, Wgp).
    destruct (isT_add thr draw _ _ _ _ _ Tgp TG) as (r & Er & Tr). rewrite Er.
    assert (r = g); [|subst r; reflexivity].
    apply (isT_eq ds (fun i => elt gp i + F i)); [exact Tr|]. apply (isT_ext _ _ _ _ Tg).
    intros idx Hv. rewrite (Hf idx Hv). reflexivity.
  - assert (ofFun ds F = g); [|congruence].
    apply (isT_eq ds F); [exact TG|]. apply (isT_ext _ _ _ _ Tg). intros idx Hv. rewrite (Hf idx Hv).
    unfold prior. ring.
Qed.

Lemma acc1_elt ds (o : option T) (G g : T) : prior_ok ds o -> wf G -> dims G = ds -> acc1 o G = Some (Some g) ->
  forall idx, validIdx ds idx -> elt g idx = prior o idx + elt G idx.
Proof.
  intros Hp WG DG Ha idx Hv. destruct o as [gp|]; cbn [acc1 prior] in *.
  - destruct Hp as [Wp Dp].
    destruct (ar_elt thr draw BiAdd gp G Wp WG ltac:(congruence)) as (s & Es & _ & _ & Gs).
    rewrite Es in Ha. assert (s = g) by congruence. subst s.
    rewrite Gs by (rewrite Dp; exact Hv). reflexivity.
  - assert (G = g) by congruence. subst g. ring.
Qed.

(* 2. the shape conditions of the rules in a heap built through the API *)
Variable rd : bred.

Section OnHeap.
Variable H : heap.      (* the structure: values, tracking flags, edges *)

(* The element-wise rules between nodes of one shape: the operand a rule is aimed at (if it
   names one) and the other nodes whose values it reads.  [rok] then only asks that all of
   them, c and x lie in a set P of well-formed nodes of that shape. *)
Definition same_rule (r : rule) : option (option nat * list nat) :=
  match r with
  | RId _ | RNeg _ | RScale _ _ => Some (None, [])
  | RMul _ o => Some (None, [o])
  | RLog _ x | RPow _ x _ _ | RBroadcast _ x => Some (Some x, [])
  | RElSel _ a b => Some (Some a, [b])
  | _ => None
  end.

Lemma rok_same (P : nat -> Prop) ds c x r ox os :
  (forall i, P i -> Dm H i = ds /\ okv H i) -> same_rule r = Some (ox, os) ->
  match ox with Some x' => x' = x | None => True end -> P c -> P x -> List.Forall P os -> rok H c x r.
Proof.
  intros HP E Hx Pc Px Pos. destruct (HP c Pc) as [Dc Oc]. destruct (HP x Px) as [Dx Ox].
  assert (Dcx : Dm H c = Dm H x) by congruence.
  destruct r; cbn [same_rule] in E; inversion E; subst ox os; cbn [rok]; try subst x; auto.
  - inversion Pos as [|? ? Pb _]; subst. destruct (HP b Pb) as [Db Ob]. repeat split; auto; congruence.
  - inversion Pos as [|? ? Po _]; subst. destruct (HP o Po) as [Do Oo]. repeat split; auto; congruence.
Qed.

(* between two such nodes a Broadcast back edge hands the gradient on as it is *)
Lemma rsem_bcast_in (P : nat -> Prop) ds y x fy :
  (forall i, P i -> Dm H i = ds /\ okv H i) -> P y -> P x -> rsem thr rd H (RBroadcast y x) fy = fy.
Proof.
  intros HP Py Px. apply rsem_bcast_same. rewrite (proj1 (HP y Py)), (proj1 (HP x Px)). reflexivity.
Qed.

(* in a heap built through the API every edge carries a rule of its own node and leads downwards *)
Lemma edges_rok_own dom c : rules_own H -> wf_heap H ->
  (forall e, In e (edgesOf H c) -> trackedOf H (fst e) = true -> dom (fst e) /\ rok H c (fst e) (snd e)) ->
  edges_rok thr draw rd H (rsem thr rd H) dom c.
Proof.
  intros Ho Hw Hc e He Et. destruct (Hc e He Et) as [Hd Hr]. split; [exact Hd|]. split.
  - pose proof (wf_heap_edgesOf _ Hw _ _ He). lia.
  - exact (rsem_sound thr draw rd H c (fst e) (snd e) (rules_own_edgesOf _ Ho _ _ He) Hr).
Qed.

End OnHeap.
End Gen.


(* 3. evaluating the depth-first search; 4. splitting bp_topo; frame of the fold *)
Local Open Scope nat_scope.

Lemma memb_cons n a l : memb n (a :: l) = (n =? a) || memb n l.
Proof. reflexivity. Qed.

Lemma memb_app_gt (nv V : list nat) p n : (forall x, In x nv -> x <= p) -> p < n -> memb n (nv ++ V) = memb n V.
Proof.
  intros Hb Hn. induction nv as [|a nv IH]; [reflexivity|]. cbn [app]. rewrite memb_cons.
  assert (Ha : a <= p) by (apply Hb; left; reflexivity).
  assert (E : (n =? a) = false) by (apply Nat.eqb_neq; lia). rewrite E. cbn [orb]. apply IH.
  intros x Hx. apply Hb. right. exact Hx.
Qed.

(* where an edge of a node appended at a + k leads: to the appended node a + j, to the one tracked
   node x below a, or to an untracked node *)
Inductive tgt := TNew (j : nat) | TIn | TSkip.

Section DfsL.
Context {A : Type} {SA : Scalar A}.
Notation T := (tensor A).
Notation heap := (@heap A).
Notation rule := (@rule A).
Notation idseal := (fun (_ : option nat) (g : T) => g).

Definition post (n : nat) (st : list nat * list nat) : list nat * list nat := (fst st, n :: snd st).
Lemma post_pair n V R : post n (V, R) = (V, n :: R).
Proof. reflexivity. Qed.

Section OnH.
Variable H : heap.

Lemma dfs_u fuel n st : trackedOf H n = false -> dfs fuel H n st = st.
Proof. intros E. destruct fuel; [reflexivity|]. cbn [dfs]. rewrite E. reflexivity. Qed.

Lemma dfs_v fuel n st : memb n (fst st) = true -> dfs fuel H n st = st.
Proof. intros E. destruct fuel; [reflexivity|]. cbn [dfs]. rewrite E, orb_true_r. reflexivity. Qed.

Lemma dfs_t fuel n V R : 0 < fuel -> trackedOf H n = true -> memb n V = false ->
  dfs fuel H n (V, R) = post n (fold_left (fun s e => dfs (pred fuel) H (fst e) s) (edgesOf H n) (n :: V, R)).
Proof.
  intros Hf Et Em. destruct fuel as [|f]; [lia|]. cbn [dfs pred fst snd]. rewrite Et, Em. reflexivity.
Qed.

Hypothesis W : wf_heap H.

Lemma dfs_grow fuel : forall n st, exists nv nr,
  dfs fuel H n st = (nv ++ fst st, nr ++ snd st) /\ (forall x, In x nv -> x <= n) /\ (forall x, In x nr -> x <= n).
Proof.
  induction fuel as [|f IH]; intros n st.
  - exists [], []. cbn [dfs app]. split; [destruct st; reflexivity|]. split; intros x [].
  - cbn [dfs]. destruct (negb (trackedOf H n) || memb n (fst st)).
    + exists [], []. cbn [app]. split; [destruct st; reflexivity|]. split; intros x [].
    + assert (Hfold : forall (es : list (nat * rule)) s, (forall e, In e es -> fst e < n) ->
        exists nv nr, fold_left (fun s e => dfs f H (fst e) s) es s = (nv ++ fst s, nr ++ snd s) /\
          (forall x, In x nv -> x < n) /\ (forall x, In x nr -> x < n)).
      { induction es as [|e es IHes]; intros s Hes.
        - exists [], []. cbn [fold_left app]. split; [destruct s; reflexivity|]. split; intros x [].
        - cbn [fold_left]. destruct (IH (fst e) s) as (nv1 & nr1 & E1 & B1 & B1'). rewrite E1.
          destruct (IHes (nv1 ++ fst s, nr1 ++ snd s)) as (nv2 & nr2 & E2 & B2 & B2').
          { intros e0 H0. apply Hes. right. exact H0. }
          cbn [fst snd] in E2. exists (nv2 ++ nv1), (nr2 ++ nr1). rewrite E2, <- !app_assoc.
          split; [reflexivity|].
          assert (He : fst e < n) by (apply Hes; left; reflexivity).
          split; intros x Hx; apply in_app_or in Hx as [Hx|Hx]; auto;
            [specialize (B1 x Hx)|specialize (B1' x Hx)]; lia. }
      destruct (Hfold (edgesOf H n) (n :: fst st, snd st)) as (nv & nr & E & B & B').
      { intros e He. apply (wf_heap_edgesOf _ W _ _ He). }
      rewrite E. cbn [fst snd]. exists (nv ++ [n]), (n :: nr). rewrite <- app_assoc. cbn [app].
      split; [reflexivity|]. split.
      * intros x Hx. apply in_app_or in Hx as [Hx|[<-|[]]]; [specialize (B x Hx); lia|lia].
      * intros x [<-|Hx]; [lia|specialize (B' x Hx); lia].
Qed.

Lemma dfs_fold_grow fuel n : forall (es : list (nat * rule)) s, (forall e, In e es -> fst e < n) ->
  exists nv nr, fold_left (fun s e => dfs fuel H (fst e) s) es s = (nv ++ fst s, nr ++ snd s) /\
    (forall x, In x nv -> x < n) /\ (forall x, In x nr -> x < n) /\ (es = [] -> nr = []).
Proof.
  induction es as [|e es IHes]; intros s Hes.
  - exists [], []. cbn [fold_left app]. split; [destruct s; reflexivity|]. split; [intros x []|]. split; [intros x []|reflexivity].
  - cbn [fold_left]. destruct (dfs_grow fuel (fst e) s) as (nv1 & nr1 & E1 & B1 & B1'). rewrite E1.
    destruct (IHes (nv1 ++ fst s, nr1 ++ snd s)) as (nv2 & nr2 & E2 & B2 & B2' & _).
    { intros e0 H0. apply Hes. right. exact H0. }
    cbn [fst snd] in E2. exists (nv2 ++ nv1), (nr2 ++ nr1). rewrite E2, <- !app_assoc.
    split; [reflexivity|].
    assert (He : fst e < n) by (apply Hes; left; reflexivity).
    split; [|split; [|discriminate]]; intros x Hx; apply in_app_or in Hx as [Hx|Hx]; auto;
      [specialize (B1 x Hx)|specialize (B1' x Hx)]; lia.
Qed.

(* the search below a node p *)
Lemma dfs_cut fuel p V R : p < fuel -> trackedOf H p = true -> memb p V = false ->
  exists nv rest, dfs fuel H p (V, R) = (nv ++ V, p :: rest ++ R) /\
    (forall x, In x nv -> x <= p) /\ In p nv /\ (forall x, In x rest -> x < p) /\ (edgesOf H p = [] -> rest = []).
Proof.
  intros Hf Et Em. rewrite dfs_t by (try assumption; lia).
  destruct (dfs_fold_grow (pred fuel) p (edgesOf H p) (p :: V, R)) as (nv & nr & E & B & B' & Hnil).
  { intros e He. apply (wf_heap_edgesOf _ W _ _ He). }
  rewrite E. cbn [fst snd]. rewrite post_pair. exists (nv ++ [p]), nr. rewrite <- app_assoc. cbn [app].
  split; [reflexivity|]. split; [|split; [|split]].
  - intros x Hx. apply in_app_or in Hx as [Hx|[<-|[]]]; [specialize (B x Hx); lia|lia].
  - apply in_or_app. right. left. reflexivity.
  - exact B'.
  - exact Hnil.
Qed.

(* ---- the search evaluated on a table ---- *)
Section LDfs.
Variables (a x : nat).
Hypothesis Hxa : x < a.
Hypothesis Tx : trackedOf H x = true.
Variable g : list (bool * list tgt).     (* g[k]: tracked flag and edge targets of node a + k *)

Definition conc (t : tgt) (e : nat * rule) : Prop :=
  match t with TNew j => fst e = a + j | TIn => fst e = x | TSkip => trackedOf H (fst e) = false end.

Hypothesis Hg : forall k tr ts, nth_error g k = Some (tr, ts) ->
  trackedOf H (a + k) = tr /\ (tr = true -> Forall2 conc ts (edgesOf H (a + k))).

(* visited offsets, whether x has been reached, posted offsets (newest first) *)
Definition lstate := (list nat * bool * list nat)%type.

(* [None]: x would be reached after an appended node has been posted, so that the order is no
   longer  appended nodes ++ x :: ancestry of x *)
Definition lstep (rec : nat -> lstate -> option lstate) (os : option lstate) (t : tgt) : option lstate :=
  match os with
  | None => None
  | Some s =>
      match t with
      | TNew j => rec j s
      | TIn => let '(lv, sx, lr) := s in
               if sx then Some s else match lr with [] => Some (lv, true, []) | _ => None end
      | TSkip => Some s
      end
  end.

Fixpoint ldfs (m : nat) (k : nat) (st : lstate) : option lstate :=
  match m with
  | O => None
  | S m' =>
      match nth_error g k with
      | None => None
      | Some (false, _) => Some st
      | Some (true, ts) =>
          let '(lv, sx, lr) := st in
          if memb k lv then Some st else
          match fold_left (lstep (ldfs m')) ts (Some (k :: lv, sx, lr)) with
          | Some (lv2, sx2, lr2) => Some (lv2, sx2, k :: lr2)
          | None => None
          end
      end
  end.

Variable R0 : list nat.
Variable xseen0 : bool.

(* the local state (lv, sx, lr) describes the search state (V, Rr); nr is what the search below x
   has posted *)
Definition Rel (s : lstate) (nr : list nat) (V Rr : list nat) : Prop :=
  let '(lv, sx, lr) := s in
  (forall j, j < length g -> memb (a + j) V = memb j lv) /\
  (sx = true -> memb x V = true) /\
  Rr = map (Nat.add a) lr ++ nr ++ R0 /\
  (sx = false -> nr = [] /\ memb x V = xseen0) /\
  (forall c, In c nr -> c <= x) /\
  (sx = true -> xseen0 = false ->
     exists rest, nr = x :: rest /\ (forall c, In c rest -> c < x) /\ (edgesOf H x = [] -> rest = [])) /\
  (sx = true -> xseen0 = true -> nr = []) /\
  (forall c, In c lr -> c < length g).

Lemma lfold_none rec ts : fold_left (lstep rec) ts None = None.
Proof. induction ts as [|t ts IH]; [reflexivity|exact IH]. Qed.

Lemma at_x f V Rr : x < f ->
  exists nv nr, dfs f H x (V, Rr) = (nv ++ V, nr ++ Rr) /\ (forall c, In c nv -> c <= x) /\ (forall c, In c nr -> c <= x) /\
    memb x (nv ++ V) = true /\
    (memb x V = true -> nv = [] /\ nr = []) /\
    (memb x V = false -> exists rest, nr = x :: rest /\ (forall c, In c rest -> c < x) /\ (edgesOf H x = [] -> rest = [])).
Proof.
  intros Hf. destruct (memb x V) eqn:Em.
  - exists [], []. rewrite dfs_v by exact Em. cbn [app]. repeat split; try (intros c []); auto; discriminate.
  - destruct (dfs_cut f x V Rr Hf Tx Em) as (nv & rest & E & Bv & Hx & Br & Hl).
    exists nv, (x :: rest). rewrite E. split; [reflexivity|]. split; [exact Bv|]. split.
    { intros c [<-|Hc]; [lia|specialize (Br c Hc); lia]. }
    split; [apply memb_in; apply in_or_app; left; exact Hx|]. split; [discriminate|].
    intros _. exists rest. auto.
Qed.

Lemma ldfs_sound m : forall f k st st' nr V Rr,
  a + k < f -> ldfs m k st = Some st' -> Rel st nr V Rr ->
  exists V' nr' Rr', dfs f H (a + k) (V, Rr) = (V', Rr') /\ Rel st' nr' V' Rr'.
Proof.
  induction m as [|m IH]; intros f k st st' nr V Rr Hf E HR; [discriminate|].
  cbn [ldfs] in E. destruct (nth_error g k) as [[tr ts]|] eqn:Ek; [|discriminate].
  assert (Lk : k < length g) by (apply nth_error_Some; congruence).
  destruct (Hg k tr ts Ek) as [Ht Hes].
  destruct f as [|f]; [lia|]. cbn [dfs fst snd]. rewrite Ht.
  destruct tr.
  2:{ inversion E; subst st'. cbn [negb orb]. exists V, nr, Rr. split; [reflexivity|exact HR]. }
  cbn [negb orb]. destruct st as [[lv sx] lr]. pose proof HR as (R1 & R2 & R3 & R4 & R5 & R6 & R7 & R8).
  rewrite (R1 k Lk). destruct (memb k lv) eqn:Emk.
  { inversion E; subst st'. exists V, nr, Rr. split; [reflexivity|exact HR]. }
  specialize (Hes eq_refl).
  assert (Hlt : forall e, In e (edgesOf H (a + k)) -> fst e < a + k) by (intros e He; apply (wf_heap_edgesOf _ W _ _ He)).
  assert (Hfold : forall ts es, Forall2 conc ts es -> (forall e, In e es -> fst e < a + k) ->
            forall s s' nr V Rr, fold_left (lstep (ldfs m)) ts (Some s) = Some s' -> Rel s nr V Rr ->
            exists V' nr' Rr', fold_left (fun s e => dfs f H (fst e) s) es (V, Rr) = (V', Rr') /\ Rel s' nr' V' Rr').
  { clear - IH Hf Hxa Tx W. induction 1 as [|t e ts es Hc F IHF]; intros Hb s s' nr V Rr Ef HRs.
    - cbn [fold_left] in Ef |- *. inversion Ef; subst s'. exists V, nr, Rr. split; [reflexivity|exact HRs].
    - cbn [fold_left] in Ef |- *. assert (Hbe : fst e < a + k) by (apply Hb; left; reflexivity).
      assert (Hb' : forall e0, In e0 es -> fst e0 < a + k) by (intros e0 H0; apply Hb; right; exact H0).
      destruct t as [j| |]; cbn [lstep conc] in Ef, Hc.
      + destruct (ldfs m j s) as [s1|] eqn:E1; [|rewrite lfold_none in Ef; discriminate].
        rewrite Hc. destruct (IH f j s s1 nr V Rr ltac:(lia) E1 HRs) as (V1 & nr1 & Rr1 & D1 & HR1).
        rewrite D1. exact (IHF Hb' s1 s' nr1 V1 Rr1 Ef HR1).
      + destruct s as [[lv sx] lr]. destruct HRs as (R1 & R2 & R3 & R4 & R5 & R6 & R7 & R8). rewrite Hc.
        destruct sx.
        * rewrite (dfs_v f x (V, Rr)) by (cbn [fst]; apply R2; reflexivity).
          apply (IHF Hb' (lv, true, lr) s' nr V Rr Ef).
          exact (conj R1 (conj R2 (conj R3 (conj R4 (conj R5 (conj R6 (conj R7 R8))))))).
        * destruct lr as [|c0 lr]; [|rewrite lfold_none in Ef; discriminate].
          destruct (R4 eq_refl) as [-> Ex0]. cbn [map app] in R3. subst Rr.
          destruct (at_x f V R0 ltac:(lia)) as (nv & nr' & D & Bv & Br & Mx & Hseen & Hnew). rewrite D.
          apply (IHF Hb' (lv, true, []) s' nr' (nv ++ V) (nr' ++ R0) Ef).
          split; [intros j Hj; rewrite (memb_app_gt nv V x) by (try exact Bv; lia); apply R1; exact Hj|].
          split; [intros _; exact Mx|]. split; [reflexivity|]. split; [discriminate|]. split; [exact Br|].
          split; [intros _ X0; apply Hnew; congruence|]. split; [intros _ X0; apply Hseen; congruence|]. intros c [].
      + rewrite (dfs_u f (fst e) (V, Rr)) by exact Hc. exact (IHF Hb' s s' nr V Rr Ef HRs). }
  destruct (fold_left (lstep (ldfs m)) ts (Some (k :: lv, sx, lr))) as [[[lv2 sx2] lr2]|] eqn:Ef; [|discriminate].
  inversion E; subst st'. clear E.
  destruct (Hfold ts (edgesOf H (a + k)) Hes Hlt (k :: lv, sx, lr) (lv2, sx2, lr2) nr ((a + k) :: V) Rr Ef) as (V2 & nr2 & Rr2 & D2 & HR2).
  { split; [|split; [|split; [|split; [|split; [|split; [|split]]]]]]; try assumption.
    - intros j Hj. rewrite !memb_cons, eqb_off, (R1 j Hj). reflexivity.
    - intros Hs. rewrite memb_cons, (R2 Hs). apply orb_true_r.
    - intros Hs. destruct (R4 Hs) as [N1 N2]. split; [exact N1|]. rewrite memb_cons, N2.
      assert (X : (x =? a + k) = false) by (apply Nat.eqb_neq; lia). rewrite X. reflexivity. }
  rewrite D2. cbn [fst snd]. exists V2, nr2, ((a + k) :: Rr2). split; [reflexivity|].
  destruct HR2 as (Q1 & Q2 & Q3 & Q4 & Q5 & Q6 & Q7 & Q8). repeat split; try assumption.
  - rewrite Q3. reflexivity.
  - apply Q4. assumption.
  - apply Q4. assumption.
  - intros c [<-|Hc]; [exact Lk|apply Q8, Hc].
Qed.
End LDfs.

(* the order from a root a + k when the evaluation reaches x: the appended nodes, then x and its
   own ancestry *)
Lemma ldfs_order a x g m k lv lr : x < a -> trackedOf H x = true ->
  (forall k tr ts, nth_error g k = Some (tr, ts) ->
     trackedOf H (a + k) = tr /\ (tr = true -> Forall2 (conc a x) ts (edgesOf H (a + k)))) ->
  ldfs g m k ([], false, []) = Some (lv, true, lr) ->
  exists rest, topoOrder H (a + k) = map (Nat.add a) lr ++ x :: rest /\
    (forall c, In c rest -> c < x) /\ (edgesOf H x = [] -> rest = []) /\ (forall c, In c lr -> c < length g).
Proof.
  intros Hxa Tx Hg E. unfold topoOrder.
  destruct (ldfs_sound a x Hxa Tx g Hg [] false m (S (a + k)) k _ _ [] [] [] (Nat.lt_succ_diag_r _) E)
    as (V' & nr' & Rr' & D & _ & _ & R3 & _ & _ & R6 & _ & R8).
  { split; [reflexivity|]. split; [discriminate|]. split; [reflexivity|]. split; [split; reflexivity|].
    split; [intros c []|]. split; [discriminate|]. split; [discriminate|]. intros c []. }
  rewrite D. cbn [snd]. destruct (R6 eq_refl eq_refl) as (rest & -> & Br & Hl).
  exists rest. rewrite R3, app_nil_r. auto.
Qed.
End OnH.

(* ---- bp_topo as two folds ---- *)
Lemma bp_topo_split rd (H : heap) root pre tl rv ones :
  trackedOf H root = true -> topoOrder H root = pre ++ tl -> valOf H root = Some rv -> toOnes rv = Ok ones ->
  gradOf H root = None ->
  bp_topo rd idseal H root =
  fold_left (process_node rd idseal) tl
    (fold_left (process_node rd idseal) pre (setGrad (markDirty H (pre ++ tl)) root (Some ones), [], Ok tt)).
Proof.
  intros Et Eo Ev E1 Eg. unfold bp_topo. rewrite Et. cbn [negb]. rewrite Eo, valOf_markDirty, Ev, E1.
  unfold accumulate. rewrite gradOf_markDirty, Eg. rewrite fold_left_app. reflexivity.
Qed.

(* ---- what the fold cannot change, whatever its outcome ---- *)
Section Keep.
Variable rd : bred.
Variable H : heap.

Lemma pe_inv c x (hh : heap) r e hh' r' :
  (trackedOf H (fst e) = true -> fst e <> x) -> sameS H hh ->
  process_edge rd c (hh, r) e = (hh', r') -> sameS H hh' /\ gradOf hh' x = gradOf hh x.
Proof.
  intros Hne HS. cbn [process_edge]. destruct r as [u| |]; [|intros E; inversion E; subst; auto|intros E; inversion E; subst; auto].
  rewrite <- (sameS_trk _ _ HS). destruct (trackedOf H (fst e)) eqn:Et; [|intros E; inversion E; subst; auto].
  destruct (eval_rule rd hh (snd e)) as [g| |]; [|intros E; inversion E; subst; auto|intros E; inversion E; subst; auto].
  assert (Hx : forall o, gradOf (setGrad hh (fst e) o) x = gradOf hh x).
  { intros o. rewrite gradOf_setGrad. specialize (Hne eq_refl). destruct (x =? fst e) eqn:Ex; [|reflexivity].
    apply Nat.eqb_eq in Ex. congruence. }
  unfold accumulate. destruct (gradOf hh (fst e)) as [g0|].
  - destruct (v_arith BiAdd g0 g); intros E; inversion E; subst; auto.
    split; [eapply sameS_trans; [exact HS|apply sameS_setGrad]|apply Hx].
  - intros E; inversion E; subst. split; [eapply sameS_trans; [exact HS|apply sameS_setGrad]|apply Hx].
Qed.

Lemma pe_fold_inv c x es : forall (hh : heap) r hh' r',
  (forall e, In e es -> trackedOf H (fst e) = true -> fst e <> x) -> sameS H hh ->
  fold_left (process_edge rd c) es (hh, r) = (hh', r') -> sameS H hh' /\ gradOf hh' x = gradOf hh x.
Proof.
  induction es as [|e es IH]; intros hh r hh' r' Hne HS E.
  - cbn [fold_left] in E. inversion E; subst. auto.
  - cbn [fold_left] in E. destruct (process_edge rd c (hh, r) e) as [h1 r1] eqn:E1.
    destruct (pe_inv c x hh r e h1 r1) as [HS1 Hg1]; [apply Hne; left; reflexivity|exact HS|exact E1|].
    destruct (IH h1 r1 hh' r') as [HS2 Hg2]; [intros e0 H0; apply Hne; right; exact H0|exact HS1|exact E|].
    split; [exact HS2|congruence].
Qed.

Lemma pn_inv x (hh : heap) log r c hh' log' r' :
  (forall e, In e (edgesOf H c) -> trackedOf H (fst e) = true -> fst e <> x) -> sameS H hh ->
  process_node rd idseal (hh, log, r) c = (hh', log', r') -> sameS H hh' /\ gradOf hh' x = gradOf hh x.
Proof.
  intros Hne HS. cbn [process_node]. destruct r as [u| |]; [|intros E; inversion E; subst; auto|intros E; inversion E; subst; auto].
  destruct (nth_error hh c) as [nd|] eqn:En; [|intros E; inversion E; subst; auto].
  destruct (ngrad nd) as [g|] eqn:Eg; [|intros E; inversion E; subst; auto].
  destruct (fold_left (process_edge rd c) (nedges nd) (setGrad hh c (Some g), Ok tt)) as [h2 r2] eqn:Ef.
  intros E. inversion E; subst h2 log' r2. clear E.
  assert (Hed : edgesOf H c = nedges nd) by (rewrite (sameS_edges _ _ HS); unfold edgesOf; rewrite En; reflexivity).
  destruct (pe_fold_inv c x (nedges nd) (setGrad hh c (Some g)) (Ok tt) hh' r') as [HS2 Hg2].
  - intros e He. apply Hne. rewrite Hed. exact He.
  - eapply sameS_trans; [exact HS|apply sameS_setGrad].
  - exact Ef.
  - split; [exact HS2|]. rewrite Hg2, gradOf_setGrad. destruct (x =? c) eqn:Ex; [|reflexivity].
    apply Nat.eqb_eq in Ex. subst x. assert (Hl : c < length hh) by (apply nth_error_Some; congruence).
    apply Nat.ltb_lt in Hl. rewrite Hl. unfold gradOf. rewrite En. cbn [obind]. symmetry. exact Eg.
Qed.

Lemma fold_inv x l : forall (hh : heap) log r hh' log' r',
  (forall c e, In c l -> In e (edgesOf H c) -> trackedOf H (fst e) = true -> fst e <> x) -> sameS H hh ->
  fold_left (process_node rd idseal) l (hh, log, r) = (hh', log', r') -> sameS H hh' /\ gradOf hh' x = gradOf hh x.
Proof.
  induction l as [|c l IH]; intros hh log r hh' log' r' Hne HS E.
  - cbn [fold_left] in E. inversion E; subst. auto.
  - cbn [fold_left] in E. destruct (process_node rd idseal (hh, log, r) c) as [[h1 log1] r1] eqn:E1.
    destruct (pn_inv x hh log r c h1 log1 r1) as [HS1 Hg1];
      [intros e He; apply (Hne c e); [left; reflexivity|exact He]|exact HS|exact E1|].
    destruct (IH h1 log1 r1 hh' log' r') as [HS2 Hg2];
      [intros c0 e H0; apply Hne; right; exact H0|exact HS1|exact E|].
    split; [exact HS2|congruence].
Qed.
End Keep.

End DfsL.

(* 5. exact result heaps of the tracked methods, operands with known flags *)
Section Exact.
Context {A : Type} {SA : Scalar A}.
Notation T := (tensor A).
Notation heap := (@heap A).
Notation rule := (@rule A).
Notation hres := (@hres A).

Lemma len_snoc1 {X} (a : list X) n : length (a ++ [n]) = S (length a).
Proof. rewrite app_length. cbn [length]. apply Nat.add_1_r. Qed.

Lemma atomically_ok (h0 : heap) (r : hres) h' id : atomically h0 r = (h', Ok id) -> r = (h', Ok id).
Proof. destruct r as [hh [x| |]]; cbn [atomically]; intros E; inversion E; reflexivity. Qed.

Lemma hbind_ok (r : hres) (f : heap -> nat -> hres) h' id : hbind r f = (h', Ok id) ->
  exists h1 x, r = (h1, Ok x) /\ f h1 x = (h', Ok id).
Proof. destruct r as [hh [x| |]]; cbn [hbind]; intros E; [exists hh, x; auto|inversion E|inversion E]. Qed.

(* the node a method appends: value, tracked flag, edges (none when untracked) *)
Definition xnode (v : T) (tr : bool) (es : list (nat * rule)) (name : option nat) : @node A :=
  mkNode v tr false None (if tr then es else []) name.

Lemma ctx1_X (hc : heap) x es v name tr : trackedOf hc x = tr -> dirtyOf hc x = false ->
  ctxNode v (mkCtx hc [x] es) name = xnode v tr es name.
Proof.
  intros Et Ed. unfold ctxNode, mkCtx, xnode. cbn [existsb]. rewrite Ed, Et. cbn [orb].
  destruct tr; reflexivity.
Qed.

Lemma ctx2_X (hc : heap) x u es v name tx tu : trackedOf hc x = tx -> trackedOf hc u = tu ->
  dirtyOf hc x = false -> dirtyOf hc u = false ->
  ctxNode v (mkCtx hc [x; u] es) name = xnode v (tx || tu) es name.
Proof.
  intros Ex Eu Dx Du. unfold ctxNode, mkCtx, xnode. cbn [existsb]. rewrite Dx, Du, Ex, Eu. cbn [orb].
  rewrite orb_false_r. destruct (tx || tu); reflexivity.
Qed.

Lemma op1_X (h l : heap) x f mk name h' id tr :
  h_op1 (h ++ l) x f mk name = (h', Ok id) -> trackedOf (h ++ l) x = tr -> dirtyOf (h ++ l) x = false ->
  exists xv v, valOf (h ++ l) x = Some xv /\ f xv = Ok v /\ id = length h + length l /\
    h' = h ++ (l ++ [xnode v tr [(x, mk (length h + length l))] name]).
Proof.
  intros E Et Ed. apply h_op1_inv in E. destruct E as (xv & v & Hx & Hf & -> & ->).
  exists xv, v. split; [exact Hx|]. split; [exact Hf|]. split; [apply app_length|].
  rewrite <- app_assoc. f_equal. f_equal. f_equal. rewrite (ctx1_X _ _ _ _ _ tr Et Ed), app_length. reflexivity.
Qed.

Lemma elsel_X (h l : heap) b x u name h' id tx tu :
  h_elsel (h ++ l) b x u name = (h', Ok id) ->
  trackedOf (h ++ l) x = tx -> trackedOf (h ++ l) u = tu -> dirtyOf (h ++ l) x = false -> dirtyOf (h ++ l) u = false ->
  exists xv uv v, valOf (h ++ l) x = Some xv /\ valOf (h ++ l) u = Some uv /\ v_same b xv uv = Ok v /\
    id = length h + length l /\
    h' = h ++ (l ++ [xnode v (tx || tu)
                       [(x, RElSel (length h + length l) x u); (u, RElSel (length h + length l) u x)] name]).
Proof.
  intros E Ex Eu Dx Du. apply h_elsel_inv in E. destruct E as (xv & uv & v & Hx & Hu & Hf & -> & ->).
  exists xv, uv, v. split; [exact Hx|]. split; [exact Hu|]. split; [exact Hf|]. split; [apply app_length|].
  rewrite <- app_assoc. f_equal. f_equal. f_equal. rewrite (ctx2_X _ _ _ _ _ _ tx tu Ex Eu Dx Du), app_length. reflexivity.
Qed.

Lemma arith_X (h l : heap) b x u name h' id tx tu :
  h_arith (h ++ l) b x u name = (h', Ok id) ->
  trackedOf (h ++ l) x = tx -> trackedOf (h ++ l) u = tu -> dirtyOf (h ++ l) x = false -> dirtyOf (h ++ l) u = false ->
  let L := length h + length l in
  exists xv uv v1 v2 v, valOf (h ++ l) x = Some xv /\ valOf (h ++ l) u = Some uv /\
    v_broadcast xv (map Z.of_nat (targetBroadcastDims (dims xv) (dims uv))) = Ok v1 /\
    v_broadcast uv (map Z.of_nat (targetBroadcastDims (dims xv) (dims uv))) = Ok v2 /\
    apply2 (binaryF b) v1 v2 = Some v /\ id = length h + S (S (length l)) /\
    h' = h ++ (l ++ [xnode v1 tx [(x, RBroadcast L x)] None;
                     xnode v2 tu [(u, RBroadcast (length h + S (length l)) u)] None;
                     xnode v (tx || tu) (arithEdges b (length h + S (S (length l))) L (length h + S (length l))) name]).
Proof.
  intros E Ex Eu Dx Du L. unfold h_arith in E.
  destruct (valOf (h ++ l) x) as [xv|] eqn:Vx; [|inversion E].
  destruct (valOf (h ++ l) u) as [uv|] eqn:Vu; [|inversion E].
  apply h_binop_inv in E. destruct E as (xv' & uv' & v1 & v2 & v & Hx & B1 & Hu & B2 & Hf & -> & ->).
  assert (xv' = xv) by congruence. subst xv'.
  assert (Hul : u < length (h ++ l)) by (eapply valOf_some_lt; eauto).
  assert (Hxl : x < length (h ++ l)) by (eapply valOf_some_lt; eauto).
  rewrite valOf_app in Hu by exact Hul. assert (uv' = uv) by congruence. subst uv'.
  assert (EL : length (h ++ l) = L) by apply app_length.
  exists xv, uv, v1, v2, v. split; [reflexivity|]. split; [reflexivity|]. split; [exact B1|]. split; [exact B2|].
  split; [exact Hf|]. split; [rewrite EL; unfold L; lia|].
  rewrite <- app_assoc. f_equal. f_equal.
  assert (N1 : bnode1 (h ++ l) x v1 = xnode v1 tx [(x, RBroadcast L x)] None).
  { unfold bnode1. rewrite (ctx1_X _ _ _ _ _ tx Ex Dx), EL. reflexivity. }
  assert (N2 : bnode2 (h ++ l) x u v1 v2 = xnode v2 tu [(u, RBroadcast (length h + S (length l)) u)] None).
  { unfold bnode2. rewrite (ctx1_X _ _ _ _ _ tu); [rewrite EL; unfold L; rewrite Nat.add_succ_r; reflexivity| |].
    - rewrite trackedOf_app by exact Hul. exact Eu.
    - rewrite dirtyOf_app by exact Hul. exact Du. }
  rewrite N1, N2. f_equal. f_equal. f_equal. unfold rnode. rewrite N1, N2, EL.
  assert (T1 : trackedOf ((h ++ l) ++ [xnode v1 tx [(x, RBroadcast L x)] None] ++ [xnode v2 tu [(u, RBroadcast (length h + S (length l)) u)] None]) L = tx).
  { rewrite <- EL. rewrite app_assoc. rewrite trackedOf_app by (rewrite len_snoc1; apply Nat.lt_succ_diag_r). rewrite trackedOf_new. reflexivity. }
  assert (D1 : dirtyOf ((h ++ l) ++ [xnode v1 tx [(x, RBroadcast L x)] None] ++ [xnode v2 tu [(u, RBroadcast (length h + S (length l)) u)] None]) L = false).
  { rewrite <- EL. rewrite app_assoc. rewrite dirtyOf_app by (rewrite len_snoc1; apply Nat.lt_succ_diag_r). rewrite dirtyOf_new. reflexivity. }
  assert (T2 : trackedOf ((h ++ l) ++ [xnode v1 tx [(x, RBroadcast L x)] None] ++ [xnode v2 tu [(u, RBroadcast (length h + S (length l)) u)] None]) (S L) = tu).
  { rewrite <- EL. rewrite app_assoc.
    replace (S (length (h ++ l))) with (length ((h ++ l) ++ [xnode v1 tx [(x, RBroadcast (length (h ++ l)) x)] None]))
      by apply len_snoc1. rewrite trackedOf_new. reflexivity. }
  assert (D2 : dirtyOf ((h ++ l) ++ [xnode v1 tx [(x, RBroadcast L x)] None] ++ [xnode v2 tu [(u, RBroadcast (length h + S (length l)) u)] None]) (S L) = false).
  { rewrite <- EL. rewrite app_assoc.
    replace (S (length (h ++ l))) with (length ((h ++ l) ++ [xnode v1 tx [(x, RBroadcast (length (h ++ l)) x)] None]))
      by apply len_snoc1. rewrite dirtyOf_new. reflexivity. }
  rewrite (ctx2_X _ _ _ _ _ _ tx tu T1 T2 D1 D2).
  unfold L. rewrite !Nat.add_succ_r. reflexivity.
Qed.

End Exact.

(* ---- consequences of  bp_topo = fold over (p :: rest)  from a state hm ---- *)
Section Split.
Context {A : Type} {SA : Scalar A}.
Notation T := (tensor A).
Notation heap := (@heap A).
Notation idseal := (fun (_ : option nat) (g : T) => g).

(* whatever the outcome below p: the structure is kept, and so is the gradient of p and of every
   untracked node *)
Lemma split_any rd (H : heap) root p rest (hm : heap) logm x :
  wf_heap H -> sameS H hm ->
  bp_topo rd idseal H root = fold_left (process_node rd idseal) (p :: rest) (hm, logm, Ok tt) ->
  (forall c, In c rest -> c < p) -> (x = p \/ trackedOf H x = false) ->
  forall h2 log r, bp_topo rd idseal H root = (h2, log, r) -> sameS H h2 /\ gradOf h2 x = gradOf hm x.
Proof.
  intros W HS E Hrest Hx h2 log r E2. rewrite E in E2.
  apply (fold_inv rd H x (p :: rest) hm logm (Ok tt) h2 log r); [|exact HS|exact E2].
  intros c e Hc He Ht. pose proof (wf_heap_edgesOf _ W _ _ He) as Hlt.
  destruct Hx as [->|Hx]; [|congruence].
  destruct Hc as [<-|Hc]; [lia|]. specialize (Hrest c Hc). lia.
Qed.

(* a leaf p: the remaining fold is one node without edges *)
Lemma split_leaf rd (H : heap) p (hm : heap) logm g :
  sameS H hm -> edgesOf H p = [] -> gradOf hm p = Some g ->
  fold_left (process_node rd idseal) [p] (hm, logm, Ok tt) = (setGrad hm p (Some g), (p, g) :: logm, Ok tt).
Proof.
  intros HS He Hg. cbn [fold_left process_node]. unfold gradOf in Hg.
  destruct (nth_error hm p) as [nd|] eqn:En; [|discriminate]. cbn [obind] in Hg. rewrite Hg.
  assert (Hed : nedges nd = []).
  { rewrite <- He, (sameS_edges _ _ HS). unfold edgesOf. rewrite En. reflexivity. }
  rewrite Hed. reflexivity.
Qed.
End Split.

Section Ext.
Context {A : Type} {SA : Scalar A}.
Notation heap := (@heap A).

(* a component that keeps the invariants of StepP keeps the two structural ones used here *)
Lemma okw_own_wf (h : heap) hr h1 id : StepP.okw h hr -> hr = (h1, Ok id) -> rules_own h -> wf_heap h ->
  rules_own h1 /\ wf_heap h1.
Proof. intros (_ & _ & HI) -> Ho Hw. destruct (HI (conj Hw Ho)) as [W O]. split; assumption. Qed.

Lemma gradOf_ext_none (h l : heap) j : List.Forall (fun n => ngrad n = None) l -> length h <= j -> gradOf (h ++ l) j = None.
Proof.
  intros Hl Hj. unfold gradOf. rewrite nth_error_app2 by exact Hj.
  destruct (nth_error l (j - length h)) as [n|] eqn:En; [|reflexivity]. cbn [obind].
  rewrite Forall_forall in Hl. apply Hl. eapply nth_error_In; eauto.
Qed.
End Ext.

Lemma off_neq L a b : (a =? b) = false -> L + a <> L + b.
Proof. intros E X. apply Nat.eqb_neq in E. lia. Qed.

(* lia without the boolean hypotheses (ZifyBool makes lia split on each of them) *)
Ltac blia := repeat match goal with H : @eq bool _ _ |- _ => clear H end; lia.

(* where the edges of the fourteen nodes lead that both cross-entropies start with, for an untracked
   target and a tracked prediction: clip of the target (0..4), clip of the prediction (5..9: p^0, eps *,
   ome *, ElMin p, ElMax), Log (10), the two Broadcasts of Mul (11, 12), Mul (13) *)
Definition xent_tab : list (bool * list tgt) :=
  [(false, []); (false, []); (false, []); (false, []); (false, []);
   (true, [TIn]); (true, [TNew 5]); (true, [TNew 5]); (true, [TIn; TNew 7]); (true, [TNew 6; TNew 8]);
   (true, [TNew 9]); (false, []); (true, [TNew 10]); (true, [TNew 11; TNew 12])].

(* 6. the abstract fold over appended nodes, on a state indexed by the offset *)
Local Open Scope R_scope.

Section Local.
Variables (thr : R) (rd : bred).
Notation T := (tensor R).
Notation heap := (@heap R).
Notation rule := (@rule R).
Variables (h nodes : heap) (x : nat) (tab : list (bool * list tgt)).
Notation H := (h ++ nodes).
Notation a := (length h).

(* tab describes the appended nodes: node a + k has the flag and the edge targets of tab[k] *)
Definition tab_ok : Prop :=
  Forall2 (fun (d : bool * list tgt) (n : @node R) => ntracked n = fst d /\ Forall2 (conc H a x) (snd d) (nedges n))
    tab nodes.

Lemma tab_ok_at : tab_ok -> forall k tr ts, nth_error tab k = Some (tr, ts) ->
  exists n, nth_error nodes k = Some n /\ ntracked n = tr /\ Forall2 (conc H a x) ts (nedges n).
Proof. intros F k tr ts E. destruct (Forall2_nth _ _ _ F k _ E) as (n & En & Ht & Fe). exists n. auto. Qed.

Lemma tab_ok_Hg : tab_ok -> forall k tr ts, nth_error tab k = Some (tr, ts) ->
  trackedOf H (a + k) = tr /\ (tr = true -> Forall2 (conc H a x) ts (edgesOf H (a + k))).
Proof.
  intros F k tr ts E. destruct (tab_ok_at F k tr ts E) as (n & En & Ht & Fe).
  rewrite trackedOf_off, edgesOf_off. unfold trackedOf, edgesOf. rewrite En. split; [exact Ht|intros _; exact Fe].
Qed.

(* gradient functions of the appended nodes by offset, and of x *)
Definition lst := (list (option assignment) * option assignment)%type.

Fixpoint lupd (ls : list (option assignment)) (j : nat) (f : assignment) : list (option assignment) :=
  match ls with
  | [] => []
  | o :: ls' => match j with O => Some (aacc o f) :: ls' | S j' => o :: lupd ls' j' f end
  end.

Lemma lupd_length ls : forall j f, length (lupd ls j f) = length ls.
Proof. induction ls as [|o ls IH]; intros [|j] f; cbn [lupd length]; try reflexivity. rewrite IH. reflexivity. Qed.

Lemma nth_lupd ls : forall j f i, (j < length ls)%nat ->
  nth i (lupd ls j f) None = if (i =? j)%nat then Some (aacc (nth j ls None) f) else nth i ls None.
Proof.
  induction ls as [|o ls IH]; intros [|j] f [|i] Hj; cbn [length] in Hj; try lia; cbn [lupd nth Nat.eqb]; try reflexivity.
  apply IH. lia.
Qed.

(* Hs stands for H where the rules read values: a name of its own keeps the evaluation of the fold
   from unfolding the node list there *)
Variable Hs : heap.

Definition ledge (fc : assignment) (st : lst) (te : tgt * rule) : lst :=
  match fst te with
  | TNew j => match nth_error tab j with
              | Some (true, _) => (lupd (fst st) j (rsem thr rd Hs (snd te) fc), snd st)
              | _ => st
              end
  | TIn => (fst st, Some (aacc (snd st) (rsem thr rd Hs (snd te) fc)))
  | TSkip => st
  end.

Definition lnode (st : lst) (k : nat) : lst :=
  match nth k (fst st) None, nth_error tab k, nth_error nodes k with
  | Some fc, Some (_, ts), Some n => fold_left (ledge fc) (combine ts (map snd (nedges n))) st
  | _, _, _ => st
  end.

(* the state over all node ids that (ls, sx) stands for *)
Definition emb (st : lst) : astate :=
  fun j => if (j =? x)%nat then snd st else if (a <=? j)%nat then nth (j - a) (fst st) None else None.

Definition lgood (st : lst) (s : astate) : Prop := length (fst st) = length tab /\ forall j, s j = emb st j.

Definition lseed (kr : nat) (g0 : option T) : lst :=
  (lupd (repeat None (length tab)) kr (fun _ => 1), option_map elt g0).

Hypothesis Hxa : (x < a)%nat.

Lemma emb_new st j f i : (j < length (fst st))%nat -> emb (lupd (fst st) j f, snd st) i = aupd (emb st) (a + j) f i.
Proof.
  intros Hj. unfold emb, aupd. cbv beta. cbn [fst snd].
  assert (Xj : (a + j =? x)%nat = false) by (apply Nat.eqb_neq; lia).
  assert (Lj : (a <=? a + j)%nat = true) by (apply Nat.leb_le; lia).
  rewrite Xj, Lj. replace (a + j - a)%nat with j by lia.
  destruct (i =? x)%nat eqn:Ex.
  - apply Nat.eqb_eq in Ex. assert (X : (i =? a + j)%nat = false) by (apply Nat.eqb_neq; lia). rewrite X. reflexivity.
  - destruct (a <=? i)%nat eqn:Ea.
    + apply Nat.leb_le in Ea. rewrite nth_lupd by exact Hj. destruct (i =? a + j)%nat eqn:Ej.
      * apply Nat.eqb_eq in Ej. assert (Y : (i - a =? j)%nat = true) by (apply Nat.eqb_eq; lia). rewrite Y. reflexivity.
      * apply Nat.eqb_neq in Ej. assert (Y : (i - a =? j)%nat = false) by (apply Nat.eqb_neq; lia). rewrite Y. reflexivity.
    + apply Nat.leb_gt in Ea. assert (X : (i =? a + j)%nat = false) by (apply Nat.eqb_neq; lia). rewrite X. reflexivity.
Qed.

Lemma emb_in st f i : emb (fst st, Some (aacc (snd st) f)) i = aupd (emb st) x f i.
Proof. unfold emb, aupd. cbv beta. cbn [fst snd]. rewrite Nat.eqb_refl. destruct (i =? x)%nat; reflexivity. Qed.

Lemma aupd_ext (s s' : astate) y f : (forall j, s j = s' j) -> forall j, aupd s y f j = aupd s' y f j.
Proof. intros E j. unfold aupd. rewrite (E y), (E j). reflexivity. Qed.

Lemma lseed_good kr g0 : (kr < length tab)%nat ->
  lgood (lseed kr g0) (fun j => if (j =? a + kr)%nat then Some (fun _ => 1) else if (j =? x)%nat then option_map elt g0 else None).
Proof.
  intros Hk. split; [cbn [lseed fst]; rewrite lupd_length; apply repeat_length|].
  intros j. unfold emb, lseed. cbn [fst snd].
  assert (Lr : (kr < length (repeat (@None assignment) (length tab)))%nat) by (rewrite repeat_length; exact Hk).
  destruct (j =? x)%nat eqn:Ex.
  - apply Nat.eqb_eq in Ex. assert (X : (j =? a + kr)%nat = false) by (apply Nat.eqb_neq; lia). rewrite X. reflexivity.
  - destruct (j =? a + kr)%nat eqn:Er.
    + apply Nat.eqb_eq in Er. subst j. assert (L : (a <=? a + kr)%nat = true) by (apply Nat.leb_le; lia). rewrite L.
      replace (a + kr - a)%nat with kr by lia. rewrite nth_lupd by exact Lr. rewrite Nat.eqb_refl, nth_repeat_none. reflexivity.
    + destruct (a <=? j)%nat eqn:Ea; [|reflexivity]. apply Nat.leb_le in Ea. apply Nat.eqb_neq in Er.
      rewrite nth_lupd by exact Lr. assert (Y : (j - a =? kr)%nat = false) by (apply Nat.eqb_neq; lia).
      rewrite Y. symmetry. apply nth_repeat_none.
Qed.

Hypothesis Tx : trackedOf H x = true.
Hypothesis Hok : tab_ok.
Hypothesis EHs : Hs = H.

Lemma ledges_sound fc ts es : Forall2 (conc H a x) ts es -> forall st s, lgood st s ->
  lgood (fold_left (ledge fc) (combine ts (map snd es)) st) (fold_left (aedge H (rsem thr rd H) fc) es s).
Proof.
  induction 1 as [|t e ts es Hc F IH]; intros st s [Ln Es]; [split; assumption|].
  cbn [map combine fold_left]. apply IH. unfold ledge, aedge. cbn [fst snd]. rewrite EHs.
  destruct t as [j| |]; cbn [conc] in Hc.
  - rewrite Hc. destruct (nth_error tab j) as [[tr ts']|] eqn:Ej.
    + destruct (tab_ok_Hg Hok j tr ts' Ej) as [Ht _]. rewrite Ht.
      assert (Lj : (j < length (fst st))%nat) by (rewrite Ln; apply nth_error_Some; congruence).
      destruct tr; [|split; assumption]. split; [cbn [fst]; rewrite lupd_length; exact Ln|].
      intros i. rewrite (emb_new st j _ i Lj). apply aupd_ext, Es.
    + assert (En : nth_error nodes j = None).
      { apply nth_error_None. rewrite <- (Forall2_len _ _ _ Hok). apply nth_error_None. exact Ej. }
      rewrite trackedOf_off. unfold trackedOf. rewrite En. split; assumption.
  - rewrite Hc, Tx. split; [exact Ln|]. intros i. rewrite (emb_in st _ i). apply aupd_ext, Es.
  - rewrite Hc. split; assumption.
Qed.

Lemma lnode_sound st s k : lgood st s -> lgood (lnode st k) (anode H (rsem thr rd H) s (a + k)).
Proof.
  intros [Ln Es]. unfold lnode, anode. rewrite (Es (a + k)%nat). unfold emb at 1.
  assert (Xk : (a + k =? x)%nat = false) by (apply Nat.eqb_neq; lia).
  assert (Lk : (a <=? a + k)%nat = true) by (apply Nat.leb_le; lia).
  rewrite Xk, Lk. replace (a + k - a)%nat with k by lia.
  destruct (nth k (fst st) None) as [fc|] eqn:Ek; [|split; assumption].
  assert (Hk : (k < length tab)%nat).
  { rewrite <- Ln. destruct (Nat.lt_ge_cases k (length (fst st))) as [L|L]; [exact L|].
    rewrite nth_overflow in Ek by exact L. discriminate. }
  destruct (nth_error tab k) as [[tr ts]|] eqn:Et; [|apply nth_error_None in Et; lia].
  destruct (tab_ok_at Hok k tr ts Et) as (n & En & _ & Fe). rewrite En.
  rewrite edgesOf_off. unfold edgesOf. rewrite En. apply ledges_sound; [exact Fe|split; assumption].
Qed.

Lemma lfold_sound l : forall st s, lgood st s ->
  lgood (fold_left lnode l st) (fold_left (anode H (rsem thr rd H)) (map (Nat.add a) l) s).
Proof. induction l as [|k l IH]; intros st s G; [exact G|]. cbn [map fold_left]. apply IH, lnode_sound, G. Qed.

End Local.

(* 7. back-propagation of a scalar loss down to its prediction *)
Section Master.
Variables (thr : R) (draw : bool -> nat -> R).
Local Hint Extern 0 (Scalar R) => exact (R_scalar thr draw) : typeclass_instances.
Notation T := (tensor R).
Notation heap := (@heap R).
Notation idseal := (fun (_ : option nat) (g : T) => g).

(* Back-propagation from the loss l of h1 (h extended by the loss component) processes the nodes
   of the component, which never fails, and then continues with the prediction p and its own
   ancestry [rest] from a heap hm in which p already carries its final gradient g0 + G. *)
Definition bp_reaches rd (h h1 : heap) (l p t : nat) (pv : T) (g0 : option T) (G : T) : Prop :=
  exists hm logm rest g,
    bp_topo rd idseal h1 l = fold_left (process_node rd idseal) (p :: rest) (hm, logm, Ok tt) /\
    (forall c, In c rest -> (c < p)%nat) /\ (edgesOf h p = [] -> rest = []) /\
    sameS h1 hm /\ wf_heap h1 /\ trackedOf h1 t = false /\ edgesOf h1 p = edgesOf h p /\
    gradOf hm p = Some g /\ dims g = dims pv /\ wf g /\
    acc1 g0 G = Some (Some g) /\
    (forall j, (j < length h)%nat -> j <> p -> gradOf hm j = gradOf h j) /\
    (forall j, (j < length h)%nat -> gradOf h1 j = gradOf h j).

(* whatever happens below p *)
Lemma reaches_grad rd h h1 l p t pv g0 G :
  bp_reaches rd h h1 l p t pv g0 G -> (t < length h)%nat -> t <> p ->
  forall h2 log r, bp_topo rd idseal h1 l = (h2, log, r) ->
    (exists g, gradOf h2 p = Some g /\ dims g = dims pv /\ wf g /\ acc1 g0 G = Some (Some g)) /\
    gradOf h2 t = gradOf h1 t /\ (forall i, valOf h2 i = valOf h1 i).
Proof.
  intros (hm & logm & rest & g & Esp & Brest & _ & HSm & W1 & Tt1 & _ & Eg & Dg & Wg & Hacc & Hfr & Hold) Ht Hpt h2 log r E2.
  destruct (split_any rd h1 l p rest hm logm p W1 HSm Esp Brest (or_introl eq_refl) h2 log r E2) as [HS2 Hgp].
  destruct (split_any rd h1 l p rest hm logm t W1 HSm Esp Brest (or_intror Tt1) h2 log r E2) as [_ Hgt].
  split; [exists g; rewrite Hgp; auto|]. split.
  - rewrite Hgt, (Hfr t Ht Hpt), (Hold t Ht). reflexivity.
  - intros i. symmetry. apply (sameS_val _ _ HS2).
Qed.

(* a leaf p: nothing is left to fail *)
Lemma reaches_leaf rd h h1 l p t pv g0 G :
  bp_reaches rd h h1 l p t pv g0 G -> (t < length h)%nat -> t <> p -> edgesOf h p = [] ->
  exists h2 log, bp_topo rd idseal h1 l = (h2, log, Ok tt) /\
    (exists g, gradOf h2 p = Some g /\ dims g = dims pv /\ wf g /\ acc1 g0 G = Some (Some g)) /\
    gradOf h2 t = gradOf h1 t /\ (forall i, valOf h2 i = valOf h1 i).
Proof.
  intros Hr Ht Hpt Hleaf. pose proof Hr as (hm & logm & rest & g & Esp & _ & Hrest & HSm & _ & _ & Hed & Eg & _).
  rewrite (Hrest Hleaf) in Esp. rewrite (split_leaf rd h1 p hm logm g HSm) in Esp; [|congruence|exact Eg].
  eexists _, _. split; [exact Esp|]. exact (reaches_grad rd h h1 l p t pv g0 G Hr Ht Hpt _ _ _ Esp).
Qed.

(* The component: gradient-less nodes appended to h and described by tab, with the scalar loss at
   offset kr.  The search from the loss is evaluated on the table ([lr]: the offsets in processing
   order), the rules of these nodes satisfy their shape conditions, and the abstract fold over
   them, evaluated by offset, leaves  g0 + G  at the prediction. *)
Lemma loss_bp_generic rd (h nodes : heap) tab (p t kr : nat) lv lr ds (G : assignment) g0 (pv lossv : T) :
  let H := h ++ nodes in
  rules_own H -> wf_heap H -> List.Forall (fun n => ngrad n = None) nodes -> tab_ok h nodes p tab ->
  (p < length h)%nat -> (t < length h)%nat -> trackedOf h p = true -> trackedOf h t = false -> gradOf h p = g0 ->
  valOf h p = Some pv -> wf pv -> dims pv = ds -> prior_ok ds g0 ->
  valOf nodes kr = Some lossv -> wf lossv -> dims lossv = [] ->
  ldfs tab (S (length tab)) kr ([], false, []) = Some (lv, true, lr) ->
  All (fun k => All (fun e => trackedOf H (fst e) = true -> rok H (length h + k) (fst e) (snd e)) (edgesOf nodes k)) lr ->
  (exists f, snd (fold_left (lnode thr rd nodes tab H) lr (lseed tab kr g0)) = Some f /\
             forall idx, validIdx ds idx -> f idx = prior g0 idx + G idx) ->
  bp_reaches rd h H (length h + kr) p t pv g0 (ofFun ds G).
Proof.
  intros H HoH HwH Hng Hok Hp Ht Tp Tt Eg0 Vp Wp Edp Hprior Vl0 Wl Dl E Hrok (f & Ef' & Hf).
  set (a := length h) in *. set (dom := fun j : nat => (a <= j)%nat \/ j = p).
  assert (VHp : valOf H p = Some pv) by (unfold H; rewrite valOf_app by exact Hp; exact Vp).
  assert (THp : trackedOf H p = true) by (unfold H; rewrite trackedOf_app by exact Hp; exact Tp).
  assert (GHp : gradOf H p = g0) by (unfold H; rewrite gradOf_old by exact Hp; exact Eg0).
  assert (DP : Dm H p = ds) by (unfold Dm; rewrite VHp; exact Edp).
  assert (Gnone : forall j, (a <= j)%nat -> gradOf H j = None) by (intros j Hj; unfold H; apply gradOf_ext_none; assumption).
  assert (Hpos : List.Forall (fun d : nat => (0 < d)%nat) ds) by (rewrite <- Edp; exact (proj2 Wp)).
  pose proof (tab_ok_Hg h nodes p tab Hok) as Hg. fold H a in Hg.
  destruct (ldfs_order H HwH a p tab _ kr lv lr Hp THp Hg E) as (rest & Eord & Brest & Hleaf & Hlr).
  assert (Ekr : exists ts, nth_error tab kr = Some (true, ts)).
  { cbn [ldfs] in E. destruct (nth_error tab kr) as [[[|] ts]|]; try discriminate. exists ts. reflexivity. }
  destruct Ekr as (tsr & Ekr). destruct (Hg kr true tsr Ekr) as [Troot _].
  assert (Lkr : (kr < length tab)%nat) by (apply nth_error_Some; congruence).
  assert (LH : length H = (a + length tab)%nat) by (unfold H; rewrite app_length, (Forall2_len _ _ _ Hok); reflexivity).
  assert (Vroot : valOf H (a + kr) = Some lossv) by (unfold H, a; rewrite valOf_off; exact Vl0).
  (* the seed: ones of the shape of the loss *)
  destruct (un_elt thr draw (UPow (sconst 0 0)) lossv Wl) as (ones & Eones & Dones & Wones & Gones).
  assert (Tones : isT (Dm H (a + kr)) (fun _ => 1) ones).
  { unfold Dm. rewrite Vroot, Dl. split; [congruence|]. split; [exact Wones|]. intros idx Hv.
    rewrite Gones by (rewrite Dl; exact Hv). rewrite uF_pow, sconst_R, dec2R_0. apply Rpow_0. }
  unfold bp_reaches.
  rewrite (bp_topo_split rd H (a + kr) _ _ lossv ones Troot Eord Vroot Eones (Gnone _ (Nat.le_add_r _ _))).
  set (pre := map (Nat.add a) lr) in *.
  set (hh0 := setGrad (markDirty H (pre ++ p :: rest)) (a + kr) (Some ones)).
  set (s0 := fun j => if (j =? a + kr)%nat then Some (fun _ : list nat => 1) else if (j =? p)%nat then option_map elt g0 else None).
  assert (HS0 : sameS H hh0) by (eapply sameS_trans; [apply sameS_markDirty|apply sameS_setGrad]).
  assert (HM0 : models H dom hh0 s0).
  { intros j Hj. unfold s0, hh0. rewrite gradOf_setGrad, gradOf_markDirty.
    destruct (j =? a + kr)%nat eqn:Ej.
    - rewrite length_markDirty. assert (X : (a + kr <? length H)%nat = true) by (apply Nat.ltb_lt; lia).
      rewrite X. exists ones. apply Nat.eqb_eq in Ej. subst j. split; [reflexivity|exact Tones].
    - destruct (j =? p)%nat eqn:Ejp.
      + apply Nat.eqb_eq in Ejp. subst j. rewrite GHp. destruct g0 as [g|]; cbn [option_map]; [|reflexivity].
        exists g. split; [reflexivity|]. destruct Hprior as [Wg Dg]. rewrite DP, <- Dg. apply isT_self, Wg.
      + apply Nat.eqb_neq in Ejp. destruct Hj as [Hj|Hj]; [|contradiction]. apply Gnone, Hj. }
  assert (Hpre : forall c, In c pre -> dom c /\ (c < length H)%nat /\ edges_rok thr draw rd H (rsem thr rd H) dom c).
  { intros c Hc. apply in_map_iff in Hc as (k & <- & Hk). pose proof (Hlr k Hk) as Lk.
    split; [left; apply Nat.le_add_r|]. split; [lia|]. apply edges_rok_own; [exact HoH|exact HwH|]. intros e He Te.
    destruct (nth_error tab k) as [[tr ts]|] eqn:Ek; [|apply nth_error_None in Ek; lia].
    destruct (tab_ok_at h nodes p tab Hok k tr ts Ek) as (n & En & _ & Fe).
    unfold H, a in He. rewrite edgesOf_off in He. split.
    - unfold edgesOf in He. rewrite En in He. destruct (Forall2_In_r _ _ _ _ Fe He) as ([j| |] & Hc); cbn [conc] in Hc.
      + left. rewrite Hc. apply Nat.le_add_r.
      + right. exact Hc.
      + fold H in Hc. congruence.
    - exact (All_In _ _ _ (All_In _ _ _ Hrok Hk) He Te). }
  destruct (fold_abs thr draw rd H (rsem thr rd H) dom pre hh0 [] s0 [] HS0 HM0 Hpre) as (hm & logm & Ef & _ & HSm & HMm & Hfr).
  destruct (lfold_sound thr rd h nodes p tab H Hp THp Hok eq_refl lr _ _ (lseed_good h p tab Hp kr g0 Lkr)) as [_ Es].
  assert (Ep : fold_left (anode H (rsem thr rd H)) pre s0 p = Some f).
  { etransitivity; [exact (Es p)|]. unfold emb. rewrite Nat.eqb_refl. exact Ef'. }
  specialize (HMm p (or_intror eq_refl)). rewrite Ep in HMm. destruct HMm as (g & Eg & Tg). rewrite DP in Tg.
  rewrite Ef. exists hm, (logm ++ []), rest, g. split; [reflexivity|]. split; [exact Brest|]. split.
  { intros Hl. apply Hleaf. unfold H. rewrite edgesOf_old by exact Hp. exact Hl. }
  split; [exact HSm|]. split; [exact HwH|]. split; [unfold H; rewrite trackedOf_app by exact Ht; exact Tt|].
  split; [unfold H; apply edgesOf_old; exact Hp|].
  split; [exact Eg|]. split; [rewrite Edp; exact (proj1 Tg)|]. split; [exact (proj1 (proj2 Tg))|]. split.
  { apply (acc1_final thr draw g0 ds _ f g); assumption. }
  split; [|intros j Hj; unfold H; apply gradOf_old; exact Hj].
  intros j Hj Hjp.
  rewrite Hfr by (apply (untouched_dom thr draw rd H (rsem thr rd H) dom); [intros c Hc; apply Hpre, Hc|unfold dom; lia]). unfold hh0. rewrite gradOf_setGrad, gradOf_markDirty.
  assert (X : (j =? a + kr)%nat = false) by (apply Nat.eqb_neq; lia). rewrite X.
  unfold H. apply gradOf_old. exact Hj.
Qed.
End Master.

(* the appended nodes whose values are known element-wise: shapes, well-formedness, elements *)
Section ExtVals.
Notation heap := (@heap R).

Lemma ext_val (h nodes : heap) ds k f v : valOf nodes k = Some v -> isT ds f v ->
  Dm (h ++ nodes) (length h + k) = ds /\ okv (h ++ nodes) (length h + k) /\
  forall idx, validIdx ds idx -> Vl (h ++ nodes) (length h + k) idx = f idx.
Proof.
  intros Hv (Dv & Wv & Gv). unfold Dm, okv, Vl. rewrite valOf_off, Hv.
  split; [exact Dv|]. split; [exists v; split; [reflexivity|exact Wv]|exact Gv].
Qed.

Lemma ext_vals (h nodes : heap) ds fs vs rest : Forall2 (isT ds) fs vs -> map (@nval R) nodes = vs ++ rest ->
  forall k f, nth_error fs k = Some f ->
    Dm (h ++ nodes) (length h + k) = ds /\ okv (h ++ nodes) (length h + k) /\
    forall idx, validIdx ds idx -> Vl (h ++ nodes) (length h + k) idx = f idx.
Proof.
  intros F Ev k f Ef. destruct (Forall2_nth _ _ _ F k f Ef) as (v & Ek & Tv). apply (ext_val h nodes ds k f v); [|exact Tv].
  unfold valOf. assert (E : nth_error (map (@nval R) nodes) k = Some v).
  { rewrite Ev, nth_error_app1 by (apply nth_error_Some; congruence). exact Ek. }
  rewrite nth_error_map in E. destruct (nth_error nodes k) as [n|]; [|discriminate]. inversion E. reflexivity.
Qed.

(* all of them and the operand p have the shape ds *)
Lemma ext_shapes (h nodes : heap) ds fs vs rest p pv : Forall2 (isT ds) fs vs -> map (@nval R) nodes = vs ++ rest ->
  (p < length h)%nat -> valOf h p = Some pv -> wf pv -> dims pv = ds ->
  forall i, (length h <= i < length h + length fs)%nat \/ i = p -> Dm (h ++ nodes) i = ds /\ okv (h ++ nodes) i.
Proof.
  intros F Ev Hp Vp Wp Dp i [Hi| ->].
  - destruct (nth_error fs (i - length h)) as [f|] eqn:Ef; [|apply nth_error_None in Ef; lia].
    destruct (ext_vals h nodes ds fs vs rest F Ev _ f Ef) as (D & O & _).
    replace (length h + (i - length h))%nat with i in D, O by lia. split; assumption.
  - unfold Dm, okv. rewrite valOf_app by exact Hp. rewrite Vp. split; [exact Dp|]. exists pv. split; [reflexivity|exact Wp].
Qed.
End ExtVals.

(* [rok] of a same-shape rule whose nodes are appended nodes of the interval of HP, or its operand:
   HP : forall i, (length h <= i < length h + n)%nat \/ i = p -> Dm H i = ds /\ okv H i *)
Ltac rok_in HP :=
  eapply (rok_same _ _ _ _ _ _ _ _ HP); [reflexivity | first [reflexivity | exact I] | ..];
  repeat first [apply Forall_nil | apply Forall_cons]; first [right; reflexivity | left; blia].

(* the Broadcast back edges between such nodes *)
Ltac bcast_in HP := rewrite !(rsem_bcast_in _ _ _ _ _ _ _ _ HP) by first [right; reflexivity | left; blia].

(* 8. the clip to [eps, ome] of BCE and CE on one element *)
(* clipV x is the clipped value (ElMin against ome, then ElMax against eps); clipF x is the factor the two
   tie-splitting ElMax / ElMin rules put on the gradient of the clipped value on its way to x *)
Section ClipFactor.
Variables thr eps ome : R.

Definition clipV (x : R) : R := Rmax eps (Rmin x ome).
Definition clipF (x : R) : R :=
  (eqt thr (clipV x) (Rmin x ome) - / 2 * eqt thr (Rmin x ome) eps) * (eqt thr (Rmin x ome) x - / 2 * eqt thr x ome).

Lemma eqt_gt a b : 0 <= thr -> thr < a - b -> eqt thr a b = 0 /\ eqt thr b a = 0.
Proof.
  intros Ht H. split; apply eqt_far.
  - rewrite Rabs_pos_eq; lra.
  - rewrite Rabs_minus_sym, Rabs_pos_eq; lra.
Qed.

(* strictly inside, beyond the equality threshold *)
Lemma clip_inside x : 0 <= thr -> eps + thr < x -> x < ome - thr -> clipV x = x /\ clipF x = 1.
Proof.
  intros Ht Hl Hu. unfold clipF, clipV. rewrite (Rmin_left x ome), (Rmax_right eps x) by lra.
  rewrite (eqt_same thr x Ht), (proj1 (eqt_gt x eps Ht ltac:(lra))), (proj2 (eqt_gt ome x Ht ltac:(lra))). split; lra.
Qed.

Lemma clip_below x : 0 <= thr -> eps < ome -> x < eps - thr -> clipF x = 0.
Proof.
  intros Ht He Hl. unfold clipF, clipV. rewrite (Rmin_left x ome), (Rmax_left eps x) by lra.
  destruct (eqt_gt eps x Ht ltac:(lra)) as [X1 X2]. rewrite X1, X2. ring.
Qed.

Lemma clip_above x : 0 <= thr -> ome + thr < x -> clipF x = 0.
Proof.
  intros Ht Hl. unfold clipF. rewrite (Rmin_right x ome) by lra.
  destruct (eqt_gt x ome Ht ltac:(lra)) as [X1 X2]. rewrite X1, X2. ring.
Qed.

(* within thr of a bound the tie is split: half *)
Lemma clip_near_eps x : 0 <= thr -> eps <= x -> x <= eps + thr -> x < ome - thr -> clipV x = x /\ clipF x = / 2.
Proof.
  intros Ht Hl Hn Hu. unfold clipF, clipV. rewrite (Rmin_left x ome), (Rmax_right eps x) by lra.
  rewrite (eqt_same thr x Ht), (eqt_near thr x eps), (proj2 (eqt_gt ome x Ht ltac:(lra))) by (rewrite Rabs_pos_eq; lra).
  split; lra.
Qed.

Lemma clip_near_ome x : 0 <= thr -> eps + thr < x -> ome - thr <= x -> x <= ome -> clipV x = x /\ clipF x = / 2.
Proof.
  intros Ht Hl Hn Hu. unfold clipF, clipV. rewrite (Rmin_left x ome), (Rmax_right eps x) by lra.
  rewrite (eqt_same thr x Ht), (eqt_near thr x ome), (proj1 (eqt_gt x eps Ht ltac:(lra)))
    by (rewrite Rabs_minus_sym, Rabs_pos_eq; lra).
  split; lra.
Qed.
End ClipFactor.

(* 9. [isT], [Dm], [Vl], [okv] under the names of this file (the definitions of BpFoldP.v) *)
Section Gen.
Notation T := (tensor R).
Notation heap := (@heap R).

Definition isT (ds : list nat) (f : assignment) (g : T) : Prop :=
  dims g = ds /\ wf g /\ forall idx, validIdx ds idx -> elt g idx = f idx.

Lemma isT_dims ds ds' f g : isT ds f g -> ds = ds' -> isT ds' f g.
Proof. intros H <-. exact H. Qed.

Section OnHeap.
Variable H : heap.

Definition Dm (i : nat) : list nat := match valOf H i with Some v => dims v | None => [] end.
Definition Vl (i : nat) : assignment := match valOf H i with Some v => elt v | None => fun _ => 0 end.
Definition okv (i : nat) : Prop := exists v, valOf H i = Some v /\ wf v.

Lemma okv_isT i : okv i -> exists v, valOf H i = Some v /\ isT (Dm i) (Vl i) v.
Proof. intros (v & E & W). exists v. split; [exact E|]. unfold Dm, Vl. rewrite E. apply isT_self, W. Qed.
End OnHeap.
End Gen.
