(* GradMseP.v — C13 for the mean-squared-error loss: back-propagating the loss value gives the
   prediction the gradient 2(p-t)/N.  Built on the generic part Proofs/GradLossP.v. *)
From Coq Require Import List Arith ZArith Bool Lia Reals Lra.
From Coquelicot Require Import Coquelicot.
From Qeep Require Import Model.Scalar Model.Nd Model.Fill Model.Data Model.Valid Model.Api Model.Grad Model.Backprop
  Model.Components.
From Qeep Require Import Spec.RScalar Spec.VjpSpec.
From Qeep Require Import Proofs.NdP Proofs.ElemP Proofs.BroadcastP Proofs.ReduceP Proofs.ReduceRP Proofs.CompP Proofs.LossP
  Proofs.VjpElemP Proofs.VjpReduceP Proofs.TrackP Proofs.BackpropP Proofs.GradLossP Proofs.OpsP Proofs.OpsXP Proofs.BpFoldP.
Import ListNotations.
Local Open Scope nat_scope.

Section Mse.
Variables (thr : R) (draw : bool -> nat -> R).
Local Hint Extern 0 (Scalar R) => exact (R_scalar thr draw) : typeclass_instances.
Notation T := (tensor R).
Notation heap := (@heap R).
Notation rule := (@rule R).
Notation idseal := (fun (_ : option nat) (g : T) => g).
Notation c2 := (@cst R (R_scalar thr draw) 2 0).

(* the five nodes MSE.Compute appends; tp = is the prediction tracked *)
Definition mse_nodes (L p t : nat) (tp : bool) (name : option nat) (bt bp dv d2v lv : T) : heap :=
  [ xnode bt false [(t, RBroadcast (L + 0) t)] None;
    xnode bp tp [(p, RBroadcast (L + 1) p)] None;
    xnode dv tp (arithEdges BiSub (L + 2) (L + 0) (L + 1)) None;
    xnode d2v tp [(L + 2, RPow (L + 3) (L + 2) c2 false)] None;
    xnode lv tp [(L + 3, RAvgAlong (L + 4) (L + 3) 0%Z)] name ].

(* where their edges lead, for a tracked prediction *)
Definition mse_tab : list (bool * list tgt) :=
  [(false, []); (true, [TIn]); (true, [TNew 0; TNew 1]); (true, [TNew 2]); (true, [TNew 3])].

Lemma mse_structure (h : heap) p t name h1 l tp pv tv :
  valOf h p = Some pv -> valOf h t = Some tv ->
  trackedOf h p = tp -> dirtyOf h p = false -> trackedOf h t = false -> dirtyOf h t = false ->
  lossArgs1 h (Some p) (Some t) = Some (p, t) ->
  mse_compute h (Some p) (Some t) name = (h1, Ok l) ->
  let S := map Z.of_nat (targetBroadcastDims (dims tv) (dims pv)) in
  exists bt bp dv d2v lv,
    v_broadcast tv S = Ok bt /\ v_broadcast pv S = Ok bp /\ apply2 (binaryF BiSub) bt bp = Some dv /\
    v_unary (UPow c2) dv = Ok d2v /\ v_reduceAlong RdMean d2v 0%Z = Ok lv /\
    l = length h + 4 /\ h1 = h ++ mse_nodes (length h) p t tp name bt bp dv d2v lv.
Proof.
  intros Vp Vt Tp Dp Tt Dt Ea E S. rewrite (mse_compute_ops h _ _ p t name Ea) in E. apply atomically_ok in E.
  pattern h1, l. apply (runOps_X0 mse_ops h (length h) 0 [(p, tp, pv); (t, false, tv)] name h1 l _) with (2 := E);
    [apply Forall_cons; [|apply Forall_cons, Forall_nil]; cbn [knows]; auto|reflexivity|apply plus_n_O|].
  lazy [opsX primX prim1 mse_ops pick map nth nnodes alongRule]. cbn [length Nat.add app orb kid fst].
  intros bt bp dv Bt Bp Fd d2v Fd2 lv Fl.
  exists bt, bp, dv, d2v, lv. repeat (split; [assumption|]). split; reflexivity.
Qed.

Local Open Scope R_scope.

(* the tensor the property names: 2(p-t)/N at every position *)
Definition mseG (pv tv : T) : T :=
  let N := nth 0 (dims pv) 0%nat in ofFun [N] (fun idx => 2 * (elt pv idx - elt tv idx) / INR N).

Lemma mse_bp rd (h : heap) p t name pv tv g0 h1 l :
  rules_own h -> wf_heap h ->
  valOf h p = Some pv -> wf pv -> valOf h t = Some tv -> wf tv ->
  trackedOf h p = true -> dirtyOf h p = false -> trackedOf h t = false -> dirtyOf h t = false ->
  lossArgs1 h (Some p) (Some t) = Some (p, t) ->
  gradOf h p = g0 -> prior_ok (dims pv) g0 ->
  mse_compute h (Some p) (Some t) name = (h1, Ok l) ->
  bp_reaches thr draw rd h h1 l p t pv g0 (mseG pv tv).
Proof.
  intros Ho Hw Vp Wp Vt Wt Tp Dp Tt Dt Ea Eg0 Hprior E. unfold mseG. set (N := nth 0 (dims pv) 0%nat).
  destruct (lossArgs1_dims h (Some p) (Some t) p t pv tv Ea Vp Vt) as (n & Edp & Edt).
  assert (EN : N = n) by (unfold N; rewrite Edp; reflexivity). clearbody N. subst n.
  destruct (okw_own_wf h _ h1 l (StepP.okw_mse h (Some p) (Some t) name) E Ho Hw) as [HoH HwH].
  destruct (mse_structure h p t name h1 l true pv tv Vp Vt Tp Dp Tt Dt Ea E)
    as (bt & bp & dv & d2v & lv & Bt & Bp & Fd & Fd2 & Fl & -> & ->). cbv zeta in *.
  assert (Hp : (p < length h)%nat) by (eapply valOf_some_lt; eauto).
  assert (Ht : (t < length h)%nat) by (eapply valOf_some_lt; eauto).
  (* forward values, element-wise *)
  assert (ES : map Z.of_nat (targetBroadcastDims (dims tv) (dims pv)) = map Z.of_nat [N]).
  { rewrite Edt, Edp, targetBroadcastDims_same. reflexivity. }
  rewrite ES in Bt, Bp.
  assert (Ttv : isT [N] (elt tv) tv) by (rewrite <- Edt; apply isT_self, Wt).
  assert (Tpv : isT [N] (elt pv) pv) by (rewrite <- Edp; apply isT_self, Wp).
  pose proof (bcast_same_isT _ _ _ _ Ttv Bt) as Tbt.
  pose proof (bcast_same_isT _ _ _ _ Tpv Bp) as Tbp.
  pose proof (apply2_isT thr draw BiSub _ _ _ _ _ _ Tbt Tbp Fd) as Tdv.
  pose proof (un_isT thr draw _ _ _ _ _ Tdv Fd2) as Td2.
  destruct (along_elt thr draw RdMean d2v 0 (proj1 (proj2 Td2))) as (lv' & Elv & Dlv & Wlv & _).
  { rewrite (proj1 Td2). cbn [length]. lia. }
  change (Z.of_nat 0) with 0%Z in Elv. assert (lv' = lv) by congruence. subst lv'. clear Elv.
  rewrite (proj1 Td2) in Dlv. change (squeezeDims 0 [N]) with (@nil nat) in Dlv.
  set (nodes := mse_nodes (length h) p t true name bt bp dv d2v lv) in *. set (H := h ++ nodes) in *.
  assert (F : Forall2 (isT [N]) [_; _; (fun i => elt tv i - elt pv i); _] [bt; bp; dv; d2v]) by (repeat (apply Forall2_cons; [eassumption|]); apply Forall2_nil).
  assert (Ev : map (@nval R) nodes = [bt; bp; dv; d2v] ++ [lv]) by reflexivity.
  pose proof (ext_shapes h nodes [N] _ _ _ p pv F Ev Hp Vp Wp Edp) as HP. cbn [length] in HP. fold H in HP.
  destruct (ext_vals h nodes [N] _ _ _ F Ev 2%nat _ eq_refl) as (_ & _ & EV2). fold H in EV2.
  destruct (ext_vals h nodes [N] _ _ _ F Ev 3%nat _ eq_refl) as (D3 & O3 & _). fold H in D3, O3.
  rewrite Edp in Hprior.
  apply (loss_bp_generic thr draw rd h nodes mse_tab p t 4 [1; 2; 3; 4]%nat [4; 3; 2; 1]%nat [N] _ g0 pv lv
           HoH HwH); try assumption; try reflexivity.
  - repeat constructor.
  - repeat first [reflexivity | constructor].
  - fold H. cbn [All edgesOf nth_error nodes mse_nodes nedges xnode arithEdges fst snd]. all_cases; intros _.
    + cbn [rok]. split; [reflexivity|]. split; [exact O3|]. exists 0%nat. rewrite D3.
      split; [reflexivity|]. split; [apply Nat.lt_0_succ|]. unfold Dm, H. rewrite valOf_off. exact Dlv.
    + rok_in HP.
    + rok_in HP.
    + rok_in HP.
    + rok_in HP.
  - fold H. unfold lseed. cbn [length mse_tab repeat lupd aacc].
    cbv [fold_left lnode ledge lupd aacc mse_tab nth nth_error nodes mse_nodes nedges xnode arithEdges
         combine map fst snd]. eexists. split; [reflexivity|]. intros idx Hv.
    assert (Epow : forall x, Rpow x (c2 - 1) = x).
    { intros x. rewrite cst_R, dec2R_2. replace (2 - 1) with (IZR 1) by (simpl; ring). rewrite Rpow_IZR. simpl. ring. }
    assert (HN : INR N <> 0) by (apply not_0_INR; inversion Hv; lia).
    bcast_in HP.
    destruct g0 as [gp|]; cbn [option_map aacc prior rsem]; rewrite D3, (EV2 idx Hv), Epow, cst_R, dec2R_2;
      change (Z.to_nat 0) with 0%nat; cbn [nth]; field; exact HN.
Qed.

(* C13, MSE.  Whatever the outcome of the back-propagation below the prediction (p may be a leaf or
   the result of earlier tracked operations: NO hypothesis restricts the back edges of p), the
   prediction ends with its previous gradient accumulated with the tensor 2(p-t)/N, which has the
   prediction's shape; the untracked target receives nothing and no value changes. *)
Theorem mse_grad rd (h : heap) p t name pv tv g0 h1 l :
  rules_own h -> wf_heap h ->
  valOf h p = Some pv -> wf pv -> valOf h t = Some tv -> wf tv ->
  trackedOf h p = true -> dirtyOf h p = false -> trackedOf h t = false -> dirtyOf h t = false ->
  lossArgs1 h (Some p) (Some t) = Some (p, t) ->
  gradOf h p = g0 -> prior_ok (dims pv) g0 ->
  mse_compute h (Some p) (Some t) name = (h1, Ok l) ->
  forall h2 log r, bp_topo rd idseal h1 l = (h2, log, r) ->
    (exists g, gradOf h2 p = Some g /\ dims g = dims pv /\ wf g /\ acc1 g0 (mseG pv tv) = Some (Some g)) /\
    gradOf h2 t = gradOf h1 t /\
    (forall i, valOf h2 i = valOf h1 i).
Proof.
  intros Ho Hw Vp Wp Vt Wt Tp Dp Tt Dt Ea Eg0 Hprior E.
  apply (reaches_grad thr draw rd h h1 l p t pv g0 _ (mse_bp rd h p t name pv tv g0 h1 l Ho Hw Vp Wp Vt Wt Tp Dp Tt Dt Ea Eg0 Hprior E)).
  - eapply valOf_some_lt; eauto.
  - intros X; subst t; congruence.
Qed.

(* the same statement read for an interior prediction: it IS the same theorem *)
Definition mse_grad_interior := mse_grad.

(* never fails: a leaf prediction *)
Theorem mse_grad_leaf rd (h : heap) p t name pv tv g0 h1 l :
  rules_own h -> wf_heap h ->
  valOf h p = Some pv -> wf pv -> valOf h t = Some tv -> wf tv ->
  trackedOf h p = true -> dirtyOf h p = false -> trackedOf h t = false -> dirtyOf h t = false ->
  lossArgs1 h (Some p) (Some t) = Some (p, t) ->
  gradOf h p = g0 -> prior_ok (dims pv) g0 ->
  mse_compute h (Some p) (Some t) name = (h1, Ok l) ->
  edgesOf h p = [] ->
  exists h2 log, bp_topo rd idseal h1 l = (h2, log, Ok tt) /\
    (exists g, gradOf h2 p = Some g /\ dims g = dims pv /\ wf g /\ acc1 g0 (mseG pv tv) = Some (Some g)) /\
    gradOf h2 t = gradOf h1 t /\
    (forall i, valOf h2 i = valOf h1 i).
Proof.
  intros Ho Hw Vp Wp Vt Wt Tp Dp Tt Dt Ea Eg0 Hprior E.
  apply (reaches_leaf thr draw rd h h1 l p t pv g0 _ (mse_bp rd h p t name pv tv g0 h1 l Ho Hw Vp Wp Vt Wt Tp Dp Tt Dt Ea Eg0 Hprior E)).
  - eapply valOf_some_lt; eauto.
  - intros X; subst t; congruence.
Qed.

(* an untracked prediction: the loss is untracked and back-propagation changes nothing *)
Theorem mse_grad_untracked rd sealg (h : heap) p t name pv tv h1 l :
  valOf h p = Some pv -> valOf h t = Some tv ->
  trackedOf h p = false -> dirtyOf h p = false -> trackedOf h t = false -> dirtyOf h t = false ->
  lossArgs1 h (Some p) (Some t) = Some (p, t) ->
  mse_compute h (Some p) (Some t) name = (h1, Ok l) ->
  bp_topo rd sealg h1 l = (h1, [], Ok tt).
Proof.
  intros Vp Vt Tp Dp Tt Dt Ea E.
  destruct (mse_structure h p t name h1 l false pv tv Vp Vt Tp Dp Tt Dt Ea E)
    as (bt & bp & dv & d2v & lv & _ & _ & _ & _ & _ & -> & ->).
  apply bp_topo_untracked. rewrite trackedOf_off. reflexivity.
Qed.

End Mse.

(* ---- non-vacuity: a leaf prediction [1;3], target [0;1]: gradient [1;2] ---- *)
Section MseEx.
Variables (thr : R) (draw : bool -> nat -> R).
Local Hint Extern 0 (Scalar R) => exact (R_scalar thr draw) : typeclass_instances.
Local Open Scope R_scope.

Definition exP : tensor R := mkT [2%nat] (Vec [Sc 1; Sc 3]).
Definition exT : tensor R := mkT [2%nat] (Vec [Sc 0; Sc 1]).
Definition exH : @heap R :=
  [mkNode exP true false None [] (Some 0%nat); mkNode exT false false None [] (Some 1%nat)].

Lemma wf_v2 (a b : R) : wf (mkT [2%nat] (Vec [Sc a; Sc b])).
Proof. split; [cbn; repeat constructor|repeat constructor]. Qed.

Example mse_grad_ex rd : exists h1 l h2 log g,
  mse_compute exH (Some 0%nat) (Some 1%nat) None = (h1, Ok l) /\
  bp_topo rd (fun _ g => g) h1 l = (h2, log, Ok tt) /\
  gradOf h2 0 = Some g /\ dims g = [2%nat] /\ elt g [0%nat] = 1 /\ elt g [1%nat] = 2.
Proof.
  assert (Ho : rules_own exH) by (intros c n e Hn He; destruct c as [|[|[|c]]]; cbn in Hn; try discriminate; inversion Hn; subst n; destruct He).
  assert (Hw : wf_heap exH) by (intros c n e Hn He; destruct c as [|[|[|c]]]; cbn in Hn; try discriminate; inversion Hn; subst n; destruct He).
  destruct (mse_compute_spec exH (Some 0%nat) (Some 1%nat) 0%nat 1%nat None exP exT eq_refl eq_refl eq_refl
              (wf_v2 1 3) (wf_v2 0 1)) as (n & r & _ & _ & (h1 & l & E & _) & _).
  destruct (mse_grad_leaf thr draw rd exH 0%nat 1%nat None exP exT None h1 l Ho Hw eq_refl (wf_v2 1 3) eq_refl (wf_v2 0 1)
              eq_refl eq_refl eq_refl eq_refl eq_refl eq_refl I E eq_refl)
    as (h2 & log & E2 & (g & Eg & Dg & _ & Hacc) & _).
  exists h1, l, h2, log, g. split; [exact E|]. split; [exact E2|]. split; [exact Eg|]. split; [exact Dg|].
  cbn [acc1] in Hacc. assert (g = mseG exP exT) by congruence. subst g. unfold mseG. cbn [dims exP nth].
  split; (rewrite elt_ofFun by (repeat constructor)); unfold elt; cbn; lra.
Qed.
End MseEx.

Print Assumptions mse_bp.
Print Assumptions mse_grad.
Print Assumptions mse_grad_leaf.
Print Assumptions mse_grad_untracked.
Print Assumptions mse_grad_ex.
