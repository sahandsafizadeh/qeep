(* GradSoftmaxP.v — property C15, Softmax part: back-propagation through
       ex = x.Exp(); s = ex.SumAlong(dim); su = s.UnSqueeze(dim); y = ex.Div(su)
   (Div broadcasts su — size 1 along dim — through an internal Broadcast node with expansion
   factor n = x.Shape()[dim]) delivers to x
       gx_i = p_i * (gy_i - c * Σ_k p_(i|dim:=k) * gy_(i|dim:=k)),      p = the Softmax output,
   with c = 1 when the Broadcast back edge sums over the copies ([RedSum], the property) and
   c = 1/n for the pinned library ([RedAvg], known finding D2), for an input of ANY rank > dim.

   Same formulation as GradActP.v: [hh] is any heap with the structure of the heap [h1] after the
   component, holding the final gradient [gy] on [y], none on the five internal nodes and an
   arbitrary prior of x's shape on [x]; the model's [process_node] is folded over the nodes of the
   component in bp_topo's order [y; b2; su; s; b1; ex]; the result is [Ok] and x holds
   prior + the formula.   Ids: ex = a, s = a+1, su = a+2, b1 = a+3, b2 = a+4, y = a+5. *)
From Coq Require Import List Arith ZArith Bool Lia Reals Lra.
From Coquelicot Require Import Coquelicot.
From Qeep Require Import Model.Scalar Model.Nd Model.Fill Model.Data Model.Valid Model.Api Model.Grad
  Model.Backprop Model.Components.
From Qeep Require Import Proofs.NdP Proofs.ElemP Proofs.ReshapeP Proofs.BroadcastP Proofs.ReduceP Proofs.ArithP
  Proofs.OdometerP Proofs.TrackP Proofs.CompP Proofs.BackpropP Proofs.SoftmaxP.
From Qeep Require Import Spec.RScalar Spec.ScalarDeriv Spec.VjpSpec Proofs.VjpElemP Proofs.VjpGatherP Proofs.VjpReduceP
  Proofs.ReduceRP Proofs.BpFoldP Proofs.GradFcP Proofs.GradActP.
Import ListNotations.
Local Open Scope nat_scope.

(* 1. the exact heap of the component (any scalar) *)
Section Gen.
Context {A : Type} {SA : Scalar A}.
Notation T := (tensor A).
Notation heap := (@heap A).
Notation rule := (@rule A).
Notation node := (@node A).

Ltac at_obs :=
  first
    [ rewrite valOf_app by assumption
    | rewrite trackedOf_app by assumption
    | rewrite dirtyOf_app by assumption
    | unfold valOf, trackedOf, dirtyOf;
      first [rewrite at_app | rewrite at_app0];
      cbn [nth_error tnode nval ntracked ndirty obind] ];
  try reflexivity; try assumption.

Ltac norm_in E :=
  rewrite <- ?app_assoc, ?app_length in E; cbn [app length] in E;
  rewrite <- ?Nat.add_succ_r in E; rewrite <- ?Nat.add_assoc in E; cbn [Nat.add] in E.

(* Add/Sub/Mul/Div of a tracked x and a tracked u that is broadcast to x's shape *)
Lemma arith_step_bc (h : heap) b x u name h' id xv uv :
  h_arith h b x u name = (h', Ok id) -> valOf h x = Some xv -> valOf h u = Some uv -> wf xv ->
  targetBroadcastDims (dims xv) (dims uv) = dims xv ->
  trackedOf h x = true -> dirtyOf h x = false -> trackedOf h u = true -> dirtyOf h u = false ->
  exists ub v, v_broadcast uv (zdims xv) = Ok ub /\ apply2 (binaryF b) xv ub = Some v /\ id = S (S (length h)) /\
    h' = h ++ [tnode xv [(x, RBroadcast (length h) x)] None;
               tnode ub [(u, RBroadcast (S (length h)) u)] None;
               tnode v (arithEdges b (S (S (length h))) (length h) (S (length h))) name].
Proof.
  intros E Hx Hu Wx Et Tx Dx Tu Du.
  unfold h_arith in E. rewrite Hx, Hu in E. cbv zeta in E. rewrite Et in E.
  apply h_binop_inv in E. destruct E as (xv' & uv' & v1 & v2 & v & Hx' & Hb1 & Hu' & Hb2 & Hf & -> & ->).
  assert (xv' = xv) by congruence. subst xv'.
  rewrite v_broadcast_id in Hb1 by exact Wx. inversion Hb1; subst v1.
  assert (Hul : u < length h) by (eapply valOf_some_lt; eauto).
  rewrite valOf_app in Hu' by exact Hul. assert (uv' = uv) by congruence. subst uv'.
  exists v2, v. split; [exact Hb2|]. split; [exact Hf|]. split; [reflexivity|].
  assert (B1 : bnode1 h x xv = tnode xv [(x, RBroadcast (length h) x)] None).
  { unfold bnode1. rewrite mkCtx_tracked1 by assumption. reflexivity. }
  assert (B2 : bnode2 h x u xv v2 = tnode v2 [(u, RBroadcast (S (length h)) u)] None).
  { unfold bnode2. rewrite mkCtx_tracked1; [reflexivity| |].
    - rewrite trackedOf_app by exact Hul. exact Tu.
    - rewrite dirtyOf_app by exact Hul. exact Du. }
  assert (B3 : rnode h x u xv v2 v (arithEdges b) name =
               tnode v (arithEdges b (S (S (length h))) (length h) (S (length h))) name).
  { unfold rnode. rewrite B1, B2. rewrite mkCtx_tracked2; [reflexivity| | |].
    - unfold trackedOf. rewrite nth_error_app2 by lia. rewrite Nat.sub_diag. reflexivity.
    - unfold dirtyOf. rewrite nth_error_app2 by lia. rewrite Nat.sub_diag. reflexivity.
    - unfold dirtyOf. rewrite nth_error_app2 by lia. replace (S (length h) - length h) with 1 by lia. reflexivity. }
  rewrite B1, B2, B3. reflexivity.
Qed.

Lemma softmax_structure (h : heap) dim x name h1 y xv :
  softmax_forward h dim [Some x] name = (h1, Ok y) ->
  valOf h x = Some xv -> wf xv -> trackedOf h x = true -> dirtyOf h x = false ->
  exists exv sv suv subv yv, let a := length h in
    dim < length (dims xv) /\
    v_unary UExpo xv = Ok exv /\ v_reduceAlong RdSum exv (Z.of_nat dim) = Ok sv /\
    v_unsqueeze sv (Z.of_nat dim) = Ok suv /\ v_broadcast suv (zdims exv) = Ok subv /\
    apply2 (binaryF BiDiv) exv subv = Some yv /\
    y = a + 5 /\ length h1 = a + 6 /\ isOld h h1 /\
    isNode h1 a exv [(x, RExp a)] /\
    isNode h1 (a + 1) sv [(a, RSumAlong (a + 1) a (Z.of_nat dim))] /\
    isNode h1 (a + 2) suv [(a + 1, RReshape (a + 2) (a + 1))] /\
    isNode h1 (a + 3) exv [(a, RBroadcast (a + 3) a)] /\
    isNode h1 (a + 4) subv [(a + 2, RBroadcast (a + 4) (a + 2))] /\
    isNode h1 y yv [(a + 3, RDivA y (a + 4)); (a + 4, RDivB y (a + 3) (a + 4))].
Proof.
  intros E Hx Wx Tx Dx. unfold softmax_forward in E. cbn [oneInput] in E.
  assert (Hxl : x < length h) by (apply tracked_lt; exact Tx).
  unfold rankOf in E. rewrite Hx in E.
  destruct (length (dims xv) <=? dim) eqn:Er; [discriminate E|]. apply Nat.leb_gt in Er.
  (* ex = x.Exp() *)
  hstep E E1. unfold h_math in E1. apply op1_step in E1; [|assumption|assumption].
  destruct E1 as (xv1 & exv & Hx1 & Hex & -> & ->). assert (xv1 = xv) by congruence. subst xv1.
  cbn [mathUnary mathRule] in *.
  destruct (un_shape _ _ _ Wx Hex) as [Dex Wex].
  (* s = ex.SumAlong(dim) *)
  hstep E E2. unfold h_reduceAlong in E2. apply op1_step in E2; [|at_obs|at_obs].
  destruct E2 as (exv' & sv & Hex' & Hs & -> & ->).
  assert (exv' = exv) by (revert Hex'; at_obs; congruence). subst exv'. clear Hex'.
  cbn [alongRule] in *. norm_in E.
  assert (Hrg : (0 <= Z.of_nat dim < Z.of_nat (length (dims exv)))%Z) by (rewrite Dex; lia).
  pose proof (v_reduceAlong_elems RdSum exv (Z.of_nat dim) Wex Hrg) as Hr. cbv zeta in Hr. rewrite Nat2Z.id in Hr.
  destruct Hr as (sv' & Es' & Ds & Ws & _). assert (sv' = sv) by congruence. subst sv'. clear Es'.
  (* su = s.UnSqueeze(dim) *)
  hstep E E3. unfold h_unsqueeze in E3. apply op1_step in E3; [|at_obs|at_obs].
  destruct E3 as (sv' & suv & Hs' & Hsu & -> & ->).
  assert (sv' = sv) by (revert Hs'; at_obs; congruence). subst sv'. clear Hs'.
  norm_in E.
  destruct (unsq_bcast_get sv exv dim Ws Wex ltac:(lia) Ds) as (suv' & subv' & Esu' & Esub' & Dsu & Wsu & _).
  assert (suv' = suv) by congruence. subst suv'. clear Esu'.
  (* y = ex.Div(su) *)
  destruct (h_arith _ BiDiv (length h) (length h + 2) name) as [hb [yy| |]] eqn:E4;
    cbn [atomically] in E; try discriminate E.
  inversion E; subst hb yy. clear E.
  apply (arith_step_bc _ BiDiv _ _ name _ _ exv suv) in E4;
    [|at_obs|at_obs|exact Wex| |at_obs|at_obs|at_obs|at_obs].
  2:{ rewrite Dsu. apply tbd_ins1; [exact (proj2 Wex)|lia]. }
  destruct E4 as (subv & yv & Hsub & Hy & -> & ->).
  rewrite <- ?app_assoc, ?app_length. cbn [app length]. rewrite <- ?Nat.add_succ_r, <- ?Nat.add_assoc. cbn [Nat.add].
  exists exv, sv, suv, subv, yv. cbv zeta.
  split; [exact Er|].
  repeat (split; [solve [assumption|reflexivity]|]).
  split; [apply isOld_app|].
  split; [eapply isNode_at0; reflexivity|].
  repeat (split; [eapply isNode_at; reflexivity|]). eapply isNode_at; reflexivity.
Qed.

End Gen.

(* 2. index and sum bookkeeping *)
Lemma ins_inj {X} dim (k : X) a b : dim <= length a -> dim <= length b -> ins dim k a = ins dim k b -> a = b.
Proof. intros Ha Hb E. apply (f_equal (del dim)) in E. rewrite !del_ins in E by assumption. exact E. Qed.

Lemma idx_eqb_ins dim k a b : dim <= length a -> dim <= length b ->
  idx_eqb (ins dim k a) (ins dim k b) = idx_eqb a b.
Proof.
  intros Ha Hb. apply bool_eq_iff. rewrite !idx_eqb_eq. split.
  - apply ins_inj; assumption.
  - intros ->. reflexivity.
Qed.

Lemma prodn_del dim : forall ds, dim < length ds -> prodn ds = nth dim ds 0 * prodn (del dim ds).
Proof.
  induction dim as [|m IH]; intros [|d ds] Hl; cbn [length] in Hl; try lia.
  - rewrite del_0. cbn [nth]. apply prodn_cons.
  - rewrite del_S, !prodn_cons. cbn [nth]. rewrite (IH ds) by lia. lia.
Qed.

Lemma allpos_del dim ds : allpos ds -> allpos (del dim ds).
Proof. intros H. rewrite <- squeezeDims_del. apply squeezeDims_pos, H. Qed.

Lemma validIdx_len ds i : validIdx ds i -> length i = length ds.
Proof. intros H. apply (Forall2_len _ _ _ H). Qed.

(* a valid index of a shape with an inserted dimension of size 1 has 0 at that position *)
Lemma vi_ins1_inv dim D i : dim <= length D -> validIdx (ins dim 1 D) i -> ins dim 0 (del dim i) = i.
Proof.
  intros Hl Hv. pose proof (vi_nth dim _ _ Hv) as Hn. rewrite ins_length, nth_ins in Hn by exact Hl.
  assert (E0 : nth dim i 0 = 0) by lia. rewrite <- E0. apply ins_del.
  rewrite (validIdx_len _ _ Hv), ins_length. lia.
Qed.

Local Open Scope R_scope.

Notation sumN := VjpGatherP.sumN.

Lemma lsum_scal {X} (l : list X) c f : lsum l (fun x => c * f x) = c * lsum l f.
Proof. unfold lsum. induction l as [|a l IH]; cbn; [ring|rewrite IH; ring]. Qed.

Lemma sumN_scal n c f : sumN n (fun k => c * f k) = c * sumN n f.
Proof. apply lsum_scal. Qed.

Lemma lsum_pos {X} (l : list X) f : l <> [] -> (forall x, In x l -> 0 < f x) -> 0 < lsum l f.
Proof.
  unfold lsum. induction l as [|a l IH]; intros Hn Hp; [congruence|]. cbn.
  destruct l as [|b l].
  - cbn. pose proof (Hp a (or_introl eq_refl)). lra.
  - pose proof (Hp a (or_introl eq_refl)).
    assert (0 < fold_right Rplus 0 (map f (b :: l))) by (apply IH; [discriminate|intros x Hx; apply Hp; right; exact Hx]).
    lra.
Qed.

Lemma sumN_pos n f : (0 < n)%nat -> (forall k, 0 < f k) -> 0 < sumN n f.
Proof.
  intros Hn Hf. apply lsum_pos; [|intros x _; apply Hf]. destruct n; [lia|]. cbn. discriminate.
Qed.

(* the factor of the Broadcast back edge when one dimension of size n was expanded *)
Lemma bfac_ins1 rd dim ds : allpos ds -> (dim < length ds)%nat ->
  bfac rd (ins dim 1%nat (del dim ds)) ds = rdc rd (nth dim ds 0%nat).
Proof.
  intros Hp Hl. destruct rd; unfold rdc.
  - apply bfac_sum.
  - rewrite bfac_avg; [|apply bcompat_ins1, Hl|exact Hp]. f_equal. f_equal.
    rewrite prodn_ins1, (prodn_del dim ds Hl). apply Nat.div_mul.
    pose proof (prodn_pos _ (allpos_del dim ds Hp)). lia.
Qed.

(* 3. the real-number instance *)
Section R.
Variables (thr : R) (draw : bool -> nat -> R).
Local Hint Extern 0 (Scalar R) => exact (R_scalar thr draw) : typeclass_instances.
Notation T := (tensor R).
Notation heap := (@heap R).
Notation idseal := (fun (_ : option nat) (g : T) => g).

(* the Broadcast back edge of the normaliser: one dimension of size 1 expanded to n *)
Lemma bcast_back_unsq rd (g4 : T) dim ds : wf g4 -> dims g4 = ds -> (dim < length ds)%nat ->
  exists g2, bcastBack rd g4 (ins dim 1%nat (del dim ds)) ds = Ok g2 /\
    dims g2 = ins dim 1%nat (del dim ds) /\ wf g2 /\
    forall j, validIdx (del dim ds) j ->
      elt g2 (ins dim 0%nat j) =
      rdc rd (nth dim ds 0%nat) * sumN (nth dim ds 0%nat) (fun k => elt g4 (ins dim k j)).
Proof.
  intros W D Hl. assert (Hp : allpos ds) by (rewrite <- D; exact (proj2 W)).
  assert (Hdl : (dim <= length (del dim ds))%nat) by (rewrite del_length by exact Hl; lia).
  destruct (bcastBack_char thr draw rd g4 (ins dim 1%nat (del dim ds)) ds W D (bcompat_ins1 dim ds Hl))
    as (g2 & E & D2 & W2 & F).
  exists g2. split; [exact E|]. split; [exact D2|]. split; [exact W2|].
  intros j Hj. rewrite F by (apply vi_ins1; [exact Hdl|exact Hj]).
  rewrite (bfac_ins1 rd dim ds Hp Hl). f_equal.
  rewrite <- (sum_del dim ds (elt g4) j Hl Hj). unfold push. apply sumIdx_ext. intros q Hq.
  rewrite (bproj_ins1 dim ds q Hl Hq). rewrite idx_eqb_ins; [reflexivity| |].
  - pose proof (validIdx_len _ _ (vi_del dim _ _ Hq)) as L. rewrite L. exact Hdl.
  - rewrite (validIdx_len _ _ Hj). exact Hdl.
Qed.

Lemma unflat_unsq dim D j : (dim <= length D)%nat -> validIdx D j ->
  unflatIdx (ins dim 1%nat D) (flatIdx D j) = ins dim 0%nat j.
Proof.
  intros Hl Hj. rewrite <- (flatIdx_ins10 dim D j Hl Hj). apply unflatIdx_flatIdx. apply vi_ins1; assumption.
Qed.

(* the rules as [rsem] reads them, except the Broadcast back edge of the node b2, which reduces
   over the one dimension [dim] that was expanded from size 1 to n *)
Definition ssem rd (H : heap) (b2 dim n : nat) (r : rule) : assignment -> assignment :=
  match r with
  | RBroadcast y _ =>
      if (y =? b2)%nat then fun fy i => rdc rd n * sumN n (fun k => fy (ins dim k (del dim i)))
      else rsem thr rd H r
  | _ => rsem thr rd H r
  end.

Lemma ssem_other rd H b2 dim n r : rule_y r <> b2 -> ssem rd H b2 dim n r = rsem thr rd H r.
Proof.
  intros Hn. destruct r; try reflexivity. cbn [rule_y] in Hn. cbn [ssem].
  rewrite (proj2 (Nat.eqb_neq _ _) Hn). reflexivity.
Qed.

Lemma ssem_b2 rd H b2 dim n x fy i :
  ssem rd H b2 dim n (RBroadcast b2 x) fy i = rdc rd n * sumN n (fun k => fy (ins dim k (del dim i))).
Proof. cbn [ssem]. rewrite Nat.eqb_refl. reflexivity. Qed.

Lemma ssem_b2_sound rd (H : heap) b2 su dim ds :
  okv H b2 -> okv H su -> Dm H b2 = ds -> Dm H su = ins dim 1%nat (del dim ds) -> (dim < length ds)%nat ->
  esound thr draw rd H (ssem rd H b2 dim (nth dim ds 0%nat)) b2 su (RBroadcast b2 su).
Proof.
  intros (yv & Ey & Wy) (xv & Ex & Wx) Db Ds Hl hh gc fc Hv Hg (Dg & Wg & Gg).
  assert (Eev : eval_rule rd hh (RBroadcast b2 su) = bcastBack rd gc (Dm H su) (Dm H b2)).
  { unfold eval_rule, gy_of, val_of. rewrite Hg, !Hv, Ex, Ey. cbn [of_opt res_bind].
    rewrite (Dm_val _ _ _ Ex), (Dm_val _ _ _ Ey). reflexivity. }
  rewrite Eev, Ds, Db in *.
  assert (Hdl : (dim <= length (del dim ds))%nat) by (rewrite del_length by exact Hl; lia).
  destruct (bcast_back_unsq rd gc dim ds Wg Dg Hl) as (g2 & E2 & D2 & W2 & G2).
  exists g2. split; [exact E2|]. split; [exact D2|]. split; [exact W2|].
  intros i Hi. rewrite ssem_b2.
  assert (Hj : validIdx (del dim ds) (del dim i)).
  { rewrite <- (del_ins dim 1%nat (del dim ds) Hdl) at 1. apply vi_del, Hi. }
  rewrite <- (vi_ins1_inv dim _ i Hdl Hi) at 1. rewrite (G2 _ Hj). f_equal.
  apply VjpGatherP.sumN_ext. intros k Hk. apply Gg. apply vi_ins; assumption.
Qed.

(* an edge that [rsem] reads *)
Ltac dm_eq := etransitivity; [eassumption|symmetry; eassumption].
Ltac esnd :=
  refine (esound_ext _ _ _ _ _ _ _ _ _ (ssem_other _ _ _ _ _ _ _) _); [cbn [rule_y]; nlia|];
  apply rsem_sound; [reflexivity|];
  cbn [rok]; repeat match goal with |- _ /\ _ => split end; first [assumption|reflexivity|dm_eq|left; dm_eq|idtac].

Theorem softmax_grad rd (h h1 hh : heap) dim x y name xv gy log :
  valOf h x = Some xv -> wf xv -> trackedOf h x = true -> dirtyOf h x = false ->
  softmax_forward h dim [Some x] name = (h1, Ok y) ->
  let a := length h in
  let n := nth dim (dims xv) 0%nat in
  sameS h1 hh -> gradOf hh y = Some gy -> wf gy -> dims gy = dims xv ->
  (forall k, (k < 5)%nat -> gradOf hh (a + k)%nat = None) ->
  prior_ok (dims xv) (gradOf hh x) ->
  exists yv hh' gx lg,
    (* the Softmax output p *)
    valOf h1 y = Some yv /\ dims yv = dims xv /\
    (forall i, validIdx (dims xv) i ->
       elt yv i = exp (elt xv i) / sumN n (fun k => exp (elt xv (setAt dim k i)))) /\
    (* processing the component's nodes never fails *)
    fold_left (process_node rd idseal) [y; a + 4; a + 2; a + 1; a + 3; a]%nat (hh, log, Ok tt)
      = (hh', lg ++ log, Ok tt) /\
    map fst lg = [a; a + 3; a + 1; a + 2; a + 4; y]%nat /\
    sameS hh hh' /\
    (forall m, m <> x -> (m < a \/ a + 5 <= m)%nat -> gradOf hh' m = gradOf hh m) /\
    gradOf hh' x = Some gx /\ dims gx = dims xv /\ wf gx /\
    forall i, validIdx (dims xv) i ->
      elt gx i = prior (gradOf hh x) i +
                 elt yv i * (elt gy i - rdc rd n * sumN n (fun k => elt yv (setAt dim k i) * elt gy (setAt dim k i))).
Proof.
  intros Hx Wx Tx Dx E a n S Hgy Wgy Dgy Hint Hp. subst a.
  pose proof (softmax_structure h dim x name h1 y xv E Hx Wx Tx Dx) as St. cbv zeta in St.
  destruct St as (exv & sv & suv & subv & yv & Hl & Hex & Hs & Hsu & Hsub & Hy & -> & L1 & Old & N0 & N1 & N2 & N3 & N4 & N5).
  assert (Hxl : (x < length h)%nat) by (apply tracked_lt; exact Tx).
  assert (Vx1 : valOf h1 x = Some xv) by (eapply isOld_val; eauto).
  assert (Tx1 : trackedOf h1 x = true) by (rewrite (isOld_trk h h1 x Old Hxl); exact Tx).
  (* ---- forward values ---- *)
  destruct (un_elt thr draw UExpo xv Wx) as (t0 & Et0 & Dex & Wex & Fex).
  rewrite Hex in Et0. inversion Et0; subst t0. clear Et0.
  assert (Hl' : (dim < length (dims exv))%nat) by (rewrite Dex; exact Hl).
  destruct (along_elt thr draw RdSum exv dim Wex Hl') as (t0 & Et0 & Ds & Ws & Fs).
  rewrite Hs in Et0. inversion Et0; subst t0. clear Et0.
  destruct (unsq_bcast_get sv exv dim Ws Wex Hl' Ds) as (o & ub & Eo & Eb & Dsu & Wsu & Dsub & Wsub & Gsub).
  rewrite Hsu in Eo. inversion Eo; subst o. clear Eo.
  rewrite Hsub in Eb. inversion Eb; subst ub. clear Eb.
  destruct (apply2_spec (binaryF BiDiv) exv subv Wex Wsub (eq_sym Dsub)) as (t0 & Et0 & Dy & Wy & Gy).
  rewrite Hy in Et0. inversion Et0; subst t0. clear Et0.
  rewrite Dex in *. rewrite squeezeDims_del in *.
  set (ds := dims xv) in *.
  assert (Hpos : allpos ds) by exact (proj2 Wx).
  assert (Hn : (0 < n)%nat).
  { unfold n. fold ds. clear - Hpos Hl. revert dim Hl. induction Hpos as [|d l Hd _ IH]; intros dim Hl; cbn in Hl; [lia|].
    destruct dim; cbn [nth]; [exact Hd|apply IH; lia]. }
  assert (Fsub : forall i, validIdx ds i -> elt subv i = elt sv (del dim i)).
  { intros i Hv. unfold elt. rewrite (Gsub i Hv). reflexivity. }
  assert (Fy : forall i, validIdx ds i -> elt yv i = elt exv i / elt subv i).
  { intros i Hv. unfold elt at 1. rewrite (Gy i Hv).
    rewrite (VjpReduceP.elt_some exv i Wex) by (rewrite Dex; exact Hv).
    rewrite (VjpReduceP.elt_some subv i Wsub) by (rewrite Dsub; exact Hv). reflexivity. }
  assert (Fsv : forall j, validIdx (del dim ds) j -> elt sv j = sumN n (fun k => exp (elt xv (ins dim k j)))).
  { intros j Hj. rewrite (Fs j Hj). cbn [redL]. rewrite (sum_is_sum thr draw).
    change (Rsum (map (fib (elt exv) dim j) (seq 0 n))) with (sumN n (fib (elt exv) dim j)).
    apply VjpGatherP.sumN_ext. intros k Hk. unfold fib. rewrite Fex; [reflexivity|].
    apply vi_ins; assumption. }
  assert (Spos : forall j, validIdx (del dim ds) j -> 0 < elt sv j).
  { intros j Hj. rewrite (Fsv j Hj). apply sumN_pos; [exact Hn|]. intros k. apply exp_pos. }
  (* ---- shapes and values of the nodes ---- *)
  destruct (old_isT h1 x xv Vx1 Wx) as (DX & OX & _). fold ds in DX.
  destruct (isNode_isT h1 _ _ _ _ _ N0 (isT_self exv Wex)) as (D0 & O0 & V0). rewrite Dex in D0.
  destruct (isNode_isT h1 _ _ _ _ _ N1 (isT_self sv Ws)) as (D1 & O1 & _). rewrite Ds in D1.
  destruct (isNode_isT h1 _ _ _ _ _ N2 (isT_self suv Wsu)) as (D2 & O2 & _). rewrite Dsu in D2.
  destruct (isNode_isT h1 _ _ _ _ _ N3 (isT_self exv Wex)) as (D3 & O3 & V3). rewrite Dex in D3.
  destruct (isNode_isT h1 _ _ _ _ _ N4 (isT_self subv Wsub)) as (D4 & O4 & V4). rewrite Dsub in D4.
  destruct (isNode_isT h1 _ _ _ _ _ N5 (isT_self yv Wy)) as (D5 & O5 & _). rewrite Dy in D5.
  destruct N0 as (L0 & _ & T0 & E0 & _). destruct N1 as (Ln1 & _ & T1 & E1 & _). destruct N2 as (L2 & _ & T2 & E2 & _).
  destruct N3 as (L3 & _ & T3 & E3 & _). destruct N4 as (L4 & _ & T4 & E4 & _). destruct N5 as (L5 & V5 & _ & E5 & _).
  (* ---- the six nodes ---- *)
  destruct (comp_run thr draw rd (ssem rd h1 (length h + 4) dim n) h1 hh (length h) (length h + 5)
              [length h + 4; length h + 2; length h + 1; length h + 3; length h]%nat [x] gy log S
              (Nat.le_add_r _ _) Hgy Wgy ltac:(dm_eq)) as (hh' & lg & Ef & Hlg & S' & Hfr & Hgx).
  { intros j Hj. replace j with (length h + (j - length h))%nat by nlia. apply Hint. nlia. }
  { exact (prior_ok_in h1 hh x _ DX Hp). }
  { each_in; (split; [nlia|split; [assumption|]]).
    - comp_edges E5; esnd.
    - comp_edges E4. apply (ssem_b2_sound rd h1 _ _ dim ds); assumption.
    - comp_edges E2. esnd. rewrite D2, D1. apply prodn_ins1.
    - comp_edges E1. esnd. exists dim. rewrite D0, D1. split; [reflexivity|]. split; [exact Hl|reflexivity].
    - comp_edges E3. esnd.
    - comp_edges E0. esnd. }
  cbv zeta in Hlg, Hgx.
  match type of Hlg with snd ?r = _ =>
    eassert (ER : r = _) by (clear - E0 E1 E2 E3 E4 E5 T0 T1 T2 T3 T4 Tx1 Hxl;
                             arun2 nlia E5; arun1 nlia E4; arun1 nlia E2; arun1 nlia E1; arun1 nlia E3; arun1 nlia E0; cbn [arun]; reflexivity)
  end.
  rewrite ER in Hlg, Hgx. cbn [fst snd] in Hlg, Hgx.
  specialize (Hgx x (or_introl eq_refl) Hxl). revert Hgx. alook. rewrite DX. intros (gx & Egx & Dgx & Wgx & Ggx).
  exists yv, hh', gx, (lg ++ [((length h + 5)%nat, gy)]).
  split; [exact V5|]. split; [exact Dy|].
  assert (Ysm : forall i, validIdx ds i -> elt yv i = exp (elt xv i) / sumN n (fun k => exp (elt xv (setAt dim k i)))).
  { intros i Hv. rewrite (Fy i Hv), (Fex i Hv), (Fsub i Hv), Fsv by (apply vi_del; exact Hv). reflexivity. }
  split; [exact Ysm|].
  split; [rewrite <- app_assoc; exact Ef|].
  split; [rewrite map_app; symmetry; exact Hlg|]. split; [exact S'|].
  split; [intros m Hm Hr; apply Hfr; [intros [X|[]]; congruence|exact Hr]|].
  split; [exact Egx|]. split; [exact Dgx|]. split; [exact Wgx|].
  (* ---- the formula ---- *)
  intros i Hv.
  assert (Hj : validIdx (del dim ds) (del dim i)) by (apply vi_del; exact Hv).
  assert (Hdl : (dim <= length (del dim ds))%nat) by (rewrite del_length by exact Hl; nlia).
  set (j := del dim i) in *. set (Sg := elt sv j).
  assert (HS0 : Sg <> 0) by (pose proof (Spos j Hj); unfold Sg; lra).
  assert (Hq : forall k, (k < n)%nat -> validIdx ds (ins dim k j)) by (intros k Hk; apply vi_ins; assumption).
  assert (Sq : forall k, (k < n)%nat -> elt subv (ins dim k j) = Sg).
  { intros k Hk. rewrite (Fsub _ (Hq k Hk)). rewrite del_ins by (rewrite (validIdx_len _ _ Hj); exact Hdl). reflexivity. }
  set (Sig := sumN n (fun k => elt exv (ins dim k j) * elt gy (ins dim k j))).
  assert (Sy : sumN n (fun k => elt yv (setAt dim k i) * elt gy (setAt dim k i)) = (/ Sg) * Sig).
  { unfold Sig. rewrite <- sumN_scal. apply VjpGatherP.sumN_ext. intros k Hk. unfold setAt. fold j.
    rewrite (Fy _ (Hq k Hk)), (Sq k Hk). field. exact HS0. }
  rewrite (Ggx i Hv), aacc_prior, !aacc_none.
  rewrite (ssem_other _ _ _ _ _ (RExp _)), (ssem_other _ _ _ _ _ (RSumAlong _ _ _)), (ssem_other _ _ _ _ _ (RReshape _ _)),
    (ssem_other _ _ _ _ _ (RDivA _ _)), (ssem_other _ _ _ _ _ (RDivB _ _ _)),
    (ssem_other _ _ _ _ _ (RBroadcast (length h + 3) _)) by (cbn [rule_y]; nlia).
  rewrite rsem_bcast_same by dm_eq. cbn [rsem]. rewrite aacc_some, Nat2Z.id. fold j.
  rewrite D2, D1, (unflat_unsq dim (del dim ds) j Hdl Hj), ssem_b2.
  rewrite del_ins by (rewrite (validIdx_len _ _ Hj); exact Hdl).
  rewrite (VjpGatherP.sumN_ext n _ (fun k => (- / Sg ^ 2) * (elt exv (ins dim k j) * elt gy (ins dim k j)))).
  2:{ intros k Hk. rewrite V3, V4, (Sq k Hk). field. exact HS0. }
  rewrite sumN_scal. fold Sig.
  rewrite Sy, V0, V4, (Fy i Hv), (Fsub i Hv). fold j. fold Sg. unfold prior. field. exact HS0.
Qed.

End R.
