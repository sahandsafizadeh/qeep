(* HeapCtorP.v — the gradient-context constructors of tensor/internal/gradtrack/gradients.go, as translated by
   harness/gox into the DataIR programs GoGrad.c_<Name> and run over the model's heap with the oracle
   [hext rd] (Model/HeapExt.v), return the context the model computes: [encCtx (Grad.mkCtx h operands edges)], for any
   rule payloads [edges] whose targets are the operands, in order.  All constructors of GoGrad.ctor_table except
   c_Concat (which has a loop; proved in HeapBcastP): 33 programs.

   Every generated body is convertible to the three-way body [ctorBody ops] over parameters "y", the operands [ops],
   then extra arguments: [ctor_generic] runs [ctorBody ops] over an abstract environment, [ctor_shape] turns the four
   facts about a program that [reflexivity] decides into its specification [ctor_spec]. *)
From Coq Require Import String List ZArith Bool Lia Arith.
From Qeep Require Import Model.Scalar Model.Nd Model.Fill Model.Data Model.Valid Model.Api Model.Grad Model.Backprop
     Model.DataIR Model.HeapExt Model.GoGrad Proofs.DataIRP Proofs.HeapExtP.
From Qeep Require Model.GoIR.
Import ListNotations.
Local Open Scope string_scope.
Local Open Scope Z_scope.
Local Open Scope list_scope.

(* [target_k, closure k] for the operands, in order *)
Fixpoint edgeX (k : Z) (ops : list string) : list dexpr :=
  match ops with
  | [] => []
  | x :: r => XAppend XNilSlice [XVar x; XInt k] :: edgeX (k + 1) r
  end.

Definition ctorBody (ops : list string) : dstmt :=
  tseq [TDef "gctx" XNilAny;
        tseq [TExt true ["$1"] "anyIsBPDirty" [XAppend XNilSlice (map XVar ops)];
              TIf (XVar "$1") (TRet [XAppend XNilSlice [XBool false; XBool true; XNilSlice]]) TSkip];
        tseq [TExt true ["$2"] "nonIsTracked" [XAppend XNilSlice (map XVar ops)];
              TIf (XVar "$2") (TRet [XAppend XNilSlice [XBool false; XBool false; XNilSlice]]) TSkip];
        TRet [XAppend XNilSlice [XBool true; XBool false; XAppend XNilSlice (edgeX 0 ops)]]].

Definition fresh_ops (ops : list string) : bool :=
  forallb (fun x => negb (x =? "gctx") && negb (x =? "$1") && negb (x =? "$2"))%string ops.

Fixpoint distinct (l : list string) : bool :=
  match l with [] => true | x :: r => negb (existsb (String.eqb x) r) && distinct r end.

(* parameters passed by value *)
Definition plain (xs : list string) : list (string * bool) := map (fun x => (x, false)) xs.

Section Ctor.
Context {A : Type} {SA : Scalar A}.
Variable fapp : string -> list A -> option A.
Variable rd : bred.
Notation dval := (@dval A).
Notation denv := (@denv A).
Notation heap := (@heap A).
Notation rule := (@rule A).
Notation cres := (@cres A).

(* a graph node as a DataIR value *)
Definition dnode (n : nat) : dval := DI (Z.of_nat n).

Definition encTargets (k : nat) (ts : list nat) : list dval :=
  map (fun p : nat * nat => DL [dnode (snd p); dnode (fst p)]) (combine (seq k (length ts)) ts).

Lemma encEdges_targets (es : list (nat * rule)) k :
  map (fun p : nat * (nat * rule) => DL [DI (Z.of_nat (fst (snd p))); DI (Z.of_nat (fst p))])
      (combine (seq k (length es)) es) = encTargets k (map fst es).
Proof.
  unfold encTargets. revert k. induction es as [|[t r] es IH]; intros k; cbn [map length seq combine]; [reflexivity|].
  cbn [fst snd]. f_equal. apply IH.
Qed.

(* the explicit form of the result: the edge list is empty unless tracked, in which case edge k is [target_k; k] *)
Lemma encCtx_mkCtx (h : heap) (ns : list nat) (es : list (nat * rule)) :
  map fst es = ns ->
  encCtx (mkCtx h ns es) =
  if existsb (dirtyOf h) ns then DL [DB false; DB true; DL []]
  else if negb (existsb (trackedOf h) ns) then DL [DB false; DB false; DL []]
  else DL [DB true; DB false; DL (encTargets 0 ns)].
Proof.
  intros <-. unfold mkCtx.
  destruct (existsb (dirtyOf h) (map fst es)); [reflexivity|].
  destruct (negb (existsb (trackedOf h) (map fst es))); [reflexivity|].
  cbn [encCtx]. rewrite encEdges_targets. reflexivity.
Qed.

Definition binds (g : denv) (ops : list string) (ns : list nat) : Prop :=
  Forall2 (fun x n => dlookup g x = Some (dnode n)) ops ns.

Lemma binds_dupd g ops ns z v :
  binds g ops ns -> Forall (fun x => (x =? z)%string = false) ops -> binds (dupd g z v) ops ns.
Proof.
  unfold binds. induction 1 as [|x n ops ns Hx _ IH]; intros Hf; constructor.
  - rewrite dlookup_dupd. inversion Hf; subst. rewrite H1. exact Hx.
  - apply IH. inversion Hf; assumption.
Qed.

Lemma fresh_ops_spec ops :
  fresh_ops ops = true ->
  Forall (fun x => (x =? "gctx")%string = false) ops /\
  Forall (fun x => (x =? "$1")%string = false) ops /\
  Forall (fun x => (x =? "$2")%string = false) ops.
Proof.
  unfold fresh_ops. induction ops as [|x ops IH]; cbn [forallb]; intros H.
  - repeat split; constructor.
  - apply andb_true_iff in H. destruct H as [Hx H]. destruct (IH H) as [H1 [H2 H3]].
    apply andb_true_iff in Hx. destruct Hx as [Hx Hx3]. apply andb_true_iff in Hx. destruct Hx as [Hx1 Hx2].
    apply negb_true_iff in Hx1, Hx2, Hx3.
    repeat split; constructor; assumption.
Qed.

Lemma deval_append_nil (g l : denv) (xs : list dexpr) :
  deval fapp g l (XAppend XNilSlice xs) =
  match devals fapp g l xs with Some vs => Some (DL vs) | None => None end.
Proof.
  cbn [deval].
  match goal with |- match ?F xs with _ => _ end = _ =>
    assert (E : forall ys, F ys = devals fapp g l ys)
      by (induction ys as [|y r IH]; cbn [devals]; [reflexivity | rewrite <- IH; reflexivity])
  end.
  rewrite E. destruct (devals fapp g l xs); reflexivity.
Qed.

Lemma devals_vars (g : denv) ops ns :
  binds g ops ns -> devals fapp g [] (map XVar ops) = Some (map dnode ns).
Proof.
  induction 1 as [|x n ops ns Hx _ IH]; cbn [map devals]; [reflexivity|].
  cbn [deval]. unfold vlookup. cbn [dlookup]. rewrite Hx, IH. reflexivity.
Qed.

Lemma devals_edges (g : denv) ops ns k :
  binds g ops ns -> devals fapp g [] (edgeX (Z.of_nat k) ops) = Some (encTargets k ns).
Proof.
  unfold encTargets. intros H. revert k. induction H as [|x n ops ns Hx _ IH]; intros k; cbn [edgeX devals]; [reflexivity|].
  rewrite deval_append_nil. cbn [devals deval]. unfold vlookup at 1. cbn [dlookup]. rewrite Hx.
  replace (Z.of_nat k + 1) with (Z.of_nat (S k)) by lia. rewrite IH.
  cbn [length seq combine map fst snd]. reflexivity.
Qed.

Section Body.
Variable callL : string -> list dval -> heap -> denv -> cres heap.
Variable fuel : nat.
Notation ex := (dexec fapp heap (hext rd) callL fuel true).

(* one guard: [if f(ops...) { return c }] *)
Lemma guard_step (g : denv) (h : heap) (ops : list string) (ns : list nat) (tmp f : string) (b : bool) (retE : dexpr) (rv : dval) :
  binds g ops ns ->
  hext rd f [DL (map dnode ns)] h = Some ([DB b], h) ->
  (forall g', deval fapp g' [] retE = Some rv) ->
  ex (tseq [TExt true [tmp] f [XAppend XNilSlice (map XVar ops)]; TIf (XVar tmp) (TRet [retE]) TSkip]) h g [] =
  if b then DRet heap [rv] h (dupd g tmp (DB true)) [] else DNormal heap h (dupd g tmp (DB false)) [].
Proof.
  intros Hb Hx Hr. cbn [tseq].
  rewrite dexec_TSeq, dexec_TExt. cbn [devals]. rewrite deval_append_nil, (devals_vars _ _ _ Hb), Hx.
  cbn [dassignAll vdefine].
  rewrite dexec_TIf. cbn [deval]. unfold vlookup. cbn [dlookup]. rewrite dlookup_dupd, String.eqb_refl.
  destruct b.
  - rewrite dexec_TRet. cbn [devals]. rewrite Hr. reflexivity.
  - rewrite dexec_TSkip. reflexivity.
Qed.

Lemma ctor_generic (ops : list string) (ns : list nat) (es : list (nat * rule)) (h : heap) (g : denv) :
  binds g ops ns ->
  fresh_ops ops = true ->
  Forall (fun n => (n < length h)%nat) ns ->
  map fst es = ns ->
  exists g', ex (ctorBody ops) h g [] = DRet heap [encCtx (mkCtx h ns es)] h g' [].
Proof.
  intros Hb Hf Hlt Hes.
  destruct (fresh_ops_spec _ Hf) as [F0 [F1 F2]].
  rewrite (encCtx_mkCtx h ns es Hes).
  unfold ctorBody.
  change (tseq (?a :: ?b :: ?c)) with (TSeq a (tseq (b :: c))).
  rewrite dexec_TSeq, dexec_TDef. cbn [deval vdefine].
  pose proof (binds_dupd _ _ _ "gctx" DNil Hb F0) as Hb0.
  change (tseq (?a :: ?b :: ?c)) with (TSeq a (tseq (b :: c))).
  rewrite dexec_TSeq.
  rewrite (guard_step _ _ _ _ _ _ (existsb (dirtyOf h) ns) _ (DL [DB false; DB true; DL []]) Hb0
             (hext_anyIsBPDirty_nodes rd h ns Hlt)).
  2:{ intros g'. rewrite deval_append_nil. reflexivity. }
  destruct (existsb (dirtyOf h) ns); [eexists; reflexivity|].
  pose proof (binds_dupd _ _ _ "$1" (DB false) Hb0 F1) as Hb1.
  change (tseq (?a :: ?b :: ?c)) with (TSeq a (tseq (b :: c))).
  rewrite dexec_TSeq.
  rewrite (guard_step _ _ _ _ _ _ (negb (existsb (trackedOf h) ns)) _ (DL [DB false; DB false; DL []]) Hb1
             (hext_nonIsTracked_nodes rd h ns Hlt)).
  2:{ intros g'. rewrite deval_append_nil. reflexivity. }
  destruct (negb (existsb (trackedOf h) ns)); [eexists; reflexivity|].
  pose proof (binds_dupd _ _ _ "$2" (DB false) Hb1 F2) as Hb2.
  cbn [tseq]. rewrite dexec_TRet. cbn [devals]. rewrite deval_append_nil. cbn [devals].
  pose proof (devals_edges _ _ _ 0%nat Hb2) as He. cbn [Z.of_nat] in He.
  rewrite deval_append_nil, He. cbn [deval].
  eexists; reflexivity.
Qed.
End Body.

Definition ctor_spec (p : dprog) (args : list dval) (ops : list nat) : Prop :=
  forall (fuel depth : nat) (h : heap) (es : list (nat * rule)),
    Forall (fun n => (n < length h)%nat) ops ->
    map fst es = ops ->
    exists g l, drun fapp heap (hext rd) p fuel depth args h = DRet heap [encCtx (mkCtx h ops es)] h g l.

Lemma dbind_plain (xs : list string) (vs : list dval) :
  length xs = length vs -> dbind (plain xs) vs = Some (combine xs vs).
Proof.
  revert vs; induction xs as [|x xs IH]; intros [|v vs] H; cbn in *; try discriminate; [reflexivity|].
  rewrite IH by lia. reflexivity.
Qed.

Lemma dlookup_app (a b : denv) x : dlookup (a ++ b) x = match dlookup a x with Some v => Some v | None => dlookup b x end.
Proof. induction a as [|[y w] a IH]; cbn; [reflexivity|]. destruct (String.eqb x y); auto. Qed.

Lemma combine_app {X Y} (a1 a2 : list X) (b1 b2 : list Y) : length a1 = length b1 ->
  combine (a1 ++ a2) (b1 ++ b2) = combine a1 b1 ++ combine a2 b2.
Proof. revert b1; induction a1 as [|x a1 IH]; intros [|y b1] H; cbn in *; try discriminate; [reflexivity|]. now rewrite IH by lia. Qed.

Lemma existsb_eqb_false x (ops : list string) :
  existsb (String.eqb x) ops = false -> forall a, In a ops -> (a =? x)%string = false.
Proof.
  intros H a Ha. rewrite String.eqb_sym. destruct (x =? a)%string eqn:E; [|reflexivity].
  rewrite <- H. symmetry. apply existsb_exists. eauto.
Qed.

(* names not bound by [pre] and distinct from each other are bound, in the parameter environment, to their arguments *)
Lemma binds_combine (ops : list string) (ns : list nat) (pre rest : denv) :
  length ops = length ns -> distinct ops = true ->
  (forall a, In a ops -> dlookup pre a = None) ->
  binds (pre ++ combine ops (map dnode ns) ++ rest) ops ns.
Proof.
  revert ns pre. induction ops as [|x ops IH]; intros [|n ns] pre Hl Hd Hp; cbn in Hl; try discriminate; [constructor|].
  cbn [distinct] in Hd. apply andb_true_iff in Hd as [Hx Hd]. apply negb_true_iff in Hx.
  constructor.
  - rewrite dlookup_app, (Hp x (or_introl eq_refl)). cbn. now rewrite String.eqb_refl.
  - specialize (IH ns (pre ++ [(x, dnode n)])). rewrite <- app_assoc in IH. cbn [map combine app] in IH |- *.
    apply IH; [lia|exact Hd|].
    intros a Ha. rewrite dlookup_app, (Hp a (or_intror Ha)). cbn. now rewrite (existsb_eqb_false x ops Hx a Ha).
Qed.

(* [yv] = the result tensor y (only captured by the closures: any value), operands = node ids, extra arguments
   (index, dim, the float a) = any values *)
Lemma ctor_shape (p : dprog) (ops extras : list string) :
  dparams (pmain p) = plain ("y" :: ops ++ extras) -> dbody (pmain p) = ctorBody ops ->
  fresh_ops ops = true -> distinct ("y" :: ops) = true ->
  forall (yv : dval) (ns : list nat) (evs : list dval), length ns = length ops -> length evs = length extras ->
  ctor_spec p (yv :: map dnode ns ++ evs) ns.
Proof.
  intros Hpar Hbody Hf Hd yv ns evs Hn He fuel depth h es Hlt Hes.
  unfold drun. rewrite Hpar, Hbody.
  rewrite dbind_plain by (cbn [length]; rewrite !app_length, map_length; lia).
  cbn [combine]. rewrite combine_app by (rewrite map_length; lia).
  cbn [distinct] in Hd. apply andb_true_iff in Hd as [Hy Hd].
  assert (Hb : binds ([("y", yv)] ++ combine ops (map dnode ns) ++ combine extras evs) ops ns).
  { apply binds_combine; [lia|exact Hd|].
    apply negb_true_iff in Hy. intros a Ha. cbn [dlookup]. now rewrite (existsb_eqb_false "y" ops Hy a Ha). }
  destruct (ctor_generic (callLD fapp heap (hext rd) (plocals p) fuel depth) fuel ops ns es h _ Hb Hf Hlt Hes) as [g' E].
  exists g', []. exact E.
Qed.

Theorem ctor_Slice (yv : dval) (x : nat) (iv : dval) : ctor_spec c_Slice [yv; dnode x; iv] [x].
Proof. apply (ctor_shape c_Slice ["x"] ["index"] eq_refl eq_refl eq_refl eq_refl yv [x] [iv]); reflexivity. Qed.

Theorem ctor_Patch (yv : dval) (x p : nat) (iv : dval) : ctor_spec c_Patch [yv; dnode x; dnode p; iv] [x; p].
Proof. apply (ctor_shape c_Patch ["x"; "p"] ["index"] eq_refl eq_refl eq_refl eq_refl yv [x; p] [iv]); reflexivity. Qed.

Theorem ctor_Transpose (yv : dval) (x : nat) : ctor_spec c_Transpose [yv; dnode x] [x].
Proof. apply (ctor_shape c_Transpose ["x"] [] eq_refl eq_refl eq_refl eq_refl yv [x] []); reflexivity. Qed.

Theorem ctor_Reshape (yv : dval) (x : nat) : ctor_spec c_Reshape [yv; dnode x] [x].
Proof. apply (ctor_shape c_Reshape ["x"] [] eq_refl eq_refl eq_refl eq_refl yv [x] []); reflexivity. Qed.

Theorem ctor_UnSqueeze (yv : dval) (x : nat) : ctor_spec c_UnSqueeze [yv; dnode x] [x].
Proof. apply (ctor_shape c_UnSqueeze ["x"] [] eq_refl eq_refl eq_refl eq_refl yv [x] []); reflexivity. Qed.

Theorem ctor_Squeeze (yv : dval) (x : nat) : ctor_spec c_Squeeze [yv; dnode x] [x].
Proof. apply (ctor_shape c_Squeeze ["x"] [] eq_refl eq_refl eq_refl eq_refl yv [x] []); reflexivity. Qed.

Theorem ctor_Flatten (yv : dval) (x : nat) : ctor_spec c_Flatten [yv; dnode x] [x].
Proof. apply (ctor_shape c_Flatten ["x"] [] eq_refl eq_refl eq_refl eq_refl yv [x] []); reflexivity. Qed.

Theorem ctor_Broadcast (yv : dval) (x : nat) : ctor_spec c_Broadcast [yv; dnode x] [x].
Proof. apply (ctor_shape c_Broadcast ["x"] [] eq_refl eq_refl eq_refl eq_refl yv [x] []); reflexivity. Qed.

Theorem ctor_SumAlong (yv : dval) (x : nat) (dimv : dval) : ctor_spec c_SumAlong [yv; dnode x; dimv] [x].
Proof. apply (ctor_shape c_SumAlong ["x"] ["dim"] eq_refl eq_refl eq_refl eq_refl yv [x] [dimv]); reflexivity. Qed.

Theorem ctor_MaxAlong (yv : dval) (x : nat) (dimv : dval) : ctor_spec c_MaxAlong [yv; dnode x; dimv] [x].
Proof. apply (ctor_shape c_MaxAlong ["x"] ["dim"] eq_refl eq_refl eq_refl eq_refl yv [x] [dimv]); reflexivity. Qed.

Theorem ctor_MinAlong (yv : dval) (x : nat) (dimv : dval) : ctor_spec c_MinAlong [yv; dnode x; dimv] [x].
Proof. apply (ctor_shape c_MinAlong ["x"] ["dim"] eq_refl eq_refl eq_refl eq_refl yv [x] [dimv]); reflexivity. Qed.

Theorem ctor_AvgAlong (yv : dval) (x : nat) (dimv : dval) : ctor_spec c_AvgAlong [yv; dnode x; dimv] [x].
Proof. apply (ctor_shape c_AvgAlong ["x"] ["dim"] eq_refl eq_refl eq_refl eq_refl yv [x] [dimv]); reflexivity. Qed.

Theorem ctor_VarAlong (yv : dval) (x : nat) (dimv : dval) : ctor_spec c_VarAlong [yv; dnode x; dimv] [x].
Proof. apply (ctor_shape c_VarAlong ["x"] ["dim"] eq_refl eq_refl eq_refl eq_refl yv [x] [dimv]); reflexivity. Qed.

Theorem ctor_StdAlong (yv : dval) (x : nat) (dimv : dval) : ctor_spec c_StdAlong [yv; dnode x; dimv] [x].
Proof. apply (ctor_shape c_StdAlong ["x"] ["dim"] eq_refl eq_refl eq_refl eq_refl yv [x] [dimv]); reflexivity. Qed.

Theorem ctor_MeanAlong (yv : dval) (x : nat) (dimv : dval) : ctor_spec c_MeanAlong [yv; dnode x; dimv] [x].
Proof. apply (ctor_shape c_MeanAlong ["x"] ["dim"] eq_refl eq_refl eq_refl eq_refl yv [x] [dimv]); reflexivity. Qed.

Theorem ctor_Scale (yv : dval) (x : nat) (av : dval) : ctor_spec c_Scale [yv; dnode x; av] [x].
Proof. apply (ctor_shape c_Scale ["x"] ["a"] eq_refl eq_refl eq_refl eq_refl yv [x] [av]); reflexivity. Qed.

Theorem ctor_Pow (yv : dval) (x : nat) (av : dval) : ctor_spec c_Pow [yv; dnode x; av] [x].
Proof. apply (ctor_shape c_Pow ["x"] ["a"] eq_refl eq_refl eq_refl eq_refl yv [x] [av]); reflexivity. Qed.

Theorem ctor_Exp (yv : dval) (x : nat) : ctor_spec c_Exp [yv; dnode x] [x].
Proof. apply (ctor_shape c_Exp ["x"] [] eq_refl eq_refl eq_refl eq_refl yv [x] []); reflexivity. Qed.

Theorem ctor_Log (yv : dval) (x : nat) : ctor_spec c_Log [yv; dnode x] [x].
Proof. apply (ctor_shape c_Log ["x"] [] eq_refl eq_refl eq_refl eq_refl yv [x] []); reflexivity. Qed.

Theorem ctor_Sin (yv : dval) (x : nat) : ctor_spec c_Sin [yv; dnode x] [x].
Proof. apply (ctor_shape c_Sin ["x"] [] eq_refl eq_refl eq_refl eq_refl yv [x] []); reflexivity. Qed.

Theorem ctor_Cos (yv : dval) (x : nat) : ctor_spec c_Cos [yv; dnode x] [x].
Proof. apply (ctor_shape c_Cos ["x"] [] eq_refl eq_refl eq_refl eq_refl yv [x] []); reflexivity. Qed.

Theorem ctor_Tan (yv : dval) (x : nat) : ctor_spec c_Tan [yv; dnode x] [x].
Proof. apply (ctor_shape c_Tan ["x"] [] eq_refl eq_refl eq_refl eq_refl yv [x] []); reflexivity. Qed.

Theorem ctor_Sinh (yv : dval) (x : nat) : ctor_spec c_Sinh [yv; dnode x] [x].
Proof. apply (ctor_shape c_Sinh ["x"] [] eq_refl eq_refl eq_refl eq_refl yv [x] []); reflexivity. Qed.

Theorem ctor_Cosh (yv : dval) (x : nat) : ctor_spec c_Cosh [yv; dnode x] [x].
Proof. apply (ctor_shape c_Cosh ["x"] [] eq_refl eq_refl eq_refl eq_refl yv [x] []); reflexivity. Qed.

Theorem ctor_Tanh (yv : dval) (x : nat) : ctor_spec c_Tanh [yv; dnode x] [x].
Proof. apply (ctor_shape c_Tanh ["x"] [] eq_refl eq_refl eq_refl eq_refl yv [x] []); reflexivity. Qed.

Theorem ctor_ElMax (yv : dval) (a b : nat) : ctor_spec c_ElMax [yv; dnode a; dnode b] [a; b].
Proof. apply (ctor_shape c_ElMax ["a"; "b"] [] eq_refl eq_refl eq_refl eq_refl yv [a; b] []); reflexivity. Qed.

Theorem ctor_ElMin (yv : dval) (a b : nat) : ctor_spec c_ElMin [yv; dnode a; dnode b] [a; b].
Proof. apply (ctor_shape c_ElMin ["a"; "b"] [] eq_refl eq_refl eq_refl eq_refl yv [a; b] []); reflexivity. Qed.

Theorem ctor_Add (yv : dval) (a b : nat) : ctor_spec c_Add [yv; dnode a; dnode b] [a; b].
Proof. apply (ctor_shape c_Add ["a"; "b"] [] eq_refl eq_refl eq_refl eq_refl yv [a; b] []); reflexivity. Qed.

Theorem ctor_Sub (yv : dval) (a b : nat) : ctor_spec c_Sub [yv; dnode a; dnode b] [a; b].
Proof. apply (ctor_shape c_Sub ["a"; "b"] [] eq_refl eq_refl eq_refl eq_refl yv [a; b] []); reflexivity. Qed.

Theorem ctor_Mul (yv : dval) (a b : nat) : ctor_spec c_Mul [yv; dnode a; dnode b] [a; b].
Proof. apply (ctor_shape c_Mul ["a"; "b"] [] eq_refl eq_refl eq_refl eq_refl yv [a; b] []); reflexivity. Qed.

Theorem ctor_Div (yv : dval) (a b : nat) : ctor_spec c_Div [yv; dnode a; dnode b] [a; b].
Proof. apply (ctor_shape c_Div ["a"; "b"] [] eq_refl eq_refl eq_refl eq_refl yv [a; b] []); reflexivity. Qed.

Theorem ctor_Dot (yv : dval) (a b : nat) : ctor_spec c_Dot [yv; dnode a; dnode b] [a; b].
Proof. apply (ctor_shape c_Dot ["a"; "b"] [] eq_refl eq_refl eq_refl eq_refl yv [a; b] []); reflexivity. Qed.

Theorem ctor_MatMul (yv : dval) (a b : nat) : ctor_spec c_MatMul [yv; dnode a; dnode b] [a; b].
Proof. apply (ctor_shape c_MatMul ["a"; "b"] [] eq_refl eq_refl eq_refl eq_refl yv [a; b] []); reflexivity. Qed.

(* the targets of the model's edges (Model/Grad.v h_* methods), in order = the operands *)

Lemma targets_op1 (x : nat) (r : rule) : map fst [(x, r)] = [x].
Proof. reflexivity. Qed.
Lemma targets_patch (y x p : nat) index : map fst [(x, RPatchX y p index); (p, @RPatchP A y p index)] = [x; p].
Proof. reflexivity. Qed.
Lemma targets_elsel (y x u : nat) : map fst [(x, RElSel y x u); (u, @RElSel A y u x)] = [x; u].
Proof. reflexivity. Qed.
Lemma targets_arith (b : binary) (y a1 a2 : nat) :
  b = BiAdd \/ b = BiSub \/ b = BiMul \/ b = BiDiv -> map fst (@arithEdges A b y a1 a2) = [a1; a2].
Proof. intros [-> | [-> | [-> | ->]]]; reflexivity. Qed.
Lemma targets_dot (y a1 a2 : nat) : map fst [(a1, RDot y a2); (a2, @RDot A y a1)] = [a1; a2].
Proof. reflexivity. Qed.
Lemma targets_matmul (y a1 a2 : nat) : map fst [(a1, RMatMulA y a2); (a2, @RMatMulB A y a1)] = [a1; a2].
Proof. reflexivity. Qed.

(* instances with the model's own edge lists (y = the id the model gives the result) *)
Corollary ctor_Patch_model (yv iv : dval) (x p y : nat) index fuel depth (h : heap) :
  (x < length h)%nat -> (p < length h)%nat ->
  exists g l, drun fapp heap (hext rd) c_Patch fuel depth [yv; dnode x; dnode p; iv] h =
              DRet heap [encCtx (mkCtx h [x; p] [(x, RPatchX y p index); (p, RPatchP y p index)])] h g l.
Proof. intros Hx Hp. apply ctor_Patch; [repeat constructor; assumption | reflexivity]. Qed.

Corollary ctor_arith_model (b : binary) (prog : dprog) (yv : dval) (a1 a2 y : nat) fuel depth (h : heap) :
  (b = BiAdd /\ prog = c_Add) \/ (b = BiSub /\ prog = c_Sub) \/ (b = BiMul /\ prog = c_Mul) \/ (b = BiDiv /\ prog = c_Div) ->
  (a1 < length h)%nat -> (a2 < length h)%nat ->
  exists g l, drun fapp heap (hext rd) prog fuel depth [yv; dnode a1; dnode a2] h =
              DRet heap [encCtx (mkCtx h [a1; a2] (arithEdges b y a1 a2))] h g l.
Proof.
  intros Hb H1 H2.
  assert (Hlt : Forall (fun n => (n < length h)%nat) [a1; a2]) by (repeat constructor; assumption).
  destruct Hb as [[-> ->] | [[-> ->] | [[-> ->] | [-> ->]]]].
  - apply ctor_Add; [exact Hlt | reflexivity].
  - apply ctor_Sub; [exact Hlt | reflexivity].
  - apply ctor_Mul; [exact Hlt | reflexivity].
  - apply ctor_Div; [exact Hlt | reflexivity].
Qed.

Lemma ctor_table_names :
  length ctor_table = 34%nat /\
  map fst ctor_table =
  ["Concat"; "Slice"; "Patch"; "Transpose"; "Reshape"; "UnSqueeze"; "Squeeze"; "Flatten"; "Broadcast";
   "SumAlong"; "MaxAlong"; "MinAlong"; "AvgAlong"; "VarAlong"; "StdAlong"; "MeanAlong"; "Scale"; "Pow";
   "Exp"; "Log"; "Sin"; "Cos"; "Tan"; "Sinh"; "Cosh"; "Tanh"; "ElMax"; "ElMin"; "Add"; "Sub"; "Mul"; "Div";
   "Dot"; "MatMul"] /\
  map snd ctor_table =
  [c_Concat; c_Slice; c_Patch; c_Transpose; c_Reshape; c_UnSqueeze; c_Squeeze; c_Flatten; c_Broadcast;
   c_SumAlong; c_MaxAlong; c_MinAlong; c_AvgAlong; c_VarAlong; c_StdAlong; c_MeanAlong; c_Scale; c_Pow;
   c_Exp; c_Log; c_Sin; c_Cos; c_Tan; c_Sinh; c_Cosh; c_Tanh; c_ElMax; c_ElMin; c_Add; c_Sub; c_Mul; c_Div;
   c_Dot; c_MatMul].
Proof. repeat split. Qed.

(* every entry but the first (Concat): some number of tensor operands after y, some number of extra arguments, and
   for ALL such argument lists the program returns the model's context with the operands as targets, in order *)
Definition ctor_ok (p : dprog) : Prop :=
  exists nops nextra : nat,
    forall (yv : dval) (ops : list nat) (extras : list dval),
      length ops = nops -> length extras = nextra ->
      ctor_spec p (yv :: map dnode ops ++ extras) ops.

Lemma ctor_ok_shape (p : dprog) (ops extras : list string) :
  dparams (pmain p) = plain ("y" :: ops ++ extras) -> dbody (pmain p) = ctorBody ops ->
  fresh_ops ops = true -> distinct ("y" :: ops) = true -> ctor_ok p.
Proof.
  intros Hpar Hbody Hf Hd. exists (length ops), (length extras). intros yv ns evs Hn He.
  now apply (ctor_shape p ops extras).
Qed.

(* the number of operands of each entry after Concat; the first that many parameters after "y" are the operands,
   the others the extra arguments *)
Definition opCount : list nat :=
  [1; 2; 1; 1; 1; 1; 1; 1; 1; 1; 1; 1; 1; 1; 1; 1; 1; 1; 1; 1; 1; 1; 1; 1; 1; 2; 2; 2; 2; 2; 2; 2; 2]%nat.

Theorem ctor_table_ok : Forall (fun e => ctor_ok (snd e)) (tl ctor_table).
Proof.
  enough (H : Forall2 (fun e (_ : nat) => ctor_ok (snd e)) (tl ctor_table) opCount) by (induction H; constructor; auto).
  unfold ctor_table, opCount. cbn [tl].
  repeat match goal with |- Forall2 _ ((_, ?p) :: _) (?n :: _) =>
    let names := constr:(tl (map fst (dparams (pmain p)))) in
    apply Forall2_cons; [apply (ctor_ok_shape p (firstn n names) (skipn n names)); reflexivity|]
  end.
  apply Forall2_nil.
Qed.

End Ctor.

(* concrete runs (free scalar algebra [term]) *)
Section Examples.
Let leafT : tensor term := mkT [] (Sc s0).
Let nd (tr di : bool) : @node term := mkNode leafT tr di None [] None.
Let fa : string -> list term -> option term := fun _ _ => None.

(* operands 0 (untracked) and 1 (tracked): tracked context, edges [0,0] and [1,1] *)
Example run_Add :
  drun fa _ (hext RedAvg) c_Add 0 0 [DI 2; DI 0; DI 1] [nd false false; nd true false] =
  DRet _ [DL [DB true; DB false; DL [DL [DI 0; DI 0]; DL [DI 1; DI 1]]]] [nd false false; nd true false]
       [("y", DI 2); ("a", DI 0); ("b", DI 1); ("gctx", DNil); ("$1", DB false); ("$2", DB false)] [].
Proof. vm_compute. reflexivity. Qed.

(* a spent operand: dirty context, no edges *)
Example run_Patch_dirty :
  drun fa _ (hext RedAvg) c_Patch 0 0 [DI 2; DI 0; DI 1; DNil] [nd true false; nd true true] =
  DRet _ [DL [DB false; DB true; DL []]] [nd true false; nd true true]
       [("y", DI 2); ("x", DI 0); ("p", DI 1); ("index", DNil); ("gctx", DNil); ("$1", DB true)] [].
Proof. vm_compute. reflexivity. Qed.

(* no tracked operand: plain untracked context *)
Example run_Exp_untracked :
  drun fa _ (hext RedAvg) c_Exp 0 0 [DI 1; DI 0] [nd false false] =
  DRet _ [DL [DB false; DB false; DL []]] [nd false false]
       [("y", DI 1); ("x", DI 0); ("gctx", DNil); ("$1", DB false); ("$2", DB true)] [].
Proof. vm_compute. reflexivity. Qed.

(* an operand that is not a node of the heap: the oracle has no answer (the hypothesis [n < length h] is needed) *)
Example run_Exp_dangling :
  drun fa _ (hext RedAvg) c_Exp 0 0 [DI 1; DI 7] [nd false false] = DPanic _.
Proof. vm_compute. reflexivity. Qed.
End Examples.

Print Assumptions ctor_generic.
Print Assumptions encCtx_mkCtx.
Print Assumptions ctor_Slice.
Print Assumptions ctor_Patch.
Print Assumptions ctor_Transpose.
Print Assumptions ctor_Reshape.
Print Assumptions ctor_UnSqueeze.
Print Assumptions ctor_Squeeze.
Print Assumptions ctor_Flatten.
Print Assumptions ctor_Broadcast.
Print Assumptions ctor_SumAlong.
Print Assumptions ctor_MaxAlong.
Print Assumptions ctor_MinAlong.
Print Assumptions ctor_AvgAlong.
Print Assumptions ctor_VarAlong.
Print Assumptions ctor_StdAlong.
Print Assumptions ctor_MeanAlong.
Print Assumptions ctor_Scale.
Print Assumptions ctor_Pow.
Print Assumptions ctor_Exp.
Print Assumptions ctor_Log.
Print Assumptions ctor_Sin.
Print Assumptions ctor_Cos.
Print Assumptions ctor_Tan.
Print Assumptions ctor_Sinh.
Print Assumptions ctor_Cosh.
Print Assumptions ctor_Tanh.
Print Assumptions ctor_ElMax.
Print Assumptions ctor_ElMin.
Print Assumptions ctor_Add.
Print Assumptions ctor_Sub.
Print Assumptions ctor_Mul.
Print Assumptions ctor_Div.
Print Assumptions ctor_Dot.
Print Assumptions ctor_MatMul.
Print Assumptions ctor_Patch_model.
Print Assumptions ctor_arith_model.
Print Assumptions ctor_table_names.
Print Assumptions ctor_table_ok.
