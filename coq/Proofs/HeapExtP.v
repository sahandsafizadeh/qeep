(* HeapExtP.v — the heap oracle Model/HeapExt.v as the proofs about the gradtrack programs (Heap*P.v) use it: the
   embeddings can be decoded, a node id is recognised, one equation per entry of [hext], first on any arguments, then
   on nodes of the heap.  Before that, what those proofs share on the side of DataIR: assignment at main level and to a
   captured variable, a rule for [for] loops, and (at the end) stepping of a program whose global environment is a
   variable. *)
From Coq Require Import String List ZArith Bool Lia Arith.
From Qeep Require Import Model.Scalar Model.Nd Model.Fill Model.Data Model.Valid Model.Api Model.Grad Model.Backprop
     Model.DataIR Model.HeapExt Proofs.NdP Proofs.DataIRP.
Import ListNotations.
Local Open Scope string_scope.
Local Open Scope Z_scope.
Local Open Scope list_scope.

Lemma nth_error_ext_eq {X} : forall (l1 l2 : list X), (forall j, nth_error l1 j = nth_error l2 j) -> l1 = l2.
Proof.
  induction l1 as [|a l1 IH]; intros [|b l2] H; try (specialize (H 0%nat); discriminate); [reflexivity|].
  pose proof (H 0%nat) as H0. injection H0 as ->. f_equal. apply IH. intros j. exact (H (S j)).
Qed.

Lemma nth_error_mid {X} (a : list X) x b : nth_error (a ++ x :: b) (length a) = Some x.
Proof. rewrite nth_error_app2, Nat.sub_diag by lia. reflexivity. Qed.

Lemma skipn_cons_nth {X} (m : list X) : forall k v r, skipn k m = v :: r -> nth_error m k = Some v /\ skipn (S k) m = r.
Proof.
  induction m as [|a m IH]; intros [|k] v r H; cbn in H; try discriminate.
  - injection H as -> ->. split; reflexivity.
  - exact (IH k v r H).
Qed.

Section HeapExtP.
Context {A : Type} {SA : Scalar A}.
Notation T := (tensor A).
Notation heap := (@heap A).
Notation dval := (@dval A).
Notation denv := (@denv A).

Lemma nth_error_dnats (l : list nat) k :
  nth_error (map (fun n => @DI A (Z.of_nat n)) l) k = option_map (fun n => DI (Z.of_nat n)) (nth_error l k).
Proof. apply nth_error_map. Qed.

(* in a closure frame, a variable that is not a local but a captured one *)
Lemma vassign_captured (g l : denv) x (v w : dval) :
  dlookup l x = None -> dlookup g x = Some w -> vassign false g l x v = (dupd g x v, l).
Proof. intros Hl Hg. unfold vassign, dhas. rewrite Hl, Hg. reflexivity. Qed.

Lemma setSlot_main (g : denv) x n v m m' :
  dlookup g x = Some (DL m) -> setNthD m n v = Some m' -> setSlot true g [] x n v = Some (dupd g x (DL m'), []).
Proof. intros Hg Hs. unfold setSlot, vlookup. cbn [dlookup]. rewrite Hg, Hs, vassign_main. reflexivity. Qed.

(* a [for] loop whose remaining work is described by [w], of which [size w] bounds the rounds still to go:
   [I w] holds at each test *)
Lemma dforLoop_steps {St W} (size : W -> nat) (I : W -> St -> denv -> denv -> Prop) (Q : @doutcome A St -> Prop)
      (cond : denv -> denv -> option dval) (body post : St -> denv -> denv -> @doutcome A St) :
  (forall w s g l, I w s g l ->
     (cond g l = Some (DB false) /\ Q (DNormal St s g l)) \/
     (cond g l = Some (DB true) /\
      match body s g l with
      | DNormal _ s1 g1 l1 | DContinue _ s1 g1 l1 =>
          exists w' s2 g2 l2, post s1 g1 l1 = DNormal St s2 g2 l2 /\ I w' s2 g2 l2 /\ (size w' < size w)%nat
      | DBreak _ s1 g1 l1 => Q (DNormal St s1 g1 l1)
      | o => Q o
      end)) ->
  forall fuel w s g l, (size w < fuel)%nat -> I w s g l -> Q (dforLoop St fuel cond body post s g l).
Proof.
  intros Hstep. induction fuel as [|fuel IH]; intros w s g l Hf HI; [lia|]. cbn [dforLoop].
  destruct (Hstep w s g l HI) as [[-> HQ]|[-> Hb]]; [exact HQ|].
  destruct (body s g l); try exact Hb; destruct Hb as (w' & s2 & g2 & l2 & -> & HI2 & Hlt); (apply (IH w'); [lia|exact HI2]).
Qed.

Lemma unemb_DL (l : list dval) :
  unemb (DL l) = match mapM unemb l with Some ys => Some (Vec ys) | None => None end.
Proof.
  cbn [unemb].
  match goal with |- match ?go l with _ => _ end = _ => enough (E : go l = mapM unemb l) by (rewrite E; reflexivity) end.
  induction l as [|x r IH]; [reflexivity|]. cbn [mapM]. rewrite IH.
  destruct (unemb x); [destruct (mapM unemb r)|]; reflexivity.
Qed.

Lemma unemb_emb (x : nd A) : unemb (emb x) = Some x.
Proof.
  induction x as [a|l IH] using nd_ind'; [reflexivity|].
  rewrite emb_Vec, unemb_DL.
  assert (E : mapM unemb (map emb l) = Some l).
  { induction IH as [|y r Hy _ IHr]; [reflexivity|]. cbn [map mapM]. rewrite Hy, IHr. reflexivity. }
  rewrite E. reflexivity.
Qed.

Lemma unnats_nats (l : list nat) : unnats (map (fun n => @DI A (Z.of_nat n)) l) = Some l.
Proof.
  induction l as [|n l IH]; [reflexivity|]. cbn [map unnats]. rewrite IH, Nat2Z.id.
  destruct (0 <=? Z.of_nat n) eqn:E; [reflexivity | apply Z.leb_gt in E; lia].
Qed.

Lemma unembT_embT (t : T) : unembT (embT t) = Some t.
Proof. destruct t as [ds d]. unfold embT, unembT, dnats. cbn [dims data]. now rewrite unnats_nats, unemb_emb. Qed.

Lemma nodeId_nat (h : heap) (n : nat) : (n < length h)%nat -> nodeId h (DI (Z.of_nat n)) = Some n.
Proof.
  intros H. unfold nodeId. rewrite Nat2Z.id. apply Nat.ltb_lt in H. rewrite H.
  destruct (0 <=? Z.of_nat n) eqn:E; [reflexivity | apply Z.leb_gt in E; lia].
Qed.

Lemma nodeId_nat_out (h : heap) n : (length h <= n)%nat -> nodeId h (DI (Z.of_nat n)) = None.
Proof. intros H. unfold nodeId. rewrite Nat2Z.id. apply Nat.ltb_ge in H. rewrite H, andb_false_r. reflexivity. Qed.

Lemma nodeId_lt (h : heap) (v : dval) (n : nat) : nodeId h v = Some n -> (n < length h)%nat.
Proof.
  unfold nodeId. destruct v as [z| | | | |]; try discriminate.
  destruct (0 <=? z); cbn [andb]; [|discriminate].
  destruct (Nat.ltb (Z.to_nat z) (length h)) eqn:E; [|discriminate].
  intros [= <-]. now apply Nat.ltb_lt.
Qed.

Lemma mapM_nodeId (h : heap) (ns : list nat) :
  Forall (fun n => (n < length h)%nat) ns -> mapM (nodeId h) (map (fun n => @DI A (Z.of_nat n)) ns) = Some ns.
Proof.
  induction 1 as [|n ns Hn _ IH]; [reflexivity|]. cbn [map mapM]. rewrite (nodeId_nat _ _ Hn), IH. reflexivity.
Qed.

(* the entries of the oracle, on any argument values *)
Variable rd : bred.

Lemma hext_noteRule (h : heap) : hext rd "noteRule" [] h = Some ([], h).
Proof. reflexivity. Qed.
Lemma hext_gradContextOf v (h : heap) :
  hext rd "gradContextOf" [v] h = do n <- nodeId h v; Some ([DI (Z.of_nat n)], h).
Proof. reflexivity. Qed.
Lemma hext_get_tracked v (h : heap) :
  hext rd "get.tracked" [v] h = do n <- nodeId h v; Some ([DB (trackedOf h n)], h).
Proof. reflexivity. Qed.
Lemma hext_get_bpdirty v (h : heap) :
  hext rd "get.bpdirty" [v] h = do n <- nodeId h v; Some ([DB (dirtyOf h n)], h).
Proof. reflexivity. Qed.
Lemma hext_get_gradient v (h : heap) :
  hext rd "get.gradient" [v] h =
  do n <- nodeId h v; Some ([match gradOf h n with Some g => embT g | None => DNil end], h).
Proof. reflexivity. Qed.
Lemma hext_get_backEdges v (h : heap) :
  hext rd "get.backEdges" [v] h = do n <- nodeId h v; Some ([encEdges n (edgesOf h n)], h).
Proof. reflexivity. Qed.
Lemma hext_set_bpdirty v b (h : heap) :
  hext rd "set.bpdirty" [v; DB b] h = do n <- nodeId h v; Some ([], setDirty h n b).
Proof. reflexivity. Qed.
Lemma hext_set_gradient_nil v (h : heap) :
  hext rd "set.gradient" [v; DNil] h = do n <- nodeId h v; Some ([], setGrad h n None).
Proof. reflexivity. Qed.
Lemma hext_set_gradient v gv (h : heap) : gv <> DNil ->
  hext rd "set.gradient" [v; gv] h = do n <- nodeId h v; do g <- unembT gv; Some ([], setGrad h n (Some g)).
Proof. intros H. destruct gv; try reflexivity. congruence. Qed.
Lemma hext_gradFn tv ov k (h : heap) :
  hext rd "gradFn" [DL [tv; ov; DI k]] h =
  do o <- nodeId h ov;
  if k <? 0 then do rv <- valOf h o; do r <- retT (toOnes rv); Some (r, h)
  else do e <- nth_error (edgesOf h o) (Z.to_nat k); do r <- retT (eval_rule rd h (snd e)); Some (r, h).
Proof. reflexivity. Qed.
Lemma hext_Add a b (h : heap) :
  hext rd "Add" [a; b] h = do x <- unembT a; do y <- unembT b; do r <- retT (v_arith BiAdd x y); Some (r, h).
Proof. reflexivity. Qed.
Lemma hext_AvgAlong a d (h : heap) :
  hext rd "AvgAlong" [a; DI d] h = do x <- unembT a; do r <- retT (v_reduceAlong RdAvg x d); Some (r, h).
Proof. reflexivity. Qed.
Lemma hext_UnSqueeze a d (h : heap) :
  hext rd "UnSqueeze" [a; DI d] h = do x <- unembT a; do r <- retT (v_unsqueeze x d); Some (r, h).
Proof. reflexivity. Qed.
Lemma hext_Shape v (h : heap) :
  hext rd "Shape" [v] h = do n <- nodeId h v; do t <- valOf h n; Some ([dnats (dims t)], h).
Proof. reflexivity. Qed.
Lemma hext_Gradient v (h : heap) :
  hext rd "Gradient" [v] h = do n <- nodeId h v; Some ([match gradOf h n with Some g => embT g | None => DNil end], h).
Proof. reflexivity. Qed.
Lemma hext_anyIsBPDirty vs (h : heap) :
  hext rd "anyIsBPDirty" [DL vs] h = do ns <- mapM (nodeId h) vs; Some ([DB (existsb (dirtyOf h) ns)], h).
Proof. reflexivity. Qed.
Lemma hext_nonIsTracked vs (h : heap) :
  hext rd "nonIsTracked" [DL vs] h = do ns <- mapM (nodeId h) vs; Some ([DB (negb (existsb (trackedOf h) ns))], h).
Proof. reflexivity. Qed.
Lemma hext_topologicalOrder v (h : heap) :
  hext rd "topologicalOrder" [v] h =
  do n <- nodeId h v; Some ([DL (map (fun i => DI (Z.of_nat i)) (topoOrder h n))], markDirty h (topoOrder h n)).
Proof. reflexivity. Qed.
Lemma hext_accumulateGrad v gv (h : heap) :
  hext rd "accumulateGrad" [v; gv] h =
  do n <- nodeId h v; do g <- unembT gv;
  match accumulate h n g with
  | (h', Ok _) => Some ([DI 0], h')
  | (h', Err) => Some ([DI 1], setGrad h n None)
  | (_, Panic) => None
  end.
Proof. reflexivity. Qed.

(* the same on the nodes of the heap *)
Section Node.
Variables (h : heap) (n : nat).
Hypothesis Hn : (n < length h)%nat.

Lemma hext_gradContextOf_node : hext rd "gradContextOf" [DI (Z.of_nat n)] h = Some ([DI (Z.of_nat n)], h).
Proof. rewrite hext_gradContextOf, (nodeId_nat h n Hn). reflexivity. Qed.
Lemma hext_get_tracked_node : hext rd "get.tracked" [DI (Z.of_nat n)] h = Some ([DB (trackedOf h n)], h).
Proof. rewrite hext_get_tracked, (nodeId_nat h n Hn). reflexivity. Qed.
Lemma hext_get_bpdirty_node : hext rd "get.bpdirty" [DI (Z.of_nat n)] h = Some ([DB (dirtyOf h n)], h).
Proof. rewrite hext_get_bpdirty, (nodeId_nat h n Hn). reflexivity. Qed.
Lemma hext_get_backEdges_node : hext rd "get.backEdges" [DI (Z.of_nat n)] h = Some ([encEdges n (edgesOf h n)], h).
Proof. rewrite hext_get_backEdges, (nodeId_nat h n Hn). reflexivity. Qed.
Lemma hext_set_bpdirty_node b : hext rd "set.bpdirty" [DI (Z.of_nat n); DB b] h = Some ([], setDirty h n b).
Proof. rewrite hext_set_bpdirty, (nodeId_nat h n Hn). reflexivity. Qed.
Lemma hext_Gradient_node :
  hext rd "Gradient" [DI (Z.of_nat n)] h = Some ([match gradOf h n with Some g => embT g | None => DNil end], h).
Proof. rewrite hext_Gradient, (nodeId_nat h n Hn). reflexivity. Qed.
Lemma hext_Shape_node (v : T) : valOf h n = Some v -> hext rd "Shape" [DI (Z.of_nat n)] h = Some ([dnats (dims v)], h).
Proof. intros Hv. rewrite hext_Shape, (nodeId_nat h n Hn). cbn [obind]. rewrite Hv. reflexivity. Qed.
Lemma hext_topologicalOrder_node :
  hext rd "topologicalOrder" [DI (Z.of_nat n)] h =
  Some ([DL (map (fun i => DI (Z.of_nat i)) (topoOrder h n))], markDirty h (topoOrder h n)).
Proof. rewrite hext_topologicalOrder, (nodeId_nat h n Hn). reflexivity. Qed.
Lemma hext_accumulateGrad_node (gr : T) :
  hext rd "accumulateGrad" [DI (Z.of_nat n); embT gr] h =
  match accumulate h n gr with
  | (h', Ok _) => Some ([DI 0], h')
  | (h', Err) => Some ([DI 1], setGrad h n None)
  | (_, Panic) => None
  end.
Proof. rewrite hext_accumulateGrad, (nodeId_nat h n Hn), unembT_embT. reflexivity. Qed.
(* the seed edge, and the k-th back edge of the node *)
Lemma hext_gradFn_seed tv k : k < 0 ->
  hext rd "gradFn" [DL [tv; DI (Z.of_nat n); DI k]] h = do rv <- valOf h n; do r <- retT (toOnes rv); Some (r, h).
Proof. intros Hk. apply Z.ltb_lt in Hk. rewrite hext_gradFn, (nodeId_nat h n Hn). cbn [obind]. rewrite Hk. reflexivity. Qed.
Lemma hext_gradFn_edge tv (k : nat) e : nth_error (edgesOf h n) k = Some e ->
  hext rd "gradFn" [DL [tv; DI (Z.of_nat n); DI (Z.of_nat k)]] h = do r <- retT (eval_rule rd h (snd e)); Some (r, h).
Proof.
  intros He. rewrite hext_gradFn, (nodeId_nat h n Hn). cbn [obind].
  destruct (Z.of_nat k <? 0) eqn:E; [apply Z.ltb_lt in E; lia|]. rewrite Nat2Z.id, He. reflexivity.
Qed.
End Node.

Section Nodes.
Variables (h : heap) (ns : list nat).
Hypothesis Hns : Forall (fun n => (n < length h)%nat) ns.

Lemma hext_anyIsBPDirty_nodes :
  hext rd "anyIsBPDirty" [DL (map (fun n => DI (Z.of_nat n)) ns)] h = Some ([DB (existsb (dirtyOf h) ns)], h).
Proof. rewrite hext_anyIsBPDirty, (mapM_nodeId h ns Hns). reflexivity. Qed.
Lemma hext_nonIsTracked_nodes :
  hext rd "nonIsTracked" [DL (map (fun n => DI (Z.of_nat n)) ns)] h = Some ([DB (negb (existsb (trackedOf h) ns))], h).
Proof. rewrite hext_nonIsTracked, (mapM_nodeId h ns Hns). reflexivity. Qed.
End Nodes.

End HeapExtP.

(* Stepping where the global environment is a variable (the local one a concrete list, [] at main level): [dexec]
   unfolds on the concrete statement; at main level an assignment goes to the global environment whether or not the
   variable exists ([vassign_main]), in a closure [vassign] waits for [vassign_captured]; a lookup runs through the
   [dupd]s down to a hypothesis. *)
Ltac hx := cbn [dexec tseq deval devals devalBin negb andb orb vlookup dlookup dupd vdefine argVals dassignAll fopF
                String.eqb Ascii.eqb Bool.eqb];
           rewrite ?vassign_main, ?dlookup_dupd; cbn [String.eqb Ascii.eqb Bool.eqb].
Ltac hxs := repeat (progress hx).
