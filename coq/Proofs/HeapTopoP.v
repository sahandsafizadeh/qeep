(* HeapTopoP.v — gradtrack.topologicalOrder (tensor/internal/gradtrack/back_propagation.go) as translated by
   harness/gox into the DataIR program GoGrad.g_topologicalOrder (recursive closure [visit] appending to the captured
   lists [visited] / [order], marking contexts spent through the heap oracle, then an in-place two-index reversal)
   computes the model's Backprop.topoOrder and leaves the heap Backprop.markDirty h (topoOrder h root): the program
   agrees with the entry "topologicalOrder" of the oracle Model/HeapExt.v. *)
From Coq Require Import String List ZArith Bool Lia Arith.
From Qeep Require Import Model.Scalar Model.Nd Model.Fill Model.Data Model.Valid Model.Api Model.Grad Model.Backprop.
From Qeep Require Import Model.DataIR Model.GoGrad Model.HeapExt Proofs.DataIRP Proofs.HeapExtP.
From Qeep Require Proofs.BackpropP.
From Qeep Require Model.GoIR.
Import ListNotations.
Local Open Scope string_scope.
Local Open Scope Z_scope.
Local Open Scope list_scope.

Section RevLoop.
Context {A : Type} {SA : Scalar A}.
Variable St : Type.
Notation dval := (@dval A).
Notation denv := (@denv A).

(* for any condition / body / post behaving like  i < j ;  order[i], order[j] = order[j], order[i] ;  i, j = i+1, j-1
   at main level (l = []) *)
Lemma rev_loop (cond : denv -> denv -> option dval) (body post : St -> denv -> denv -> @doutcome A St) :
  (forall g i j, dlookup g "i" = Some (DI i) -> dlookup g "j" = Some (DI j) -> cond g [] = Some (DB (i <? j))) ->
  (forall s g (i j : nat) m x y m1 m2,
      dlookup g "order" = Some (DL m) -> dlookup g "i" = Some (DI (Z.of_nat i)) -> dlookup g "j" = Some (DI (Z.of_nat j)) ->
      nth_error m i = Some x -> nth_error m j = Some y ->
      setNthD m i y = Some m1 -> setNthD m1 j x = Some m2 ->
      exists g1, body s g [] = DNormal St s g1 [] /\
                 dlookup g1 "order" = Some (DL m2) /\ dlookup g1 "i" = Some (DI (Z.of_nat i)) /\
                 dlookup g1 "j" = Some (DI (Z.of_nat j))) ->
  (forall s g i j v,
      dlookup g "order" = Some v -> dlookup g "i" = Some (DI i) -> dlookup g "j" = Some (DI j) ->
      exists g1, post s g [] = DNormal St s g1 [] /\
                 dlookup g1 "order" = Some v /\ dlookup g1 "i" = Some (DI (i + 1)) /\ dlookup g1 "j" = Some (DI (j - 1))) ->
  forall fuel (mid a b : list dval) s g,
  (length mid < fuel)%nat ->
  dlookup g "order" = Some (DL (a ++ mid ++ b)) ->
  dlookup g "i" = Some (DI (Z.of_nat (length a))) ->
  dlookup g "j" = Some (DI (Z.of_nat (length a) + Z.of_nat (length mid) - 1)) ->
  exists g', dforLoop St fuel cond body post s g [] = DNormal St s g' [] /\
             dlookup g' "order" = Some (DL (a ++ rev mid ++ b)).
Proof.
  intros Hc Hb Hp. induction fuel as [|fuel IH]; intros mid a b s g Hf Ho Hi Hj; [lia|].
  cbn [dforLoop]. rewrite (Hc g _ _ Hi Hj).
  destruct mid as [|x mid].
  { cbn [length Z.of_nat]. replace (Z.of_nat (length a) <? Z.of_nat (length a) + 0 - 1) with false
      by (symmetry; apply Z.ltb_ge; lia).
    exists g. split; [reflexivity|exact Ho]. }
  destruct (@exists_last _ (x :: mid)) as (mid' & y & E); [discriminate|].
  destruct mid' as [|x' mid'].
  { (* one element *)
    cbn [app] in E. inversion E; subst. cbn [length].
    replace (Z.of_nat (length a) <? Z.of_nat (length a) + Z.of_nat 1 - 1) with false
      by (symmetry; apply Z.ltb_ge; lia).
    exists g. split; [reflexivity|exact Ho]. }
  cbn [app] in E. inversion E as [[Ex Em]]. subst x' mid. clear E.
  assert (Hlen : (length (x :: mid' ++ [y]) = S (S (length mid')))%nat).
  { cbn [length]. rewrite app_length. cbn [length]. lia. }
  rewrite Hlen in Hj, Hf |- *.
  replace (Z.of_nat (length a) <? Z.of_nat (length a) + Z.of_nat (S (S (length mid'))) - 1) with true
    by (symmetry; apply Z.ltb_lt; lia).
  set (jn := (length a + S (length mid'))%nat).
  assert (Hj' : dlookup g "j" = Some (DI (Z.of_nat jn))).
  { rewrite Hj. do 2 f_equal. unfold jn. lia. }
  set (m := a ++ (x :: mid' ++ [y]) ++ b) in *.
  assert (Em : m = a ++ x :: (mid' ++ y :: b)).
  { unfold m. cbn [app]. rewrite <- app_assoc. reflexivity. }
  assert (Em' : m = (a ++ x :: mid') ++ y :: b).
  { rewrite Em. rewrite <- app_assoc. reflexivity. }
  assert (Hjl : jn = length (a ++ x :: mid')).
  { unfold jn. rewrite app_length. cbn [length]. lia. }
  assert (Hnx : nth_error m (length a) = Some x) by (rewrite Em; apply nth_error_mid).
  assert (Hny : nth_error m jn = Some y) by (rewrite Em', Hjl; apply nth_error_mid).
  assert (Hs1 : setNthD m (length a) y = Some (a ++ y :: (mid' ++ y :: b))) by (rewrite Em; apply setNthD_app).
  assert (Hs2 : setNthD (a ++ y :: (mid' ++ y :: b)) jn x = Some ((a ++ y :: mid') ++ x :: b)).
  { replace (a ++ y :: mid' ++ y :: b) with ((a ++ y :: mid') ++ y :: b) by (rewrite <- app_assoc; reflexivity).
    replace jn with (length (a ++ y :: mid')) by (rewrite Hjl, !app_length; reflexivity).
    apply setNthD_app. }
  destruct (Hb s g _ _ _ _ _ _ _ Ho Hi Hj' Hnx Hny Hs1 Hs2) as (g1 & Eb & Ho1 & Hi1 & Hj1).
  rewrite Eb.
  destruct (Hp s g1 _ _ _ Ho1 Hi1 Hj1) as (g2 & Ep & Ho2 & Hi2 & Hj2).
  rewrite Ep.
  assert (Ho2' : dlookup g2 "order" = Some (DL ((a ++ [y]) ++ mid' ++ ([x] ++ b)))).
  { rewrite Ho2. do 2 f_equal. rewrite <- !app_assoc. reflexivity. }
  assert (Hi2' : dlookup g2 "i" = Some (DI (Z.of_nat (length (a ++ [y]))))).
  { rewrite Hi2. do 2 f_equal. rewrite app_length. cbn [length]. lia. }
  assert (Hj2' : dlookup g2 "j" = Some (DI (Z.of_nat (length (a ++ [y])) + Z.of_nat (length mid') - 1))).
  { rewrite Hj2. do 2 f_equal. unfold jn. rewrite app_length. cbn [length]. lia. }
  destruct (IH mid' (a ++ [y]) ([x] ++ b) s g2 ltac:(lia) Ho2' Hi2' Hj2') as (g' & El & Ho').
  exists g'. split; [exact El|]. rewrite Ho'. do 2 f_equal.
  cbn [rev]. rewrite rev_app_distr. cbn [rev app]. rewrite <- !app_assoc. reflexivity.
Qed.
End RevLoop.

Section Topo.
Context {A : Type} {SA : Scalar A}.
Variable fapp : string -> list A -> option A.
Variable rd : bred.
Notation heap := (@heap A).
Notation dval := (@dval A).
Notation denv := (@denv A).
Notation rule := (@rule A).

Definition ids (l : list nat) : list dval := map (fun i => DI (Z.of_nat i)) l.

(* marking during the visit = marking afterwards *)
Lemma setDirty_markDirty (h : heap) vis n :
  setDirty (markDirty h vis) n true = markDirty h (n :: vis).
Proof.
  apply nth_error_ext_eq. intros j. unfold setDirty.
  rewrite BackpropP.nth_error_updNode, !BackpropP.nth_error_markDirty.
  destruct (nth_error h j) as [nd|]; [|reflexivity]. f_equal.
  unfold memb. cbn [existsb]. fold (memb j vis).
  destruct (Nat.eqb j n); cbn [orb]; destruct (memb j vis); reflexivity.
Qed.

Lemma markDirty_ext (h : heap) l1 l2 : (forall x, memb x l1 = memb x l2) -> markDirty h l1 = markDirty h l2.
Proof.
  intros H. apply nth_error_ext_eq. intros j. rewrite !BackpropP.nth_error_markDirty. rewrite H. reflexivity.
Qed.

Lemma member_ids n l :
  existsb (fun v : dval => match v with DI w => w =? Z.of_nat n | _ => false end) (ids l) = memb n l.
Proof.
  unfold memb, ids. induction l as [|a l IH]; cbn [map existsb]; [reflexivity|]. rewrite IH. f_equal.
  destruct (Nat.eqb n a) eqn:E.
  - apply Nat.eqb_eq in E. subst. apply Z.eqb_refl.
  - apply Nat.eqb_neq in E. apply Z.eqb_neq. lia.
Qed.

Lemma memb_rev n l : memb n (rev l) = memb n l.
Proof.
  destruct (memb n l) eqn:E.
  - apply BackpropP.memb_in. apply -> in_rev. apply BackpropP.memb_in. exact E.
  - destruct (memb n (rev l)) eqn:E2; [|reflexivity].
    apply BackpropP.memb_in in E2. apply in_rev in E2. apply BackpropP.memb_in in E2. congruence.
Qed.

Notation locals := (plocals g_topologicalOrder).
Variable h : heap.                       (* the heap before the call *)
Hypothesis W : BackpropP.wf_heap h.

(* the captured lists hold the model's state (the model conses, Go appends), the current heap is h with the
   visited contexts marked spent *)
Definition Inv (g : denv) (hc : heap) (st : list nat * list nat) : Prop :=
  dlookup g "visited" = Some (DL (ids (rev (fst st)))) /\
  dlookup g "order" = Some (DL (ids (rev (snd st)))) /\
  hc = markDirty h (fst st).

(* the frame of one invocation of visit(gctx = n) *)
Definition Linv (l : denv) (n : nat) : Prop :=
  dlookup l "gctx" = Some (DI (Z.of_nat n)) /\ dlookup l "order" = None /\ dlookup l "visited" = None.

Lemma Linv_dupd l n x v : Linv l n -> x <> "gctx" -> x <> "order" -> x <> "visited" -> Linv (dupd l x v) n.
Proof.
  intros (L1 & L2 & L3) N1 N2 N3. unfold Linv. rewrite !dlookup_dupd.
  apply not_eq_sym in N1, N2, N3. apply String.eqb_neq in N1, N2, N3. rewrite N1, N2, N3. auto.
Qed.

Definition encEdge (n : nat) (p : nat * (nat * rule)) : dval :=
  DL [DI (Z.of_nat (fst (snd p))); DI (Z.of_nat n); DI (Z.of_nat (fst p))].

(* the loop  for _, e := range gctx.backEdges { visit(gradContextOf(e.target)) }  for any body behaving like the call *)
Lemma visit_loop (f n : nat) (body : heap -> denv -> denv -> @doutcome A heap)
      (assign : denv -> denv -> Z -> dval -> denv * denv) :
  (forall g l k v, assign g l k v = (g, dupd (dupd l "_" (DI k)) "e" v)) ->
  (forall hc g l t own kk st,
      Inv g hc st -> Linv l n -> dlookup l "e" = Some (DL [DI (Z.of_nat t); own; kk]) -> (t < n)%nat ->
      exists g1 l1 hc1, body hc g l = DNormal heap hc1 g1 l1 /\ Inv g1 hc1 (dfs f h t st) /\ Linv l1 n) ->
  forall (es : list (nat * rule)) k0 k hc g l st,
  Forall (fun e : nat * rule => (fst e < n)%nat) es -> Inv g hc st -> Linv l n ->
  exists g1 l1 hc1,
    drangeLoop heap body assign (map (encEdge n) (combine (seq k0 (length es)) es)) k hc g l = DNormal heap hc1 g1 l1 /\
    Inv g1 hc1 (fold_left (fun s e => dfs f h (fst e) s) es st) /\ Linv l1 n.
Proof.
  intros Hasg Hbody. induction es as [|e es IH]; intros k0 k hc g l st Hes Hi Hl.
  - cbn. exists g, l, hc. auto.
  - inversion Hes as [|? ? He Hes']; subst.
    cbn [length seq combine map drangeLoop fold_left]. rewrite Hasg.
    set (l0 := dupd (dupd l "_" (DI k)) "e" (encEdge n (k0, e))).
    assert (Hl0 : Linv l0 n).
    { unfold l0. apply Linv_dupd; [apply Linv_dupd; [exact Hl| | |]| | |]; discriminate. }
    assert (He0 : dlookup l0 "e" = Some (DL [DI (Z.of_nat (fst e)); DI (Z.of_nat n); DI (Z.of_nat k0)])).
    { unfold l0. rewrite dlookup_dupd. cbn [String.eqb Ascii.eqb Bool.eqb]. reflexivity. }
    destruct (Hbody hc g l0 (fst e) _ _ st Hi Hl0 He0 He) as (g1 & l1 & hc1 & Eb & Hi1 & Hl1).
    rewrite Eb.
    destruct (IH (S k0) (k + 1) hc1 g1 l1 _ Hes' Hi1 Hl1) as (g2 & l2 & hc2 & El & Hi2 & Hl2).
    exists g2, l2, hc2. auto.
Qed.

Lemma callLD_S (fuel d : nat) fn vs s (g : denv) :
  callLD fapp heap (hext rd) locals fuel (S d) fn vs s g =
  match dlookupFn locals fn with
  | Some fd =>
      match dbind (dparams fd) vs with
      | Some l0 =>
          match dexec fapp heap (hext rd) (callLD fapp heap (hext rd) locals fuel d) fuel false (dbody fd) s g l0 with
          | DNormal _ s1 g1 l1 | DRet _ _ s1 g1 l1 =>
              match ptrOuts (dparams fd) l1 with Some outs => CRet heap outs s1 g1 | None => CPanic heap end
          | DFuel _ => CFuel heap
          | _ => CPanic heap
          end
      | None => CPanic heap
      end
  | None => CPanic heap
  end.
Proof. reflexivity. Qed.

Definition visit_spec (callL : string -> list dval -> heap -> denv -> @cres A heap) (f : nat) : Prop :=
  forall n st hc g, (n < f)%nat -> (n < length h)%nat -> Inv g hc st ->
  exists g' hc', callL "visit" [DI (Z.of_nat n)] hc g = CRet heap [] hc' g' /\ Inv g' hc' (dfs f h n st).

Lemma visit_closure fuel : forall f d, (f <= d)%nat -> visit_spec (callLD fapp heap (hext rd) locals fuel d) f.
Proof.
  induction f as [|f IH]; intros d Hd n st hc g Hn Hnl Hi; [lia|].
  destruct d as [|d]; [lia|].
  assert (Hcl : visit_spec (callLD fapp heap (hext rd) locals fuel d) f) by (apply IH; lia).
  clear IH.
  rewrite callLD_S. set (cl := callLD fapp heap (hext rd) locals fuel d) in *.
  cbn [dlookupFn plocals g_topologicalOrder String.eqb Ascii.eqb Bool.eqb dbind dparams dbody].
  destruct Hi as (Hv & Ho & Hh). subst hc.
  hxs.
  rewrite (hext_get_tracked_node rd) by (rewrite BackpropP.length_markDirty; exact Hnl).
  rewrite BackpropP.trackedOf_markDirty.
  cbn [dfs].
  destruct (trackedOf h n) eqn:Et; cbn [negb orb].
  2:{ hxs. cbn [ptrOuts]. exists g, (markDirty h (fst st)). split; [reflexivity|]. unfold Inv. auto. }
  hxs. rewrite Hv. rewrite member_ids, memb_rev.
  destruct (memb n (fst st)) eqn:Em.
  { hxs. cbn [ptrOuts]. exists g, (markDirty h (fst st)). split; [reflexivity|]. unfold Inv. auto. }
  hxs. rewrite Hv. hxs. erewrite vassign_captured; [|reflexivity|exact Hv]. hxs.
  rewrite (hext_set_bpdirty_node rd) by (rewrite BackpropP.length_markDirty; exact Hnl).
  rewrite setDirty_markDirty. hxs.
  rewrite (hext_get_backEdges_node rd) by (rewrite BackpropP.length_markDirty; exact Hnl).
  rewrite BackpropP.edgesOf_markDirty. hxs.
  unfold encEdges.
  match goal with |- context [drangeLoop heap ?b ?asg _ _ _ ?g0 ?l0] =>
    pose proof (visit_loop f n b asg) as HL; set (gstart := g0) in *; set (lstart := l0) in *
  end.
  match type of HL with ?P -> _ => assert (Hasg : P) end.
  { intros g1 l1 k v. reflexivity. }
  specialize (HL Hasg).
  match type of HL with ?P -> _ => assert (Hbody : P) end.
  { intros hc g1 l1 t own kk st1 Hi1 Hl1 He1 Ht. dxrs.
    destruct Hl1 as (L1 & L2 & L3). pose proof Hi1 as (Hv1 & Ho1 & Hh1).
    assert (Htl : (t < length hc)%nat) by (subst hc; rewrite BackpropP.length_markDirty; lia).
    unfold vlookup at 1. rewrite He1. cbn [didx Z.leb Z.compare Z.to_nat nth_error].
    rewrite (hext_gradContextOf_node rd) by exact Htl. dxrs.
    unfold vlookup at 1. rewrite dlookup_dupd. cbn [String.eqb Ascii.eqb Bool.eqb].
    destruct (Hcl t st1 hc g1 ltac:(lia) ltac:(lia) Hi1) as (g' & hc' & Ec & Hi').
    rewrite Ec. exists g', (dupd l1 "$3" (DI (Z.of_nat t))), hc'. split; [reflexivity|]. split; [exact Hi'|].
    apply Linv_dupd; [unfold Linv; auto| | |]; discriminate. }
  specialize (HL Hbody).
  assert (Hes : Forall (fun e : nat * rule => (fst e < n)%nat) (edgesOf h n)).
  { apply Forall_forall. intros e He. exact (BackpropP.wf_heap_edgesOf h W n e He). }
  assert (Hi0 : Inv gstart (markDirty h (n :: fst st)) (n :: fst st, snd st)).
  { unfold Inv, gstart. cbn [fst snd rev]. rewrite !dlookup_dupd. cbn [String.eqb Ascii.eqb Bool.eqb].
    split; [|split; [exact Ho|reflexivity]]. unfold ids. rewrite map_app. reflexivity. }
  assert (Hl0 : Linv lstart n) by (unfold Linv, lstart; cbn; auto).
  destruct (HL (edgesOf h n) 0%nat 0 _ gstart lstart _ Hes Hi0 Hl0) as (g2 & l2 & hc2 & El & Hi2 & Hl2).
  unfold encEdge in El. rewrite El. clear El HL Hbody Hasg.
  set (st2 := fold_left (fun s e => dfs f h (fst e) s) (edgesOf h n) (n :: fst st, snd st)) in *.
  destruct Hi2 as (Hv2 & Ho2 & Hh2). destruct Hl2 as (L1 & L2 & L3).
  dxrs. unfold vlookup, vassign, dhas. rewrite L1, L2, Ho2. dxrs. cbn [ptrOuts].
  eexists. exists hc2. split; [reflexivity|].
  unfold Inv. cbn [fst snd rev]. rewrite !dlookup_dupd. cbn [String.eqb Ascii.eqb Bool.eqb].
  split; [exact Hv2|]. split; [|exact Hh2]. unfold ids. rewrite map_app. reflexivity.
Qed.

Lemma markDirty_nil : markDirty h [] = h.
Proof.
  apply nth_error_ext_eq. intros j. rewrite BackpropP.nth_error_markDirty. cbn [memb existsb].
  destruct (nth_error h j); reflexivity.
Qed.

(* the top-level search: visited and finished contexts coincide, and there are at most root+1 of them *)
Lemma dfs_top_facts (root : nat) :
  let st := dfs (S root) h root ([], []) in
  (forall x, memb x (fst st) = memb x (snd st)) /\ (length (snd st) <= S root)%nat.
Proof.
  intros st.
  assert (Hinv0 : BackpropP.dinv h root ([], [])).
  { unfold BackpropP.dinv. cbn [fst snd BackpropP.ordered]. split; [intros ? []|]. split; [exact I|].
    split; [constructor|]. split; intros ? []. }
  destruct (BackpropP.dfs_spec h W (S root) root ([], []) ltac:(lia) Hinv0) as (J & _ & _ & Jo & _).
  cbn zeta in *. fold st in J, Jo. destruct J as (J1 & _ & J3 & _ & _).
  destruct (BackpropP.dfs_new h W (S root) root ([], [])) as (new & En & Hnew).
  fold st in En. cbn [snd] in En. rewrite app_nil_r in En.
  split.
  - intros x. destruct (memb x (snd st)) eqn:E2.
    + apply BackpropP.memb_in. apply J1. apply BackpropP.memb_in. exact E2.
    + destruct (memb x (fst st)) eqn:E1; [|reflexivity].
      apply BackpropP.memb_in in E1.
      assert (Hn : ~ In x (snd st)) by (intro X; apply BackpropP.memb_in in X; congruence).
      destruct (Jo x E1 Hn) as [[] _].
  - apply Nat.le_trans with (length (seq 0 (S root))); [|rewrite seq_length; lia].
    apply NoDup_incl_length; [exact J3|].
    intros c Hc. apply in_seq. rewrite En in Hc. destruct (Hnew c Hc) as [Hle _]. lia.
Qed.

Lemma vassign_main (g : denv) x v : vassign true g [] x v = (dupd g x v, []).
Proof. apply DataIRP.vassign_main. Qed.

Theorem topo_run (root fuel depth : nat) :
  (root < length h)%nat -> (root < depth)%nat -> (length h < fuel)%nat ->
  exists g l,
    drun fapp heap (hext rd) g_topologicalOrder fuel depth [DI (Z.of_nat root)] h =
    DRet heap [DL (ids (topoOrder h root))] (markDirty h (topoOrder h root)) g l.
Proof.
  intros Hr Hd Hf.
  unfold drun. cbn [pmain dparams dbind dbody g_topologicalOrder]. dxs.
  set (g0 := [("root", DI (Z.of_nat root)); ("order", DL []); ("visited", DL [])] : denv).
  assert (Hi0 : Inv g0 h ([], [])).
  { unfold Inv, g0. cbn [fst snd rev ids map dlookup String.eqb Ascii.eqb Bool.eqb]. rewrite markDirty_nil. auto. }
  destruct (visit_closure fuel (S root) depth ltac:(lia) root ([], []) h g0 ltac:(lia) Hr Hi0)
    as (g1 & hc1 & Ec & Hv1 & Ho1 & Hh1).
  rewrite Ec. hxs.
  fold (topoOrder h root) in Ho1.
  set (st1 := dfs (S root) h root ([], [])) in *.
  rewrite Ho1. hxs.
  match goal with |- context [dforLoop heap _ ?c ?b ?p _ ?gs _] =>
    pose proof (rev_loop heap c b p) as HL; set (gstart := gs) in *
  end.
  match type of HL with ?P -> _ => assert (Hc : P) end.
  { intros g i j Hi Hj. cbn [vlookup dlookup]. rewrite Hi, Hj. reflexivity. }
  specialize (HL Hc).
  match type of HL with ?P -> _ => assert (Hb : P) end.
  { intros s g i j m x y m1 m2 Ho Hi Hj Hnx Hny Hs1 Hs2. hxs.
    rewrite Ho, Hj, didx_nat, Hny. hxs. rewrite Ho, Hi, didx_nat, Hnx. hxs.
    rewrite Hi, didx_nat.
    rewrite (setSlot_main _ "order" i y m m1) by (hxs; assumption). hxs.
    rewrite Hj, didx_nat.
    rewrite (setSlot_main _ "order" j x m1 m2) by (hxs; auto).
    eexists. split; [reflexivity|]. hxs. auto. }
  specialize (HL Hb).
  match type of HL with ?P -> _ => assert (Hp : P) end.
  { intros s g i j v Ho Hi Hj. hxs. rewrite Hi. hxs. rewrite Hj. hxs.
    eexists. split; [reflexivity|]. hxs. auto. }
  specialize (HL Hp). clear Hc Hb Hp.
  destruct (dfs_top_facts root) as (Fm & Fl). fold st1 in Fm, Fl. change (snd st1) with (topoOrder h root) in Fm, Fl.
  assert (Hlen : length (ids (rev (topoOrder h root))) = length (topoOrder h root)).
  { unfold ids. rewrite map_length, rev_length. reflexivity. }
  destruct (HL fuel (ids (rev (topoOrder h root))) [] [] hc1 gstart) as (g2 & El & Ho2).
  - rewrite Hlen. lia.
  - unfold gstart. hxs. rewrite app_nil_r. exact Ho1.
  - unfold gstart. hxs. reflexivity.
  - unfold gstart. hxs. unfold dlen. cbn [length Z.of_nat Z.add]. reflexivity.
  - rewrite El. hxs. rewrite Ho2. exists g2, []. f_equal.
    + cbn [app]. rewrite app_nil_r. unfold ids. rewrite <- map_rev, rev_involutive. reflexivity.
    + rewrite Hh1. apply markDirty_ext. exact Fm.
Qed.

(* a root that is not a node of the heap: the first context access fails, as does the oracle entry *)
Lemma topo_run_out (root fuel depth : nat) :
  (length h <= root)%nat -> (0 < depth)%nat ->
  drun fapp heap (hext rd) g_topologicalOrder fuel depth [DI (Z.of_nat root)] h = DPanic heap.
Proof.
  intros Hr Hd. destruct depth as [|d]; [lia|].
  unfold drun. cbn [pmain dparams dbind dbody g_topologicalOrder]. dxs.
  rewrite callLD_S.
  cbn [dlookupFn plocals g_topologicalOrder String.eqb Ascii.eqb Bool.eqb dbind dparams dbody]. dxs.
  rewrite hext_get_tracked, (nodeId_nat_out _ _ Hr). reflexivity.
Qed.

End Topo.

Section Main.
Context {A : Type} {SA : Scalar A}.
Variable fapp : string -> list A -> option A.
Variable rd : bred.
Notation heap := (@heap A).
Notation dval := (@dval A).

(* (a) the closure: visit(n), run with captured lists holding the model's search state (visited, order) — Go appends,
   the model conses — on the heap h with the visited contexts marked, ends in the state of Backprop.dfs *)
Theorem heap_visit (h : heap) (fuel f d n : nat) (st : list nat * list nat) (g : @denv A) :
  BackpropP.wf_heap h -> (n < f)%nat -> (f <= d)%nat -> (n < length h)%nat ->
  dlookup g "visited" = Some (DL (map (fun i => DI (Z.of_nat i)) (rev (fst st)))) ->
  dlookup g "order" = Some (DL (map (fun i => DI (Z.of_nat i)) (rev (snd st)))) ->
  exists g',
    callLD fapp heap (hext rd) (plocals g_topologicalOrder) fuel d "visit" [DI (Z.of_nat n)] (markDirty h (fst st)) g =
    CRet heap [] (markDirty h (fst (dfs f h n st))) g' /\
    dlookup g' "visited" = Some (DL (map (fun i => DI (Z.of_nat i)) (rev (fst (dfs f h n st))))) /\
    dlookup g' "order" = Some (DL (map (fun i => DI (Z.of_nat i)) (rev (snd (dfs f h n st))))).
Proof.
  intros W Hn Hd Hl Hv Ho.
  destruct (visit_closure fapp rd h W fuel f d Hd n st (markDirty h (fst st)) g Hn Hl) as (g' & hc' & Ec & Hv' & Ho' & Hh').
  { unfold Inv. auto. }
  subst hc'. exists g'. auto.
Qed.

(* (c) the function: the order and the heap of the model (depth > root suffices) *)
Theorem heap_topologicalOrder_strong (h : heap) (root fuel depth : nat) :
  BackpropP.wf_heap h -> (root < length h)%nat -> (root < depth)%nat -> (length h < fuel)%nat ->
  exists g l,
    drun fapp heap (hext rd) g_topologicalOrder fuel depth [DI (Z.of_nat root)] h =
    DRet heap [DL (map (fun i => DI (Z.of_nat i)) (topoOrder h root))] (markDirty h (topoOrder h root)) g l.
Proof. intros W. exact (topo_run fapp rd h W root fuel depth). Qed.

Theorem heap_topologicalOrder (h : heap) (root fuel depth : nat) :
  BackpropP.wf_heap h -> (root < length h)%nat -> (depth > root + 1)%nat -> (fuel > length h)%nat ->
  exists g l,
    drun fapp heap (hext rd) g_topologicalOrder fuel depth [DI (Z.of_nat root)] h =
    DRet heap [DL (map (fun i => DI (Z.of_nat i)) (topoOrder h root))] (markDirty h (topoOrder h root)) g l.
Proof. intros W Hr Hd Hf. apply heap_topologicalOrder_strong; [exact W|exact Hr|lia|lia]. Qed.

(* the program IS the oracle entry "topologicalOrder" of Model/HeapExt.v: same results, same final heap, and it
   panics exactly when the entry is undefined (root not a node of the heap) *)
Theorem heap_topologicalOrder_oracle (h : heap) (root fuel depth : nat) :
  BackpropP.wf_heap h -> (depth > root + 1)%nat -> (fuel > length h)%nat ->
  match hext rd "topologicalOrder" [DI (Z.of_nat root)] h with
  | Some (rs, h') => exists g l,
      drun fapp heap (hext rd) g_topologicalOrder fuel depth [DI (Z.of_nat root)] h = DRet heap rs h' g l
  | None => drun fapp heap (hext rd) g_topologicalOrder fuel depth [DI (Z.of_nat root)] h = DPanic heap
  end.
Proof.
  intros W Hd Hf. destruct (Nat.lt_ge_cases root (length h)) as [Hr|Hr].
  - rewrite (hext_topologicalOrder_node rd h root Hr). apply heap_topologicalOrder; assumption.
  - rewrite hext_topologicalOrder, (nodeId_nat_out h root Hr). apply topo_run_out; [exact Hr|lia].
Qed.

End Main.

Print Assumptions rev_loop.
Print Assumptions heap_visit.
Print Assumptions heap_topologicalOrder_strong.
Print Assumptions heap_topologicalOrder.
Print Assumptions heap_topologicalOrder_oracle.

(* the heap of TrackEx (Proofs/TrackP.v): y = m.Add(c) (id 5) reaches its tracked Broadcast operand 3, then m (2),
   then the leaf x (0); the run returns [5; 3; 2; 0] and leaves exactly these contexts spent *)
From Qeep Require Proofs.TrackP.
Module TopoEx.
Import TrackP.TrackEx.
#[local] Existing Instance Z_scalar.

Example topo_example :
  match drun (fun _ _ => None) (@heap Z) (hext RedSum) g_topologicalOrder 10 10 [DI 5] e5 with
  | DRet _ [DL l] h' _ _ =>
      l = [DI 5; DI 3; DI 2; DI 0] /\ h' = markDirty e5 [5; 3; 2; 0]%nat /\
      map (@ndirty Z) h' = [true; false; true; true; false; true; false; false]
  | _ => False
  end.
Proof. vm_compute. repeat split; reflexivity. Qed.

Example topo_example_oracle :
  match drun (fun _ _ => None) (@heap Z) (hext RedSum) g_topologicalOrder 10 10 [DI 5] e5,
        hext RedSum "topologicalOrder" [DI 5] e5 with
  | DRet _ rs h' _ _, Some (rs', h'') => rs = rs' /\ h' = h''
  | _, _ => False
  end.
Proof. vm_compute. split; reflexivity. Qed.
End TopoEx.
