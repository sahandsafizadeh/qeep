(* HistoryP.v — C08 at the level of histories:
     I.  forward values never depend on tracking: two states that differ only in tracking flags,
         spent flags, gradients and back edges produce the same value observables for every
         command that neither reads a gradient nor back-propagates, and remain such states ([step_values],
         [run_values]); corollary for the concurrent model ([reads_only_values]);
     II. in EVERY state (hence after any history) the context of the tensor a command creates
         follows the three-way rule on the contexts of its operands ([step_track_rule]),
         comparisons / gradient tensors / optimizer results are untracked ([step_untracked]);
     III. the flags after a command are a function of the flags before, the command and whether
         the call delivered a result ([step_flags]).
   Everything for arbitrary [Scalar A], [rd], sealing functions and constants. *)
From Coq Require Import List Arith ZArith Bool Lia.
From Qeep Require Import Model.Scalar Model.Nd Model.Fill Model.Data Model.Valid Model.Api Model.Grad
     Model.Backprop Model.Components Model.Scenario Model.Conc.
From Qeep Require Import Proofs.NdP Proofs.TrackP Proofs.DfsP Proofs.BpFlagsP Proofs.StepP.
Import ListNotations.

Section SimChains.
Context {A : Type} {SA : Scalar A}.
Notation heap := (@heap A).
Notation hres := (@hres A).

Lemma sim_bind (r1 r2 : hres) (f1 f2 : heap -> nat -> hres) :
  sim r1 r2 -> (forall h1 h2 id, erase h1 = erase h2 -> sim (f1 h1 id) (f2 h2 id)) ->
  sim (hbind r1 f1) (hbind r2 f2).
Proof.
  intros [Sr Se] Hf. destruct r1 as [h1 q1], r2 as [h2 q2]. cbn [fst snd] in *. subst q2.
  destruct q1 as [id| |]; cbn [hbind]; [apply Hf; exact Se|split; [reflexivity|exact Se]..].
Qed.

Lemma sim_atomically (h1 h2 : heap) (r1 r2 : hres) : erase h1 = erase h2 -> sim r1 r2 ->
  sim (atomically h1 r1) (atomically h2 r2).
Proof.
  intros E [Sr Se]. destruct r1 as [k1 q1], r2 as [k2 q2]. cbn [fst snd] in *. subst q2.
  destruct q1 as [id| |]; cbn [atomically]; split; cbn [fst snd]; auto.
Qed.

Lemma lossArgs1_erase (h1 h2 : heap) yp yt : erase h1 = erase h2 -> lossArgs1 h1 yp yt = lossArgs1 h2 yp yt.
Proof.
  intros E. unfold lossArgs1, rankOf, dim0Of. destruct yp as [p|]; [|reflexivity]. destruct yt as [t|]; [|reflexivity].
  rewrite !(valOf_erase_eq _ _ E). reflexivity.
Qed.

End SimChains.

(* [sim] holds of every tracked method run on value-equal heaps (TrackP) and is closed under [hbind],
   [atomically] and failure *)
Create HintDb simv discriminated.
#[export] Hint Constants Opaque : simv.
#[export] Hint Resolve sim_bind sim_atomically sim_same sim_alloc h_cmp_values h_elsel_values h_arith_values
  h_dot_values h_matmul_values h_patch_values h_concat_values : simv.
(* the eleven one-operand methods are instances of [h_op1] *)
#[export] Hint Extern 3 (sim _ _) => apply h_op1_values : simv.

Section SimComponents.
Context {A : Type} {SA : Scalar A}.
Notation heap := (@heap A).

Lemma sim_clip (h1 h2 : heap) x l u : erase h1 = erase h2 -> sim (clip h1 x l u) (clip h2 x l u).
Proof. intros E. unfold clip. auto 8 with simv. Qed.
Hint Resolve sim_clip : simv.

Lemma sim_fc_forward (h1 h2 : heap) w b xs nm : erase h1 = erase h2 -> sim (fc_forward h1 w b xs nm) (fc_forward h2 w b xs nm).
Proof.
  intros E. unfold fc_forward, rankOf. destruct (oneInput xs) as [x|]; [|auto with simv].
  rewrite (valOf_erase_eq _ _ E). destruct (negb _); auto 8 with simv.
Qed.

Lemma sim_relu (h1 h2 : heap) xs nm : erase h1 = erase h2 -> sim (relu_forward h1 xs nm) (relu_forward h2 xs nm).
Proof. intros E. unfold relu_forward. destruct (oneInput xs); auto 8 with simv. Qed.

Lemma sim_leaky (h1 h2 : heap) m xs nm : erase h1 = erase h2 -> sim (leaky_forward h1 m xs nm) (leaky_forward h2 m xs nm).
Proof. intros E. unfold leaky_forward. destruct (oneInput xs); auto 8 with simv. Qed.

Lemma sim_sigmoid (h1 h2 : heap) xs nm : erase h1 = erase h2 -> sim (sigmoid_forward h1 xs nm) (sigmoid_forward h2 xs nm).
Proof. intros E. unfold sigmoid_forward. destruct (oneInput xs); auto 8 with simv. Qed.

Lemma sim_tanh (h1 h2 : heap) xs nm : erase h1 = erase h2 -> sim (tanh_forward h1 xs nm) (tanh_forward h2 xs nm).
Proof. intros E. unfold tanh_forward. destruct (oneInput xs); auto with simv. Qed.

Lemma sim_softmax (h1 h2 : heap) d xs nm : erase h1 = erase h2 -> sim (softmax_forward h1 d xs nm) (softmax_forward h2 d xs nm).
Proof.
  intros E. unfold softmax_forward, rankOf. destruct (oneInput xs) as [x|]; [|auto with simv].
  rewrite (valOf_erase_eq _ _ E). destruct (_ <=? d); auto 8 with simv.
Qed.

Lemma sim_mse (h1 h2 : heap) yp yt nm : erase h1 = erase h2 -> sim (mse_compute h1 yp yt nm) (mse_compute h2 yp yt nm).
Proof.
  intros E. unfold mse_compute. rewrite (lossArgs1_erase _ _ yp yt E). destruct (lossArgs1 h2 yp yt) as [[p t]|]; auto 8 with simv.
Qed.

Lemma sim_bce e1 e2 (h1 h2 : heap) yp yt nm : erase h1 = erase h2 -> sim (bce_compute e1 e2 h1 yp yt nm) (bce_compute e1 e2 h2 yp yt nm).
Proof.
  intros E. unfold bce_compute. rewrite (lossArgs1_erase _ _ yp yt E). destruct (lossArgs1 h2 yp yt) as [[p t]|]; auto 16 with simv.
Qed.

Lemma sim_ce e1 e2 (h1 h2 : heap) yp yt nm : erase h1 = erase h2 -> sim (ce_compute e1 e2 h1 yp yt nm) (ce_compute e1 e2 h2 yp yt nm).
Proof.
  intros E. unfold ce_compute, rankOf, dim0Of, dim1Of. destruct yp as [p|]; [|auto with simv]. destruct yt as [t|]; [|auto with simv].
  rewrite !(valOf_erase_eq _ _ E). match goal with |- context [if ?c then _ else _] => destruct c end; auto 16 with simv.
Qed.

Lemma sim_init d1 d2 d3 d4 d5 (h1 h2 : heap) sp shape pos n1 n2 : erase h1 = erase h2 ->
  sim (fst (init_run d1 d2 d3 d4 d5 h1 sp shape pos n1)) (fst (init_run d1 d2 d3 d4 d5 h2 sp shape pos n2)) /\
  snd (init_run d1 d2 d3 d4 d5 h1 sp shape pos n1) = snd (init_run d1 d2 d3 d4 d5 h2 sp shape pos n2).
Proof.
  intros E. unfold init_run, leaf. destruct (negb (init_valid d2 d3 d5 sp)); [cbn; auto with simv|].
  destruct (init_value d1 d2 d3 d4 d5 sp shape pos) as [v| |]; [|cbn; auto with simv..].
  pose proof (sim_alloc h1 h2 v (true, false, []) (true, false, []) n1 n2 E) as H. rewrite !alloc_eq in *. auto.
Qed.

Lemma sim_fc_new d1 d2 d3 d4 d5 (h1 h2 : heap) i o wi bi pos : erase h1 = erase h2 ->
  let a := fc_new d1 d2 d3 d4 d5 h1 i o wi bi pos in
  let b := fc_new d1 d2 d3 d4 d5 h2 i o wi bi pos in
  erase (fst (fst a)) = erase (fst (fst b)) /\ snd (fst a) = snd (fst b) /\ snd a = snd b.
Proof.
  intros E. cbv zeta. rewrite !fc_new_eq. destruct (fc_specs i o wi bi) as [[ws bs]|]; [|cbn; auto]. unfold fc_inits.
  destruct (sim_init d1 d2 d3 d4 d5 h1 h2 ws [o] pos None None E) as [[Vr Ve] Vp].
  destruct (init_run d1 d2 d3 d4 d5 h1 ws [o] pos None) as [[k1 r1] p1], (init_run d1 d2 d3 d4 d5 h2 ws [o] pos None) as [[k2 r2] p2].
  cbn [fst snd] in *. subst r2 p2. destruct r1 as [w| |]; [|cbn; auto..].
  destruct (sim_init d1 d2 d3 d4 d5 k1 k2 bs [o] p1 None None Ve) as [[Wr We] Wp].
  destruct (init_run d1 d2 d3 d4 d5 k1 bs [o] p1 None) as [[m1 q1] pp1], (init_run d1 d2 d3 d4 d5 k2 bs [o] p1 None) as [[m2 q2] pp2].
  cbn [fst snd] in *. subst q2 pp2. destruct q1 as [b| |]; cbn; auto.
Qed.

Lemma acc_erase (h1 h2 : heap) a p t : erase h1 = erase h2 -> acc_accumulate h1 a p t = acc_accumulate h2 a p t.
Proof.
  intros E. unfold acc_accumulate. rewrite (lossArgs1_erase _ _ p t E).
  destruct (lossArgs1 h2 p t) as [[x y]|]; [|reflexivity].
  rewrite (valOf_erase_eq _ _ E x), (valOf_erase_eq _ _ E y). reflexivity.
Qed.

End SimComponents.

#[export] Hint Resolve sim_clip sim_fc_forward sim_relu sim_leaky sim_sigmoid sim_tanh sim_softmax sim_mse sim_bce sim_ce : simv.

Section HistoryP.
Context {A : Type} {SA : Scalar A}.
Notation T := (tensor A).
Notation heap := (@heap A).
Notation node := (@node A).
Notation rule := (@rule A).
Notation hres := (@hres A).
Notation state := (@state A).
Notation cmd := (@cmd A).
Notation obj := (@obj A).
Notation obs := (@obs A).

Lemma v_reduceAlong (h1 h2 : heap) r x d n1 n2 : erase h1 = erase h2 -> sim (h_reduceAlong h1 r x d n1) (h_reduceAlong h2 r x d n2).
Proof. apply h_op1_values. Qed.

Variable rd : bred.
Variable sealv : nat -> T -> T.
Variable sealg : nat -> option nat -> T -> T.
Variables (c_eps c_one_m_eps : A) (c_leaky c_sgd_lr dFull dUniL dUniU dNorM dNorS : dec) (c_softmax_dim : Z).
Notation step := (step rd sealv sealg c_eps c_one_m_eps c_leaky c_sgd_lr dFull dUniL dUniU dNorM dNorS c_softmax_dim).
Notation run_from := (run_from rd sealv sealg c_eps c_one_m_eps c_leaky c_sgd_lr dFull dUniL dUniU dNorM dNorS c_softmax_dim).
Notation exec := (exec rd sealv sealg c_eps c_one_m_eps c_leaky c_sgd_lr dFull dUniL dUniU dNorM dNorS c_softmax_dim).

(* same values, same environment, same position of the random source; tracking flags, spent flags,
   gradients, back edges (and node names) are unconstrained *)
Definition ssim (s1 s2 : state) : Prop :=
  erase (st_heap s1) = erase (st_heap s2) /\ st_env s1 = st_env s2 /\ st_rng s1 = st_rng s2.

Lemma ssim_refl s : ssim s s.
Proof. repeat split. Qed.

(* commands that read a gradient *)
Definition reads_grad (c : cmd) : bool :=
  match c with CGradOf _ | CSGDUpdate _ _ => true | _ => false end.

Definition sim_out (p1 p2 : state * obs) : Prop := ssim (fst p1) (fst p2) /\ snd p1 = snd p2.

Lemma lookup_env (s1 s2 : state) : st_env s1 = st_env s2 -> lookupT s1 = lookupT s2 /\ lookupArg s1 = lookupArg s2.
Proof. intros E. unfold lookupArg, lookupT. rewrite E. auto. Qed.

Lemma erase_sealNode (h1 h2 : heap) id nm : erase h1 = erase h2 -> erase (sealNode sealv h1 id nm) = erase (sealNode sealv h2 id nm).
Proof.
  intros E. apply nth_error_ext_len.
  - rewrite !erase_length. unfold sealNode. rewrite !updNode_length. apply erase_eq_length. exact E.
  - intros j _. unfold erase, sealNode. rewrite !nth_error_map, !updNode_nth.
    assert (X : option_map (@nval A) (nth_error h1 j) = option_map (@nval A) (nth_error h2 j)).
    { rewrite <- !nth_error_map. fold (erase h1). fold (erase h2). rewrite E. reflexivity. }
    destruct (nth_error h1 j) as [n1|], (nth_error h2 j) as [n2|]; cbn in X |- *; try discriminate; [|reflexivity].
    inversion X as [X1]. destruct (j =? id); cbn; congruence.
Qed.

Lemma tensorObs_erase (h1 h2 : heap) id : erase h1 = erase h2 -> tensorObs h1 id = tensorObs h2 id.
Proof. intros E. unfold tensorObs. rewrite (valOf_erase_eq _ _ E). reflexivity. Qed.

Lemma erase_reset (h1 h2 : heap) x b : erase h1 = erase h2 -> erase (h_reset h1 x b) = erase (h_reset h2 x b).
Proof.
  destruct (h_reset_spec h1 x b) as (_ & _ & _ & R1), (h_reset_spec h2 x b) as (_ & _ & _ & R2). congruence.
Qed.

Lemma out_state (h1 h2 : heap) env rng ob : erase h1 = erase h2 -> sim_out (mkState h1 env rng, ob) (mkState h2 env rng, ob).
Proof. repeat split. assumption. Qed.

Lemma out_seed (h1 h2 : heap) env rng id : erase h1 = erase h2 ->
  sim_out (mkState h1 env rng, tensorObs h1 id) (mkState h2 env rng, tensorObs h2 id).
Proof. intros E. rewrite (tensorObs_erase _ _ id E). apply out_state, E. Qed.

Lemma out_fin s1 s2 r1 r2 : ssim s1 s2 -> sim r1 r2 -> sim_out (fin sealv s1 r1) (fin sealv s2 r2).
Proof.
  intros (E & Ev & Er) [Sr Se]. unfold fin, push. rewrite Ev, Er. destruct r1 as [h1 q1], r2 as [h2 q2]. cbn [fst snd] in *. subst q2.
  destruct q1 as [id| |]; [|apply out_state, E..].
  rewrite (tensorObs_erase _ _ id Se). apply out_state, erase_sealNode, Se.
Qed.

Lemma out_of_value s1 s2 v tr : ssim s1 s2 -> sim_out (of_value sealv s1 v tr) (of_value sealv s2 v tr).
Proof. intros H. pose proof H as (E & _). unfold of_value, leaf. destruct v as [t| |]; apply out_fin; auto with simv. Qed.

Lemma out_with_rng p1 p2 rng : sim_out p1 p2 -> sim_out (with_rng p1 rng) (with_rng p2 rng).
Proof. destruct p1 as [s1 o1], p2 as [s2 o2]. intros [(E & Ev & _) Eo]. repeat split; assumption. Qed.

Lemma bp_erase (sg : option nat -> T -> T) (h : heap) root h' log r : bp_topo rd sg h root = (h', log, r) -> erase h' = erase h.
Proof.
  intros E. destruct (bp_nodes rd sg h root h' log r E) as [Hl Hn].
  apply nth_error_ext_len; [rewrite !erase_length; exact Hl|].
  intros j _. unfold erase. rewrite !nth_error_map. destruct (nth_error h j) as [n|] eqn:En.
  - destruct (Hn j n En) as (n' & Hn' & V & _). rewrite Hn'. cbn. congruence.
  - assert (X : nth_error h' j = None) by (apply nth_error_None; rewrite Hl; apply nth_error_None; exact En).
    rewrite X. reflexivity.
Qed.

Hint Resolve out_state out_seed out_fin out_of_value erase_reset : simv.

(* once environment and random source are identified, both runs inspect the same things: case
   analysis in lock step, reading values through [erase]; what remains is a pair of results of
   one tracked method, of fresh values, or of states with the same environment *)
Ltac out_cases E :=
  repeat match goal with
    | |- sim_out (match ?x with _ => _ end) (match ?x with _ => _ end) => destruct x
    | |- sim_out (if ?x then _ else _) (if ?x then _ else _) => destruct x
    | |- sim_out (match valOf ?h1 ?x with _ => _ end) _ => rewrite (valOf_erase_eq h1 _ E x)
    end.

Theorem step_values (s1 s2 : state) (c : cmd) : ssim s1 s2 -> reads_grad c = false ->
  ssim (fst (step s1 c)) (fst (step s2 c)) /\ (is_bp c = false -> snd (step s1 c) = snd (step s2 c)).
Proof.
  intros H Hc. pose proof H as (E & Ev & Er). destruct (lookup_env s1 s2 Ev) as [L La].
  destruct (is_bp c) eqn:Hb.
  { (* BackPropagate: values, environment, random source agree whatever the outcomes *)
    destruct c; try discriminate. split; [|discriminate]. unfold Scenario.step, plain, bad, push. rewrite La, Ev, Er.
    destruct (lookupArg s2 t) as [[x|]|]; [|repeat split; exact E..].
    destruct (bp_topo rd (sealg (length (st_env s2))) (st_heap s1) x) as [[h1' log1] r1] eqn:B1.
    destruct (bp_topo rd (sealg (length (st_env s2))) (st_heap s2) x) as [[h2' log2] r2] eqn:B2.
    apply bp_erase in B1, B2. destruct r1 as [[]| |], r2 as [[]| |]; repeat split; cbn [fst st_heap]; congruence. }
  enough (G : sim_out (step s1 c) (step s2 c)) by (destruct G; auto).
  destruct c; try discriminate; try rewrite !step_init; unfold Scenario.step, bad, scalarObs, plain, push; cbv beta iota zeta;
    rewrite ?L, ?La, ?Ev, ?Er.
  all: try solve [out_cases E; auto with simv].
  - (* CRandU *) destruct (negb (cfg_ok c)); [auto with simv|]. apply (out_with_rng (of_value _ _ _ _) (of_value _ _ _ _)). auto with simv.
  - (* CRandN *) destruct (negb (cfg_ok c)); [auto with simv|]. apply (out_with_rng (of_value _ _ _ _) (of_value _ _ _ _)). auto with simv.
  - (* CFCNew *)
    pose proof (sim_fc_new dFull dUniL dUniU dNorM dNorS _ _ inputs outputs wi bi (st_rng s2) E) as V. cbv zeta in V.
    destruct (fc_new dFull dUniL dUniU dNorM dNorS (st_heap s1) inputs outputs wi bi (st_rng s2)) as [[h1' r1] g1].
    destruct (fc_new dFull dUniL dUniU dNorM dNorS (st_heap s2) inputs outputs wi bi (st_rng s2)) as [[h2' r2] g2].
    cbn [fst snd] in V. destruct V as (V1 & V2 & V3). subst r2 g2. destruct r1 as [[w b]| |]; auto with simv.
  - (* CAccumulate *)
    destruct (nth_error (st_env s2) acc) as [[| | | |a|]|]; auto with simv.
    destruct (lookupArg s2 yp) as [p|]; auto with simv. destruct (lookupArg s2 yt) as [t|]; auto with simv.
    rewrite (acc_erase _ _ a p t E). out_cases E; auto with simv.
  - (* CInit *)
    destruct (sim_init dFull dUniL dUniU dNorM dNorS _ _ s shape (st_rng s2) (Some (length (st_env s2))) (Some (length (st_env s2))) E)
      as (V1 & V3).
    destruct (init_run dFull dUniL dUniU dNorM dNorS (st_heap s1) s shape (st_rng s2) (Some (length (st_env s2)))) as [[h1' r1] g1].
    destruct (init_run dFull dUniL dUniU dNorM dNorS (st_heap s2) s shape (st_rng s2) (Some (length (st_env s2)))) as [[h2' r2] g2].
    cbn [fst snd] in V1, V3. pose proof V1 as [V _]. cbn [snd] in V. subst r2 g2. auto using out_with_rng with simv.
Qed.

Fixpoint no_grad_reads (cs : list cmd) : bool :=
  match cs with [] => true | c :: r => negb (reads_grad c) && no_grad_reads r end.

Theorem exec_values (s1 s2 : state) cs : ssim s1 s2 -> no_grad_reads cs = true -> ssim (exec s1 cs) (exec s2 cs).
Proof.
  revert s1 s2. induction cs as [|c cs IH]; intros s1 s2 H Hc; cbn [StepP.exec]; [exact H|].
  cbn [no_grad_reads] in Hc. apply andb_true_iff in Hc. destruct Hc as [Hc1 Hc2]. apply negb_true_iff in Hc1.
  apply IH; [|exact Hc2]. apply (step_values s1 s2 c H Hc1).
Qed.

(* lifted to histories: same value observables at every position that is not a back-propagation *)
Theorem run_values (s1 s2 : state) cs : ssim s1 s2 -> no_grad_reads cs = true ->
  length (run_from s1 cs) = length (run_from s2 cs) /\
  forall k c, nth_error cs k = Some c -> is_bp c = false -> nth_error (run_from s1 cs) k = nth_error (run_from s2 cs) k.
Proof.
  revert s1 s2. induction cs as [|c cs IH]; intros s1 s2 H Hc; [split; [reflexivity|intros [|k]; discriminate]|].
  cbn [no_grad_reads] in Hc. apply andb_true_iff in Hc. destruct Hc as [Hc1 Hc2]. apply negb_true_iff in Hc1.
  destruct (step_values s1 s2 c H Hc1) as [G1 G2]. cbn [Scenario.run_from].
  destruct (step s1 c) as [s1' o1], (step s2 c) as [s2' o2]. cbn [fst snd] in *. destruct (IH s1' s2' G1 Hc2) as [L N].
  split; [cbn; congruence|]. intros [|k] c0 Hk Hb; cbn in *; [injection Hk as <-; rewrite (G2 Hb); reflexivity|eapply N; eauto].
Qed.

(* forward-only programs (no BackPropagate, no gradient read): ALL observables coincide *)
Corollary run_values_forward (s1 s2 : state) cs : ssim s1 s2 ->
  forallb (fun c => negb (reads_grad c) && negb (is_bp c)) cs = true -> run_from s1 cs = run_from s2 cs.
Proof.
  revert s1 s2. induction cs as [|c cs IH]; intros s1 s2 H Hc; [reflexivity|].
  cbn [forallb] in Hc. apply andb_true_iff in Hc. destruct Hc as [Hc1 Hc2]. apply andb_true_iff in Hc1. destruct Hc1 as [Hr Hb].
  apply negb_true_iff in Hr. apply negb_true_iff in Hb.
  destruct (step_values s1 s2 c H Hr) as [G1 G2]. specialize (G2 Hb).
  cbn [Scenario.run_from]. destruct (step s1 c) as [s1' o1], (step s2 c) as [s2' o2]. cbn [fst snd] in *. subst o2.
  f_equal. apply IH; assumption.
Qed.

(* for C20 ([reads_only_shared] below): a goroutine that runs forward computations only reads the VALUES of the
   shared prefix: replacing gradients, tracking flags, spent flags and back edges of the shared
   tensors (e.g. by what other goroutines' histories left there) does not change what it observes *)
Corollary reads_only_values (s1 s2 : state) prog :
  map (@nval A) (st_heap s1) = map (@nval A) (st_heap s2) -> st_env s1 = st_env s2 -> st_rng s1 = st_rng s2 ->
  forallb (fun c => negb (reads_grad c) && negb (is_bp c)) prog = true ->
  run_from s1 prog = run_from s2 prog.
Proof. intros E1 E2 E3. apply run_values_forward. repeat split; assumption. Qed.

(* the same with the syntactic class [forward_only] of Model/Conc.v *)
Corollary reads_only_shared (s1 s2 : state) prog :
  map (@nval A) (st_heap s1) = map (@nval A) (st_heap s2) -> st_env s1 = st_env s2 -> st_rng s1 = st_rng s2 ->
  forallb (@forward_only A) prog = true -> run_from s1 prog = run_from s2 prog.
Proof.
  intros E1 E2 E3 Hf. apply reads_only_values; try assumption.
  rewrite forallb_forall in Hf |- *. intros c Hc. specialize (Hf c Hc). destruct c; try discriminate; reflexivity.
Qed.


(* the tensor created by the command that took [s] to [s'] (the entry under the reserved name) *)
Definition created (s s' : state) : option nat :=
  match nth_error (st_env s') (length (st_env s)) with Some (OTensor id) => Some id | _ => None end.

Definition is_cmp (b : binary) : bool :=
  match b with BiEq | BiNe | BiGt | BiGe | BiLt | BiLe => true | _ => false end.

(* the operand tensors of the single-method commands that propagate gradient tracking *)
Definition operands (s : state) (c : cmd) : option (list nat) :=
  match c with
  | CScale t _ | CPow t _ | CMath _ t | CTranspose t | CReshape t _ | CBroadcast t _ | CUnsqueeze t _
  | CSqueeze t _ | CFlatten t _ | CAlong _ t _ | CSlice t _ => do x <- lookupT s t; Some [x]
  | CBin b t (Some u) => if is_cmp b then None else do x <- lookupT s t; do y <- lookupT s u; Some [x; y]
  | CDot t (Some u) | CMatMul t (Some u) | CPatch t _ (Some u) => do x <- lookupT s t; do y <- lookupT s u; Some [x; y]
  | CConcat ts _ => do args <- mapM (lookupArg s) ts; mapM (fun a => a) args
  | _ => None
  end.

Lemma fin_created (s : state) (r : heap * res nat) id : created s (fst (fin sealv s r)) = Some id ->
  exists h', r = (h', Ok id) /\ st_heap (fst (fin sealv s r)) = sealNode sealv h' id (length (st_env s)).
Proof.
  unfold created, fin. destruct r as [h' [id'| |]]; cbn [fst push st_env st_heap]; rewrite nth_error_snoc_new; try discriminate.
  intros [= <-]. exists h'. auto.
Qed.

Lemma plain_created (s : state) o : created s (fst (plain s o)) = None.
Proof. unfold created, plain. cbn [fst push st_env]. rewrite nth_error_snoc_new. reflexivity. Qed.

Lemma bad_created (s : state) : created s (fst (bad s)) = None.
Proof. apply (plain_created s ObBad). Qed.

Lemma sealNode_node (h : heap) id nm n : nth_error h id = Some n ->
  exists n', nth_error (sealNode sealv h id nm) id = Some n' /\ ntracked n' = ntracked n /\ ndirty n' = ndirty n /\
             ngrad n' = ngrad n /\ nedges n' = nedges n /\ nname n' = nname n /\ nval n' = sealv nm (nval n).
Proof.
  intros Hn. unfold sealNode. rewrite updNode_nth_same, Hn. cbn [option_map]. eexists. split; [reflexivity|].
  cbn. repeat split.
Qed.

(* a call whose result, if there is one, has the context the three-way rule prescribes for [ops] *)
Definition rule_on (h : heap) (ops : list nat) (nm : option nat) (r : hres) : Prop :=
  forall h' id, r = (h', Ok id) -> exists n, nth_error h' id = Some n /\ ctx_rule h ops n /\ nname n = nm.

Lemma rule_op1 (h : heap) x f mk nm : rule_on h [x] nm (h_op1 h x f mk nm).
Proof. intros h' id E. destruct (h_op1_track _ _ _ _ _ _ _ E) as (n & Hn & Hr & Hnm & _). eauto. Qed.
Lemma rule_arith (h : heap) b x u nm : rule_on h [x; u] nm (h_arith h b x u nm).
Proof. intros h' id E. destruct (h_arith_track _ _ _ _ _ _ _ E) as (n & Hn & Hr & Hnm & _). eauto. Qed.
Lemma rule_elsel (h : heap) b x u nm : rule_on h [x; u] nm (h_elsel h b x u nm).
Proof. intros h' id E. destruct (h_elsel_track _ _ _ _ _ _ _ E) as (n & Hn & Hr & Hnm & _). eauto. Qed.
Lemma rule_dot (h : heap) x u nm : rule_on h [x; u] nm (h_dot h x u nm).
Proof. intros h' id E. destruct (h_dot_track _ _ _ _ _ _ E) as (n & Hn & Hr & Hnm & _). eauto. Qed.
Lemma rule_matmul (h : heap) x u nm : rule_on h [x; u] nm (h_matmul h x u nm).
Proof. intros h' id E. destruct (h_matmul_track _ _ _ _ _ _ E) as (n & Hn & Hr & Hnm & _). eauto. Qed.
Lemma rule_patch (h : heap) x idx p nm : rule_on h [x; p] nm (h_patch h x idx p nm).
Proof. intros h' id E. destruct (h_patch_track _ _ _ _ _ _ _ E) as (n & Hn & Hr & Hnm & _). eauto. Qed.
Lemma rule_concat (h : heap) xs d nm : rule_on h xs nm (h_concat h xs d nm).
Proof. intros h' id E. destruct (h_concat_track _ _ _ _ _ _ E) as (n & Hn & Hr & Hnm & _). eauto. Qed.

(* sealing the value keeps the context *)
Lemma fin_rule (s : state) (r : heap * res nat) id ops :
  rule_on (st_heap s) ops (Some (length (st_env s))) r -> created s (fst (fin sealv s r)) = Some id ->
  exists n, nth_error (st_heap (fst (fin sealv s r))) id = Some n /\ ctx_rule (st_heap s) ops n /\
            nname n = Some (length (st_env s)).
Proof.
  intros Hr Hc. destruct (fin_created s r id Hc) as (h' & Er & Eh). destruct (Hr h' id Er) as (n & Hn & Hrule & Hnm).
  destruct (sealNode_node h' id (length (st_env s)) n Hn) as (n' & Hn' & F1 & F2 & F3 & F4 & F5 & _).
  exists n'. rewrite Eh. split; [exact Hn'|]. split; [|congruence]. unfold ctx_rule. rewrite F1, F2, F3, F4. exact Hrule.
Qed.

(* the operands are the tensors the command looks up; its result is that of one tracked method on them *)
Ltac one_call Hops Hc :=
  repeat match type of Hops with context [match ?x with _ => _ end] => destruct x; try discriminate Hops end;
  unfold lookupArg in Hc |- *;
  repeat match type of Hops with context [obind ?x _] => destruct x; try discriminate Hops; cbn [obind] in Hops, Hc |- * end;
  injection Hops as <-; apply fin_rule; [|exact Hc].

(* C08: after ANY history (in every state), the tensor created by a tracking-propagating method is
   tracked iff some operand is tracked and none is spent, spent iff some operand is spent, has no
   gradient, and has no back edge unless it is tracked *)
Theorem step_track_rule (s : state) (c : cmd) ops id :
  operands s c = Some ops -> created s (fst (step s c)) = Some id ->
  exists n, nth_error (st_heap (fst (step s c))) id = Some n /\ ctx_rule (st_heap s) ops n /\
            nname n = Some (length (st_env s)).
Proof.
  intros Hops Hc. destruct c; cbn [operands] in Hops; try discriminate; unfold Scenario.step in Hc |- *.
  all: try solve [one_call Hops Hc; apply rule_op1].
  - (* CBin *)
    destruct u as [u|]; [|discriminate]. destruct b; cbn [is_cmp] in Hops; try discriminate; one_call Hops Hc;
      first [apply rule_arith|apply rule_elsel].
  - (* CDot *) one_call Hops Hc. apply rule_dot.
  - (* CMatMul *) one_call Hops Hc. apply rule_matmul.
  - (* CPatch *) one_call Hops Hc. apply rule_patch.
  - (* CConcat *)
  destruct (mapM (lookupArg s) ts) as [args|]; [|discriminate]. cbn [obind] in Hops.
  destruct (length args <? 2); [rewrite plain_created in Hc; discriminate|].
  rewrite Hops in Hc |- *. apply fin_rule; [apply rule_concat|exact Hc].
Qed.

(* anything computed from a spent tensor is untracked, spent itself, and has no back edge *)
Corollary step_spent_operand (s : state) (c : cmd) ops id x :
  operands s c = Some ops -> created s (fst (step s c)) = Some id -> In x ops -> dirtyOf (st_heap s) x = true ->
  exists n, nth_error (st_heap (fst (step s c))) id = Some n /\ ntracked n = false /\ ndirty n = true /\ nedges n = [].
Proof.
  intros Hops Hc Hx Hd. destruct (step_track_rule s c ops id Hops Hc) as (n & Hn & Hr & _).
  exists n. split; [exact Hn|]. eapply ctx_rule_dirty; eauto.
Qed.

Corollary step_tracked_iff (s : state) (c : cmd) ops id :
  operands s c = Some ops -> created s (fst (step s c)) = Some id ->
  trackedOf (st_heap (fst (step s c))) id = true <->
  (exists x, In x ops /\ trackedOf (st_heap s) x = true) /\ (forall x, In x ops -> dirtyOf (st_heap s) x = false).
Proof.
  intros Hops Hc. destruct (step_track_rule s c ops id Hops Hc) as (n & Hn & Hr & _).
  unfold trackedOf at 1. rewrite Hn. apply ctx_rule_tracked_iff. exact Hr.
Qed.

(* a call whose result, if there is one, is an untracked tensor without history *)
Definition untracked_res (di : bool) (r : hres) : Prop :=
  forall h' id, r = (h', Ok id) ->
  exists n, nth_error h' id = Some n /\ ntracked n = false /\ nedges n = [] /\ ngrad n = None /\ ndirty n = di.

Lemma untracked_cmp (h : heap) b x u nm : untracked_res false (h_cmp h b x u nm).
Proof. intros h' id E. destruct (h_cmp_track _ _ _ _ _ _ _ E) as (n & Hn & F1 & F2 & F3 & F4 & _). eauto 6. Qed.

Lemma untracked_alloc (h : heap) v di nm : untracked_res di (let '(h', id) := alloc h v (false, di, []) nm in (h', Ok id)).
Proof. rewrite alloc_eq. intros h' id [= <- <-]. rewrite nth_error_snoc_new. eexists. split; [reflexivity|]. cbn. auto. Qed.

Lemma untracked_sgd (h : heap) lr cell nm : untracked_res true (sgd_update h lr cell nm).
Proof.
  unfold sgd_update. destruct cell as [w|]; [|discriminate]. destruct (valOf h w); [|discriminate]. destruct (gradOf h w); [|discriminate].
  match goal with |- context [match ?c with Ok _ => _ | Err => _ | Panic => _ end] => destruct c end;
    [apply untracked_alloc|discriminate..].
Qed.

Lemma untracked_sealed (r : hres) di h' id nm (h'' : heap) : untracked_res di r -> r = (h', Ok id) -> h'' = sealNode sealv h' id nm ->
  exists n, nth_error h'' id = Some n /\ ntracked n = false /\ nedges n = [] /\ ngrad n = None /\ ndirty n = di.
Proof.
  intros Hr Er ->. destruct (Hr h' id Er) as (n & Hn & F1 & F2 & F3 & F4).
  destruct (sealNode_node h' id nm n Hn) as (n' & Hn' & G1 & G2 & G3 & G4 & _). exists n'. split; [exact Hn'|]. repeat split; congruence.
Qed.

Lemma fin_untracked (s : state) (r : hres) id di : untracked_res di r -> created s (fst (fin sealv s r)) = Some id ->
  exists n, nth_error (st_heap (fst (fin sealv s r))) id = Some n /\ ntracked n = false /\ nedges n = [] /\ ngrad n = None /\ ndirty n = di.
Proof. intros Hr Hc. destruct (fin_created s r id Hc) as (h' & Er & Eh). exact (untracked_sealed _ _ _ _ _ _ Hr Er Eh). Qed.

Lemma sgd_fin_untracked (s : state) lr content k (o : nat -> obj) id :
  created s (fst (sgd_fin sealv s lr content (fun i => setNthObj (st_env s) k (o i)))) = Some id ->
  exists n, nth_error (st_heap (fst (sgd_fin sealv s lr content (fun i => setNthObj (st_env s) k (o i))))) id = Some n /\
    ntracked n = false /\ nedges n = [] /\ ngrad n = None /\ ndirty n = true.
Proof.
  unfold sgd_fin. destruct (sgd_update (st_heap s) lr content (Some (length (st_env s)))) as [h' [i| |]] eqn:Er;
    [|rewrite plain_created; discriminate..].
  unfold created. cbn [fst st_env st_heap]. rewrite nth_error_app2 by (rewrite setNthObj_length; lia).
  rewrite setNthObj_length, Nat.sub_diag. intros [= <-]. exact (untracked_sealed _ _ _ _ _ _ (untracked_sgd _ _ _ _) Er eq_refl).
Qed.

(* comparisons, gradient tensors and optimizer results are never tracked *)
Theorem step_untracked (s : state) (c : cmd) id :
  (match c with CBin b _ _ => is_cmp b | CGradOf _ => true | CSGDUpdate _ _ => true | _ => false end) = true ->
  created s (fst (step s c)) = Some id ->
  exists n, nth_error (st_heap (fst (step s c))) id = Some n /\ ntracked n = false /\ nedges n = [] /\ ngrad n = None /\
            ndirty n = (match c with CBin _ _ _ => false | _ => true end).
Proof.
  intros Hk Hc. destruct c; try discriminate; unfold Scenario.step in Hc |- *.
  - (* comparison *)
    destruct (lookupT s t) as [x|]; [|rewrite bad_created in Hc; discriminate].
    destruct (lookupArg s u) as [[y|]|]; [|rewrite plain_created in Hc; discriminate|rewrite bad_created in Hc; discriminate].
    destruct b; try discriminate; (apply fin_untracked; [apply untracked_cmp|exact Hc]).
  - (* Gradient() *)
    destruct (lookupT s t) as [x|]; [|rewrite bad_created in Hc; discriminate].
    destruct (gradOf (st_heap s) x) as [g|]; [|rewrite plain_created in Hc; discriminate].
    apply fin_untracked; [apply untracked_alloc|exact Hc].
  - (* SGD Update *)
    destruct (nth_error (st_env s) sgd) as [[| | |lr| |]|]; try (rewrite bad_created in Hc; discriminate).
    destruct cell as [fc|fc|cl|]; [| | |rewrite plain_created in Hc; discriminate];
      (destruct (nth_error (st_env s) _) as [[]|]; try (rewrite bad_created in Hc; discriminate));
      exact (sgd_fin_untracked _ _ _ _ _ _ Hc).
Qed.

(* the same statements about the states reached by arbitrary histories from the empty state *)
Corollary history_track_rule (cs : list cmd) (c : cmd) ops id :
  let s := exec init_state cs in
  operands s c = Some ops -> created s (fst (step s c)) = Some id ->
  exists n, nth_error (st_heap (exec init_state (cs ++ [c]))) id = Some n /\ ctx_rule (st_heap s) ops n.
Proof.
  cbv zeta. intros Hops Hc. rewrite exec_app. cbn [StepP.exec].
  destruct (step_track_rule _ c ops id Hops Hc) as (n & Hn & Hr & _). exists n. auto.
Qed.

End HistoryP.

Module HistoryEx.
Import TrackEx StepEx.
#[local] Existing Instance Z_scalar.
Local Open Scope Z_scope.

(* two states with the same values but different contexts: in the second one x was back-propagated
   through (spent, has a gradient) and c is tracked *)
Definition sA : @state Z := execZ init_state [CLeaf [2%nat] [3; 5] true; CLeaf [2%nat] [1; 1] false; CNop; CNop].
Definition sB : @state Z := execZ init_state [CLeaf [2%nat] [3; 5] true; CLeaf [2%nat] [1; 1] true; CBackprop (Some 0%nat); CReset 1 true].

Definition fwd : list (@cmd Z) := [CScale 0 (2, 0); CBin BiAdd 4 (Some 1%nat); CBin BiGt 0 (Some 1%nat); CReduce RdSum 5; CAct AkRelu [Some 5%nat]].

Example ex_ssim : ssim sA sB /\ StepEx.flagsOf (st_heap sA) <> StepEx.flagsOf (st_heap sB).
Proof. split; [vm_compute; repeat split|vm_compute; discriminate]. Qed.

Example ex_run_values : runZ sA fwd = runZ sB fwd /\
  runZ sA fwd = [ObTensor [2%nat] [6; 10]; ObTensor [2%nat] [7; 11]; ObTensor [2%nat] [1; 1]; ObScalar 18; ObTensor [2%nat] [7; 11]] /\
  StepEx.flagsOf (st_heap (execZ sA fwd)) <> StepEx.flagsOf (st_heap (execZ sB fwd)).
Proof.
  split; [|split; [vm_compute; reflexivity|vm_compute; discriminate]].
  apply run_values_forward; [apply ex_ssim|reflexivity].
Qed.

(* the tracking rule on the same two states: x*2 is tracked in sA; in sB it is computed from a spent tensor *)
Example ex_rule :
  trackedOf (st_heap (fst (stepZ sA (CScale 0 (2, 0))))) 2 = true /\
  trackedOf (st_heap (fst (stepZ sB (CScale 0 (2, 0))))) 2 = false /\ dirtyOf (st_heap (fst (stepZ sB (CScale 0 (2, 0))))) 2 = true.
Proof.
  split.
  - apply (step_tracked_iff RedSum idv idg 0 1 d0 d0 d0 d0 d0 d0 d0 0 sA (CScale 0 (2, 0)) [0%nat] 2 eq_refl eq_refl).
    split; [exists 0%nat; split; [left; reflexivity|reflexivity]|]. intros x [<-|[]]. reflexivity.
  - destruct (step_spent_operand RedSum idv idg 0 1 d0 d0 d0 d0 d0 d0 d0 0 sB (CScale 0 (2, 0)) [0%nat] 2 0 eq_refl eq_refl
                (or_introl eq_refl) eq_refl) as (n & Hn & H1 & H2 & _).
    unfold trackedOf, dirtyOf. rewrite Hn. auto.
Qed.
End HistoryEx.

Create HintDb flagsim discriminated.
#[export] Hint Constants Opaque : flagsim.

Section Flags.
Context {A : Type} {SA : Scalar A}.
Notation T := (tensor A).
Notation heap := (@heap A).
Notation node := (@node A).
Notation rule := (@rule A).
Notation hres := (@hres A).

(* the abstract flag state of a heap *)
Definition nflag (n : node) : bool * bool * list nat := (ntracked n, ndirty n, map fst (nedges n)).
Definition flags (h : heap) : list (bool * bool * list nat) := map nflag h.

Lemma flags_length (h : heap) : length (flags h) = length h.
Proof. apply map_length. Qed.
Lemma flags_eq_length (h1 h2 : heap) : flags h1 = flags h2 -> length h1 = length h2.
Proof. intros E. rewrite <- (flags_length h1), <- (flags_length h2), E. reflexivity. Qed.
Lemma flags_app (h l : heap) : flags (h ++ l) = flags h ++ flags l.
Proof. apply map_app. Qed.

Lemma flags_nth (h1 h2 : heap) i : flags h1 = flags h2 ->
  option_map nflag (nth_error h1 i) = option_map nflag (nth_error h2 i).
Proof. intros E. rewrite <- !nth_error_map. fold (flags h1). fold (flags h2). rewrite E. reflexivity. Qed.

Lemma flags_node (h1 h2 : heap) : flags h1 = flags h2 -> forall i,
  trackedOf h1 i = trackedOf h2 i /\ dirtyOf h1 i = dirtyOf h2 i /\ map fst (edgesOf h1 i) = map fst (edgesOf h2 i).
Proof.
  intros E i. pose proof (flags_nth h1 h2 i E) as X. unfold trackedOf, dirtyOf, edgesOf.
  destruct (nth_error h1 i) as [n1|], (nth_error h2 i) as [n2|]; cbn in X; try discriminate; [|auto].
  injection X as -> -> ->. auto.
Qed.

Lemma existsb_ext' {X} (f g : X -> bool) l : (forall x, f x = g x) -> existsb f l = existsb g l.
Proof. intros H. induction l as [|a l IH]; cbn; [reflexivity|]. rewrite H, IH. reflexivity. Qed.

(* the context of a result is a function of the operands' flags and the edge targets *)
Lemma nflag_ctx (h1 h2 : heap) ops (es1 es2 : list (nat * rule)) v1 v2 n1 n2 :
  flags h1 = flags h2 -> map fst es1 = map fst es2 ->
  nflag (ctxNode v1 (mkCtx h1 ops es1) n1) = nflag (ctxNode v2 (mkCtx h2 ops es2) n2).
Proof.
  intros E Ee. unfold mkCtx.
  rewrite (existsb_ext' _ _ ops (fun i => proj1 (proj2 (flags_node h1 h2 E i)))), (existsb_ext' _ _ ops (fun i => proj1 (flags_node h1 h2 E i))).
  destruct (existsb (dirtyOf h2) ops); [reflexivity|]. destruct (existsb (trackedOf h2) ops); cbn; [|reflexivity].
  unfold nflag; cbn. rewrite Ee. reflexivity.
Qed.

Lemma flags_snoc_ctx (h1 h2 : heap) ops (es1 es2 : list (nat * rule)) v1 v2 n1 n2 :
  flags h1 = flags h2 -> map fst es1 = map fst es2 ->
  flags (h1 ++ [ctxNode v1 (mkCtx h1 ops es1) n1]) = flags (h2 ++ [ctxNode v2 (mkCtx h2 ops es2) n2]).
Proof.
  intros E Ee. rewrite !flags_app. rewrite E. f_equal. cbn. f_equal. apply nflag_ctx; assumption.
Qed.

(* two runs of (possibly different, value-wise) methods agree on the flags whenever both succeed *)
Definition FS (r1 r2 : hres) : Prop :=
  forall id1 id2, snd r1 = Ok id1 -> snd r2 = Ok id2 -> id1 = id2 /\ flags (fst r1) = flags (fst r2).

Lemma FS_fail_l (r1 r2 : hres) : (forall id, snd r1 <> Ok id) -> FS r1 r2.
Proof. intros H id1 id2 E1 _. exfalso. apply (H id1 E1). Qed.
Lemma FS_fail_r (r1 r2 : hres) : (forall id, snd r2 <> Ok id) -> FS r1 r2.
Proof. intros H id1 id2 _ E2. exfalso. apply (H id2 E2). Qed.

Hint Extern 1 (FS (_, _) _) => apply FS_fail_l; discriminate : flagsim.
Hint Extern 1 (FS _ (_, _)) => apply FS_fail_r; discriminate : flagsim.

Lemma FS_bind (r1 r2 : hres) (f1 f2 : heap -> nat -> hres) :
  FS r1 r2 -> (forall h1 h2 id, flags h1 = flags h2 -> FS (f1 h1 id) (f2 h2 id)) -> FS (hbind r1 f1) (hbind r2 f2).
Proof.
  intros H Hf. destruct r1 as [h1 [i1| |]], r2 as [h2 [i2| |]]; cbn [hbind]; auto with flagsim.
  destruct (H i1 i2 eq_refl eq_refl) as [-> E]. apply Hf. exact E.
Qed.

Lemma FS_atomically (h1 h2 : heap) (r1 r2 : hres) : FS r1 r2 -> FS (atomically h1 r1) (atomically h2 r2).
Proof.
  intros H. destruct r1 as [k1 [i1| |]], r2 as [k2 [i2| |]]; cbn [atomically]; auto with flagsim.
Qed.

(* [r], if it succeeds, appends to [h] one node with the context of a result computed from [ops],
   its back edges pointing at [tg] *)
Definition appends (h : heap) (ops tg : list nat) (r : hres) : Prop :=
  forall k id, r = (k, Ok id) -> id = length h /\
    exists v es nm, map fst es = tg /\ k = h ++ [ctxNode v (mkCtx h ops es) nm].

Lemma FS_appends (h1 h2 : heap) ops tg (r1 r2 : hres) : flags h1 = flags h2 ->
  appends h1 ops tg r1 -> appends h2 ops tg r2 -> FS r1 r2.
Proof.
  intros E S1 S2 id1 id2 E1 E2. destruct r1 as [k1 q1], r2 as [k2 q2]. cbn [fst snd] in *. subst q1 q2.
  destruct (S1 _ _ eq_refl) as (-> & v1 & es1 & m1 & T1 & ->), (S2 _ _ eq_refl) as (-> & v2 & es2 & m2 & T2 & ->).
  split; [apply flags_eq_length, E|]. apply flags_snoc_ctx; [exact E|congruence].
Qed.

Lemma appends_op1 (h : heap) x f mk nm : appends h [x] [x] (h_op1 h x f mk nm).
Proof. intros k id I. apply h_op1_inv in I. destruct I as (xv & v & _ & _ & -> & ->). split; [reflexivity|]. eexists _, _, _. split; [|reflexivity]. reflexivity. Qed.
Lemma appends_cmp (h : heap) b x u nm : appends h [] [] (h_cmp h b x u nm).
Proof. intros k id I. apply h_cmp_inv in I. destruct I as (xv & uv & v & _ & _ & _ & -> & ->). split; [reflexivity|]. exists v, [], nm. split; reflexivity. Qed.
Lemma appends_elsel (h : heap) b x u nm : appends h [x; u] [x; u] (h_elsel h b x u nm).
Proof. intros k id I. apply h_elsel_inv in I. destruct I as (xv & uv & v & _ & _ & _ & -> & ->). split; [reflexivity|]. eexists _, _, _. split; [|reflexivity]. reflexivity. Qed.
Lemma appends_patch (h : heap) x idx p nm : appends h [x; p] [x; p] (h_patch h x idx p nm).
Proof. intros k id I. apply h_patch_inv in I. destruct I as (xv & pv & v & _ & _ & _ & -> & ->). split; [reflexivity|]. eexists _, _, _. split; [|reflexivity]. reflexivity. Qed.

Lemma concat_targets y d (xs : list nat) (vs : list T) base : length vs = length xs ->
  map fst (concatEdges y d (combine xs vs) base) = xs.
Proof.
  intros Hl. rewrite concatEdges_map_fst. revert vs Hl. induction xs as [|x xs IH]; intros [|v vs] Hl; cbn in *; try discriminate; [reflexivity|].
  f_equal. apply IH. congruence.
Qed.

Lemma appends_concat (h : heap) xs d nm : appends h xs xs (h_concat h xs d nm).
Proof.
  intros k id I. apply h_concat_inv in I. destruct I as (vs & v & M & _ & -> & ->). split; [reflexivity|]. eexists _, _, _.
  split; [|reflexivity]. apply concat_targets, (mapM_length _ _ _ M).
Qed.

Lemma FS_op1 (h1 h2 : heap) x f1 f2 mk1 mk2 n1 n2 : flags h1 = flags h2 ->
  FS (h_op1 h1 x f1 mk1 n1) (h_op1 h2 x f2 mk2 n2).
Proof. intros E. eapply FS_appends; [exact E|apply appends_op1..]. Qed.
Lemma FS_cmp (h1 h2 : heap) b1 b2 x1 x2 u1 u2 n1 n2 : flags h1 = flags h2 ->
  FS (h_cmp h1 b1 x1 u1 n1) (h_cmp h2 b2 x2 u2 n2).
Proof. intros E. eapply FS_appends; [exact E|apply appends_cmp..]. Qed.
Lemma FS_elsel (h1 h2 : heap) b1 b2 x u n1 n2 : flags h1 = flags h2 ->
  FS (h_elsel h1 b1 x u n1) (h_elsel h2 b2 x u n2).
Proof. intros E. eapply FS_appends; [exact E|apply appends_elsel..]. Qed.
Lemma FS_patch (h1 h2 : heap) x i1 i2 p n1 n2 : flags h1 = flags h2 ->
  FS (h_patch h1 x i1 p n1) (h_patch h2 x i2 p n2).
Proof. intros E. eapply FS_appends; [exact E|apply appends_patch..]. Qed.
Lemma FS_concat (h1 h2 : heap) xs d1 d2 n1 n2 : flags h1 = flags h2 ->
  FS (h_concat h1 xs d1 n1) (h_concat h2 xs d2 n2).
Proof. intros E. eapply FS_appends; [exact E|apply appends_concat..]. Qed.

Lemma FS_binop (h1 h2 : heap) x u s1 s2 s1' s2' f1 f2 ed1 ed2 n1 n2 : flags h1 = flags h2 ->
  (forall y y' a1 a2, map fst (ed1 y a1 a2) = map fst (ed2 y' a1 a2)) ->
  FS (h_binop h1 x u s1 s2 f1 ed1 n1) (h_binop h2 x u s1' s2' f2 ed2 n2).
Proof.
  intros E Hed id1 id2 E1 E2.
  destruct (h_binop h1 x u s1 s2 f1 ed1 n1) as [k1 r1] eqn:I1. destruct (h_binop h2 x u s1' s2' f2 ed2 n2) as [k2 r2] eqn:I2.
  cbn [fst snd] in *. subst r1 r2. apply h_binop_inv in I1. apply h_binop_inv in I2.
  destruct I1 as (? & ? & a1 & a2 & a & _ & _ & _ & _ & _ & -> & ->).
  destruct I2 as (? & ? & b1 & b2 & b & _ & _ & _ & _ & _ & -> & ->).
  pose proof (flags_eq_length _ _ E) as L. split; [congruence|].
  assert (N1 : nflag (bnode1 h1 x a1) = nflag (bnode1 h2 x b1)).
  { unfold bnode1. apply nflag_ctx; [exact E|reflexivity]. }
  assert (F1 : flags (h1 ++ [bnode1 h1 x a1]) = flags (h2 ++ [bnode1 h2 x b1])).
  { rewrite !flags_app, E. cbn. rewrite N1. reflexivity. }
  assert (N2 : nflag (bnode2 h1 x u a1 a2) = nflag (bnode2 h2 x u b1 b2)).
  { unfold bnode2. apply nflag_ctx; [exact F1|reflexivity]. }
  assert (F2 : flags (h1 ++ [bnode1 h1 x a1] ++ [bnode2 h1 x u a1 a2]) = flags (h2 ++ [bnode1 h2 x b1] ++ [bnode2 h2 x u b1 b2])).
  { rewrite !flags_app, E. cbn. rewrite N1, N2. reflexivity. }
  assert (N3 : nflag (rnode h1 x u a1 a2 a ed1 n1) = nflag (rnode h2 x u b1 b2 b ed2 n2)).
  { unfold rnode. cbv zeta. rewrite L. apply nflag_ctx; [exact F2|apply Hed]. }
  rewrite !flags_app, E. cbn. rewrite N1, N2, N3. reflexivity.
Qed.

Lemma arith_targets b y y' a1 a2 : map fst (@arithEdges A b y a1 a2) = map fst (@arithEdges A b y' a1 a2).
Proof. destruct b; reflexivity. Qed.

Lemma FS_arith (h1 h2 : heap) b x u n1 n2 : flags h1 = flags h2 -> FS (h_arith h1 b x u n1) (h_arith h2 b x u n2).
Proof.
  intros E. unfold h_arith. destruct (valOf h1 x), (valOf h1 u), (valOf h2 x), (valOf h2 u); auto with flagsim.
  apply FS_binop; [exact E|]. intros. apply arith_targets.
Qed.

Lemma FS_dot (h1 h2 : heap) x u n1 n2 : flags h1 = flags h2 -> FS (h_dot h1 x u n1) (h_dot h2 x u n2).
Proof.
  intros E. unfold h_dot. destruct (valOf h1 x) as [a1|], (valOf h1 u) as [a2|], (valOf h2 x) as [b1|], (valOf h2 u) as [b2|]; auto with flagsim.
  destruct (validateDotProductDims (zdims a1) (zdims a2)), (validateDotProductDims (zdims b1) (zdims b2)); auto with flagsim.
  apply FS_binop; [exact E|reflexivity].
Qed.

Lemma FS_matmul (h1 h2 : heap) x u n1 n2 : flags h1 = flags h2 -> FS (h_matmul h1 x u n1) (h_matmul h2 x u n2).
Proof.
  intros E. unfold h_matmul. destruct (valOf h1 x) as [a1|], (valOf h1 u) as [a2|], (valOf h2 x) as [b1|], (valOf h2 u) as [b2|]; auto with flagsim.
  destruct (validateMatMulDims (zdims a1) (zdims a2)), (validateMatMulDims (zdims b1) (zdims b2)); auto with flagsim.
  apply FS_binop; [exact E|reflexivity].
Qed.

Lemma FS_alloc0 (h1 h2 : heap) v1 v2 tr di n1 n2 : flags h1 = flags h2 ->
  FS (let '(h', id) := alloc h1 v1 (tr, di, []) n1 in (h', Ok id)) (let '(h', id) := alloc h2 v2 (tr, di, []) n2 in (h', Ok id)).
Proof.
  intros E id1 id2. rewrite !alloc_eq. cbn [fst snd]. intros X1 X2. inversion X1; inversion X2; subst.
  split; [apply flags_eq_length; exact E|]. rewrite !flags_app, E. reflexivity.
Qed.

End Flags.

(* [FS] holds of every tracked method run on flag-equal heaps and is closed under [hbind], [atomically]
   and failure on either side *)
#[export] Hint Resolve FS_bind FS_atomically FS_cmp FS_elsel FS_arith FS_dot FS_matmul FS_patch FS_concat : flagsim.
#[export] Hint Extern 1 (FS (_, _) _) => apply FS_fail_l; discriminate : flagsim.
#[export] Hint Extern 1 (FS _ (_, _)) => apply FS_fail_r; discriminate : flagsim.
#[export] Hint Extern 1 (FS (match _ with _ => _ end) _) => apply FS_alloc0 : flagsim.
#[export] Hint Extern 3 (FS _ _) => apply FS_op1 : flagsim.

Section FlagsComponents.
Context {A : Type} {SA : Scalar A}.
Notation heap := (@heap A).

Lemma FS_clip (h1 h2 : heap) x l1 u1 l2 u2 : flags h1 = flags h2 -> FS (clip h1 x l1 u1) (clip h2 x l2 u2).
Proof. intros E. unfold clip. auto 8 with flagsim. Qed.
Hint Resolve FS_clip : flagsim.

Lemma FS_fc_forward (h1 h2 : heap) w b xs n1 n2 : flags h1 = flags h2 -> FS (fc_forward h1 w b xs n1) (fc_forward h2 w b xs n2).
Proof.
  intros E. unfold fc_forward. destruct (oneInput xs) as [x|]; [|auto with flagsim].
  destruct (negb (rankOf h1 x =? 2)), (negb (rankOf h2 x =? 2)); auto 8 with flagsim.
Qed.

Lemma FS_relu (h1 h2 : heap) xs n1 n2 : flags h1 = flags h2 -> FS (relu_forward h1 xs n1) (relu_forward h2 xs n2).
Proof. intros E. unfold relu_forward. destruct (oneInput xs); auto 8 with flagsim. Qed.

Lemma FS_leaky (h1 h2 : heap) m1 m2 xs n1 n2 : flags h1 = flags h2 -> FS (leaky_forward h1 m1 xs n1) (leaky_forward h2 m2 xs n2).
Proof. intros E. unfold leaky_forward. destruct (oneInput xs); auto 8 with flagsim. Qed.

Lemma FS_sigmoid (h1 h2 : heap) xs n1 n2 : flags h1 = flags h2 -> FS (sigmoid_forward h1 xs n1) (sigmoid_forward h2 xs n2).
Proof. intros E. unfold sigmoid_forward. destruct (oneInput xs); auto 8 with flagsim. Qed.

Lemma FS_tanh (h1 h2 : heap) xs n1 n2 : flags h1 = flags h2 -> FS (tanh_forward h1 xs n1) (tanh_forward h2 xs n2).
Proof. intros E. unfold tanh_forward. destruct (oneInput xs); auto with flagsim. Qed.

Lemma FS_softmax (h1 h2 : heap) d xs n1 n2 : flags h1 = flags h2 -> FS (softmax_forward h1 d xs n1) (softmax_forward h2 d xs n2).
Proof.
  intros E. unfold softmax_forward. destruct (oneInput xs) as [x|]; [|auto with flagsim].
  destruct (rankOf h1 x <=? d), (rankOf h2 x <=? d); auto 8 with flagsim.
Qed.

Lemma lossArgs1_some (h : heap) yp yt p t : lossArgs1 h yp yt = Some (p, t) -> yp = Some p /\ yt = Some t.
Proof.
  unfold lossArgs1. destruct yp as [p'|]; [|discriminate]. destruct yt as [t'|]; [|discriminate].
  destruct (_ && _); [|discriminate]. intros [= <- <-]. auto.
Qed.

(* both runs pass the guard on the same two tensors *)
Ltac same_args L1 L2 := apply lossArgs1_some in L1, L2; destruct L1 as [-> ->], L2 as [[= ->] [= ->]].

Lemma FS_mse (h1 h2 : heap) yp yt n1 n2 : flags h1 = flags h2 -> FS (mse_compute h1 yp yt n1) (mse_compute h2 yp yt n2).
Proof.
  intros E. unfold mse_compute.
  destruct (lossArgs1 h1 yp yt) as [[p t]|] eqn:L1, (lossArgs1 h2 yp yt) as [[p' t']|] eqn:L2; auto with flagsim.
  same_args L1 L2. auto 8 with flagsim.
Qed.

Lemma FS_bce e1 e2 e1' e2' (h1 h2 : heap) yp yt n1 n2 : flags h1 = flags h2 ->
  FS (bce_compute e1 e2 h1 yp yt n1) (bce_compute e1' e2' h2 yp yt n2).
Proof.
  intros E. unfold bce_compute.
  destruct (lossArgs1 h1 yp yt) as [[p t]|] eqn:L1, (lossArgs1 h2 yp yt) as [[p' t']|] eqn:L2; auto with flagsim.
  same_args L1 L2. auto 16 with flagsim.
Qed.

Lemma FS_ce e1 e2 e1' e2' (h1 h2 : heap) yp yt n1 n2 : flags h1 = flags h2 ->
  FS (ce_compute e1 e2 h1 yp yt n1) (ce_compute e1' e2' h2 yp yt n2).
Proof.
  intros E. unfold ce_compute. destruct yp as [p|]; [|auto with flagsim]. destruct yt as [t|]; [|auto with flagsim].
  match goal with |- FS (if ?c then _ else _) (if ?c' then _ else _) => destruct c, c' end; auto 16 with flagsim.
Qed.

Lemma FS_sgd (h1 h2 : heap) lr1 lr2 cell n1 n2 : flags h1 = flags h2 -> FS (sgd_update h1 lr1 cell n1) (sgd_update h2 lr2 cell n2).
Proof.
  intros E. unfold sgd_update. destruct cell as [w|]; [|auto with flagsim].
  destruct (valOf h1 w), (gradOf h1 w), (valOf h2 w), (gradOf h2 w); auto with flagsim.
  match goal with |- FS (match ?c with Ok _ => _ | Err => _ | Panic => _ end) (match ?c' with Ok _ => _ | Err => _ | Panic => _ end) =>
    destruct c, c' end; auto with flagsim.
Qed.

Lemma FS_init d1 d2 d3 d4 d5 (h1 h2 : heap) sp shape p1 p2 n1 n2 : flags h1 = flags h2 ->
  FS (fst (init_run d1 d2 d3 d4 d5 h1 sp shape p1 n1)) (fst (init_run d1 d2 d3 d4 d5 h2 sp shape p2 n2)).
Proof.
  intros E. unfold init_run, leaf. destruct (negb (init_valid d2 d3 d5 sp)); [cbn; auto with flagsim|].
  destruct (init_value d1 d2 d3 d4 d5 sp shape p1) as [v1| |], (init_value d1 d2 d3 d4 d5 sp shape p2) as [v2| |]; try (cbn; auto with flagsim).
  pose proof (FS_alloc0 h1 h2 v1 v2 true false n1 n2 E) as H. rewrite !alloc_eq in *. exact H.
Qed.

Lemma FS_fc_new d1 d2 d3 d4 d5 (h1 h2 : heap) i o wi bi p1 p2 k1 k2 wb1 wb2 q1 q2 : flags h1 = flags h2 ->
  fc_new d1 d2 d3 d4 d5 h1 i o wi bi p1 = (k1, Ok wb1, q1) ->
  fc_new d1 d2 d3 d4 d5 h2 i o wi bi p2 = (k2, Ok wb2, q2) -> wb1 = wb2 /\ flags k1 = flags k2.
Proof.
  intros E. rewrite !fc_new_eq. destruct (fc_specs i o wi bi) as [[ws bs]|]; [|discriminate]. unfold fc_inits.
  pose proof (FS_init d1 d2 d3 d4 d5 h1 h2 ws [o] p1 p2 None None E) as F1.
  destruct (init_run d1 d2 d3 d4 d5 h1 ws [o] p1 None) as [[m1 [w1| |]] pp1]; try discriminate.
  destruct (init_run d1 d2 d3 d4 d5 h2 ws [o] p2 None) as [[m2 [w2| |]] pp2]; try discriminate.
  destruct (F1 w1 w2 eq_refl eq_refl) as [-> E'].
  pose proof (FS_init d1 d2 d3 d4 d5 m1 m2 bs [o] pp1 pp2 None None E') as F2.
  destruct (init_run d1 d2 d3 d4 d5 m1 bs [o] pp1 None) as [[mm1 [b1| |]] ppp1]; try discriminate.
  destruct (init_run d1 d2 d3 d4 d5 m2 bs [o] pp2 None) as [[mm2 [b2| |]] ppp2]; try discriminate.
  destruct (F2 b1 b2 eq_refl eq_refl) as [-> E'']. intros [= <- <- _] [= <- <- _]. auto.
Qed.

End FlagsComponents.

#[export] Hint Resolve FS_clip FS_fc_forward FS_relu FS_leaky FS_sigmoid FS_tanh FS_softmax FS_mse FS_bce FS_ce FS_sgd : flagsim.

Section FlagsP.
Context {A : Type} {SA : Scalar A}.
Notation T := (tensor A).
Notation heap := (@heap A).
Notation node := (@node A).
Notation rule := (@rule A).
Notation hres := (@hres A).
Notation state := (@state A).
Notation cmd := (@cmd A).
Notation obj := (@obj A).
Notation obs := (@obs A).

Lemma flags_updNode_same (h : heap) i f : (forall n, nflag (f n) = nflag n) -> flags (updNode h i f) = flags h.
Proof.
  intros Hf. apply nth_error_ext_len; [rewrite !flags_length; apply updNode_length|].
  intros j _. unfold flags. rewrite !nth_error_map, updNode_nth. destruct (nth_error h j) as [n|]; [|reflexivity].
  cbn. destruct (j =? i); [rewrite Hf|]; reflexivity.
Qed.

Lemma flags_reset (h1 h2 : heap) x b : flags h1 = flags h2 -> flags (h_reset h1 x b) = flags (h_reset h2 x b).
Proof.
  intros E. apply nth_error_ext_len.
  - rewrite !flags_length. unfold h_reset. rewrite !updNode_length. apply flags_eq_length. exact E.
  - intros j _. unfold flags, h_reset. rewrite !nth_error_map, !updNode_nth.
    pose proof (flags_nth h1 h2 j E) as X.
    destruct (nth_error h1 j) as [n1|], (nth_error h2 j) as [n2|]; cbn in X |- *; try discriminate; [|reflexivity].
    destruct (j =? x); [reflexivity|]. congruence.
Qed.

Definition dflag (b : bool) (f : bool * bool * list nat) : bool * bool * list nat :=
  if b then (fst (fst f), true, snd f) else f.

Lemma flags_markDirty_nth (h : heap) l j :
  nth_error (flags (markDirty h l)) j = option_map (dflag (memb j l)) (nth_error (flags h) j).
Proof.
  unfold flags. rewrite !nth_error_map, markDirty_nth. destruct (nth_error h j) as [n|]; [|reflexivity].
  cbn. destruct (memb j l); reflexivity.
Qed.

Lemma flags_markDirty (h1 h2 : heap) l : flags h1 = flags h2 -> flags (markDirty h1 l) = flags (markDirty h2 l).
Proof.
  intros E. apply nth_error_ext_len.
  - rewrite !flags_length, !markDirty_length. apply flags_eq_length. exact E.
  - intros j _. rewrite !flags_markDirty_nth, E. reflexivity.
Qed.

Lemma flags_markDirty_nil (h : heap) : flags (markDirty h []) = flags h.
Proof.
  apply nth_error_ext_len; [rewrite !flags_length; apply markDirty_length|].
  intros j _. rewrite flags_markDirty_nth. cbn. destruct (nth_error (flags h) j); reflexivity.
Qed.

Lemma same_skel_flags (h h' : heap) : same_skel h h' -> flags h = flags h'.
Proof.
  intros E. unfold same_skel in E. unfold flags.
  assert (X : forall k : heap, map nflag k = map (fun sk : T * bool * bool * list (nat * rule) * option nat =>
              (snd (fst (fst (fst sk))), snd (fst (fst sk)), map fst (snd (fst sk)))) (map skel k)).
  { intros k. rewrite map_map. apply map_ext. intros n. reflexivity. }
  rewrite !X, E. reflexivity.
Qed.

Lemma fold_left_targets {S} (F : nat -> S -> S) (es : list (nat * rule)) (init : S) :
  fold_left (fun s e => F (fst e) s) es init = fold_left (fun s t => F t s) (map fst es) init.
Proof. revert init. induction es as [|e es IH]; intros init; cbn; [reflexivity|apply IH]. Qed.

Lemma dfs_flags (h1 h2 : heap) : flags h1 = flags h2 -> forall fuel n st, dfs fuel h1 n st = dfs fuel h2 n st.
Proof.
  intros E. induction fuel as [|f IH]; intros n st; [reflexivity|]. cbn [dfs].
  destruct (flags_node _ _ E n) as (-> & _ & Et). destruct (negb (trackedOf h2 n) || memb n (fst st)); [reflexivity|].
  rewrite !(fold_left_targets (fun t s => dfs f _ t s)), Et.
  assert (X : forall l init, fold_left (fun s t => dfs f h1 t s) l init = fold_left (fun s t => dfs f h2 t s) l init).
  { induction l as [|t l IHl]; intros init; cbn; [reflexivity|]. rewrite IH. apply IHl. }
  rewrite X. reflexivity.
Qed.

(* the visiting order of a back-propagation is a function of the flags *)
Lemma topoOrder_flags (h1 h2 : heap) x : flags h1 = flags h2 -> topoOrder h1 x = topoOrder h2 x.
Proof. intros E. unfold topoOrder. rewrite (dfs_flags h1 h2 E). reflexivity. Qed.

Lemma bp_flags_ok rd sg (h : heap) root h' log : bp_topo rd sg h root = (h', log, Ok tt) ->
  flags h' = flags (markDirty h (topoOrder h root)).
Proof.
  intros E. destruct (bp_skel rd sg h root h' log _ E) as [[-> Ht]|Sk]; [|symmetry; apply same_skel_flags, Sk].
  rewrite topoOrder_untracked by auto. symmetry. apply flags_markDirty_nil.
Qed.

Variable rd : bred.
Variable sealv : nat -> T -> T.
Variable sealg : nat -> option nat -> T -> T.
Variables (c_eps c_one_m_eps : A) (c_leaky c_sgd_lr dFull dUniL dUniU dNorM dNorS : dec) (c_softmax_dim : Z).
Notation step := (step rd sealv sealg c_eps c_one_m_eps c_leaky c_sgd_lr dFull dUniL dUniU dNorM dNorS c_softmax_dim).
Notation exec := (exec rd sealv sealg c_eps c_one_m_eps c_leaky c_sgd_lr dFull dUniL dUniU dNorM dNorS c_softmax_dim).

(* API objects up to their numeric payload *)
Inductive oshape := SNone | STensor (id : nat) | SFC (w b : option nat) | SSGD | SAcc | SCell (t : option nat).
Definition shapeOf (o : obj) : oshape :=
  match o with
  | ONone => SNone | OTensor id => STensor id | OFC w b => SFC w b | OSGD _ => SSGD | OAcc _ => SAcc | OCell t => SCell t
  end.

Definition fssim (s1 s2 : state) : Prop :=
  flags (st_heap s1) = flags (st_heap s2) /\ map shapeOf (st_env s1) = map shapeOf (st_env s2).

(* the shape-level outcome of a command: did the call deliver its result? *)
Definition okObs (o : obs) : bool := match o with ObErr | ObPanic | ObBad | ObNil => false | _ => true end.

Definition flags_out (p1 p2 : state * obs) : Prop := okObs (snd p1) = okObs (snd p2) -> fssim (fst p1) (fst p2).

Lemma shape_length (e1 e2 : list obj) : map shapeOf e1 = map shapeOf e2 -> length e1 = length e2.
Proof. intros E. rewrite <- (map_length shapeOf e1), <- (map_length shapeOf e2), E. reflexivity. Qed.

(* what two environments of the same shape hold under one name *)
Inductive same_kind : option obj -> option obj -> Prop :=
| SkMissing : same_kind None None
| SkNone : same_kind (Some ONone) (Some ONone)
| SkTensor id : same_kind (Some (OTensor id)) (Some (OTensor id))
| SkFC w b : same_kind (Some (OFC w b)) (Some (OFC w b))
| SkSGD lr1 lr2 : same_kind (Some (OSGD lr1)) (Some (OSGD lr2))
| SkAcc a1 a2 : same_kind (Some (OAcc a1)) (Some (OAcc a2))
| SkCell t : same_kind (Some (OCell t)) (Some (OCell t)).

Lemma shape_nth (e1 e2 : list obj) k : map shapeOf e1 = map shapeOf e2 -> same_kind (nth_error e1 k) (nth_error e2 k).
Proof.
  intros E. assert (X : option_map shapeOf (nth_error e1 k) = option_map shapeOf (nth_error e2 k)) by (rewrite <- !nth_error_map, E; reflexivity).
  destruct (nth_error e1 k) as [[]|], (nth_error e2 k) as [[]|]; try discriminate X; inversion X; subst; constructor.
Qed.

Lemma lookupT_shape (s1 s2 : state) : map shapeOf (st_env s1) = map shapeOf (st_env s2) -> forall t, lookupT s1 t = lookupT s2 t.
Proof. intros E t. unfold lookupT. destruct (shape_nth _ _ t E); reflexivity. Qed.

Lemma lookupArg_shape (s1 s2 : state) : map shapeOf (st_env s1) = map shapeOf (st_env s2) -> forall a, lookupArg s1 a = lookupArg s2 a.
Proof. intros E [t|]; [|reflexivity]. unfold lookupArg. rewrite (lookupT_shape s1 s2 E). reflexivity. Qed.

Lemma lookupArgs_shape (s1 s2 : state) : map shapeOf (st_env s1) = map shapeOf (st_env s2) ->
  forall ts, mapM (lookupArg s1) ts = mapM (lookupArg s2) ts.
Proof. intros E ts. apply mapM_ext. intros a _. apply lookupArg_shape. exact E. Qed.

Lemma shape_snoc (e1 e2 : list obj) o1 o2 : map shapeOf e1 = map shapeOf e2 -> shapeOf o1 = shapeOf o2 ->
  map shapeOf (e1 ++ [o1]) = map shapeOf (e2 ++ [o2]).
Proof. intros E Eo. rewrite !map_app, E. cbn. rewrite Eo. reflexivity. Qed.

Lemma shape_setNth (e1 e2 : list obj) k o1 o2 : map shapeOf e1 = map shapeOf e2 -> shapeOf o1 = shapeOf o2 ->
  map shapeOf (setNthObj e1 k o1) = map shapeOf (setNthObj e2 k o2).
Proof.
  intros E Eo. apply nth_error_ext_len.
  - rewrite !map_length, !setNthObj_length. apply shape_length. exact E.
  - intros j _. rewrite !nth_error_map, !setNthObj_nth. destruct (shape_nth _ _ j E); cbn; destruct (j =? k); cbn; congruence.
Qed.

Lemma flags_sealNode (h : heap) id nm : flags (sealNode sealv h id nm) = flags h.
Proof. apply flags_updNode_same. reflexivity. Qed.

Lemma fo_state (h1 h2 : heap) e1 e2 g1 g2 b1 b2 : flags h1 = flags h2 -> map shapeOf e1 = map shapeOf e2 ->
  flags_out (mkState h1 e1 g1, b1) (mkState h2 e2 g2, b2).
Proof. intros Eh Ee _. split; assumption. Qed.

Lemma okw_tensorObs (h : heap) (r : hres) k id : okw h r -> r = (k, Ok id) -> okObs (tensorObs k id) = true.
Proof.
  intros (_ & Hid & _) ->. destruct (Hid id eq_refl) as [_ L]. cbn [fst] in L.
  unfold tensorObs, valOf. destruct (lt_nth_some k id ltac:(lia)) as [n Hn]. rewrite Hn. reflexivity.
Qed.

(* a call that delivers is told from one that does not by the observable alone *)
Lemma fo_fin_plain s1 s2 r1 g o : fssim s1 s2 -> okw (st_heap s1) r1 -> okObs o = false ->
  flags_out (fin sealv s1 r1) (mkState (st_heap s2) (st_env s2 ++ [ONone]) g, o).
Proof.
  intros [E Ev] W1 Ho. unfold fin, push. destruct r1 as [k1 [i1| |]]; [|apply fo_state; [exact E|apply shape_snoc; auto]..].
  intros X. cbn [snd] in X. rewrite (okw_tensorObs _ _ _ _ W1 eq_refl), Ho in X. discriminate.
Qed.

Lemma fssim_sym s1 s2 : fssim s1 s2 -> fssim s2 s1.
Proof. intros [E Ev]. split; auto. Qed.

Lemma fo_sym p1 p2 : flags_out p1 p2 -> flags_out p2 p1.
Proof. intros H X. apply fssim_sym, H. auto. Qed.

Lemma fo_fin s1 s2 r1 r2 : fssim s1 s2 -> okw (st_heap s1) r1 -> okw (st_heap s2) r2 -> FS r1 r2 ->
  flags_out (fin sealv s1 r1) (fin sealv s2 r2).
Proof.
  intros H W1 W2 HF. pose proof H as [E Ev].
  destruct r2 as [k2 [i2| |]]; [|apply fo_fin_plain; auto..].
  destruct r1 as [k1 [i1| |]]; [|apply fo_sym, fo_fin_plain; auto using fssim_sym..].
  destruct (HF i1 i2 eq_refl eq_refl) as [-> Ek]. apply fo_state; [rewrite !flags_sealNode; exact Ek|apply shape_snoc; auto].
Qed.

Lemma fo_of_value s1 s2 v1 v2 tr : fssim s1 s2 -> flags_out (of_value sealv s1 v1 tr) (of_value sealv s2 v2 tr).
Proof. intros H. pose proof H as [E _]. unfold of_value, leaf. destruct v1 as [t1| |], v2 as [t2| |]; apply fo_fin; auto with okw flagsim. Qed.

Lemma fo_with_rng p1 p2 g1 g2 : flags_out p1 p2 -> flags_out (with_rng p1 g1) (with_rng p2 g2).
Proof. destruct p1, p2. exact (fun H => H). Qed.

Lemma fo_sgd_fin s1 s2 lr1 lr2 content k (o1 o2 : nat -> obj) : fssim s1 s2 -> (forall i, shapeOf (o1 i) = shapeOf (o2 i)) ->
  flags_out (sgd_fin sealv s1 lr1 content (fun i => setNthObj (st_env s1) k (o1 i)))
            (sgd_fin sealv s2 lr2 content (fun i => setNthObj (st_env s2) k (o2 i))).
Proof.
  intros [E Ev] Ho. unfold sgd_fin, plain, push.
  pose proof (okw_sgd (st_heap s1) lr1 content (Some (length (st_env s1)))) as W1.
  pose proof (okw_sgd (st_heap s2) lr2 content (Some (length (st_env s2)))) as W2.
  pose proof (FS_sgd (st_heap s1) (st_heap s2) lr1 lr2 content (Some (length (st_env s1))) (Some (length (st_env s2))) E) as HF.
  destruct (sgd_update (st_heap s1) lr1 content _) as [k1 [i1| |]], (sgd_update (st_heap s2) lr2 content _) as [k2 [i2| |]];
    try (apply fo_state; [exact E|apply shape_snoc; auto]);
    try (intros X; cbn [snd] in X; rewrite (okw_tensorObs _ _ _ _ W1 eq_refl) in X; discriminate);
    try (intros X; cbn [snd] in X; rewrite (okw_tensorObs _ _ _ _ W2 eq_refl) in X; discriminate).
  destruct (HF i1 i2 eq_refl eq_refl) as [-> Ek]. apply fo_state; [rewrite !flags_sealNode; exact Ek|].
  apply shape_snoc; [apply shape_setNth; auto|reflexivity].
Qed.

Hint Resolve fo_state fo_fin fo_fin_plain fo_of_value fo_sgd_fin shape_snoc shape_setNth flags_reset : flagsim.
Hint Extern 2 (flags_out (_, _) (fin _ _ _)) => apply fo_sym : flagsim.
Hint Immediate fssim_sym : flagsim.

(* case analysis on what each run inspects: in lock step where both inspect the same thing (the
   environment, up to payloads), separately where values decide.  What remains is a pair of results of
   tracked methods, of which one may have failed, and of states over flag-equal heaps *)
Ltac flags_cases Ev :=
  repeat match goal with
    | |- flags_out (match ?x with _ => _ end) (match ?x with _ => _ end) => destruct x
    | |- flags_out (if ?x then _ else _) (if ?x then _ else _) => destruct x
    | |- flags_out (match nth_error _ ?k with _ => _ end) (match nth_error _ ?k with _ => _ end) => destruct (shape_nth _ _ k Ev)
    | |- flags_out (match lookupT ?s1 ?t with _ => _ end) _ => rewrite (lookupT_shape s1 _ Ev t)
    | |- flags_out (match lookupArg ?s1 ?a with _ => _ end) _ => rewrite (lookupArg_shape s1 _ Ev a)
    | |- flags_out (match mapM (lookupArg ?s1) ?ts with _ => _ end) _ => rewrite (lookupArgs_shape s1 _ Ev ts)
    | |- flags_out (match ?x with _ => _ end) _ => destruct x
    | |- flags_out (if ?x then _ else _) _ => destruct x
    | |- flags_out _ (match ?x with _ => _ end) => destruct x
    | |- flags_out _ (if ?x then _ else _) => destruct x
    end.

(* C08, history level: the flags after a command are a function of the flags before, the
   command and the shape-level outcome; values enter only through whether the call succeeded *)
Theorem step_flags (s1 s2 : state) (c : cmd) : fssim s1 s2 ->
  okObs (snd (step s1 c)) = okObs (snd (step s2 c)) -> fssim (fst (step s1 c)) (fst (step s2 c)).
Proof.
  intros H. change (flags_out (step s1 c) (step s2 c)). pose proof H as [E Ev].
  destruct c; try rewrite !step_init; try rewrite !step_sgd; unfold Scenario.step, bad, scalarObs, plain, push; cbv beta iota zeta.
  all: try solve [flags_cases Ev; auto with okw flagsim].
  - (* CRandU *) destruct (negb (cfg_ok c)); [auto with flagsim|]. apply (fo_with_rng (of_value _ _ _ _) (of_value _ _ _ _)), fo_of_value, H.
  - (* CRandN *) destruct (negb (cfg_ok c)); [auto with flagsim|]. apply (fo_with_rng (of_value _ _ _ _) (of_value _ _ _ _)), fo_of_value, H.
  - (* CBackprop *)
    rewrite (lookupArg_shape _ _ Ev). destruct (lookupArg s2 t) as [[x|]|]; [|auto with flagsim..].
    destruct (bp_topo rd (sealg (length (st_env s1))) (st_heap s1) x) as [[h1' log1] [[]| |]] eqn:B1;
    destruct (bp_topo rd (sealg (length (st_env s2))) (st_heap s2) x) as [[h2' log2] [[]| |]] eqn:B2;
      try (intros X; discriminate X); [|auto with flagsim..].
    apply fo_state; [|auto with flagsim].
    rewrite (bp_flags_ok _ _ _ _ _ _ B1), (bp_flags_ok _ _ _ _ _ _ B2), (topoOrder_flags _ _ x E). apply flags_markDirty, E.
  - (* CFCNew *)
    destruct (fc_new dFull dUniL dUniU dNorM dNorS (st_heap s1) inputs outputs wi bi (st_rng s1)) as [[h1' [[w1 b1]| |]] g1] eqn:F1;
    destruct (fc_new dFull dUniL dUniU dNorM dNorS (st_heap s2) inputs outputs wi bi (st_rng s2)) as [[h2' [[w2 b2]| |]] g2] eqn:F2;
      try (intros X; discriminate X); [|auto with flagsim..].
    destruct (FS_fc_new _ _ _ _ _ _ _ _ _ _ _ _ _ _ _ _ _ _ _ E F1 F2) as [[= <- <-] Ef]. auto with flagsim.
  - (* CAccumulate *) flags_cases Ev; auto with flagsim; intros X; discriminate X.
  - (* CInit *)
    pose proof (FS_init dFull dUniL dUniU dNorM dNorS _ _ s shape (st_rng s1) (st_rng s2) (Some (length (st_env s1)))
                  (Some (length (st_env s2))) E) as HF.
    destruct (init_run dFull dUniL dUniU dNorM dNorS (st_heap s1) s shape (st_rng s1) _) as [[h1' r1] g1] eqn:I1.
    destruct (init_run dFull dUniL dUniU dNorM dNorS (st_heap s2) s shape (st_rng s2) _) as [[h2' r2] g2] eqn:I2.
    apply okw_init in I1, I2. apply fo_with_rng, fo_fin; assumption.
Qed.

Notation run_from := (run_from rd sealv sealg c_eps c_one_m_eps c_leaky c_sgd_lr dFull dUniL dUniU dNorM dNorS c_softmax_dim).

(* lifted to histories: the flags reached are a function of the commands and of their shape-level outcomes *)
Theorem exec_flags (s1 s2 : state) cs : fssim s1 s2 ->
  map okObs (run_from s1 cs) = map okObs (run_from s2 cs) -> fssim (exec s1 cs) (exec s2 cs).
Proof.
  revert s1 s2. induction cs as [|c cs IH]; intros s1 s2 H Ho; cbn [StepP.exec]; [exact H|].
  cbn [Scenario.run_from] in Ho. pose proof (step_flags s1 s2 c H) as X.
  destruct (step s1 c) as [s1' o1], (step s2 c) as [s2' o2]. cbn [map fst snd] in *. inversion Ho as [[Ho1 Ho2]].
  apply IH; [apply X; exact Ho1|exact Ho2].
Qed.

Corollary history_flags (cs : list cmd) (s2 : state) :
  flags (st_heap s2) = [] -> st_env s2 = [] ->
  map okObs (run_from init_state cs) = map okObs (run_from s2 cs) ->
  flags (st_heap (exec init_state cs)) = flags (st_heap (exec s2 cs)).
Proof.
  intros E1 E2 Ho. apply (exec_flags init_state s2 cs); [|exact Ho]. split; cbn; [rewrite E1|rewrite E2]; reflexivity.
Qed.

End FlagsP.

Module FlagsEx.
Import StepEx.   (* not TrackEx: it has its own [flags] *)
#[local] Existing Instance TrackEx.Z_scalar.
Local Open Scope Z_scope.

(* same contexts, different values *)
Definition sC : @state Z := execZ init_state [CLeaf [2%nat] [3; 5] true; CLeaf [2%nat] [1; 1] false].
Definition sD : @state Z := execZ init_state [CLeaf [2%nat] [30; 50] true; CLeaf [2%nat] [-1; 7] false].
Definition prog : list (@cmd Z) :=
  [CScale 0 (2, 0); CBin BiMul 2 (Some 1%nat); CBin BiGt 0 (Some 1%nat); CBackprop (Some 3%nat); CGradOf 0; CReset 2 true;
   CScale 0 (3, 0); CAct AkRelu [Some 2%nat]].

Example ex_flags :
  fssim sC sD /\ runZ sC prog <> runZ sD prog /\
  map okObs (runZ sC prog) = map okObs (runZ sD prog) /\
  flags (st_heap (execZ sC prog)) = flags (st_heap (execZ sD prog)) /\
  flags (st_heap (execZ sC prog)) =
    [(true, true, []); (false, false, []); (true, false, []); (true, true, [2%nat]); (false, false, []);
     (true, true, [3%nat; 4%nat]); (false, false, []); (false, true, []); (false, true, []);
     (true, false, [2%nat]); (true, false, [9%nat; 2%nat])].
Proof.
  assert (F : fssim sC sD) by (split; vm_compute; reflexivity).
  assert (O : map okObs (runZ sC prog) = map okObs (runZ sD prog)) by (vm_compute; reflexivity).
  split; [exact F|]. split; [vm_compute; discriminate|]. split; [exact O|]. split.
  - destruct (exec_flags RedSum idv idg 0 1 d0 d0 d0 d0 d0 d0 d0 0 sC sD prog F O) as [X _]. exact X.
  - vm_compute. reflexivity.
Qed.
End FlagsEx.

Print Assumptions step_values.
Print Assumptions exec_values.
Print Assumptions run_values.
Print Assumptions run_values_forward.
Print Assumptions reads_only_values.
Print Assumptions reads_only_shared.
Print Assumptions step_track_rule.
Print Assumptions step_spent_operand.
Print Assumptions step_tracked_iff.
Print Assumptions step_untracked.
Print Assumptions history_track_rule.
Print Assumptions step_flags.
Print Assumptions exec_flags.
Print Assumptions topoOrder_flags.
Print Assumptions bp_flags_ok.
