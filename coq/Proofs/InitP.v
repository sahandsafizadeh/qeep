(* InitP.v — constructors filled from a counting generator: RandU/RandN, and the seven
   initializers (C18, and the constructor part of C06/C09).  Full is in ValidP (v_full_total). *)
From Coq Require Import List Arith ZArith Bool Lia.
From Qeep Require Import Model.Scalar Model.Nd Model.Fill Model.Data Model.Valid Model.Api
     Model.Grad Model.Components Proofs.NdP Proofs.FillP Spec.ValidSpec Proofs.ValidP.
Import ListNotations.

Section Init.
Context {A : Type} {SA : Scalar A}.

Lemma iter_tt k : forall s, iter unit (fun s => s) k s = s.
Proof. induction k as [|k IH]; intros s; cbn; [reflexivity|apply IH]. Qed.

Lemma validateInputDims_false (ds : list Z) : validateInputDims ds = false <-> Exists (fun d => (d <= 0)%Z) ds.
Proof. apply ValidP.validateInputDims_false. Qed.

(* ---- RandU / RandN: element k (row-major) is the affine image of draw number pos + k ---- *)
Theorem uniformRandomTensor_spec (l u : A) (ds : list nat) (pos : nat) :
  uniformRandomTensor l u ds pos =
  Some (mkT ds (tab ds (fun idx => sadd (smul (srnd false (pos + flatIdx ds idx)) (ssub u l)) l))).
Proof.
  unfold uniformRandomTensor, uniformGen.
  rewrite (initWith_counter (fun p => sadd (smul (srnd false p) (ssub u l)) l)). reflexivity.
Qed.

Theorem normalRandomTensor_spec (m s : A) (ds : list nat) (pos : nat) :
  normalRandomTensor m s ds pos =
  Some (mkT ds (tab ds (fun idx => sadd (smul (srnd true (pos + flatIdx ds idx)) s) m))).
Proof.
  unfold normalRandomTensor, normalGen.
  rewrite (initWith_counter (fun p => sadd (smul (srnd true p) s) m)). reflexivity.
Qed.

(* the public constructors: parameter check, then shape check, then the tensor above *)
Theorem v_randu_spec (ds : list Z) (l u : A) (lt_ok : bool) (pos : nat) :
  v_randu ds l u lt_ok pos =
  if lt_ok && validateInputDims ds
  then Ok (mkT (natsOf ds) (tab (natsOf ds) (fun idx => sadd (smul (srnd false (pos + flatIdx (natsOf ds) idx)) (ssub u l)) l)))
  else Err.
Proof.
  unfold v_randu, guard. destruct lt_ok; cbn [andb]; [|reflexivity].
  destruct (validateInputDims ds); [|reflexivity]. rewrite uniformRandomTensor_spec. reflexivity.
Qed.

Theorem v_randn_spec (ds : list Z) (m s : A) (pos_ok : bool) (pos : nat) :
  v_randn ds m s pos_ok pos =
  if pos_ok && validateInputDims ds
  then Ok (mkT (natsOf ds) (tab (natsOf ds) (fun idx => sadd (smul (srnd true (pos + flatIdx (natsOf ds) idx)) s) m)))
  else Err.
Proof.
  unfold v_randn, guard. destruct pos_ok; cbn [andb]; [|reflexivity].
  destruct (validateInputDims ds); [|reflexivity]. rewrite normalRandomTensor_spec. reflexivity.
Qed.

(* ---- the initializers ---- *)
Variables (dFull dUniL dUniU dNorM dNorS : dec).

Definition is_uniform_of (t : tensor A) (shape : list Z) (lo hi : A) (pos : nat) : Prop :=
  dims t = natsOf shape /\ wf t /\
  forall idx, validIdx (natsOf shape) idx ->
    get (data t) idx = Some (sadd (smul (srnd false (pos + flatIdx (natsOf shape) idx)) (ssub hi lo)) lo).

Definition is_normal_of (t : tensor A) (shape : list Z) (mu sigma : A) (pos : nat) : Prop :=
  dims t = natsOf shape /\ wf t /\
  forall idx, validIdx (natsOf shape) idx ->
    get (data t) idx = Some (sadd (smul (srnd true (pos + flatIdx (natsOf shape) idx)) sigma) mu).

Lemma tab_wf_pos (shape : list Z) (f : list nat -> A) :
  validateInputDims shape = true -> wf (mkT (natsOf shape) (tab (natsOf shape) f)).
Proof. intros H. split; [apply wfnd_tab|apply natsOf_pos, validateInputDims_spec, H]. Qed.

(* which distribution, with which parameters, every valid initializer draws from *)
Definition init_params (s : initSpec) : option (bool * A * A) :=   (* (normal?, first, second) *)
  match s with
  | IFull _ => None
  | IUniform lu => let '(l, u) := match lu with Some p => p | None => (dUniL, dUniU) end in Some (false, dcst l, dcst u)
  | INormal ms => let '(m, sd) := match ms with Some p => p | None => (dNorM, dNorS) end in Some (true, dcst m, dcst sd)
  | IHeUniform (Some f) => Some (false, ssub (cst 0 0) (sqrtOver 6 f), sqrtOver 6 f)
  | IHeNormal (Some f) => Some (true, cst 0 0, sqrtOver 2 f)
  | IXavierUniform (Some (fi, fo)) => Some (false, ssub (cst 0 0) (sqrtOver 6 (fi + fo)), sqrtOver 6 (fi + fo))
  | IXavierNormal (Some (fi, fo)) => Some (true, cst 0 0, sqrtOver 2 (fi + fo))
  | _ => None
  end.

Theorem init_value_spec (s : initSpec) (shape : list Z) (pos : nat) :
  init_valid dUniL dUniU dNorS s = true ->
  (validateInputDims shape = false -> init_value dFull dUniL dUniU dNorM dNorS s shape pos = Err) /\
  (validateInputDims shape = true ->
     exists t, init_value dFull dUniL dUniU dNorM dNorS s shape pos = Ok t /\
       match s, init_params s with
       | IFull v, _ => dims t = natsOf shape /\ wf t /\
                       forall idx, validIdx (natsOf shape) idx ->
                         get (data t) idx = Some (dcst (match v with Some d => d | None => dFull end))
       | _, Some (false, lo, hi) => is_uniform_of t shape lo hi pos
       | _, Some (true, mu, sigma) => is_normal_of t shape mu sigma pos
       | _, None => False
       end).
Proof.
  intros Hvalid. split; intros Hs.
  - destruct s as [v|[[l u]|]|[[m sd]|]|[f|]|[f|]|[[fi fo]|]|[[fi fo]|]]; cbn [init_valid init_value init_params] in Hvalid |- *; try discriminate;
      try (unfold v_full, guard; rewrite Hs; reflexivity);
      try (rewrite v_randu_spec, Hs, andb_false_r; reflexivity);
      try (rewrite v_randn_spec, Hs, andb_false_r; reflexivity).
  - destruct s as [v|[[l u]|]|[[m sd]|]|[f|]|[f|]|[[fi fo]|]|[[fi fo]|]]; cbn [init_valid init_value init_params] in Hvalid |- *; try discriminate.
    1: { destruct (v_full_total shape (dcst (match v with Some d => d | None => dFull end))) as (_ & H & _).
         destruct H as (t & E & Hw & Hd & Hg).
         { intros Hex. apply validateInputDims_false in Hex. congruence. }
         exists t. rewrite <- Hd. auto. }
    all: rewrite ?v_randu_spec, ?v_randn_spec, ?Hvalid, Hs; cbn [andb]; eexists; (split; [reflexivity|]);
      (split; [reflexivity|]); (split; [apply tab_wf_pos; exact Hs|]); intros idx Hv; apply get_tab; exact Hv.
Qed.

End Init.
