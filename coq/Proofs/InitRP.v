(* InitRP.v — initializers: heap-level statement (tracked fresh leaf, stream positions) and the
   real-number reading of supports and scale formulas. *)
From Coq Require Import List Arith ZArith Bool Lia Reals Lra.
From Qeep Require Import Model.Scalar Model.Nd Model.Fill Model.Data Model.Valid Model.Api
     Model.Grad Model.Components Model.Consts Proofs.NdP Proofs.FillP Proofs.InitP Spec.RScalar.
Import ListNotations.
Local Open Scope nat_scope.

Section Heap.
Context {A : Type} {SA : Scalar A}.
Variables (dFull dUniL dUniU dNorM dNorS : dec).

(* a successful Init appends exactly one node: a tracked, unspent leaf without gradient or
   edges, holding the initializer's value; the stream position advances by the number of
   elements for the random initializers and not at all for Full *)
Theorem init_run_spec (h : @heap A) (s : initSpec) (shape : list Z) (pos : nat) (name : option nat) :
  init_valid dUniL dUniU dNorS s = true -> validateInputDims shape = true ->
  exists t, init_value dFull dUniL dUniU dNorM dNorS s shape pos = Ok t /\
    init_run dFull dUniL dUniU dNorM dNorS h s shape pos name =
      (h ++ [mkNode t true false None [] name], Ok (length h),
       if init_is_random s then pos + prodn (natsOf shape) else pos) /\
    dims t = natsOf shape.
Proof.
  intros Hv Hs. destruct (init_value_spec dFull dUniL dUniU dNorM dNorS s shape pos Hv) as [_ H].
  destruct (H Hs) as (t & E & Hspec). exists t. split; [exact E|].
  assert (Hd : dims t = natsOf shape).
  { destruct s as [v|lu|ms|[f|]|[f|]|[[fi fo]|]|[[fi fo]|]]; cbn [init_params] in Hspec; try contradiction;
      try (destruct lu as [[l u]|]); try (destruct ms as [[m sd]|]); apply Hspec. }
  split; [|exact Hd]. unfold init_run. rewrite Hv, E. cbn [negb leaf alloc]. rewrite Hd. reflexivity.
Qed.

Theorem init_run_rejects (h : @heap A) (s : initSpec) (shape : list Z) (pos : nat) (name : option nat) :
  init_valid dUniL dUniU dNorS s = false \/ validateInputDims shape = false ->
  init_run dFull dUniL dUniU dNorM dNorS h s shape pos name = (h, Err, pos).
Proof.
  intros [Hv|Hs]; unfold init_run.
  - rewrite Hv. reflexivity.
  - destruct (init_valid dUniL dUniU dNorS s) eqn:Hv; [|reflexivity]. cbn [negb].
    destruct (init_value_spec dFull dUniL dUniU dNorM dNorS s shape pos Hv) as [H _]. rewrite (H Hs). reflexivity.
Qed.

(* successive calls consume consecutive, hence disjoint, ranges of the stream, and inside one call
   distinct positions read distinct draws *)
Lemma flatIdx_inj ds : forall i1 i2, validIdx ds i1 -> validIdx ds i2 -> flatIdx ds i1 = flatIdx ds i2 -> i1 = i2.
Proof. apply NdP.flatIdx_inj. Qed.

Theorem draws_disjoint (p1 : nat) (ds1 ds2 : list nat) i1 i2 :
  validIdx ds1 i1 -> validIdx ds2 i2 ->
  let p2 := p1 + prodn ds1 in
  p1 + flatIdx ds1 i1 < p2 /\ p2 <= p2 + flatIdx ds2 i2 /\ p1 + flatIdx ds1 i1 <> p2 + flatIdx ds2 i2.
Proof. intros H1 H2 p2. pose proof (flatIdx_lt ds1 i1 H1). subst p2. lia. Qed.

End Heap.

(* ---------- reading over the reals ---------- *)
Open Scope R_scope.

Section Reals.
Variable thr : R.
Variable draw : bool -> nat -> R.
Hypothesis draw_unit : forall k, 0 <= draw false k < 1.     (* rand.Float64() is in [0,1) *)
Local Instance RS : Scalar R := R_scalar thr draw.

(* an element of a uniform draw lies in [lower, upper) *)
Theorem uniform_support (lo hi : R) (k : nat) :
  lo < hi -> lo <= sadd (smul (srnd false k) (ssub hi lo)) lo < hi.
Proof.
  intros H. cbn. pose proof (draw_unit k) as [H0 H1]. split.
  - assert (0 <= draw false k * (hi - lo)) by (apply Rmult_le_pos; lra). lra.
  - assert (draw false k * (hi - lo) < 1 * (hi - lo)) by (apply Rmult_lt_compat_r; lra). lra.
Qed.

(* He / Xavier: the bounds of the uniform support and the standard deviations *)
Theorem scale_formulas (fi fo : Z) :
  (0 < fi)%Z -> (0 < fo)%Z ->
  @sqrtOver R RS 6 fi = sqrt (6 / IZR fi) /\
  @sqrtOver R RS 2 fi = sqrt (2 / IZR fi) /\
  @sqrtOver R RS 6 (fi + fo) = sqrt (6 / (IZR fi + IZR fo)) /\
  @sqrtOver R RS 2 (fi + fo) = sqrt (2 / (IZR fi + IZR fo)).
Proof.
  intros Hi Ho. unfold sqrtOver, cst. cbn. unfold dec2R. cbn [powerRZ].
  rewrite !INR_IZR_INZ, !Z2Nat.id by lia. rewrite ?plus_IZR. repeat split; f_equal; unfold Rdiv; ring.
Qed.

Theorem he_xavier_symmetric (r : R) : 0 < r -> ssub (@cst R RS 0 0) r = - r /\ - r < r.
Proof. intros H. cbn. unfold dec2R. cbn. split; lra. Qed.

(* defaults of nil configs, as read from the Go sources into Consts.v *)
Theorem default_constants :
  dec2R (fst c_full_value) (snd c_full_value) = 0 /\
  dec2R (fst c_uniform_lower) (snd c_uniform_lower) = -0.05 /\
  dec2R (fst c_uniform_upper) (snd c_uniform_upper) = 0.05 /\
  dec2R (fst c_normal_mean) (snd c_normal_mean) = 0 /\
  dec2R (fst c_normal_stddev) (snd c_normal_stddev) = 0.05.
Proof. unfold dec2R; simpl. repeat split; lra. Qed.

End Reals.
