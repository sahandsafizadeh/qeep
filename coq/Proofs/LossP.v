(* LossP.v — component/losses (C12): clip, MSE, BCE, CE against exact expressions, for an
   arbitrary [Scalar A] with no laws.  Each loss is (a) on the heap, the composition of the
   value-level methods in the order of the Go code ([*_tracks]: Ok/Err/Panic correspond, a failing
   call leaves the heap unchanged), and (b) at the value level, for well-formed accepted inputs,
   a rank-0 tensor whose single element is the stated expression ([*_val_spec]).
   MeanAlong(0) of a rank-1 tensor is the mean of all its elements ([mean0_rank1]). *)
From Coq Require Import List Arith ZArith Bool Lia.
From Qeep Require Import Model.Scalar Model.Nd Model.Fill Model.Data Model.Valid Model.Api Model.Grad Model.Components.
From Qeep Require Import Proofs.NdP Proofs.ReduceP Proofs.ElemP Proofs.TrackP Spec.ValidSpec Proofs.ValidP Proofs.MatMulP
  Proofs.FibreP Proofs.OpsP Proofs.CompP.
Import ListNotations.

Section LossP.
Context {A : Type} {SA : Scalar A}.
Notation T := (tensor A).

Notation heap := (@heap A).
Notation hres := (@hres A).

Notation c0 := (sconst 0 0).
Notation c1 := (sconst 1 0).
Notation c2 := (sconst 2 0).
Notation cm1 := (sconst (-1) 0).

Lemma rank1_flat (x : nd A) n : wfnd [n] x -> flat x = map (fun k => elt x [k]) (seq 0 n).
Proof.
  intros H. apply wfnd_cons in H as (l & -> & Hl & Hf). subst n. rewrite flat_Vec.
  induction Hf as [|y l Hy Hf IH]; [reflexivity|].
  apply wfnd_nil in Hy as (a & ->). cbn [flat_list flat app length seq map]. f_equal.
  rewrite IH, <- seq_shift, map_map. apply map_ext. intros k. unfold elt. rewrite !get_cons. reflexivity.
Qed.

Lemma rank1_flat_len (x : T) n : wf x -> dims x = [n] -> length (flat (data x)) = n.
Proof. apply rank1_flat_length. Qed.

(* MeanAlong(0) of a rank-1 tensor: a rank-0 tensor holding  (sum of the elements) / n *)
Theorem mean0_rank1 (d : T) n : wf d -> dims d = [n] ->
  exists r, v_reduceAlong RdMean d 0%Z = Ok r /\ dims r = [] /\ wf r /\
    get (data r) [] = Some (sdiv (fold_left sadd (flat (data d)) s0) (sofnat n)).
Proof.
  intros Hw Ed.
  destruct (v_reduceAlong_elt RdMean d 0%Z Hw ltac:(rewrite Ed; cbn; lia)) as (r & Er & Hd & Hwr & Hel).
  cbn [Z.to_nat] in Hd, Hel. rewrite Ed in Hd, Hel. cbn in Hd.
  exists r. split; [exact Er|]. split; [exact Hd|]. split; [exact Hwr|].
  rewrite (Hel [] ltac:(constructor)). cbn [firstn skipn app nth].
  destruct Hw as [Hwd _]. rewrite Ed in Hwd. rewrite <- (rank1_flat (data d) n Hwd).
  cbn [redL]. unfold meanL, sumL. rewrite (flat_length A _ _ Hwd). cbn [prodn fold_right]. rewrite Nat.mul_1_r. reflexivity.
Qed.

(* SumAlong(1) of a rank-2 tensor: row sums *)
Theorem sum1_rank2 (s : T) m k (E : nat -> nat -> A) : wf s -> dims s = [m; k] ->
  (forall i j, i < m -> j < k -> get (data s) [i; j] = Some (E i j)) ->
  exists r, v_reduceAlong RdSum s 1%Z = Ok r /\ dims r = [m] /\ wf r /\
    forall i, i < m -> get (data r) [i] = Some (fold_left sadd (map (E i) (seq 0 k)) s0).
Proof.
  intros Hw Ed HE.
  destruct (v_reduceAlong_elt RdSum s 1%Z Hw ltac:(rewrite Ed; cbn; lia)) as (r & Er & Hd & Hwr & Hel).
  change (Z.to_nat 1) with 1 in Hd, Hel. rewrite Ed in Hd, Hel. cbn in Hd.
  exists r. split; [exact Er|]. split; [exact Hd|]. split; [exact Hwr|].
  intros i Hi. rewrite (Hel [i] ltac:(repeat constructor; exact Hi)). cbn [firstn skipn app nth redL]. unfold sumL.
  do 2 f_equal. apply map_ext_in. intros j Hj. apply in_seq in Hj. unfold elt. rewrite HE by lia. reflexivity.
Qed.

Definition clipF (l u e : A) : A := smax (smul l (spow e c0)) (smin e (smul u (spow e c0))).

Definition clip_val (xv : T) (l u : A) : res T :=
  dor one <- v_unary (UPow c0) xv;
  dor lower <- v_unary (UScale l) one;
  dor upper <- v_unary (UScale u) one;
  dor y <- v_same BiElMin xv upper;
  v_same BiElMax lower y.

Theorem clip_tracks_w (h : heap) x l u xv : valOf h x = Some xv ->
  tracks_w h (clip h x l u) (clip_val xv l u) None.
Proof.
  intros Hx. apply (runOps_tracks_w (clip_ops l u) h [x] [xv]); [repeat constructor; exact Hx|reflexivity].
Qed.

Lemma clip_val_pw F (p t a : T) l u : pw2 F p t a ->
  exists r, clip_val a l u = Ok r /\ pw2 (fun x y => clipF l u (F x y)) p t r.
Proof.
  intros Ha.
  eapply pw2_bind; [apply (pw2_unary (UPow c0)), Ha|intros one H1].
  eapply pw2_bind; [apply (pw2_unary (UScale l)), H1|intros lo H2].
  eapply pw2_bind; [apply (pw2_unary (UScale u)), H1|intros up H3].
  eapply pw2_bind; [apply (pw2_same BiElMin), H3; exact Ha|intros y H4].
  exact (pw2_same BiElMax _ _ _ _ _ _ H2 H4).
Qed.

(* clip on its own: element-wise  max(l*x^0, min(x, u*x^0)), shape of the input *)
Theorem clip_spec (h : heap) x l u xv : valOf h x = Some xv -> wf xv ->
  exists r, produces h (clip h x l u) r None /\ pw1 (clipF l u) xv r.
Proof.
  intros Hx W. destruct (clip_val_pw _ _ _ _ l u (pw2_fst xv xv W W eq_refl)) as (r & Er & Hr).
  exists r. split; [|exact (pw2_diag _ _ _ Hr)].
  pose proof (clip_tracks_w h x l u xv Hx) as H. rewrite Er in H. exact H.
Qed.

Definition mseF (p t : A) : A := spow (ssub t p) c2.

Definition mse_val (pv tv : T) : res T :=
  dor d <- v_arith BiSub tv pv;
  dor d2 <- v_unary (UPow c2) d;
  v_reduceAlong RdMean d2 0%Z.

Theorem mse_compute_tracks (h : heap) yp yt p t name pv tv :
  lossArgs1 h yp yt = Some (p, t) -> valOf h p = Some pv -> valOf h t = Some tv ->
  tracks h (mse_compute h yp yt name) (mse_val pv tv) name.
Proof.
  intros E Hp Ht. rewrite (mse_compute_ops h yp yt p t name E).
  apply tracks_atomically, (runOps_tracks_w mse_ops h [p; t] [pv; tv]); [repeat constructor; assumption|reflexivity].
Qed.

(* mean of a pw2-described rank-1 tensor *)
Lemma mean_pw2 F (pv tv d : T) n : wf pv -> wf tv -> dims pv = [n] -> dims tv = [n] -> pw2 F pv tv d ->
  exists r, v_reduceAlong RdMean d 0%Z = Ok r /\ dims r = [] /\ wf r /\
    get (data r) [] = Some (sdiv (fold_left sadd (map2 F (flat (data pv)) (flat (data tv))) s0) (sofnat n)).
Proof.
  intros Wp Wt Ep Et Hd. pose proof Hd as (Edd & Wd & _).
  destruct (mean0_rank1 d n Wd ltac:(congruence)) as (r & Er & Hdr & Wr & Hg).
  exists r. split; [exact Er|]. split; [exact Hdr|]. split; [exact Wr|].
  rewrite Hg. rewrite (pw2_flat F pv tv d Wp Wt ltac:(congruence) Hd). reflexivity.
Qed.

Theorem mse_val_spec (pv tv : T) n : wf pv -> wf tv -> dims pv = [n] -> dims tv = [n] ->
  exists r, mse_val pv tv = Ok r /\ dims r = [] /\ wf r /\
    get (data r) [] = Some (sdiv (fold_left sadd (map2 mseF (flat (data pv)) (flat (data tv))) s0) (sofnat n)).
Proof.
  intros Wp Wt Ep Et. assert (Edm : dims pv = dims tv) by congruence.
  pose proof (pw2_fst pv tv Wp Wt Edm) as Hp. pose proof (pw2_snd pv tv Wp Wt Edm) as Ht.
  eapply pw2_bind; [apply (pw2_arith BiSub), Hp; exact Ht|intros d H1].
  eapply pw2_bind; [apply (pw2_unary (UPow c2)), H1|intros d2 H2].
  exact (mean_pw2 _ pv tv d2 n Wp Wt Ep Et H2).
Qed.

Lemma lossArgs1_dims (h : heap) yp yt p t pv tv :
  lossArgs1 h yp yt = Some (p, t) -> valOf h p = Some pv -> valOf h t = Some tv ->
  exists n, dims pv = [n] /\ dims tv = [n].
Proof.
  intros E Hp Ht. apply lossArgs1_spec in E as (_ & _ & vp & vt & n & Hvp & Hvt & Hdp & Hdt).
  exists n. split; congruence.
Qed.

Theorem mse_compute_spec (h : heap) yp yt p t name pv tv :
  lossArgs1 h yp yt = Some (p, t) -> valOf h p = Some pv -> valOf h t = Some tv -> wf pv -> wf tv ->
  exists n r, dims pv = [n] /\ dims tv = [n] /\
    produces h (mse_compute h yp yt name) r name /\ dims r = [] /\ wf r /\
    get (data r) [] = Some (sdiv (fold_left sadd (map2 mseF (flat (data pv)) (flat (data tv))) s0) (sofnat n)).
Proof.
  intros E Hp Ht Wp Wt. destruct (lossArgs1_dims h yp yt p t pv tv E Hp Ht) as (n & Ep & Et). exists n.
  destruct (spec_of_tracks _ _ _ _ _ (mse_compute_tracks h yp yt p t name pv tv E Hp Ht) (mse_val_spec pv tv n Wp Wt Ep Et))
    as (r & H & Hr). exists r. auto.
Qed.

Variables (eps ome : A).    (* losses.epsilon and 1 - epsilon *)

(* BCE and CE share their first two calls (OpsP.clip2); the rest of either is a chain *)
Lemma clip2_tracks_w (ops : list op) (h : heap) p t pv tv name :
  valOf h p = Some pv -> valOf h t = Some tv -> opsOk 4 ops = true ->
  tracks_w h (clip2 eps ome h p t (fun h2 env => runOps ops h2 env name))
    (dor ytc <- clip_val tv c0 c1; dor ypc <- clip_val pv eps ome; runOpsV ops [pv; tv; ytc; ypc]) name.
Proof.
  intros Hp Ht Ho. unfold clip2.
  eapply tracks_w_bind; [apply clip_tracks_w, Ht|]. intros h1 ytc ytcv X1 _ Hytc _.
  eapply tracks_w_bind; [apply clip_tracks_w, (extends_valOf _ _ _ _ X1 Hp)|]. intros h2 ypc ypcv X2 _ Hypc _.
  apply runOps_tracks_w; [|exact Ho]. pose proof (extends_trans _ _ _ X1 X2) as X.
  repeat constructor; eauto using extends_valOf.
Qed.

Definition bceF (p t : A) : A :=
  let tc := clipF c0 c1 t in
  let pc := clipF eps ome p in
  let one := spow pc c0 in
  smul cm1 (sadd (smul tc (slog pc)) (smul (ssub one tc) (slog (ssub one pc)))).

Definition bce_val (pv tv : T) : res T :=
  dor ytc <- clip_val tv c0 c1;
  dor ypc <- clip_val pv eps ome;
  dor lp <- v_unary ULn ypc;
  dor sA <- v_arith BiMul ytc lp;
  dor one <- v_unary (UPow c0) ypc;
  dor t2 <- v_arith BiSub one ytc;
  dor y2 <- v_arith BiSub one ypc;
  dor ly2 <- v_unary ULn y2;
  dor sB <- v_arith BiMul t2 ly2;
  dor l <- v_arith BiAdd sA sB;
  dor ln <- v_unary (UScale cm1) l;
  v_reduceAlong RdMean ln 0%Z.

Theorem bce_compute_tracks (h : heap) yp yt p t name pv tv :
  lossArgs1 h yp yt = Some (p, t) -> valOf h p = Some pv -> valOf h t = Some tv ->
  tracks h (bce_compute eps ome h yp yt name) (bce_val pv tv) name.
Proof.
  intros E Hp Ht. rewrite (bce_compute_ops eps ome h yp yt p t name E).
  apply tracks_atomically, (clip2_tracks_w bce_ops); [exact Hp|exact Ht|reflexivity].
Qed.

Theorem bce_val_spec (pv tv : T) n : wf pv -> wf tv -> dims pv = [n] -> dims tv = [n] ->
  exists r, bce_val pv tv = Ok r /\ dims r = [] /\ wf r /\
    get (data r) [] = Some (sdiv (fold_left sadd (map2 bceF (flat (data pv)) (flat (data tv))) s0) (sofnat n)).
Proof.
  intros Wp Wt Ep Et. assert (Edm : dims pv = dims tv) by congruence.
  pose proof (pw2_fst pv tv Wp Wt Edm) as Hp. pose proof (pw2_snd pv tv Wp Wt Edm) as Ht.
  eapply pw2_bind; [apply clip_val_pw, Ht|intros ytc H1].
  eapply pw2_bind; [apply clip_val_pw, Hp|intros ypc H2].
  eapply pw2_bind; [apply (pw2_unary ULn), H2|intros lp H3].
  eapply pw2_bind; [apply (pw2_arith BiMul), H3; exact H1|intros sA H4].
  eapply pw2_bind; [apply (pw2_unary (UPow c0)), H2|intros one H5].
  eapply pw2_bind; [apply (pw2_arith BiSub), H1; exact H5|intros t2 H6].
  eapply pw2_bind; [apply (pw2_arith BiSub), H2; exact H5|intros y2 H7].
  eapply pw2_bind; [apply (pw2_unary ULn), H7|intros ly2 H8].
  eapply pw2_bind; [apply (pw2_arith BiMul), H8; exact H6|intros sB H9].
  eapply pw2_bind; [apply (pw2_arith BiAdd), H9; exact H4|intros l H10].
  eapply pw2_bind; [apply (pw2_unary (UScale cm1)), H10|intros ln H11].
  exact (mean_pw2 _ pv tv ln n Wp Wt Ep Et H11).
Qed.

Theorem bce_compute_spec (h : heap) yp yt p t name pv tv :
  lossArgs1 h yp yt = Some (p, t) -> valOf h p = Some pv -> valOf h t = Some tv -> wf pv -> wf tv ->
  exists n r, dims pv = [n] /\ dims tv = [n] /\
    produces h (bce_compute eps ome h yp yt name) r name /\ dims r = [] /\ wf r /\
    get (data r) [] = Some (sdiv (fold_left sadd (map2 bceF (flat (data pv)) (flat (data tv))) s0) (sofnat n)).
Proof.
  intros E Hp Ht Wp Wt. destruct (lossArgs1_dims h yp yt p t pv tv E Hp Ht) as (n & Ep & Et). exists n.
  destruct (spec_of_tracks _ _ _ _ _ (bce_compute_tracks h yp yt p t name pv tv E Hp Ht) (bce_val_spec pv tv n Wp Wt Ep Et))
    as (r & H & Hr). exists r. auto.
Qed.

(* the argument check of CE.Compute as a function, and what it accepts *)
Definition ceArgs (h : heap) (yp yt : targ) : option (nat * nat) :=
  match yp, yt with
  | Some p, Some t =>
      if (rankOf h p =? 2) && (rankOf h t =? 2) && (dim0Of h p =? dim0Of h t) && (dim1Of h p =? dim1Of h t)
      then Some (p, t) else None
  | _, _ => None
  end.

Definition ceArgsPre (h : heap) (yp yt : targ) (p t : nat) : Prop :=
  yp = Some p /\ yt = Some t /\
  exists vp vt m k, valOf h p = Some vp /\ valOf h t = Some vt /\ dims vp = [m; k] /\ dims vt = [m; k].

Lemma rank2_inv (h : heap) (p : nat) : rankOf h p = 2 ->
  exists v a b, valOf h p = Some v /\ dims v = [a; b] /\ dim0Of h p = a /\ dim1Of h p = b.
Proof.
  unfold rankOf, dim0Of, dim1Of. destruct (valOf h p) as [v|]; [|discriminate].
  destruct (dims v) as [|a [|b [|c r]]] eqn:Ed; cbn [length]; intros H; try discriminate.
  exists v, a, b. repeat split. exact Ed.
Qed.

Theorem ceArgs_spec (h : heap) yp yt p t : ceArgs h yp yt = Some (p, t) <-> ceArgsPre h yp yt p t.
Proof.
  unfold ceArgs, ceArgsPre. split.
  - destruct yp as [p'|]; [|discriminate]. destruct yt as [t'|]; [|discriminate].
    destruct ((rankOf h p' =? 2) && (rankOf h t' =? 2) && (dim0Of h p' =? dim0Of h t') && (dim1Of h p' =? dim1Of h t')) eqn:E;
      [|discriminate].
    intros H; inversion H; subst p' t'.
    apply andb_true_iff in E as [E E4]. apply andb_true_iff in E as [E E3]. apply andb_true_iff in E as [E1 E2].
    apply Nat.eqb_eq in E1, E2, E3, E4.
    destruct (rank2_inv h p E1) as (vp & a & b & Hvp & Hdp & Ha & Hb).
    destruct (rank2_inv h t E2) as (vt & a' & b' & Hvt & Hdt & Ha' & Hb').
    repeat split. exists vp, vt, a, b. repeat split; try assumption. congruence.
  - intros (-> & -> & vp & vt & m & k & Hvp & Hvt & Hdp & Hdt).
    unfold rankOf, dim0Of, dim1Of. rewrite Hvp, Hvt, Hdp, Hdt. cbn [length nth].
    rewrite !Nat.eqb_refl. reflexivity.
Qed.

Definition ceElF (p t : A) : A := smul (clipF c0 c1 t) (slog (clipF eps ome p)).

Definition ce_val (pv tv : T) : res T :=
  dor ytc <- clip_val tv c0 c1;
  dor ypc <- clip_val pv eps ome;
  dor lp <- v_unary ULn ypc;
  dor s <- v_arith BiMul ytc lp;
  dor l <- v_reduceAlong RdSum s 1%Z;
  dor ln <- v_unary (UScale cm1) l;
  v_reduceAlong RdMean ln 0%Z.

Lemma ce_compute_unfold (h : heap) yp yt name :
  ce_compute eps ome h yp yt name =
  match ceArgs h yp yt with
  | None => (h, Err)
  | Some (p, t) => atomically h (
        hbind (clip h t (cst 0 0) (cst 1 0)) (fun h1 ytc =>
        hbind (clip h1 p eps ome) (fun h2 ypc =>
        hbind (h_math h2 FLog ypc None) (fun h3 lp =>
        hbind (h_arith h3 BiMul ytc lp None) (fun h4 s =>
        hbind (h_reduceAlong h4 RdSum s 1%Z None) (fun h5 l =>
        hbind (h_scale h5 l (cst (-1) 0) None) (fun h6 ln =>
        h_reduceAlong h6 RdMean ln 0%Z name)))))))
  end.
Proof.
  unfold ce_compute, ceArgs. destruct yp as [p|]; [|reflexivity]. destruct yt as [t|]; [|reflexivity].
  destruct ((rankOf h p =? 2) && (rankOf h t =? 2) && (dim0Of h p =? dim0Of h t) && (dim1Of h p =? dim1Of h t));
    reflexivity.
Qed.

Theorem ce_compute_rejects (h : heap) yp yt name :
  (forall p t, ~ ceArgsPre h yp yt p t) -> ce_compute eps ome h yp yt name = (h, Err).
Proof.
  intros H. rewrite ce_compute_unfold. destruct (ceArgs h yp yt) as [[p t]|] eqn:E; [|reflexivity].
  apply ceArgs_spec in E. exfalso. apply (H p t E).
Qed.

Theorem ce_compute_tracks (h : heap) yp yt p t name pv tv :
  ceArgs h yp yt = Some (p, t) -> valOf h p = Some pv -> valOf h t = Some tv ->
  tracks h (ce_compute eps ome h yp yt name) (ce_val pv tv) name.
Proof.
  intros E Hp Ht. rewrite ce_compute_unfold, E.
  apply tracks_atomically, (clip2_tracks_w ce_ops); [exact Hp|exact Ht|reflexivity].
Qed.

(* CE of [m; k] inputs with elements P i j / Tm i j:
     ( sum_i  -1 * ( sum_j  clip(t_ij, 0, 1) * log(clip(p_ij, eps, 1-eps)) ) ) / m       (left folds from 0) *)
Theorem ce_val_spec (pv tv : T) m k (P Tm : nat -> nat -> A) :
  wf pv -> wf tv -> dims pv = [m; k] -> dims tv = [m; k] ->
  (forall i j, i < m -> j < k -> get (data pv) [i; j] = Some (P i j)) ->
  (forall i j, i < m -> j < k -> get (data tv) [i; j] = Some (Tm i j)) ->
  exists r, ce_val pv tv = Ok r /\ dims r = [] /\ wf r /\
    get (data r) [] =
    Some (sdiv (fold_left sadd
                  (map (fun i => smul cm1 (fold_left sadd (map (fun j => ceElF (P i j) (Tm i j)) (seq 0 k)) s0))
                       (seq 0 m)) s0)
               (sofnat m)).
Proof.
  intros Wp Wt Ep Et HP HT. assert (Edm : dims pv = dims tv) by congruence.
  pose proof (pw2_fst pv tv Wp Wt Edm) as Hp. pose proof (pw2_snd pv tv Wp Wt Edm) as Ht.
  eapply pw2_bind; [apply clip_val_pw, Ht|intros ytc H1].
  eapply pw2_bind; [apply clip_val_pw, Hp|intros ypc H2].
  eapply pw2_bind; [apply (pw2_unary ULn), H2|intros lp H3].
  eapply pw2_bind; [apply (pw2_arith BiMul), H3; exact H1|intros s (Hds & Ws & Hgs)].
  destruct (sum1_rank2 s m k (fun i j => ceElF (P i j) (Tm i j)) Ws ltac:(congruence)) as (l & E5 & Hdl & Wl & Hgl).
  { intros i j Hi Hj. rewrite Hgs by (rewrite Ep; repeat constructor; assumption).
    rewrite (HP i j Hi Hj), (HT i j Hi Hj). reflexivity. }
  rewrite E5. cbn [res_bind].
  destruct (v_unary_spec (UScale cm1) l Wl) as (ln & E6 & Hdn & Wn & Hgn). rewrite E6. cbn [res_bind].
  destruct (mean0_rank1 ln m Wn ltac:(congruence)) as (r & Er & Hdr & Wr & Hg).
  exists r. split; [exact Er|]. split; [exact Hdr|]. split; [exact Wr|]. rewrite Hg. do 3 f_equal.
  destruct Wn as [Wnd _]. rewrite Hdn, Hdl in Wnd. rewrite (rank1_flat (data ln) m Wnd).
  apply map_ext_in. intros i Hi. apply in_seq in Hi. unfold elt.
  rewrite Hgn by (rewrite Hdl; repeat constructor; lia). rewrite Hgl by lia. reflexivity.
Qed.

Theorem ce_compute_spec (h : heap) yp yt p t name pv tv m k (P Tm : nat -> nat -> A) :
  ceArgs h yp yt = Some (p, t) -> valOf h p = Some pv -> valOf h t = Some tv -> wf pv -> wf tv ->
  dims pv = [m; k] ->
  (forall i j, i < m -> j < k -> get (data pv) [i; j] = Some (P i j)) ->
  (forall i j, i < m -> j < k -> get (data tv) [i; j] = Some (Tm i j)) ->
  exists r, produces h (ce_compute eps ome h yp yt name) r name /\ dims r = [] /\ wf r /\
    get (data r) [] =
    Some (sdiv (fold_left sadd
                  (map (fun i => smul cm1 (fold_left sadd (map (fun j => ceElF (P i j) (Tm i j)) (seq 0 k)) s0))
                       (seq 0 m)) s0)
               (sofnat m)).
Proof.
  intros E Hp Ht Wp Wt Ep HP HT.
  assert (Et : dims tv = [m; k]).
  { pose proof E as E'. apply ceArgs_spec in E' as (_ & _ & vp & vt & m' & k' & Hvp & Hvt & Hdp & Hdt). congruence. }
  exact (spec_of_tracks _ _ _ _ _ (ce_compute_tracks h yp yt p t name pv tv E Hp Ht) (ce_val_spec pv tv m k P Tm Wp Wt Ep Et HP HT)).
Qed.

Theorem losses1_reject (h : heap) yp yt name : lossArgs1 h yp yt = None ->
  mse_compute h yp yt name = (h, Err) /\ bce_compute eps ome h yp yt name = (h, Err).
Proof. intros E. unfold mse_compute, bce_compute. rewrite E. auto. Qed.

(* whatever happens, a call that does not return a tensor leaves the heap as it was *)
Theorem losses_fail_frame (h : heap) yp yt name :
  let unchanged (hr : hres) := (forall id, snd hr <> Ok id) -> fst hr = h in
  unchanged (mse_compute h yp yt name) /\ unchanged (bce_compute eps ome h yp yt name) /\
  unchanged (ce_compute eps ome h yp yt name).
Proof.
  cbv zeta. rewrite ce_compute_unfold. unfold mse_compute, bce_compute.
  destruct (lossArgs1 h yp yt) as [[p t]|]; destruct (ceArgs h yp yt) as [[p' t']|];
    repeat split; try apply atomically_fail; reflexivity.
Qed.

End LossP.

Module LossExamples.
Import CompExamples.
Open Scope Z_scope.

Definition v3 (a b c : Z) : tensor Z := mkT [3%nat] (Vec [Sc a; Sc b; Sc c]).
Definition m22 (a b c d : Z) : tensor Z := mkT [2; 2]%nat (Vec [Vec [Sc a; Sc b]; Vec [Sc c; Sc d]]).
(* node 0: predictions, 1: targets, 2 and 3: a rank-2 pair *)
Definition hL : @heap Z :=
  [mkNode (v3 1 5 9) true false None [] None; mkNode (v3 2 3 3) false false None [] None;
   mkNode (m22 4 8 16 32) true false None [] None; mkNode (m22 1 0 0 1) false false None [] None].
Lemma wf_v3 a b c : wf (v3 a b c). Proof. split; [apply wfndb_spec; reflexivity|repeat constructor]. Qed.
Lemma wf_m22 a b c d : wf (m22 a b c d). Proof. split; [apply wfndb_spec; reflexivity|repeat constructor]. Qed.

(* ((2-1)^2 + (3-5)^2 + (3-9)^2) / 3 = 41 / 3 = 13 *)
Example mse_ex :
  exists h', mse_compute hL (Some 0%nat) (Some 1%nat) (Some 5%nat) = (h', Ok 8%nat) /\
             valOf h' 8 = Some (mkT [] (Sc 13)) /\ length h' = 9%nat.
Proof. eexists. vm_compute. auto. Qed.

Example mse_spec_inst :
  exists r, produces hL (mse_compute hL (Some 0%nat) (Some 1%nat) None) r None /\
            get (data r) [] = Some ((((0 + (2 - 1) ^ 2) + (3 - 5) ^ 2) + (3 - 9) ^ 2) / 3).
Proof.
  destruct (mse_compute_spec hL (Some 0%nat) (Some 1%nat) 0%nat 1%nat None (v3 1 5 9) (v3 2 3 3)
              eq_refl eq_refl eq_refl (wf_v3 _ _ _) (wf_v3 _ _ _)) as (n & r & En & _ & H & _ & _ & Hg).
  exists r. split; [exact H|]. rewrite Hg. inversion En; subst n. reflexivity.
Qed.

Example mse_reject_ex :
  mse_compute hL (Some 0%nat) (Some 2%nat) None = (hL, Err) /\ mse_compute hL None (Some 1%nat) None = (hL, Err) /\
  mse_compute hL (Some 2%nat) (Some 3%nat) None = (hL, Err).
Proof. vm_compute. auto. Qed.

Example clip_ex :
  exists h', clip hL 0 4 6 = (h', Ok 8%nat) /\ valOf h' 8 = Some (v3 4 5 6).
Proof. eexists. vm_compute. auto. Qed.

Example bce_ex : exists h' id, bce_compute 1 8 hL (Some 0%nat) (Some 1%nat) None = (h', Ok id).
Proof. eexists. eexists. vm_compute. reflexivity. Qed.

(* with log := log2, eps := 1, 1-eps := 64:  rows  -(1*log2 4 + 0) = -2,  -(0 + 1*log2 32) = -5;  mean = -7/2 = -4 *)
Example ce_ex :
  exists h', ce_compute 1 64 hL (Some 2%nat) (Some 3%nat) None = (h', Ok 20%nat) /\
             valOf h' 20 = Some (mkT [] (Sc (-4))).
Proof. eexists. vm_compute. auto. Qed.

Example ce_spec_inst :
  exists r, produces hL (ce_compute 1 64 hL (Some 2%nat) (Some 3%nat) None) r None /\ get (data r) [] = Some (-4).
Proof.
  destruct (ce_compute_spec 1 64 hL (Some 2%nat) (Some 3%nat) 2%nat 3%nat None (m22 4 8 16 32) (m22 1 0 0 1) 2 2
              (fun i j => match i, j with O, O => 4 | O, _ => 8 | _, O => 16 | _, _ => 32 end)
              (fun i j => match i, j with O, O => 1 | O, _ => 0 | _, O => 0 | _, _ => 1 end)
              eq_refl eq_refl eq_refl (wf_m22 _ _ _ _) (wf_m22 _ _ _ _) eq_refl) as (r & H & _ & _ & Hg).
  - intros [|[|i]] [|[|j]] Hi Hj; try lia; reflexivity.
  - intros [|[|i]] [|[|j]] Hi Hj; try lia; reflexivity.
  - exists r. split; [exact H|]. rewrite Hg. vm_compute. reflexivity.
Qed.

Example ce_reject_ex :
  ce_compute 1 64 hL (Some 0%nat) (Some 1%nat) None = (hL, Err) /\ ce_compute 1 64 hL (Some 2%nat) None None = (hL, Err).
Proof. vm_compute. auto. Qed.

End LossExamples.

Print Assumptions mean0_rank1.
Print Assumptions clip_spec.
Print Assumptions mse_compute_tracks.
Print Assumptions mse_val_spec.
Print Assumptions mse_compute_spec.
Print Assumptions bce_compute_tracks.
Print Assumptions bce_val_spec.
Print Assumptions bce_compute_spec.
Print Assumptions ceArgs_spec.
Print Assumptions ce_compute_tracks.
Print Assumptions ce_val_spec.
Print Assumptions ce_compute_spec.
Print Assumptions ce_compute_rejects.
Print Assumptions losses1_reject.
Print Assumptions losses_fail_frame.
