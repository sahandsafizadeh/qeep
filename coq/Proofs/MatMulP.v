(* MatMulP.v — Dot / MatMul (operators.go: dotProductOf1DInputs, matMulDataOf2DInputs,
   linearLastDimDotProductElemGenerator, linearLast2DimsMatMulElemGenerator) and the public
   methods (broadcastForBinaryOp / broadcastForMatMul) (property C04).
   Arbitrary [Scalar A] with NO laws: every element is the exact left fold
       (((0 + a0*b0) + a1*b1) + ... ) + a(n-1)*b(n-1)
   with the evaluation order of the Go loops. *)
From Coq Require Import List Arith ZArith Bool Lia.
From Qeep Require Import Model.Scalar Model.Nd Model.Fill Model.Data Model.Valid Model.Api.
From Qeep Require Import Spec.ValidSpec Proofs.ValidP.
From Qeep Require Import Proofs.NdP Proofs.FillP Proofs.OdometerP Proofs.ReshapeP Proofs.ElemP Proofs.BroadcastP
  Proofs.ArithP.
Import ListNotations.

(* ---------- generic helpers ---------- *)

Lemma fold_left_ext_in {X U} (f g : U -> X -> U) l :
  (forall x u, In x l -> f u x = g u x) -> forall u, fold_left f l u = fold_left g l u.
Proof.
  induction l as [|a l IH]; intros H u; cbn [fold_left]; [reflexivity|].
  rewrite (H a u (or_introl eq_refl)). apply IH. intros x u' Hx. apply H. right. exact Hx.
Qed.

Lemma fold_left_map' {X Y U} (f : U -> Y -> U) (g : X -> Y) l :
  forall u, fold_left f (map g l) u = fold_left (fun s x => f s (g x)) l u.
Proof. induction l as [|a l IH]; intros u; cbn [map fold_left]; [reflexivity|apply IH]. Qed.

Lemma fold_seq_combine {X U} (F : U -> X -> X -> U) (d : X) xs : forall ys u, length xs = length ys ->
  fold_left (fun s p => F s (nth p xs d) (nth p ys d)) (seq 0 (length xs)) u =
  fold_left (fun s q => F s (fst q) (snd q)) (combine xs ys) u.
Proof.
  induction xs as [|x xs IH]; intros [|y ys] u Hl; cbn in Hl; try discriminate; [reflexivity|].
  cbn [length seq fold_left combine fst snd nth]. rewrite <- seq_shift, fold_left_map'. cbn [nth].
  apply IH. lia.
Qed.

Lemma firstn_length_app {X} (l r : list X) : firstn (length l) (l ++ r) = l.
Proof. induction l as [|a l IH]; cbn [length app firstn]; [destruct r; reflexivity|]. rewrite IH. reflexivity. Qed.

Lemma skipn_length_app {X} (l r : list X) : skipn (length l) (l ++ r) = r.
Proof. induction l as [|a l IH]; cbn [length app skipn]; [reflexivity|exact IH]. Qed.

Lemma validIdx_app ds1 ds2 i1 i2 : validIdx ds1 i1 -> validIdx ds2 i2 -> validIdx (ds1 ++ ds2) (i1 ++ i2).
Proof. unfold validIdx. apply Forall2_app. Qed.

Lemma validIdx_app_inv ds1 ds2 i1 i2 : length i2 = length ds2 -> validIdx (ds1 ++ ds2) (i1 ++ i2) ->
  validIdx ds1 i1 /\ validIdx ds2 i2.
Proof.
  intros Hl Hv. pose proof (validIdx_length _ _ Hv) as L. rewrite !app_length in L.
  unfold validIdx in *. apply Forall2_app_inv_len in Hv; [exact Hv|lia].
Qed.

Lemma validIdx2 m k i j : validIdx [m; k] [i; j] <-> i < m /\ j < k.
Proof.
  split.
  - intros H. inversion H as [|? ? ? ? Hi H']; subst. inversion H' as [|? ? ? ? Hj _]; subst. auto.
  - intros [Hi Hj]. repeat constructor; assumption.
Qed.

Lemma validIdx1 n p : validIdx [n] [p] <-> p < n.
Proof.
  split.
  - intros H. inversion H as [|? ? ? ? Hp _]; subst. exact Hp.
  - intros Hp. repeat constructor; assumption.
Qed.

(* ---------- nesting: a value of shape ds1 ++ ds2 is a ds1-shaped nesting of ds2-shaped values ---------- *)
Section Nest.
Variable B : Type.

Fixpoint nest (ds : list nat) (P : nd B -> Prop) (x : nd B) {struct ds} : Prop :=
  match ds with
  | [] => P x
  | d :: r => match x with Vec l => length l = d /\ Forall (nest r P) l | Sc _ => False end
  end.

Lemma wfnd_app_nest ds1 ds2 : forall x : nd B, wfnd (ds1 ++ ds2) x <-> nest ds1 (wfnd ds2) x.
Proof.
  induction ds1 as [|d r IH]; intros x; cbn [app nest]; [tauto|].
  destruct x as [a|l]; cbn [wfnd]; [tauto|].
  split; intros [Hl Hf]; (split; [exact Hl|]); eapply Forall_impl; try exact Hf; intros y Hy; apply IH; exact Hy.
Qed.

Lemma get_app (x : nd B) i1 i2 : get x (i1 ++ i2) = do y <- dataAt x i1; get y i2.
Proof. unfold get. rewrite dataAt_app. destruct (dataAt x i1); reflexivity. Qed.

(* tabulation by stream position of block-valued outputs *)
Variables (St : Type) (out : St -> nd B) (next : St -> St) (Inv : St -> Prop).
Hypothesis Hnext : forall s, Inv s -> Inv (next s).

Lemma wfnd_tabS e : (forall s, Inv s -> wfnd e (out s)) ->
  forall ds s, Inv s -> wfnd (ds ++ e) (tabS B St out next ds s).
Proof.
  intros Ho ds. induction ds as [|d r IH]; intros s Hs; cbn [tabS app].
  - apply Ho, Hs.
  - cbn [wfnd]. split; [rewrite map_length, seq_length; reflexivity|].
    apply Forall_forall. intros y Hy. apply in_map_iff in Hy as (k & <- & _).
    apply IH. apply (iter_inv St next Inv Hnext). exact Hs.
Qed.

Lemma dataAt_tabS ds : forall s idx, validIdx ds idx ->
  dataAt (tabS B St out next ds s) idx = Some (out (iter St next (flatIdx ds idx) s)).
Proof.
  induction ds as [|d r IH]; intros s idx Hv.
  - apply validIdx_nil in Hv; subst. reflexivity.
  - apply validIdx_cons in Hv as (i & r' & -> & Hi & Hr). cbn [tabS dataAt asV obind flatIdx].
    rewrite nth_error_map. rewrite nth_error_nth' with (d := 0) by (rewrite seq_length; exact Hi).
    rewrite seq_nth by exact Hi. cbn [option_map obind Nat.add]. rewrite (IH _ _ Hr), iter_add. reflexivity.
Qed.

End Nest.

(* ---------- shapes of Dot / MatMul ---------- *)

Lemma tbd_snoc p1 p2 a b :
  targetBroadcastDims (p1 ++ [a]) (p2 ++ [b]) = targetBroadcastDims p1 p2 ++ [Nat.max a b].
Proof. unfold targetBroadcastDims. rewrite !rev_app_distr. cbn [rev app tbdRev]. reflexivity. Qed.

Lemma tbd_snoc2 p1 p2 a b c d :
  targetBroadcastDims (p1 ++ [a; b]) (p2 ++ [c; d]) = targetBroadcastDims p1 p2 ++ [Nat.max a c; Nat.max b d].
Proof.
  change (p1 ++ [a; b]) with (p1 ++ [a] ++ [b]). change (p2 ++ [c; d]) with (p2 ++ [c] ++ [d]).
  rewrite !app_assoc, !tbd_snoc, <- app_assoc. reflexivity.
Qed.

Lemma snoc2_inj {X} (p q : list X) a b c d : p ++ [a; b] = q ++ [c; d] -> p = q /\ a = c /\ b = d.
Proof.
  intros E. apply (f_equal (@rev X)) in E. rewrite !rev_app_distr in E. cbn [rev app] in E.
  inversion E as [[Hb Ha Hr]]. apply (f_equal (@rev X)) in Hr. rewrite !rev_involutive in Hr. auto.
Qed.

(* the validators on shapes of naturals, by decomposition (from ValidP) *)
Lemma validateDot_nat d1 d2 :
  validateDotProductDims (map Z.of_nat d1) (map Z.of_nat d2) = true <->
  exists p1 p2 n, d1 = p1 ++ [n] /\ d2 = p2 ++ [n].
Proof.
  rewrite validateDotProductDims_spec'. unfold dotPre'. split.
  - intros (q1 & q2 & a & E1 & E2). exists (natsOf q1), (natsOf q2), (Z.to_nat a).
    apply (f_equal natsOf) in E1. apply (f_equal natsOf) in E2. rewrite natsOf_of_nat in E1, E2.
    unfold natsOf in *. rewrite map_app in E1, E2. auto.
  - intros (p1 & p2 & n & -> & ->). exists (map Z.of_nat p1), (map Z.of_nat p2), (Z.of_nat n).
    rewrite !map_app. auto.
Qed.

Lemma validateMatMul_nat d1 d2 :
  validateMatMulDims (map Z.of_nat d1) (map Z.of_nat d2) = true <->
  exists p1 p2 m n k, d1 = p1 ++ [m; n] /\ d2 = p2 ++ [n; k].
Proof.
  rewrite validateMatMulDims_spec'. unfold matMulPre'. split.
  - intros (q1 & m & k & q2 & n & E1 & E2). exists (natsOf q1), (natsOf q2), (Z.to_nat m), (Z.to_nat k), (Z.to_nat n).
    apply (f_equal natsOf) in E1. apply (f_equal natsOf) in E2. rewrite natsOf_of_nat in E1, E2.
    unfold natsOf in *. rewrite map_app in E1, E2. auto.
  - intros (p1 & p2 & m & n & k & -> & ->).
    exists (map Z.of_nat p1), (Z.of_nat m), (Z.of_nat n), (map Z.of_nat p2), (Z.of_nat k).
    rewrite !map_app. auto.
Qed.

(* ... and against the declarative preconditions of Spec/ValidSpec.v *)
Lemma dotPre_nat d1 d2 :
  dotPre (map Z.of_nat d1) (map Z.of_nat d2) <-> exists p1 p2 n, d1 = p1 ++ [n] /\ d2 = p2 ++ [n].
Proof. rewrite <- validateDotProductDims_spec. apply validateDot_nat. Qed.

Lemma matMulPre_nat d1 d2 :
  matMulPre (map Z.of_nat d1) (map Z.of_nat d2) <-> exists p1 p2 m n k, d1 = p1 ++ [m; n] /\ d2 = p2 ++ [n; k].
Proof. rewrite <- validateMatMulDims_spec. apply validateMatMul_nat. Qed.

Lemma compatR_app_same s : forall a b, compatR (s ++ a) (s ++ b) <-> compatR a b.
Proof.
  induction s as [|d s IH]; intros a b; cbn [app compatR]; [tauto|].
  rewrite IH. split; [tauto|]. intros H. split; [left; reflexivity|exact H].
Qed.

(* common trailing dims do not matter for broadcast compatibility *)
Lemma bcompat_app_same p tb s : bcompat (p ++ s) (tb ++ s) <-> bcompat p tb.
Proof. rewrite !bcompat_compatR, !rev_app_distr. apply compatR_app_same. Qed.

(* ... and are projected to themselves *)
Lemma bproj_app_same p tb s b is : length p <= length tb -> length b = length tb -> validIdx s is ->
  bproj (p ++ s) (tb ++ s) (b ++ is) = bproj p tb b ++ is.
Proof.
  intros Hl Hb Hs. pose proof (bproj_id s is Hs) as Hid. unfold bproj in *.
  rewrite Nat.sub_diag in Hid. cbn [skipn] in Hid.
  rewrite !app_length. replace (length tb + length s - (length p + length s)) with (length tb - length p) by lia.
  rewrite skipn_app. replace (length tb - length p - length b) with 0 by lia. cbn [skipn].
  rewrite combine_app_eq by (rewrite skipn_length; lia).
  rewrite map_app, Hid. reflexivity.
Qed.

Lemma mmShape_snoc2 tb p (a b x y : nat) : mmShape (tb ++ [x; y]) (p ++ [a; b]) = tb ++ [a; b].
Proof.
  unfold mmShape. rewrite !app_length. cbn [length].
  replace (length tb + 2 - 2) with (length tb) by lia. replace (length p + 2 - 2) with (length p) by lia.
  rewrite firstn_length_app, skipn_length_app. reflexivity.
Qed.

Section MatMulP.
Context {A : Type} {SA : Scalar A}.
Notation T := (tensor A).

(* the element at an index (s0 outside the shape; never used outside) *)
Definition elt (x : nd A) (idx : list nat) : A := match get x idx with Some v => v | None => s0 end.

(* (((s0 + f0*g0) + f1*g1) + ...) + f(n-1)*g(n-1) *)
Definition dotsum (n : nat) (f g : nat -> A) : A :=
  fold_left (fun s p => sadd s (smul (f p) (g p))) (seq 0 n) s0.

Lemma dotsum_ext n f g f' g' : (forall p, p < n -> f p = f' p) -> (forall p, p < n -> g p = g' p) ->
  dotsum n f g = dotsum n f' g'.
Proof.
  intros Hf Hg. unfold dotsum. apply fold_left_ext_in. intros p u Hp. apply in_seq in Hp.
  rewrite Hf, Hg by lia. reflexivity.
Qed.

Lemma elt_some ds (x : nd A) idx : wfnd ds x -> validIdx ds idx -> get x idx = Some (elt x idx).
Proof. intros Hw Hv. unfold elt. destruct (get_wf A ds x idx Hw Hv) as (a & ->). reflexivity. Qed.

Lemma elt_app (x y : nd A) i1 i2 : dataAt x i1 = Some y -> elt x (i1 ++ i2) = elt y i2.
Proof. intros E. unfold elt. rewrite get_app, E. reflexivity. Qed.

Lemma get1 (l : list (nd A)) p : get (Vec l) [p] = do e <- nth_error l p; asF e.
Proof. unfold get. cbn. destruct (nth_error l p); reflexivity. Qed.

Lemma get2 (l : list (nd A)) i p :
  get (Vec l) [i; p] = do mi <- nth_error l i; do r <- asV mi; do e <- nth_error r p; asF e.
Proof.
  unfold get. cbn. destruct (nth_error l i) as [mi|]; cbn; [|reflexivity].
  destruct mi as [a|r]; cbn; [reflexivity|]. destruct (nth_error r p); reflexivity.
Qed.

(* ---------- 1. the 1-D and 2-D kernels ---------- *)

Definition dotStep (v1 v2 : list (nd A)) : A -> nat -> option A :=
  fun s i => do e1 <- nth_error v1 i; do x1 <- asF e1;
             do e2 <- nth_error v2 i; do x2 <- asF e2;
             Some (sadd s (smul x1 x2)).

Lemma dotStep_ok v1 v2 s p x y : get (Vec v1) [p] = Some x -> get (Vec v2) [p] = Some y ->
  dotStep v1 v2 s p = Some (sadd s (smul x y)).
Proof.
  rewrite !get1. unfold dotStep. intros H1 H2.
  destruct (nth_error v1 p) as [e1|]; cbn [obind] in *; [|discriminate].
  destruct (asF e1) as [x1|]; cbn [obind] in *; [|discriminate].
  destruct (nth_error v2 p) as [e2|]; cbn [obind] in *; [|discriminate].
  destruct (asF e2) as [x2|]; cbn [obind] in *; [|discriminate]. congruence.
Qed.

Theorem dot1d_spec n (a b : nd A) : wfnd [n] a -> wfnd [n] b ->
  dot1d a b = Some (Sc (dotsum n (fun p => elt a [p]) (fun p => elt b [p]))).
Proof.
  intros Ha Hb. pose proof Ha as Ha'. pose proof Hb as Hb'.
  apply wfnd_cons in Ha' as (v1 & -> & Hl1 & _). apply wfnd_cons in Hb' as (v2 & -> & Hl2 & _).
  unfold dot1d. cbn [asV obind]. rewrite Hl1.
  rewrite (foldM_all_some _ (fun s p => sadd s (smul (elt (Vec v1) [p]) (elt (Vec v2) [p])))); [reflexivity|].
  intros s p Hp. apply in_seq in Hp. apply (dotStep_ok v1 v2).
  - apply (elt_some [n]); [exact Ha|apply validIdx1; lia].
  - apply (elt_some [n]); [exact Hb|apply validIdx1; lia].
Qed.

Lemma elt_vec_sc xs p : elt (Vec (map Sc xs)) [p] = nth p xs s0.
Proof.
  unfold elt. rewrite get1, nth_error_map. destruct (nth_error xs p) as [x|] eqn:E; cbn.
  - symmetry. apply nth_error_nth. exact E.
  - apply nth_error_None in E. rewrite nth_overflow by lia. reflexivity.
Qed.

Lemma wfnd_vec_sc (xs : list A) : wfnd [length xs] (Vec (map Sc xs)).
Proof.
  cbn. split; [apply map_length|]. apply Forall_forall. intros y Hy.
  apply in_map_iff in Hy as (x & <- & _). exact I.
Qed.

(* the same for two explicit vectors of scalars *)
Corollary dot1d_combine (xs ys : list A) : length xs = length ys ->
  dot1d (Vec (map Sc xs)) (Vec (map Sc ys)) =
  Some (Sc (fold_left (fun s p => sadd s (smul (fst p) (snd p))) (combine xs ys) s0)).
Proof.
  intros Hl. rewrite (dot1d_spec (length xs)); [|apply wfnd_vec_sc|rewrite Hl; apply wfnd_vec_sc].
  f_equal. f_equal. unfold dotsum.
  rewrite <- (fold_seq_combine (fun s x y => sadd s (smul x y)) s0 xs ys s0 Hl).
  apply fold_left_ext_in. intros p u _. rewrite !elt_vec_sc. reflexivity.
Qed.

Definition mmStep (m1 m2 : list (nd A)) (i j : nat) : A -> nat -> option A :=
  fun eij p => do mi <- nth_error m1 i; do rim1 <- asV mi;
               do mp <- nth_error m2 p; do rpm2 <- asV mp;
               do e1 <- nth_error rim1 p; do x1 <- asF e1;
               do e2 <- nth_error rpm2 j; do x2 <- asF e2;
               Some (sadd eij (smul x1 x2)).

Lemma mmStep_ok m1 m2 i j s p x y : get (Vec m1) [i; p] = Some x -> get (Vec m2) [p; j] = Some y ->
  mmStep m1 m2 i j s p = Some (sadd s (smul x y)).
Proof.
  rewrite !get2. unfold mmStep. intros H1 H2.
  destruct (nth_error m1 i) as [mi|]; cbn [obind] in *; [|discriminate].
  destruct (asV mi) as [rim1|]; cbn [obind] in *; [|discriminate].
  destruct (nth_error m2 p) as [mp|]; cbn [obind] in *; [|discriminate].
  destruct (asV mp) as [rpm2|]; cbn [obind] in *; [|discriminate].
  destruct (nth_error rim1 p) as [e1|]; cbn [obind] in *; [|discriminate].
  destruct (asF e1) as [x1|]; cbn [obind] in *; [|discriminate].
  destruct (nth_error rpm2 j) as [e2|]; cbn [obind] in *; [|discriminate].
  destruct (asF e2) as [x2|]; cbn [obind] in *; [|discriminate]. congruence.
Qed.

(* element (i, j) of the product of two blocks *)
Definition mmEl (n : nat) (a b : nd A) (i j : nat) : A :=
  dotsum n (fun p => elt a [i; p]) (fun p => elt b [p; j]).

Definition mmBlock (m n k : nat) (a b : nd A) : nd A :=
  tab [m; k] (fun idx => mmEl n a b (nth 0 idx 0) (nth 1 idx 0)).

Theorem matmul2d_tab m n k (a b : nd A) : wfnd [m; n] a -> wfnd [n; k] b -> 0 < m -> 0 < n ->
  matmul2d a b = Some (mmBlock m n k a b).
Proof.
  intros Ha Hb Hm Hn. pose proof Ha as Ha'. pose proof Hb as Hb'.
  apply wfnd_cons in Ha' as (m1 & -> & Hl1 & Hf1). apply wfnd_cons in Hb' as (m2 & -> & Hl2 & Hf2).
  destruct (nth_error_lt_some m1 0 ltac:(lia)) as (r01 & E01).
  destruct (nth_error_lt_some m2 0 ltac:(lia)) as (r02 & E02).
  pose proof (Forall_nth_error_inv _ _ _ _ Hf1 E01) as W1. apply wfnd_cons in W1 as (r0m1 & -> & Hn1 & _).
  pose proof (Forall_nth_error_inv _ _ _ _ Hf2 E02) as W2. apply wfnd_cons in W2 as (r0m2 & -> & Hk2 & _).
  unfold matmul2d. cbn [asV obind]. rewrite E01. cbn [asV obind]. rewrite E02. cbn [asV obind]. cbv zeta.
  rewrite Hn1, Hk2, Hl1.
  rewrite (mapM_seq_some _ (fun i => Vec (map (fun j => Sc (mmEl n (Vec m1) (Vec m2) i j)) (seq 0 k)))).
  - reflexivity.
  - intros i Hi.
    rewrite (mapM_seq_some _ (fun j => Sc (mmEl n (Vec m1) (Vec m2) i j))); [reflexivity|].
    intros j Hj.
    rewrite (foldM_all_some _ (fun s p => sadd s (smul (elt (Vec m1) [i; p]) (elt (Vec m2) [p; j]))));
      [reflexivity|].
    intros s p Hp. apply in_seq in Hp. apply (mmStep_ok m1 m2).
    + apply (elt_some [m; n]); [exact Ha|apply validIdx2; lia].
    + apply (elt_some [n; k]); [exact Hb|apply validIdx2; lia].
Qed.

Theorem matmul2d_spec m n k (a b : nd A) : wfnd [m; n] a -> wfnd [n; k] b -> 0 < m -> 0 < n ->
  exists r, matmul2d a b = Some r /\ wfnd [m; k] r /\
    forall i j, i < m -> j < k ->
      get r [i; j] = Some (fold_left (fun s p => sadd s (smul (elt a [i; p]) (elt b [p; j]))) (seq 0 n) s0).
Proof.
  intros Ha Hb Hm Hn. exists (mmBlock m n k a b). split; [apply matmul2d_tab; assumption|].
  split; [apply wfnd_tab|]. intros i j Hi Hj. unfold mmBlock.
  rewrite get_tab by (apply validIdx2; auto). reflexivity.
Qed.

(* ---------- 2. the batched data layer ---------- *)

(* the generator [batchGen f]: a linear odometer over the batch dims emitting one block per step *)
Lemma batch_data (f : nd A -> nd A -> option (nd A)) (h : nd A -> nd A -> nd A) batch e1 e2 e3 (x1 x2 : nd A) :
  (forall d1 d2, wfnd e1 d1 -> wfnd e2 d2 -> f d1 d2 = Some (h d1 d2) /\ wfnd e3 (h d1 d2)) ->
  wfnd (batch ++ e1) x1 -> wfnd (batch ++ e2) x2 -> allpos batch ->
  exists d, initWith batch (batchGen f batch x1 x2) (linInit batch) = Some d /\ wfnd (batch ++ e3) d /\
    forall b, validIdx batch b ->
      exists d1 d2, dataAt x1 b = Some d1 /\ wfnd e1 d1 /\ dataAt x2 b = Some d2 /\ wfnd e2 d2 /\
                    dataAt d b = Some (h d1 d2).
Proof.
  intros Hf Hw1 Hw2 Hp.
  set (blk := fun (x : nd A) (idx : list nat) => match dataAt x idx with Some y => y | None => x end).
  set (out := fun st : list nat => h (blk x1 (rev st)) (blk x2 (rev st))).
  assert (Hrd : forall st, ovalid (rev batch) st ->
            exists y1 y2, dataAt x1 (rev st) = Some y1 /\ wfnd e1 y1 /\ dataAt x2 (rev st) = Some y2 /\ wfnd e2 y2).
  { intros st Hst. pose proof (ovalid_rev_inv batch st Hst) as Hi.
    destruct (dataAt_wf A batch e1 x1 _ Hw1 Hi) as (y1 & E1 & W1).
    destruct (dataAt_wf A batch e2 x2 _ Hw2 Hi) as (y2 & E2 & W2). exists y1, y2. auto. }
  assert (Hg : forall st, ovalid (rev batch) st -> batchGen f batch x1 x2 st = Some (out st, incr (rev batch) st)).
  { intros st Hst. destruct (Hrd st Hst) as (y1 & y2 & E1 & W1 & E2 & W2).
    unfold batchGen, out, blk. rewrite E1, E2. cbn [obind]. rewrite (proj1 (Hf y1 y2 W1 W2)). reflexivity. }
  assert (Ho : forall st, ovalid (rev batch) st -> wfnd e3 (out st)).
  { intros st Hst. destruct (Hrd st Hst) as (y1 & y2 & E1 & W1 & E2 & W2).
    unfold out, blk. rewrite E1, E2. apply (Hf y1 y2 W1 W2). }
  assert (Hinit : ovalid (rev batch) (linInit batch)).
  { unfold linInit. rewrite <- (rev_length batch). apply ovalid_zeros, Forall_rev, Hp. }
  pose proof (initWith_spec A (list nat) (batchGen f batch x1 x2) out (incr (rev batch))
                (ovalid (rev batch)) Hg (incr_valid (rev batch)) batch (linInit batch) Hinit) as HI.
  eexists. split; [exact HI|]. split.
  - apply (wfnd_tabS A (list nat) out (incr (rev batch)) (ovalid (rev batch)) (incr_valid (rev batch)) e3 Ho).
    exact Hinit.
  - intros b Hb. rewrite (dataAt_tabS A (list nat) out (incr (rev batch)) batch _ b Hb).
    unfold linInit. rewrite (iter_incr_flatIdx batch b Hb).
    destruct (Hrd (rev b) (ovalid_rev batch b Hb)) as (y1 & y2 & E1 & W1 & E2 & W2).
    rewrite rev_involutive in E1, E2. exists y1, y2. repeat (split; [assumption|]).
    unfold out, blk. rewrite rev_involutive, E1, E2. reflexivity.
Qed.

Lemma dotDims_snoc batch (n : nat) : dotDims (batch ++ [n]) = batch.
Proof.
  unfold dotDims. rewrite app_length. cbn [length].
  replace (length batch + 1 - 1) with (length batch) by lia. apply firstn_length_app.
Qed.

Theorem dot_spec (t1 t2 : T) batch n : wf t1 -> wf t2 -> dims t1 = batch ++ [n] -> dims t2 = batch ++ [n] ->
  exists r, dot t1 t2 = Some r /\ dims r = batch /\ wf r /\
    forall b, validIdx batch b ->
      get (data r) b =
      Some (fold_left (fun s p => sadd s (smul (elt (data t1) (b ++ [p])) (elt (data t2) (b ++ [p]))))
                      (seq 0 n) s0).
Proof.
  intros [Hw1 Hp1] [Hw2 _] E1 E2. rewrite E1 in Hw1, Hp1. rewrite E2 in Hw2.
  apply Forall_app in Hp1 as [Hpb _].
  destruct (batch_data dot1d (fun d1 d2 => Sc (dotsum n (fun p => elt d1 [p]) (fun p => elt d2 [p])))
              batch [n] [n] [] (data t1) (data t2)) as (d & Ed & Hwd & Hg); try assumption.
  { intros d1 d2 W1 W2. split; [apply dot1d_spec; assumption|exact I]. }
  rewrite app_nil_r in Hwd.
  exists (mkT batch d). unfold dot. rewrite E1, dotDims_snoc, Ed. cbn [obind dims data].
  split; [reflexivity|]. split; [reflexivity|]. split; [split; assumption|].
  intros b Hb. destruct (Hg b Hb) as (d1 & d2 & D1 & _ & D2 & _ & Dd).
  unfold get. rewrite Dd. cbn [obind asF]. f_equal. apply dotsum_ext; intros p _; symmetry; apply elt_app; assumption.
Qed.

Lemma matMulDims_snoc batch (m n n' k : nat) batch' : length batch' = length batch ->
  matMulDims (batch ++ [m; n]) (batch' ++ [n'; k]) = Some (batch ++ [m; k]).
Proof.
  intros Hl. unfold matMulDims. rewrite app_length. cbn [length].
  replace (length batch + 2 - 2) with (length batch) by lia.
  replace (length batch + 2 - 1) with (length batch' + 1) by lia.
  rewrite nth_error_app2 by lia. rewrite Nat.sub_diag. cbn [nth_error obind].
  rewrite nth_error_app2 by lia. replace (length batch' + 1 - length batch') with 1 by lia. cbn [nth_error obind].
  rewrite firstn_length_app. reflexivity.
Qed.

Theorem matMul_spec (t1 t2 : T) batch m n k : wf t1 -> wf t2 ->
  dims t1 = batch ++ [m; n] -> dims t2 = batch ++ [n; k] ->
  exists r, matMul t1 t2 = Some r /\ dims r = batch ++ [m; k] /\ wf r /\
    forall b i j, validIdx (batch ++ [m; k]) (b ++ [i; j]) ->
      get (data r) (b ++ [i; j]) =
      Some (fold_left (fun s p => sadd s (smul (elt (data t1) (b ++ [i; p])) (elt (data t2) (b ++ [p; j]))))
                      (seq 0 n) s0).
Proof.
  intros [Hw1 Hp1] [Hw2 Hp2] E1 E2. rewrite E1 in Hw1, Hp1. rewrite E2 in Hw2, Hp2.
  apply Forall_app in Hp1 as [Hpb Hmn]. apply Forall_app in Hp2 as [_ Hnk].
  assert (Hm : 0 < m) by (inversion Hmn; assumption).
  assert (Hn : 0 < n) by (inversion Hnk; assumption).
  assert (Hk : 0 < k) by (inversion Hnk as [|? ? _ Hk']; inversion Hk'; assumption).
  destruct (batch_data matmul2d (mmBlock m n k) batch [m; n] [n; k] [m; k] (data t1) (data t2))
    as (d & Ed & Hwd & Hg); try assumption.
  { intros d1 d2 W1 W2. split; [apply matmul2d_tab; assumption|apply wfnd_tab]. }
  exists (mkT (batch ++ [m; k]) d). unfold matMul. rewrite E1, E2, matMulDims_snoc by reflexivity. cbn [obind].
  rewrite app_length. cbn [length]. replace (length batch + 2 - 2) with (length batch) by lia.
  rewrite firstn_length_app, Ed. cbn [obind dims data].
  split; [reflexivity|]. split; [reflexivity|]. split.
  { split; [exact Hwd|]. apply Forall_app. split; [exact Hpb|]. repeat constructor; assumption. }
  intros b i j Hv. apply validIdx_app_inv in Hv as [Hb Hij]; [|reflexivity].
  destruct (Hg b Hb) as (d1 & d2 & D1 & _ & D2 & _ & Dd).
  rewrite get_app, Dd. cbn [obind]. unfold mmBlock. rewrite get_tab by exact Hij. cbn [nth]. f_equal.
  apply dotsum_ext; intros p _; symmetry; apply elt_app; assumption.
Qed.


(* ---------- 3. API level ---------- *)

Lemma elt_get_eq (x y : nd A) i1 i2 : get x i1 = get y i2 -> elt x i1 = elt y i2.
Proof. intros E. unfold elt. rewrite E. reflexivity. Qed.

(* -- Dot -- *)

Theorem v_dot_spec (t u : T) : wf t -> wf u ->
  let target := targetBroadcastDims (dims t) (dims u) in
  (forall p1 p2 n, dims t = p1 ++ [n] -> dims u = p2 ++ [n] -> bcompat2 (dims t) (dims u) ->
     exists r, v_dot t u = Ok r /\ dims r = removelast target /\ target = dims r ++ [n] /\
       dims r = targetBroadcastDims p1 p2 /\ wf r /\
       forall b, validIdx (dims r) b ->
         get (data r) b =
         Some (fold_left (fun s p => sadd s (smul (elt (data t) (bproj (dims t) target (b ++ [p])))
                                                  (elt (data u) (bproj (dims u) target (b ++ [p])))))
                         (seq 0 n) s0)) /\
  ((~ exists p1 p2 n, dims t = p1 ++ [n] /\ dims u = p2 ++ [n]) \/ ~ bcompat2 (dims t) (dims u) ->
   v_dot t u = Err).
Proof.
  intros Ht Hu. cbv zeta. pose proof (v_bcast2_spec t u Ht Hu) as HB. cbv zeta in HB. destruct HB as [HB1 HB2].
  split.
  - intros p1 p2 n E1 E2 Hc.
    assert (V : validateDotProductDims (zdims t) (zdims u) = true)
      by (unfold zdims; apply validateDot_nat; exists p1, p2, n; auto).
    destruct (HB1 Hc) as (t1 & u1 & E & (Hd1 & Hw1 & Hg1) & (Hd2 & Hw2 & Hg2)).
    set (tb := targetBroadcastDims p1 p2).
    assert (Etg : targetBroadcastDims (dims t) (dims u) = tb ++ [n])
      by (rewrite E1, E2, tbd_snoc, Nat.max_id; reflexivity).
    rewrite Etg in *.
    destruct (dot_spec t1 u1 tb n Hw1 Hw2 Hd1 Hd2) as (r & Er & Hdr & Hwr & Hgr).
    exists r. unfold v_dot. rewrite V, E. cbn [res_bind fst snd]. rewrite Er. cbn [of_opt].
    split; [reflexivity|]. split; [rewrite removelast_last; exact Hdr|]. split; [rewrite Hdr; reflexivity|].
    split; [exact Hdr|]. split; [exact Hwr|].
    intros b Hb. rewrite Hdr in Hb. rewrite (Hgr b Hb). f_equal. apply fold_left_ext_in.
    intros p s Hp. apply in_seq in Hp.
    assert (Hv : validIdx (tb ++ [n]) (b ++ [p])) by (apply validIdx_app; [exact Hb|apply validIdx1; lia]).
    rewrite (elt_get_eq _ _ _ _ (Hg1 _ Hv)), (elt_get_eq _ _ _ _ (Hg2 _ Hv)). reflexivity.
  - intros H. unfold v_dot. destruct (validateDotProductDims (zdims t) (zdims u)) eqn:V; [|reflexivity].
    destruct H as [H|H].
    + exfalso. apply H. apply validateDot_nat. exact V.
    + rewrite (HB2 H). reflexivity.
Qed.

Corollary v_dot_ok_iff (t u : T) : wf t -> wf u ->
  ((exists r, v_dot t u = Ok r) <->
   (exists p1 p2 n, dims t = p1 ++ [n] /\ dims u = p2 ++ [n]) /\ bcompat2 (dims t) (dims u)) /\
  v_dot t u <> Panic.
Proof.
  intros Ht Hu. pose proof (v_dot_spec t u Ht Hu) as H. cbv zeta in H. destruct H as [H1 H2].
  destruct (validateDotProductDims (zdims t) (zdims u)) eqn:V.
  - pose proof V as V'. unfold zdims in V'. apply validateDot_nat in V' as (p1 & p2 & n & E1 & E2).
    destruct (bcompat2_dec (dims t) (dims u)) as [Hc|Hn].
    + destruct (H1 p1 p2 n E1 E2 Hc) as (r & Er & _). rewrite Er. split; [|discriminate].
      split; [intros _; split; [exists p1, p2, n; auto|exact Hc]|intros _; exists r; reflexivity].
    + rewrite (H2 (or_intror Hn)). split; [|discriminate].
      split; [intros (r & Er); discriminate|intros [_ Hc]; contradiction].
  - assert (Hn : ~ exists p1 p2 n, dims t = p1 ++ [n] /\ dims u = p2 ++ [n]).
    { intros Hd. apply validateDot_nat in Hd. unfold zdims in V. congruence. }
    rewrite (H2 (or_introl Hn)). split; [|discriminate].
    split; [intros (r & Er); discriminate|intros [Hd _]; contradiction].
Qed.

(* -- MatMul -- *)

(* broadcastForMatMul: each operand is broadcast to (broadcast batch) ++ (its own last two dims) *)
Lemma v_bcastMM_spec (t u : T) p1 p2 m n n' k : wf t -> wf u ->
  dims t = p1 ++ [m; n] -> dims u = p2 ++ [n'; k] ->
  let tb := targetBroadcastDims p1 p2 in
  (bcompat2 p1 p2 ->
     exists t1 u1, v_bcastMM t u = Ok (t1, u1) /\
       broadcasted A t t1 (tb ++ [m; n]) /\ broadcasted A u u1 (tb ++ [n'; k])) /\
  (~ bcompat2 p1 p2 -> v_bcastMM t u = Err).
Proof.
  intros Ht Hu E1 E2 tb.
  pose proof (proj2 Ht) as Hpt. pose proof (proj2 Hu) as Hpu. rewrite E1 in Hpt. rewrite E2 in Hpu.
  apply Forall_app in Hpt as [Hp1 Hmn]. apply Forall_app in Hpu as [Hp2 Hnk].
  destruct (targetBroadcastDims_spec p1 p2) as (_ & _ & Hp). destruct (Hp Hp1 Hp2) as [Hptb _]. fold tb in Hptb.
  pose proof (v_broadcast_pair A t u (tb ++ [m; n]) (tb ++ [n'; k]) Ht Hu
                ltac:(apply Forall_app; split; assumption) ltac:(apply Forall_app; split; assumption)) as [P1 P2].
  unfold v_bcastMM. rewrite E1, E2, tbd_snoc2, !mmShape_snoc2. fold tb.
  pose proof (targetBroadcastDims_compat p1 p2 Hp1 Hp2) as HC. fold tb in HC.
  assert (C1 : bcompat (dims t) (tb ++ [m; n]) <-> bcompat p1 tb) by (rewrite E1; apply bcompat_app_same).
  assert (C2 : bcompat (dims u) (tb ++ [n'; k]) <-> bcompat p2 tb) by (rewrite E2; apply bcompat_app_same).
  split; intros H.
  - apply HC in H as [D1 D2]. apply P1; [apply C1, D1|apply C2, D2].
  - apply P2. intros [D1 D2]. apply H, HC. split; [apply C1, D1|apply C2, D2].
Qed.

Theorem v_matmul_spec (t u : T) : wf t -> wf u ->
  (forall p1 p2 m n k, dims t = p1 ++ [m; n] -> dims u = p2 ++ [n; k] -> bcompat2 p1 p2 ->
     let tb := targetBroadcastDims p1 p2 in
     exists r, v_matmul t u = Ok r /\ dims r = tb ++ [m; k] /\ wf r /\
       forall b i j, validIdx (tb ++ [m; k]) (b ++ [i; j]) ->
         get (data r) (b ++ [i; j]) =
         Some (fold_left (fun s p => sadd s (smul (elt (data t) (bproj p1 tb b ++ [i; p]))
                                                  (elt (data u) (bproj p2 tb b ++ [p; j]))))
                         (seq 0 n) s0)) /\
  ((~ exists p1 p2 m n k, dims t = p1 ++ [m; n] /\ dims u = p2 ++ [n; k]) -> v_matmul t u = Err) /\
  (forall p1 p2 m n k, dims t = p1 ++ [m; n] -> dims u = p2 ++ [n; k] -> ~ bcompat2 p1 p2 ->
     v_matmul t u = Err).
Proof.
  intros Ht Hu. split; [|split].
  - intros p1 p2 m n k E1 E2 Hc. cbv zeta. set (tb := targetBroadcastDims p1 p2).
    assert (V : validateMatMulDims (zdims t) (zdims u) = true)
      by (unfold zdims; apply validateMatMul_nat; exists p1, p2, m, n, k; auto).
    pose proof (v_bcastMM_spec t u p1 p2 m n n k Ht Hu E1 E2) as HB. cbv zeta in HB. fold tb in HB.
    destruct HB as [HB _]. destruct (HB Hc) as (t1 & u1 & E & (Hd1 & Hw1 & Hg1) & (Hd2 & Hw2 & Hg2)).
    destruct (matMul_spec t1 u1 tb m n k Hw1 Hw2 Hd1 Hd2) as (r & Er & Hdr & Hwr & Hgr).
    exists r. unfold v_matmul. rewrite V, E. cbn [res_bind fst snd]. rewrite Er. cbn [of_opt].
    split; [reflexivity|]. split; [exact Hdr|]. split; [exact Hwr|].
    intros b i j Hv. rewrite (Hgr b i j Hv). f_equal.
    apply validIdx_app_inv in Hv as [Hb Hij]; [|reflexivity]. apply validIdx2 in Hij as [Hi Hj].
    pose proof (proj2 Ht) as Hpt. pose proof (proj2 Hu) as Hpu. rewrite E1 in Hpt. rewrite E2 in Hpu.
    apply Forall_app in Hpt as [Hp1 _]. apply Forall_app in Hpu as [Hp2 _].
    apply (targetBroadcastDims_compat p1 p2 Hp1 Hp2) in Hc as [Hc1 Hc2]. fold tb in Hc1, Hc2.
    pose proof (validIdx_length _ _ Hb) as Lb.
    apply fold_left_ext_in. intros p s Hp. apply in_seq in Hp.
    assert (Hv1 : validIdx (tb ++ [m; n]) (b ++ [i; p]))
      by (apply validIdx_app; [exact Hb|apply validIdx2; lia]).
    assert (Hv2 : validIdx (tb ++ [n; k]) (b ++ [p; j]))
      by (apply validIdx_app; [exact Hb|apply validIdx2; lia]).
    rewrite (elt_get_eq _ _ _ _ (Hg1 _ Hv1)), (elt_get_eq _ _ _ _ (Hg2 _ Hv2)). rewrite E1, E2.
    rewrite (bproj_app_same p1 tb [m; n] b [i; p]) by (try apply Hc1; try exact Lb; apply validIdx2; lia).
    rewrite (bproj_app_same p2 tb [n; k] b [p; j]) by (try apply Hc2; try exact Lb; apply validIdx2; lia).
    reflexivity.
  - intros Hn. unfold v_matmul. destruct (validateMatMulDims (zdims t) (zdims u)) eqn:V; [|reflexivity].
    exfalso. apply Hn. apply validateMatMul_nat. exact V.
  - intros p1 p2 m n k E1 E2 Hn.
    pose proof (v_bcastMM_spec t u p1 p2 m n n k Ht Hu E1 E2) as HB. cbv zeta in HB. destruct HB as [_ HB].
    unfold v_matmul. destruct (validateMatMulDims (zdims t) (zdims u)); [|reflexivity].
    rewrite (HB Hn). reflexivity.
Qed.

Corollary v_matmul_ok_iff (t u : T) : wf t -> wf u ->
  ((exists r, v_matmul t u = Ok r) <->
   exists p1 p2 m n k, dims t = p1 ++ [m; n] /\ dims u = p2 ++ [n; k] /\ bcompat2 p1 p2) /\
  v_matmul t u <> Panic.
Proof.
  intros Ht Hu. destruct (v_matmul_spec t u Ht Hu) as (H1 & H2 & H3).
  destruct (validateMatMulDims (zdims t) (zdims u)) eqn:V.
  - pose proof V as V'. unfold zdims in V'. apply validateMatMul_nat in V' as (p1 & p2 & m & n & k & E1 & E2).
    destruct (bcompat2_dec p1 p2) as [Hc|Hn].
    + pose proof (H1 p1 p2 m n k E1 E2 Hc) as H. cbv zeta in H. destruct H as (r & Er & _).
      rewrite Er. split; [|discriminate].
      split; [intros _; exists p1, p2, m, n, k; auto|intros _; exists r; reflexivity].
    + rewrite (H3 p1 p2 m n k E1 E2 Hn). split; [|discriminate].
      split; [intros (r & Er); discriminate|].
      intros (q1 & q2 & m' & n' & k' & E1' & E2' & Hc). exfalso. apply Hn.
      rewrite E1 in E1'. rewrite E2 in E2'.
      apply snoc2_inj in E1' as (-> & _ & _). apply snoc2_inj in E2' as (-> & _ & _). exact Hc.
  - assert (Hn : ~ exists p1 p2 m n k, dims t = p1 ++ [m; n] /\ dims u = p2 ++ [n; k]).
    { intros Hd. apply validateMatMul_nat in Hd. unfold zdims in V. congruence. }
    rewrite (H2 Hn). split; [|discriminate].
    split; [intros (r & Er); discriminate|].
    intros (p1 & p2 & m & n & k & E1 & E2 & _). exfalso. apply Hn. exists p1, p2, m, n, k. auto.
Qed.

(* -- the plain cases: vectors and matrices, no broadcasting -- *)

Corollary v_dot_1d (t u : T) n : wf t -> wf u -> dims t = [n] -> dims u = [n] ->
  exists r, v_dot t u = Ok r /\ dims r = [] /\ wf r /\
    get (data r) [] =
    Some (fold_left (fun s p => sadd s (smul (elt (data t) [p]) (elt (data u) [p]))) (seq 0 n) s0).
Proof.
  intros Ht Hu E1 E2. pose proof (v_dot_spec t u Ht Hu) as H. cbv zeta in H. destruct H as [H _].
  rewrite E1, E2 in H.
  destruct (H [] [] n eq_refl eq_refl (bcompat2_refl _)) as (r & Er & _ & _ & Hd & Hw & Hg).
  change (targetBroadcastDims [] []) with (@nil nat) in Hd.
  exists r. split; [exact Er|]. split; [exact Hd|]. split; [exact Hw|].
  rewrite (Hg []) by (rewrite Hd; constructor). f_equal. apply fold_left_ext_in.
  intros p s Hp. apply in_seq in Hp. cbn [app].
  rewrite targetBroadcastDims_id, bproj_id by (apply validIdx1; lia). reflexivity.
Qed.

Corollary v_matmul_2d (t u : T) m n k : wf t -> wf u -> dims t = [m; n] -> dims u = [n; k] ->
  exists r, v_matmul t u = Ok r /\ dims r = [m; k] /\ wf r /\
    forall i j, i < m -> j < k ->
      get (data r) [i; j] =
      Some (fold_left (fun s p => sadd s (smul (elt (data t) [i; p]) (elt (data u) [p; j]))) (seq 0 n) s0).
Proof.
  intros Ht Hu E1 E2. destruct (v_matmul_spec t u Ht Hu) as (H & _).
  pose proof (H [] [] m n k E1 E2 I) as H'. cbv zeta in H'.
  change (targetBroadcastDims [] []) with (@nil nat) in H'. cbn [app] in H'.
  destruct H' as (r & Er & Hd & Hw & Hg). exists r. split; [exact Er|]. split; [exact Hd|]. split; [exact Hw|].
  intros i j Hi Hj. apply (Hg [] i j). apply validIdx2. auto.
Qed.

End MatMulP.

(* ---------- examples: the hypotheses are satisfiable, the conclusions non-trivial ---------- *)
Module MatMulExamples.
#[local] Existing Instance ArithExamples.nat_scalar.

Definition m23 : tensor nat := mkT [2; 3] (Vec [Vec [Sc 1; Sc 2; Sc 3]; Vec [Sc 4; Sc 5; Sc 6]]).
Definition m32 : tensor nat := mkT [3; 2] (Vec [Vec [Sc 1; Sc 0]; Vec [Sc 0; Sc 1]; Vec [Sc 1; Sc 1]]).
Definition m34 : tensor nat :=
  mkT [3; 4] (Vec [Vec [Sc 1; Sc 0; Sc 0; Sc 2]; Vec [Sc 0; Sc 1; Sc 0; Sc 2]; Vec [Sc 0; Sc 0; Sc 1; Sc 2]]).
Definition m223 : tensor nat :=
  mkT [2; 2; 3] (Vec [Vec [Vec [Sc 1; Sc 2; Sc 3]; Vec [Sc 4; Sc 5; Sc 6]];
                      Vec [Vec [Sc 7; Sc 8; Sc 9]; Vec [Sc 10; Sc 11; Sc 12]]]).
Definition m332 : tensor nat :=
  mkT [3; 3; 2] (tab [3; 3; 2] (fun _ => 1)).
Definition v3 : tensor nat := mkT [3] (Vec [Sc 4; Sc 5; Sc 6]).
Definition v2 : tensor nat := mkT [2] (Vec [Sc 4; Sc 5]).
Definition sc7 : tensor nat := mkT [] (Sc 7).

Lemma wf_m23 : wf m23. Proof. split; cbn; repeat constructor. Qed.
Lemma wf_m32 : wf m32. Proof. split; cbn; repeat constructor. Qed.
Lemma wf_m223 : wf m223. Proof. split; cbn; repeat constructor. Qed.
Lemma wf_v3 : wf v3. Proof. split; cbn; repeat constructor. Qed.

Example dot1d_ex : dot1d (data v3) (Vec [Sc 1; Sc 2; Sc 3]) = Some (Sc 32).
Proof. vm_compute. reflexivity. Qed.
Example dot1d_combine_ex :
  dot1d (Vec (map Sc [4; 5; 6])) (Vec (map Sc [1; 2; 3])) = Some (Sc (((0 + 4 * 1) + 5 * 2) + 6 * 3)).
Proof. rewrite dot1d_combine by reflexivity. reflexivity. Qed.
Example matmul2d_ex : matmul2d (data m23) (data m32) = Some (Vec [Vec [Sc 4; Sc 5]; Vec [Sc 10; Sc 11]]).
Proof. vm_compute. reflexivity. Qed.
Example matmul2d_spec_ex : exists r, matmul2d (data m23) (data m32) = Some r /\ get r [1; 0] = Some 10.
Proof.
  destruct (matmul2d_spec 2 3 2 (data m23) (data m32) (proj1 wf_m23) (proj1 wf_m32)) as (r & Er & _ & Hg); try lia.
  exists r. split; [exact Er|]. rewrite Hg by lia. reflexivity.
Qed.

(* rank-0 result *)
Example dot_rank0_ex : dot v3 v3 = Some (mkT [] (Sc 77)).
Proof. vm_compute. reflexivity. Qed.
Example dot_batch_ex : dot m23 m23 = Some (mkT [2] (Vec [Sc 14; Sc 77])).
Proof. vm_compute. reflexivity. Qed.
Example dot_spec_ex : exists r, dot m23 m23 = Some r /\ dims r = [2] /\ get (data r) [1] = Some 77.
Proof.
  destruct (dot_spec m23 m23 [2] 3 wf_m23 wf_m23 eq_refl eq_refl) as (r & Er & Hd & _ & Hg).
  exists r. split; [exact Er|]. split; [exact Hd|]. rewrite Hg by (repeat constructor). reflexivity.
Qed.
Example matMul_ex : matMul m23 m32 = Some (mkT [2; 2] (Vec [Vec [Sc 4; Sc 5]; Vec [Sc 10; Sc 11]])).
Proof. vm_compute. reflexivity. Qed.

(* Dot broadcasts everything, the last dimension included *)
Example v_dot_ex :
  v_dot m23 v3 = Ok (mkT [2] (Vec [Sc 32; Sc 77])) /\
  v_dot v3 m23 = Ok (mkT [2] (Vec [Sc 32; Sc 77])) /\
  v_dot v3 v3 = Ok (mkT [] (Sc 77)) /\
  v_dot m223 m23 = Ok (mkT [2; 2] (Vec [Vec [Sc 14; Sc 77]; Vec [Sc 50; Sc 167]])).
Proof. vm_compute. auto. Qed.
(* last dims differ / rank 0 / batch parts incompatible *)
Example v_dot_err : v_dot m23 v2 = Err /\ v_dot sc7 v3 = Err /\ v_dot m23 (mkT [4; 3] (tab [4; 3] (fun _ => 1))) = Err.
Proof. vm_compute. auto. Qed.
Example v_dot_spec_ex : exists r, v_dot m23 v3 = Ok r /\ dims r = [2] /\ get (data r) [1] = Some 77.
Proof.
  pose proof (v_dot_spec m23 v3 wf_m23 wf_v3) as H. cbv zeta in H. destruct H as [H _].
  destruct (H [2] [] 3 eq_refl eq_refl ltac:(cbn; auto)) as (r & Er & Hd & _ & _ & _ & Hg).
  exists r. split; [exact Er|]. split; [exact Hd|]. rewrite Hg by (rewrite Hd; repeat constructor). reflexivity.
Qed.

(* MatMul broadcasts the batch parts only: (2,3) x (3,4) are not NumPy-compatible as full shapes *)
Example v_matmul_ex :
  v_matmul m23 m32 = Ok (mkT [2; 2] (Vec [Vec [Sc 4; Sc 5]; Vec [Sc 10; Sc 11]])) /\
  v_matmul m23 m34 = Ok (mkT [2; 4] (Vec [Vec [Sc 1; Sc 2; Sc 3; Sc 12]; Vec [Sc 4; Sc 5; Sc 6; Sc 30]])) /\
  v_matmul m223 m32 = Ok (mkT [2; 2; 2] (Vec [Vec [Vec [Sc 4; Sc 5]; Vec [Sc 10; Sc 11]];
                                              Vec [Vec [Sc 16; Sc 17]; Vec [Sc 22; Sc 23]]])).
Proof. vm_compute. auto. Qed.
(* inner sizes differ / rank 1 / batch parts incompatible *)
Example v_matmul_err : v_matmul m23 m23 = Err /\ v_matmul v3 m32 = Err /\ v_matmul m223 m332 = Err.
Proof. vm_compute. auto. Qed.
Example v_matmul_spec_ex : exists r, v_matmul m223 m32 = Ok r /\ dims r = [2; 2; 2] /\ get (data r) ([1] ++ [1; 0]) = Some 22.
Proof.
  destruct (v_matmul_spec m223 m32 wf_m223 wf_m32) as (H & _).
  pose proof (H [2] [] 2 3 2 eq_refl eq_refl I) as H'. cbv zeta in H'.
  destruct H' as (r & Er & Hd & _ & Hg).
  exists r. split; [exact Er|]. split; [exact Hd|]. rewrite Hg by (repeat constructor). reflexivity.
Qed.

End MatMulExamples.

Print Assumptions dot1d_spec.
Print Assumptions dot1d_combine.
Print Assumptions matmul2d_spec.
Print Assumptions wfnd_app_nest.
Print Assumptions batch_data.
Print Assumptions dot_spec.
Print Assumptions matMul_spec.
Print Assumptions v_dot_spec.
Print Assumptions v_dot_ok_iff.
Print Assumptions v_bcastMM_spec.
Print Assumptions v_matmul_spec.
Print Assumptions v_matmul_ok_iff.
Print Assumptions v_dot_1d.
Print Assumptions v_matmul_2d.
