(* MatMulRP.v — algebraic identities of MatMul over the real numbers (Spec/RScalar.v), from the
   element formulas of MatMulP.v / TransposeP.v / ValidP.v (v_eye_total) by ring reasoning on
   finite sums:   A . I = A,   I . A = A,   (A . B)^T = B^T . A^T   for matrices.
   (Over float64 these hold only up to the usual caveats: 0 * Inf, NaN, signed zeros.) *)
From Coq Require Import List Arith ZArith Bool Lia Reals Lra.
From Qeep Require Import Model.Scalar Model.Nd Model.Fill Model.Data Model.Valid Model.Api.
From Qeep Require Import Spec.ValidSpec Proofs.ValidP.
From Qeep Require Import Proofs.NdP Proofs.FillP Proofs.OdometerP Proofs.ReshapeP Proofs.ElemP Proofs.BroadcastP
  Proofs.ArithP Proofs.TransposeP Proofs.MatMulP Spec.RScalar.
Import ListNotations.
Local Open Scope R_scope.

(* ---------- finite sums ---------- *)

Definition Rsum (n : nat) (h : nat -> R) : R := fold_left (fun s p => s + h p) (seq 0 n) 0.

Lemma Rsum_S n h : Rsum (S n) h = Rsum n h + h n.
Proof. unfold Rsum. rewrite seq_S, fold_left_app. reflexivity. Qed.

Lemma Rsum_ext n h h' : (forall p, (p < n)%nat -> h p = h' p) -> Rsum n h = Rsum n h'.
Proof.
  intros H. unfold Rsum. apply fold_left_ext_in. intros p u Hp. apply in_seq in Hp.
  rewrite H by lia. reflexivity.
Qed.

Lemma Rsum_zero n h : (forall p, (p < n)%nat -> h p = 0) -> Rsum n h = 0.
Proof.
  induction n as [|n IH]; intros H; [reflexivity|].
  rewrite Rsum_S, IH, H by (intros; try apply H; lia). lra.
Qed.

(* sum against a Kronecker delta *)
Lemma Rsum_delta n j f : (j < n)%nat -> Rsum n (fun p => f p * (if (p =? j)%nat then 1 else 0)) = f j.
Proof.
  induction n as [|n IH]; intros Hj; [lia|]. rewrite Rsum_S.
  destruct (Nat.eq_dec j n) as [->|Hne].
  - rewrite Nat.eqb_refl. rewrite Rsum_zero; [lra|].
    intros p Hp. destruct (Nat.eqb_spec p n) as [E|E]; [lia|lra].
  - rewrite IH by lia. destruct (Nat.eqb_spec n j) as [E|E]; [lia|lra].
Qed.

Lemma Rsum_delta_l n i f : (i < n)%nat -> Rsum n (fun p => (if (i =? p)%nat then 1 else 0) * f p) = f i.
Proof.
  intros Hi. rewrite <- (Rsum_delta n i f Hi). apply Rsum_ext. intros p _.
  rewrite (Nat.eqb_sym i p). lra.
Qed.

Lemma validIdx2_inv a b idx : validIdx [a; b] idx -> exists i j, idx = [i; j] /\ (i < a)%nat /\ (j < b)%nat.
Proof.
  intros H. apply validIdx_cons in H as (i & r & -> & Hi & H). apply validIdx_cons in H as (j & r' & -> & Hj & H).
  apply validIdx_nil in H. subst r'. exists i, j. auto.
Qed.

(* two well-formed matrices of the same shape with the same elements are the same tensor *)
Lemma tensor2_ext {B} (r r' : tensor B) a b : wf r -> wf r' -> dims r = [a; b] -> dims r' = [a; b] ->
  (forall i j, (i < a)%nat -> (j < b)%nat -> get (data r) [i; j] = get (data r') [i; j]) -> r = r'.
Proof.
  intros [Hw _] [Hw' _] Hd Hd' H. apply tensor_ext; [congruence|exact Hw|exact Hw'|]. rewrite Hd.
  intros idx Hv. apply validIdx2_inv in Hv as (i & j & -> & Hi & Hj). apply H; assumption.
Qed.

Section Reals.
Variable thr : R.
Variable draw : bool -> nat -> R.
Local Instance RS : Scalar R := R_scalar thr draw.
Notation T := (tensor R).

(* the exact left fold of MatMulP is the finite sum of products *)
Lemma fold_Rsum n (f g : nat -> R) :
  fold_left (fun s p => @sadd R RS s (@smul R RS (f p) (g p))) (seq 0 n) (@s0 R RS) = Rsum n (fun p => f p * g p).
Proof. reflexivity. Qed.

Lemma eyeElem_R i j : @eyeElem R RS i j = if (i =? j)%nat then 1 else 0.
Proof. reflexivity. Qed.

Lemma wf_dims2_pos (a : T) m n : wf a -> dims a = [m; n] -> (0 < m)%nat /\ (0 < n)%nat.
Proof.
  intros [_ Hp] E. rewrite E in Hp. inversion Hp as [|? ? Hm Hp']; subst. inversion Hp' as [|? ? Hn _]; subst. auto.
Qed.

(* the n x n identity, as produced by Eye *)
Lemma eye_ok n : (0 < n)%nat ->
  exists e : T, @v_eye R RS (Z.of_nat n) = Ok e /\ wf e /\ dims e = [n; n] /\
    forall i j, (i < n)%nat -> (j < n)%nat -> @elt R RS (data e) [i; j] = if (i =? j)%nat then 1 else 0.
Proof.
  intros Hn. destruct (@v_eye_total R RS (Z.of_nat n)) as (_ & H & _).
  destruct (H ltac:(lia)) as (e & Ee & Hw & Hd & Hg). rewrite Nat2Z.id in Hd, Hg.
  exists e. repeat (split; [assumption|]). intros i j Hi Hj. unfold elt. rewrite (Hg i j Hi Hj). apply eyeElem_R.
Qed.

(* A . I = A *)
Theorem matmul_eye (a : T) m n : wf a -> dims a = [m; n] ->
  exists e, @v_eye R RS (Z.of_nat n) = Ok e /\ @v_matmul R RS a e = Ok a.
Proof.
  intros Ha E. destruct (wf_dims2_pos a m n Ha E) as [Hm Hn].
  destruct (eye_ok n Hn) as (e & Ee & Hwe & Hde & Hge). exists e. split; [exact Ee|].
  destruct (@v_matmul_2d R RS a e m n n Ha Hwe E Hde) as (r & Er & Hd & Hw & Hg).
  rewrite Er. f_equal. apply (tensor2_ext r a m n Hw Ha Hd E). intros i j Hi Hj.
  rewrite (Hg i j Hi Hj), fold_Rsum.
  rewrite (Rsum_ext n _ (fun p => @elt R RS (data a) [i; p] * (if (p =? j)%nat then 1 else 0)))
    by (intros p Hp; rewrite (Hge p j Hp Hj); reflexivity).
  rewrite (Rsum_delta n j (fun p => @elt R RS (data a) [i; p]) Hj).
  symmetry. apply (elt_some [m; n]); [rewrite <- E; exact (proj1 Ha)|apply validIdx2; auto].
Qed.

(* I . A = A *)
Theorem eye_matmul (a : T) m n : wf a -> dims a = [m; n] ->
  exists e, @v_eye R RS (Z.of_nat m) = Ok e /\ @v_matmul R RS e a = Ok a.
Proof.
  intros Ha E. destruct (wf_dims2_pos a m n Ha E) as [Hm Hn].
  destruct (eye_ok m Hm) as (e & Ee & Hwe & Hde & Hge). exists e. split; [exact Ee|].
  destruct (@v_matmul_2d R RS e a m m n Hwe Ha Hde E) as (r & Er & Hd & Hw & Hg).
  rewrite Er. f_equal. apply (tensor2_ext r a m n Hw Ha Hd E). intros i j Hi Hj.
  rewrite (Hg i j Hi Hj), fold_Rsum.
  rewrite (Rsum_ext m _ (fun p => (if (i =? p)%nat then 1 else 0) * @elt R RS (data a) [p; j]))
    by (intros p Hp; rewrite (Hge i p Hi Hp); reflexivity).
  rewrite (Rsum_delta_l m i (fun p => @elt R RS (data a) [p; j]) Hi).
  symmetry. apply (elt_some [m; n]); [rewrite <- E; exact (proj1 Ha)|apply validIdx2; auto].
Qed.

(* (A . B)^T = B^T . A^T *)
Theorem matmul_transpose (a b : T) m n k : wf a -> wf b -> dims a = [m; n] -> dims b = [n; k] ->
  exists ab abT aT bT,
    @v_matmul R RS a b = Ok ab /\ v_transpose ab = Ok abT /\
    v_transpose a = Ok aT /\ v_transpose b = Ok bT /\
    @v_matmul R RS bT aT = Ok abT.
Proof.
  intros Ha Hb Ea Eb.
  destruct (@v_matmul_2d R RS a b m n k Ha Hb Ea Eb) as (ab & Eab & Hdab & Hwab & Hgab).
  destruct (v_transpose_2d R ab m k Hwab Hdab) as (abT & EabT & HdabT & HwabT & HgabT).
  destruct (v_transpose_2d R a m n Ha Ea) as (aT & EaT & HdaT & HwaT & HgaT).
  destruct (v_transpose_2d R b n k Hb Eb) as (bT & EbT & HdbT & HwbT & HgbT).
  destruct (@v_matmul_2d R RS bT aT k n m HwbT HwaT HdbT HdaT) as (r & Er & Hdr & Hwr & Hgr).
  exists ab, abT, aT, bT. repeat (split; [assumption|]).
  rewrite Er. f_equal. apply (tensor2_ext r abT k m Hwr HwabT Hdr HdabT). intros j i Hj Hi.
  rewrite (Hgr j i Hj Hi), (HgabT i j Hi Hj), (Hgab i j Hi Hj), !fold_Rsum. f_equal.
  apply Rsum_ext. intros p Hp.
  rewrite (elt_get_eq _ _ _ _ (HgbT p j Hp Hj)), (elt_get_eq _ _ _ _ (HgaT i p Hi Hp)). apply Rmult_comm.
Qed.

End Reals.

(* ---------- the hypotheses are satisfiable ---------- *)
Example matmul_eye_hyp : exists a : tensor R, wf a /\ dims a = [2%nat; 3%nat].
Proof.
  exists (mkT [2%nat; 3%nat] (tab [2%nat; 3%nat] (fun idx => INR (flatIdx [2%nat; 3%nat] idx)))).
  split; [split; [apply wfnd_tab|repeat constructor]|reflexivity].
Qed.

Print Assumptions matmul_eye.
Print Assumptions eye_matmul.
Print Assumptions matmul_transpose.
