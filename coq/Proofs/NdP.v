(* NdP.v — basic facts about nested data: induction principle, well-formedness, get, tab,
   extensionality, mapM, row-major flattening; the notion "a value of shape ds whose element at
   idx is F idx" ([tabulates]), which every data-layer specification has as its conclusion (written out as
   the conjunction in most statements; FillP and OdometerP state it by name). *)
From Coq Require Import List Arith ZArith Bool Lia.
From Qeep Require Import Model.Nd.
Import ListNotations.

Section NdInd.
Variable A : Type.
Variable P : nd A -> Prop.
Hypothesis HSc : forall a, P (Sc a).
Hypothesis HVec : forall l, Forall P l -> P (Vec l).
Fixpoint nd_ind' (x : nd A) : P x :=
  match x with
  | Sc a => HSc a
  | Vec l => HVec l ((fix go (l : list (nd A)) : Forall P l :=
                      match l with
                      | [] => Forall_nil P
                      | y :: r => Forall_cons y (nd_ind' y) (go r)
                      end) l)
  end.
End NdInd.

Lemma obind_some {T U} (o : option T) (f : T -> option U) (u : U) :
  obind o f = Some u <-> exists t, o = Some t /\ f t = Some u.
Proof.
  destruct o as [t|]; cbn; split.
  - intros H; exists t; auto.
  - intros (t' & E & H); inversion E; subst; auto.
  - discriminate.
  - intros (t' & E & _); discriminate.
Qed.

Lemma mapM_length {T U} (f : T -> option U) l : forall r, mapM f l = Some r -> length r = length l.
Proof.
  induction l as [|x l IH]; intros r H; cbn in H.
  - inversion H; reflexivity.
  - destruct (f x) as [y|]; cbn in H; [|discriminate].
    destruct (mapM f l) as [ys|] eqn:E; cbn in H; [|discriminate].
    inversion H; subst; cbn; f_equal; apply IH; reflexivity.
Qed.

Lemma mapM_nth {T U} (f : T -> option U) l : forall r, mapM f l = Some r ->
  forall i x, nth_error l i = Some x -> exists y, nth_error r i = Some y /\ f x = Some y.
Proof.
  induction l as [|a l IH]; intros r H i x Hi; cbn in H.
  - destruct i; discriminate.
  - destruct (f a) as [y|] eqn:Ea; cbn in H; [|discriminate].
    destruct (mapM f l) as [ys|] eqn:E; cbn in H; [|discriminate].
    inversion H; subst. destruct i as [|i]; cbn in *.
    + inversion Hi; subst. exists y; auto.
    + eapply IH; eauto.
Qed.

Lemma mapM_all_some {T U} (f : T -> option U) (g : T -> U) l :
  (forall x, In x l -> f x = Some (g x)) -> mapM f l = Some (map g l).
Proof.
  induction l as [|a l IH]; intros H; cbn; [reflexivity|].
  rewrite (H a (or_introl eq_refl)). cbn. rewrite IH; [reflexivity|].
  intros x Hx; apply H; right; exact Hx.
Qed.

Lemma mapM_ext {T U} (f g : T -> option U) l :
  (forall x, In x l -> f x = g x) -> mapM f l = mapM g l.
Proof.
  induction l as [|a l IH]; intros H; cbn; [reflexivity|].
  rewrite (H a (or_introl eq_refl)). destruct (g a); cbn; [|reflexivity].
  rewrite IH; [reflexivity|]. intros x Hx; apply H; right; exact Hx.
Qed.

Lemma mapM_none_iff {T U} (f : T -> option U) l :
  mapM f l = None <-> exists x, In x l /\ f x = None.
Proof.
  induction l as [|a l IH]; cbn.
  - split; [discriminate|intros (x & [] & _)].
  - destruct (f a) as [y|] eqn:Ea; cbn.
    + destruct (mapM f l) as [ys|] eqn:E; cbn.
      * split; [discriminate|]. intros (x & [->|Hx] & Hn); [congruence|].
        destruct IH as [_ IH2].
        specialize (IH2 (ex_intro _ x (conj Hx Hn))). discriminate.
      * split; [intros _|reflexivity]. destruct IH as [IH1 _]. destruct (IH1 eq_refl) as (x & Hx & Hn).
        exists x; split; [right; exact Hx|exact Hn].
    + split; [intros _; exists a; split; [left; reflexivity|exact Ea]|reflexivity].
Qed.

Lemma mapM_seq_some {U} (f : nat -> option U) (g : nat -> U) n :
  (forall i, i < n -> f i = Some (g i)) -> mapM f (seq 0 n) = Some (map g (seq 0 n)).
Proof.
  intros H. apply mapM_all_some. intros x Hx. apply in_seq in Hx. apply H. lia.
Qed.

Lemma mapM_seq_inv {U} (f : nat -> option U) n r :
  mapM f (seq 0 n) = Some r -> length r = n /\ forall i, i < n -> exists y, nth_error r i = Some y /\ f i = Some y.
Proof.
  intros H. split.
  - rewrite (mapM_length _ _ _ H). apply seq_length.
  - intros i Hi. eapply mapM_nth; eauto. rewrite nth_error_nth' with (d := 0); [|rewrite seq_length; exact Hi].
    rewrite seq_nth; [reflexivity|exact Hi].
Qed.

Lemma nth_error_ext_len {T} (l1 l2 : list T) :
  length l1 = length l2 -> (forall i, i < length l1 -> nth_error l1 i = nth_error l2 i) -> l1 = l2.
Proof.
  revert l2. induction l1 as [|a l1 IH]; intros [|b l2] Hl H; cbn in Hl; try discriminate; [reflexivity|].
  f_equal.
  - specialize (H 0 ltac:(cbn; lia)). cbn in H. congruence.
  - apply IH; [congruence|]. intros i Hi. apply (H (S i)). cbn; lia.
Qed.

Lemma Forall2_len {X Y} (P : X -> Y -> Prop) xs ys : Forall2 P xs ys -> length xs = length ys.
Proof. intros H. induction H; cbn; congruence. Qed.

Lemma Forall2_weaken {X Y} (P Q : X -> Y -> Prop) l1 l2 :
  (forall x y, P x y -> Q x y) -> Forall2 P l1 l2 -> Forall2 Q l1 l2.
Proof. intros H HF. induction HF; constructor; auto. Qed.

Lemma Forall2_rev {X Y} (P : X -> Y -> Prop) xs ys : Forall2 P xs ys -> Forall2 P (rev xs) (rev ys).
Proof.
  intros H. induction H as [|x y xs ys Hxy Hr IH]; cbn [rev]; [constructor|].
  apply Forall2_app; [exact IH|constructor; [exact Hxy|constructor]].
Qed.

Lemma Forall_nth_error {T} (Q : T -> Prop) (l : list T) :
  (forall i y, nth_error l i = Some y -> Q y) -> Forall Q l.
Proof.
  intros H. apply Forall_forall. intros y Hy. apply In_nth_error in Hy as (i & Hi). eapply H; eauto.
Qed.

Lemma Forall_nth_error_inv {T} (Q : T -> Prop) (l : list T) i y :
  Forall Q l -> nth_error l i = Some y -> Q y.
Proof.
  intros H Hi. rewrite Forall_forall in H. apply H. eapply nth_error_In; eauto.
Qed.

Lemma mapM_total {T U} (f : T -> option U) l :
  (forall x, In x l -> exists y, f x = Some y) -> exists r, mapM f l = Some r.
Proof.
  induction l as [|a l IH]; intros H; cbn.
  - eexists; reflexivity.
  - destruct (H a (or_introl eq_refl)) as (y & Ey). rewrite Ey. cbn.
    destruct IH as (r & Er).
    + intros x Hx. apply H. right. exact Hx.
    + rewrite Er. cbn. eexists; reflexivity.
Qed.

Lemma mapM_seq_build {U} (f : nat -> option U) n (P : nat -> U -> Prop) :
  (forall i, i < n -> exists y, f i = Some y /\ P i y) ->
  exists r, mapM f (seq 0 n) = Some r /\ length r = n /\
            forall i, i < n -> exists y, nth_error r i = Some y /\ f i = Some y /\ P i y.
Proof.
  intros H.
  destruct (mapM_total f (seq 0 n)) as (r & Er).
  - intros x Hx. apply in_seq in Hx. destruct (H x ltac:(lia)) as (y & Ey & _). exists y; exact Ey.
  - exists r. split; [exact Er|]. destruct (mapM_seq_inv _ _ _ Er) as (Hl & Hn). split; [exact Hl|].
    intros i Hi. destruct (Hn i Hi) as (y & Ey & Fy). exists y. split; [exact Ey|]. split; [exact Fy|].
    destruct (H i Hi) as (y' & Fy' & Py'). congruence.
Qed.

(* a public call that succeeds with a described result when P holds and reports an error otherwise
   succeeds exactly when P holds, and never panics *)
Lemma ok_iff_of_spec {T} (r : res T) (P : Prop) (Q : T -> Prop) :
  P \/ ~ P -> (P -> exists x, r = Ok x /\ Q x) -> (~ P -> r = Err) ->
  ((exists x, r = Ok x) <-> P) /\ r <> Panic.
Proof.
  intros [H|H] H1 H2.
  - destruct (H1 H) as (x & -> & _).
    split; [split; [intros _; exact H|intros _; eexists; reflexivity]|discriminate].
  - rewrite (H2 H). split; [split; [intros (x & E); discriminate|intros H'; contradiction]|discriminate].
Qed.

Section NdFacts.
Variable A : Type.
Implicit Types (x y : nd A) (ds : list nat) (idx : list nat).

Definition validIdx ds idx : Prop := Forall2 lt idx ds.

Lemma validIdx_nil idx : validIdx [] idx <-> idx = [].
Proof. split; [intros H; inversion H; reflexivity|intros ->; constructor]. Qed.

Lemma validIdx_cons d ds idx : validIdx (d :: ds) idx <-> exists i r, idx = i :: r /\ i < d /\ validIdx ds r.
Proof.
  split.
  - intros H; inversion H; subst. eexists _, _; repeat split; eauto.
  - intros (i & r & -> & Hi & Hr). constructor; assumption.
Qed.

Lemma validIdx_length ds idx : validIdx ds idx -> length idx = length ds.
Proof. intros H. induction H; cbn; congruence. Qed.

Lemma wfnd_nil x : wfnd [] x <-> exists a, x = Sc a.
Proof.
  destruct x as [a|l]; cbn; split; try tauto.
  - intros _; exists a; reflexivity.
  - intros (a & E); discriminate.
Qed.

Lemma wfnd_cons d ds x : wfnd (d :: ds) x <-> exists l, x = Vec l /\ length l = d /\ Forall (wfnd ds) l.
Proof.
  destruct x as [a|l]; cbn; split; try tauto.
  - intros (l & E & _); discriminate.
  - intros [H1 H2]; exists l; auto.
  - intros (l' & E & H1 & H2); inversion E; subst; auto.
Qed.

Lemma wfndb_spec ds : forall x, wfndb ds x = true <-> wfnd ds x.
Proof.
  induction ds as [|d ds IH]; intros [a|l]; cbn; try tauto; try (split; [discriminate|tauto]).
  rewrite andb_true_iff, Nat.eqb_eq, forallb_forall, Forall_forall.
  split; intros [H1 H2]; split; auto; intros y Hy; apply IH; auto.
Qed.

Lemma get_nil x : get x [] = asF x.
Proof. reflexivity. Qed.

Lemma get_cons x i r : get x (i :: r) = match x with Vec l => match nth_error l i with Some y => get y r | None => None end | Sc _ => None end.
Proof. unfold get; cbn. destruct x as [a|l]; cbn; [reflexivity|]. destruct (nth_error l i); reflexivity. Qed.

Lemma dataAt_app x i1 : forall i2, dataAt x (i1 ++ i2) = obind (dataAt x i1) (fun y => dataAt y i2).
Proof.
  revert x. induction i1 as [|i r IH]; intros x i2; cbn; [reflexivity|].
  destruct x as [a|l]; cbn; [reflexivity|]. destruct (nth_error l i) as [y|]; cbn; [apply IH|reflexivity].
Qed.

Lemma get_wf ds : forall x idx, wfnd ds x -> validIdx ds idx -> exists a, get x idx = Some a.
Proof.
  induction ds as [|d ds IH]; intros x idx Hw Hv.
  - apply validIdx_nil in Hv; subst. apply wfnd_nil in Hw as (a & ->). exists a; reflexivity.
  - apply validIdx_cons in Hv as (i & r & -> & Hi & Hr). apply wfnd_cons in Hw as (l & -> & Hl & Hf).
    rewrite get_cons. destruct (nth_error l i) as [y|] eqn:E.
    + apply IH; [|exact Hr]. rewrite Forall_forall in Hf. apply Hf. eapply nth_error_In; eauto.
    + apply nth_error_None in E. lia.
Qed.

Lemma dataAt_wf ds1 : forall ds2 x idx, wfnd (ds1 ++ ds2) x -> validIdx ds1 idx ->
  exists y, dataAt x idx = Some y /\ wfnd ds2 y.
Proof.
  induction ds1 as [|d ds1 IH]; intros ds2 x idx Hw Hv.
  - apply validIdx_nil in Hv; subst. exists x; split; [reflexivity|exact Hw].
  - apply validIdx_cons in Hv as (i & r & -> & Hi & Hr). cbn [app] in Hw.
    apply wfnd_cons in Hw as (l & -> & Hl & Hf). cbn.
    destruct (nth_error l i) as [y|] eqn:E.
    + cbn. apply IH; [|exact Hr]. rewrite Forall_forall in Hf. apply Hf. eapply nth_error_In; eauto.
    + apply nth_error_None in E. lia.
Qed.

(* two well-formed values of the same shape with the same elements are equal *)
Lemma nd_ext ds : forall x y, wfnd ds x -> wfnd ds y ->
  (forall idx, validIdx ds idx -> get x idx = get y idx) -> x = y.
Proof.
  induction ds as [|d ds IH]; intros x y Hx Hy H.
  - apply wfnd_nil in Hx as (a & ->). apply wfnd_nil in Hy as (b & ->).
    specialize (H [] (Forall2_nil _)). cbn in H. inversion H; reflexivity.
  - apply wfnd_cons in Hx as (lx & -> & Hlx & Hfx). apply wfnd_cons in Hy as (ly & -> & Hly & Hfy).
    f_equal. apply nth_error_ext_len; [lia|]. intros i Hi.
    destruct (nth_error lx i) as [a|] eqn:Ea; [|apply nth_error_None in Ea; lia].
    destruct (nth_error ly i) as [b|] eqn:Eb; [|apply nth_error_None in Eb; lia].
    f_equal. apply IH.
    + rewrite Forall_forall in Hfx; apply Hfx; eapply nth_error_In; eauto.
    + rewrite Forall_forall in Hfy; apply Hfy; eapply nth_error_In; eauto.
    + intros idx Hv. specialize (H (i :: idx)). rewrite !get_cons, Ea, Eb in H. apply H.
      constructor; [lia|exact Hv].
Qed.

Lemma wfnd_tab ds : forall (f : list nat -> A), wfnd ds (tab ds f).
Proof.
  induction ds as [|d ds IH]; intros f; cbn; [exact I|].
  split; [rewrite map_length, seq_length; reflexivity|].
  apply Forall_forall. intros y Hy. apply in_map_iff in Hy as (k & <- & _). apply IH.
Qed.

Lemma get_tab ds : forall (f : list nat -> A) idx, validIdx ds idx -> get (tab ds f) idx = Some (f idx).
Proof.
  induction ds as [|d ds IH]; intros f idx Hv.
  - apply validIdx_nil in Hv; subst. reflexivity.
  - apply validIdx_cons in Hv as (i & r & -> & Hi & Hr). cbn [tab]. rewrite get_cons.
    rewrite nth_error_map. rewrite nth_error_nth' with (d := 0) by (rewrite seq_length; exact Hi).
    rewrite seq_nth by exact Hi. cbn. rewrite IH by exact Hr. reflexivity.
Qed.

Lemma tab_ext ds : forall (f g : list nat -> A), (forall idx, validIdx ds idx -> f idx = g idx) -> tab ds f = tab ds g.
Proof.
  intros f g H. apply (nd_ext ds); try apply wfnd_tab. intros idx Hv. rewrite !get_tab by exact Hv. f_equal; auto.
Qed.

(* every well-formed value is the tabulation of its own elements *)
Lemma tab_get ds (dflt : A) : forall x, wfnd ds x ->
  x = tab ds (fun idx => match get x idx with Some a => a | None => dflt end).
Proof.
  intros x Hx. apply (nd_ext ds); [exact Hx|apply wfnd_tab|]. intros idx Hv.
  rewrite get_tab by exact Hv. destruct (get_wf _ _ _ Hx Hv) as (a & ->). reflexivity.
Qed.

Fixpoint flatIdx ds idx : nat :=
  match ds, idx with
  | d :: ds', i :: idx' => i * prodn ds' + flatIdx ds' idx'
  | _, _ => 0
  end.

Lemma flatIdx_lt ds : forall idx, validIdx ds idx -> flatIdx ds idx < prodn ds.
Proof.
  induction ds as [|d ds IH]; intros idx Hv.
  - cbn. lia.
  - apply validIdx_cons in Hv as (i & r & -> & Hi & Hr). specialize (IH _ Hr). cbn [flatIdx prodn fold_right].
    fold (prodn ds). nia.
Qed.

Lemma flatIdx_inj ds : forall i1 i2, validIdx ds i1 -> validIdx ds i2 -> flatIdx ds i1 = flatIdx ds i2 -> i1 = i2.
Proof.
  induction ds as [|d ds IH]; intros i1 i2 H1 H2 E.
  - apply validIdx_nil in H1, H2. congruence.
  - apply validIdx_cons in H1 as (a & r1 & -> & Ha & Hr1). apply validIdx_cons in H2 as (b & r2 & -> & Hb & Hr2).
    cbn [flatIdx] in E. pose proof (flatIdx_lt ds r1 Hr1) as L1. pose proof (flatIdx_lt ds r2 Hr2) as L2.
    assert (a = b) by nia. subst b. f_equal. apply IH; [assumption|assumption|lia].
Qed.

Fixpoint flat_list (l : list (nd A)) : list A := match l with [] => [] | y :: r => flat y ++ flat_list r end.
Lemma flat_Vec l : flat (Vec l) = flat_list l.
Proof. cbn. induction l as [|y r IH]; [reflexivity|]. cbn. rewrite IH. reflexivity. Qed.

Lemma flat_length ds : forall x, wfnd ds x -> length (flat x) = prodn ds.
Proof.
  induction ds as [|d ds IH]; intros x Hx.
  - apply wfnd_nil in Hx as (a & ->). reflexivity.
  - apply wfnd_cons in Hx as (l & -> & Hl & Hf). rewrite flat_Vec. cbn [prodn fold_right]. fold (prodn ds).
    subst d. induction l as [|y r IHr]; [reflexivity|]. inversion Hf; subst. cbn. rewrite app_length.
    rewrite IH by assumption. rewrite IHr by assumption. lia.
Qed.

Lemma flat_nth ds : forall x idx, wfnd ds x -> validIdx ds idx -> nth_error (flat x) (flatIdx ds idx) = get x idx.
Proof.
  induction ds as [|d ds IH]; intros x idx Hx Hv.
  - apply validIdx_nil in Hv; subst. apply wfnd_nil in Hx as (a & ->). reflexivity.
  - apply validIdx_cons in Hv as (i & r & -> & Hi & Hr). apply wfnd_cons in Hx as (l & -> & Hl & Hf).
    rewrite flat_Vec, get_cons. cbn [flatIdx]. subst d.
    revert i Hi. induction l as [|y l IHl]; intros i Hi; [cbn in Hi; lia|].
    inversion Hf; subst. destruct i as [|i]; cbn [flat_list nth_error].
    + cbn [Nat.mul Nat.add]. rewrite nth_error_app1.
      * apply IH; assumption.
      * rewrite (flat_length ds) by assumption. apply flatIdx_lt; exact Hr.
    + rewrite nth_error_app2 by (rewrite (flat_length ds) by assumption; cbn; lia).
      rewrite (flat_length ds) by assumption.
      replace (S i * prodn ds + flatIdx ds r - prodn ds) with (i * prodn ds + flatIdx ds r) by (cbn; lia).
      apply IHl; [assumption|cbn in Hi; lia].
Qed.

End NdFacts.

Section Tabulates.
Context {A : Type}.
Implicit Types (x y : nd A) (ds idx : list nat).

Lemma wfnd_row d ds (l : list (nd A)) i : length l = d -> Forall (wfnd ds) l -> i < d ->
  exists y, nth_error l i = Some y /\ wfnd ds y.
Proof.
  intros Hl Hf Hi. destruct (nth_error l i) as [y|] eqn:E; [|apply nth_error_None in E; lia].
  exists y. split; [reflexivity|exact (Forall_nth_error_inv _ _ _ _ Hf E)].
Qed.

(* at a full index the sub-value read is a scalar *)
Lemma dataAt_full ds x idx : wfnd ds x -> validIdx ds idx ->
  exists a, dataAt x idx = Some (Sc a) /\ get x idx = Some a.
Proof.
  intros Hw Hi. rewrite <- (app_nil_r ds) in Hw.
  destruct (dataAt_wf A ds [] x idx Hw Hi) as (y & Ey & Hy).
  apply wfnd_nil in Hy as (a & ->). exists a. unfold get. rewrite Ey. split; reflexivity.
Qed.

Definition tabulates ds (F : list nat -> option A) y : Prop :=
  wfnd ds y /\ forall idx, validIdx ds idx -> get y idx = F idx.

Lemma tabulates_Sc F a : F [] = Some a -> tabulates [] F (Sc a).
Proof. intros E. split; [exact I|]. intros idx Hv. apply validIdx_nil in Hv; subst. symmetry; exact E. Qed.

Lemma tabulates_ext ds F G y : (forall idx, validIdx ds idx -> F idx = G idx) -> tabulates ds F y -> tabulates ds G y.
Proof. intros E [H1 H2]. split; [exact H1|]. intros idx Hv. rewrite H2, E; auto. Qed.

(* the loop  rows := make([]any, d); for i := range rows { rows[i] = ... }  *)
Lemma tabulates_Vec d ds (fi : nat -> option (nd A)) F :
  (forall i, i < d -> exists y, fi i = Some y /\ tabulates ds (fun r => F (i :: r)) y) ->
  exists out, mapM fi (seq 0 d) = Some out /\ tabulates (d :: ds) F (Vec out).
Proof.
  intros H.
  destruct (mapM_seq_build fi d (fun i y => tabulates ds (fun r => F (i :: r)) y) H) as (out & Eo & Hl & Hn).
  exists out. split; [exact Eo|]. split.
  - cbn. split; [exact Hl|]. apply Forall_nth_error. intros i y Hy.
    assert (Hi : i < d) by (rewrite <- Hl; apply nth_error_Some; congruence).
    destruct (Hn i Hi) as (y' & Ey' & _ & [Hw _]). congruence.
  - intros idx Hv. apply validIdx_cons in Hv as (i & r & -> & Hi & Hr). rewrite get_cons.
    destruct (Hn i Hi) as (y & Ey & _ & [_ Hg]). rewrite Ey. apply Hg, Hr.
Qed.

(* two well-formed tensors of the same shape with the same elements are equal *)
Lemma tensor_ext (r r' : tensor A) : dims r = dims r' -> wfnd (dims r) (data r) -> wfnd (dims r') (data r') ->
  (forall idx, validIdx (dims r) idx -> get (data r) idx = get (data r') idx) -> r = r'.
Proof.
  destruct r as [ds x], r' as [ds' x']. cbn [dims data]. intros <- Hw Hw' H. f_equal.
  apply (nd_ext A ds); assumption.
Qed.

End Tabulates.
