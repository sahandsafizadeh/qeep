(* OdometerP.v — the mixed-radix odometer [incr] of Model/Fill.v.
   States are least-significant digit first.  [oval ds st] is the number denoted by the
   digits [st] in radices [ds]; one [incr] is +1 modulo [prodn ds]; the k-th state reached
   from all zeros is the digit expansion [unflat ds k]; and for a row-major multi-index
   [idx] of shape [ds] (most significant first, as in NdP), the state reached after
   [flatIdx ds idx] steps of the odometer over [rev ds] is [rev idx]. *)
From Coq Require Import List Arith ZArith Bool Lia.
From Qeep Require Import Model.Scalar Model.Nd Model.Fill Proofs.NdP Proofs.FillP.
Import ListNotations.

Lemma prodn_cons d ds : prodn (d :: ds) = d * prodn ds.
Proof. reflexivity. Qed.

Lemma prodn_app ds1 ds2 : prodn (ds1 ++ ds2) = prodn ds1 * prodn ds2.
Proof.
  induction ds1 as [|d ds1 IH]; cbn [app]; [cbn; lia|].
  rewrite !prodn_cons, IH. lia.
Qed.

Lemma prodn_rev ds : prodn (rev ds) = prodn ds.
Proof.
  induction ds as [|d ds IH]; [reflexivity|].
  cbn [rev]. rewrite prodn_app, IH, !prodn_cons. cbn. lia.
Qed.

Lemma prodn_pos ds : Forall (fun d => 0 < d) ds -> 0 < prodn ds.
Proof.
  induction 1 as [|d ds Hd _ IH]; [cbn; lia|]. rewrite prodn_cons. nia.
Qed.

Lemma Forall2_app_inv_len {T U} (R : T -> U -> Prop) l1 : forall l2 r1 r2,
  length l1 = length r1 -> Forall2 R (l1 ++ l2) (r1 ++ r2) -> Forall2 R l1 r1 /\ Forall2 R l2 r2.
Proof.
  induction l1 as [|a l1 IH]; intros l2 [|b r1] r2 Hl H; cbn in Hl; try discriminate.
  - split; [constructor|exact H].
  - cbn [app] in H. inversion H as [|? ? ? ? Hab Hr]; subst.
    destruct (IH l2 r1 r2 ltac:(lia) Hr) as [H1 H2]. split; [constructor; assumption|exact H2].
Qed.

Lemma Forall2_rev' {T U} (R : T -> U -> Prop) l r : Forall2 R l r -> Forall2 R (rev l) (rev r).
Proof. apply Forall2_rev. Qed.

Lemma validIdx_rev ds idx : validIdx ds idx <-> validIdx (rev ds) (rev idx).
Proof.
  unfold validIdx. split; [apply Forall2_rev'|].
  intros H. apply Forall2_rev' in H. rewrite !rev_involutive in H. exact H.
Qed.

Fixpoint oval (ds st : list nat) : nat :=
  match ds, st with
  | d :: ds', x :: st' => x + d * oval ds' st'
  | _, _ => 0
  end.

Fixpoint ovalid (ds st : list nat) : Prop :=
  match ds, st with
  | d :: ds', x :: st' => x < d /\ ovalid ds' st'
  | [], [] => True
  | _, _ => False
  end.

Lemma ovalid_validIdx ds : forall st, ovalid ds st <-> validIdx ds st.
Proof.
  induction ds as [|d ds IH]; intros [|x st]; cbn [ovalid]; unfold validIdx in *.
  - split; [constructor|exact (fun _ => I)].
  - split; [tauto|intros H; inversion H].
  - split; [tauto|intros H; inversion H].
  - rewrite IH. split.
    + intros [H1 H2]; constructor; assumption.
    + intros H; inversion H; subst; auto.
Qed.

Lemma ovalid_length ds st : ovalid ds st -> length st = length ds.
Proof. intros H. apply ovalid_validIdx in H. apply validIdx_length, H. Qed.

Lemma oval_lt ds : forall st, ovalid ds st -> oval ds st < prodn ds.
Proof.
  induction ds as [|d ds IH]; intros [|x st] H; cbn [ovalid] in H; try contradiction.
  - cbn. lia.
  - destruct H as [Hx Hr]. specialize (IH st Hr). cbn [oval]. rewrite prodn_cons. nia.
Qed.

Lemma ovalid_zeros ds : Forall (fun d => 0 < d) ds -> ovalid ds (repeat 0 (length ds)).
Proof. induction 1 as [|d ds Hd _ IH]; cbn; [exact I|split; assumption]. Qed.

Lemma oval_zeros ds : oval ds (repeat 0 (length ds)) = 0.
Proof. induction ds as [|d ds IH]; cbn; [reflexivity|]. rewrite IH. lia. Qed.

(* a valid state exists only when every radix is positive *)
Lemma ovalid_pos ds : forall st, ovalid ds st -> Forall (fun d => 0 < d) ds.
Proof.
  induction ds as [|d ds IH]; intros [|x st] H; cbn [ovalid] in H; try contradiction.
  - constructor.
  - destruct H as [Hx Hr]. constructor; [lia|eapply IH; eauto].
Qed.

(* the digits are determined by the value *)
Lemma oval_inj ds : forall st1 st2, ovalid ds st1 -> ovalid ds st2 -> oval ds st1 = oval ds st2 -> st1 = st2.
Proof.
  induction ds as [|d ds IH]; intros [|x1 st1] [|x2 st2] H1 H2 E; cbn [ovalid] in H1, H2; try contradiction.
  - reflexivity.
  - destruct H1 as [Hx1 Hr1]. destruct H2 as [Hx2 Hr2]. cbn [oval] in E.
    destruct (Nat.div_mod_unique d (oval ds st1) (oval ds st2) x1 x2 Hx1 Hx2 ltac:(lia)) as [Eq Er].
    subst x2. f_equal. apply IH; assumption.
Qed.

Lemma incr_valid ds : forall st, ovalid ds st -> ovalid ds (incr ds st).
Proof.
  induction ds as [|d ds IH]; intros [|x st] H; cbn [ovalid] in H; try contradiction.
  - exact I.
  - destruct H as [Hx Hr]. cbn [incr]. destruct (S x <? d) eqn:E.
    + apply Nat.ltb_lt in E. cbn [ovalid]. split; assumption.
    + cbn [ovalid]. split; [lia|apply IH, Hr].
Qed.

Lemma incr_val ds : forall st, ovalid ds st ->
  oval ds (incr ds st) = if S (oval ds st) <? prodn ds then S (oval ds st) else 0.
Proof.
  induction ds as [|d ds IH]; intros [|x st] H; cbn [ovalid] in H; try contradiction; [reflexivity|].
  destruct H as [Hx Hr]. cbn [incr oval]. rewrite prodn_cons. pose proof (oval_lt ds st Hr) as Hlt.
  (* no carry, or carry into the remaining digits; in both the comparisons decide the rest *)
  destruct (Nat.ltb_spec (S x) d) as [E|E]; cbn [oval]; [|rewrite (IH st Hr)];
    destruct (Nat.ltb_spec (S (x + d * oval ds st)) (d * prodn ds)) as [E2|E2];
    try destruct (Nat.ltb_spec (S (oval ds st)) (prodn ds)) as [E3|E3]; nia.
Qed.

(* the last state wraps to all zeros *)
Lemma incr_wrap ds st : ovalid ds st -> S (oval ds st) = prodn ds -> incr ds st = repeat 0 (length ds).
Proof.
  intros Hv E. apply (oval_inj ds).
  - apply incr_valid, Hv.
  - apply ovalid_zeros. eapply ovalid_pos; eauto.
  - rewrite incr_val by exact Hv. rewrite oval_zeros.
    destruct (S (oval ds st) <? prodn ds) eqn:E2; [apply Nat.ltb_lt in E2; lia|reflexivity].
Qed.

Lemma iter_incr_valid ds k : forall st, ovalid ds st -> ovalid ds (iter _ (incr ds) k st).
Proof. induction k as [|k IH]; intros st H; cbn [iter]; [exact H|apply IH, incr_valid, H]. Qed.

Lemma iter_incr_val ds k : forall st, ovalid ds st -> oval ds st + k < prodn ds ->
  oval ds (iter _ (incr ds) k st) = oval ds st + k.
Proof.
  induction k as [|k IH]; intros st Hv Hk; cbn [iter]; [lia|].
  rewrite IH.
  - rewrite incr_val by exact Hv. destruct (S (oval ds st) <? prodn ds) eqn:E; [lia|].
    apply Nat.ltb_ge in E. lia.
  - apply incr_valid, Hv.
  - rewrite incr_val by exact Hv. destruct (S (oval ds st) <? prodn ds) eqn:E; [lia|].
    apply Nat.ltb_ge in E. lia.
Qed.

Corollary iter_incr_zeros_val ds k : Forall (fun d => 0 < d) ds -> k < prodn ds ->
  oval ds (iter _ (incr ds) k (repeat 0 (length ds))) = k.
Proof.
  intros Hp Hk. rewrite iter_incr_val; rewrite ?oval_zeros; [lia|apply ovalid_zeros, Hp|lia].
Qed.

(* after a full period the odometer is back at all zeros *)
Corollary iter_incr_period ds : Forall (fun d => 0 < d) ds ->
  iter _ (incr ds) (prodn ds) (repeat 0 (length ds)) = repeat 0 (length ds).
Proof.
  intros Hp. pose proof (prodn_pos ds Hp) as Hpos.
  replace (prodn ds) with ((prodn ds - 1) + 1) at 1 by lia.
  rewrite iter_add. cbn [iter].
  apply incr_wrap.
  - apply iter_incr_valid, ovalid_zeros, Hp.
  - rewrite iter_incr_zeros_val by (auto; lia). lia.
Qed.

Fixpoint unflat (ds : list nat) (k : nat) : list nat :=
  match ds with
  | [] => []
  | d :: ds' => k mod d :: unflat ds' (k / d)
  end.

Lemma unflat_valid ds : Forall (fun d => 0 < d) ds -> forall k, ovalid ds (unflat ds k).
Proof.
  induction 1 as [|d ds Hd _ IH]; intros k; cbn [unflat ovalid]; [exact I|].
  split; [apply Nat.mod_upper_bound; lia|apply IH].
Qed.

Lemma unflat_val ds : forall k, k < prodn ds -> oval ds (unflat ds k) = k.
Proof.
  induction ds as [|d ds IH]; intros k Hk; cbn [unflat oval].
  - cbn in Hk. lia.
  - rewrite prodn_cons in Hk. assert (Hd : d <> 0) by (intros ->; lia).
    rewrite IH.
    + pose proof (Nat.div_mod k d Hd). lia.
    + apply Nat.div_lt_upper_bound; [exact Hd|exact Hk].
Qed.

Theorem iter_incr_unflat ds k : Forall (fun d => 0 < d) ds -> k < prodn ds ->
  iter _ (incr ds) k (repeat 0 (length ds)) = unflat ds k.
Proof.
  intros Hp Hk. apply (oval_inj ds).
  - apply iter_incr_valid, ovalid_zeros, Hp.
  - apply unflat_valid, Hp.
  - rewrite iter_incr_zeros_val, unflat_val by assumption. reflexivity.
Qed.

Lemma oval_app ds1 : forall st1 ds2 st2, length st1 = length ds1 ->
  oval (ds1 ++ ds2) (st1 ++ st2) = oval ds1 st1 + prodn ds1 * oval ds2 st2.
Proof.
  induction ds1 as [|d ds1 IH]; intros [|x st1] ds2 st2 Hl; cbn in Hl; try discriminate.
  - cbn [app oval prodn fold_right]. lia.
  - cbn [app oval]. rewrite IH by lia. rewrite prodn_cons. lia.
Qed.

Lemma oval_rev_flatIdx ds : forall idx, validIdx ds idx -> oval (rev ds) (rev idx) = flatIdx ds idx.
Proof.
  induction ds as [|d ds IH]; intros idx Hv.
  - apply validIdx_nil in Hv; subst. reflexivity.
  - apply validIdx_cons in Hv as (i & r & -> & Hi & Hr). cbn [rev flatIdx].
    rewrite oval_app by (rewrite !rev_length; apply validIdx_length, Hr).
    rewrite IH by exact Hr. rewrite prodn_rev. cbn [oval]. lia.
Qed.

Lemma ovalid_rev ds idx : validIdx ds idx -> ovalid (rev ds) (rev idx).
Proof. intros H. apply ovalid_validIdx. apply validIdx_rev in H. exact H. Qed.

Lemma ovalid_rev_inv ds st : ovalid (rev ds) st -> validIdx ds (rev st).
Proof. intros H. apply ovalid_validIdx, validIdx_rev in H. rewrite rev_involutive in H. exact H. Qed.

Lemma validIdx_pos ds idx : validIdx ds idx -> Forall (fun d => 0 < d) ds.
Proof. intros H. apply ovalid_validIdx in H. eapply ovalid_pos; eauto. Qed.

(* the state of the odometer over [rev ds] after [flatIdx ds idx] steps is [rev idx] *)
Theorem iter_incr_flatIdx ds idx : validIdx ds idx ->
  iter _ (incr (rev ds)) (flatIdx ds idx) (repeat 0 (length ds)) = rev idx.
Proof.
  intros Hv. pose proof (validIdx_pos ds idx Hv) as Hp.
  assert (Hp' : Forall (fun d => 0 < d) (rev ds)) by (apply Forall_rev, Hp).
  rewrite <- (rev_length ds). apply (oval_inj (rev ds)).
  - apply iter_incr_valid, ovalid_zeros, Hp'.
  - apply ovalid_rev, Hv.
  - rewrite iter_incr_zeros_val.
    + symmetry. apply oval_rev_flatIdx, Hv.
    + exact Hp'.
    + rewrite prodn_rev. apply flatIdx_lt, Hv.
Qed.

(* a scalar-emitting generator driven by the odometer over its own target shape: the element at
   [idx] is what the generator reads in state [rev idx] *)
Lemma initWith_odometer {A} (tds : list nat) (g : list nat -> option (nd A * list nat)) (rd : list nat -> option A) :
  (forall st, ovalid (rev tds) st -> exists a, rd st = Some a /\ g st = Some (Sc a, incr (rev tds) st)) ->
  Forall (fun d => 0 < d) tds ->
  exists d, initWith tds g (repeat 0 (length tds)) = Some d /\ tabulates tds (fun idx => rd (rev idx)) d.
Proof.
  intros Hg Hp.
  destruct (initWith_get g (incr (rev tds)) rd (ovalid (rev tds)) Hg (incr_valid (rev tds)) tds
              (repeat 0 (length tds))) as (d & Ed & Hd).
  { rewrite <- (rev_length tds). apply ovalid_zeros, Forall_rev, Hp. }
  exists d. split; [exact Ed|]. eapply tabulates_ext; [|exact Hd].
  intros idx Hv. cbn beta. rewrite (iter_incr_flatIdx tds idx Hv). reflexivity.
Qed.

(* row-major positions are in bijection with valid multi-indices *)
Definition unflatIdx (ds : list nat) (k : nat) : list nat := rev (unflat (rev ds) k).

Lemma unflatIdx_valid ds k : Forall (fun d => 0 < d) ds -> validIdx ds (unflatIdx ds k).
Proof.
  intros Hp. unfold unflatIdx. apply validIdx_rev. rewrite rev_involutive.
  apply ovalid_validIdx, unflat_valid, Forall_rev, Hp.
Qed.

Lemma flatIdx_unflatIdx ds k : Forall (fun d => 0 < d) ds -> k < prodn ds -> flatIdx ds (unflatIdx ds k) = k.
Proof.
  intros Hp Hk. rewrite <- oval_rev_flatIdx by (apply unflatIdx_valid, Hp).
  unfold unflatIdx. rewrite rev_involutive. apply unflat_val. rewrite prodn_rev. exact Hk.
Qed.

Lemma flatIdx_inj ds idx1 idx2 : validIdx ds idx1 -> validIdx ds idx2 -> flatIdx ds idx1 = flatIdx ds idx2 -> idx1 = idx2.
Proof. apply NdP.flatIdx_inj. Qed.

(* a list is determined by its length and its entries; used for [flat] *)
Lemma flat_ext_by_idx {A} ds (x : nd A) : Forall (fun d => 0 < d) ds -> wfnd ds x ->
  forall l, length l = prodn ds ->
  (forall idx, validIdx ds idx -> get x idx = nth_error l (flatIdx ds idx)) -> flat x = l.
Proof.
  intros Hp Hx l Hl H. apply nth_error_ext_len.
  - rewrite (flat_length A ds x Hx). lia.
  - intros k Hk. rewrite (flat_length A ds x Hx) in Hk.
    rewrite <- (flatIdx_unflatIdx ds k Hp Hk).
    rewrite (flat_nth A ds x _ Hx (unflatIdx_valid ds k Hp)). apply H, unflatIdx_valid, Hp.
Qed.

Example incr_ex : iter _ (incr [3; 2]) 4 [0; 0] = [1; 1] /\ oval [3; 2] [1; 1] = 4 /\ unflat [3; 2] 4 = [1; 1].
Proof. vm_compute. auto. Qed.
Example incr_wrap_ex : incr [3; 2] [2; 1] = [0; 0].
Proof. reflexivity. Qed.
Example iter_incr_flatIdx_ex :
  validIdx [2; 3] [1; 2] /\ flatIdx [2; 3] [1; 2] = 5 /\ iter _ (incr (rev [2; 3])) 5 (repeat 0 2) = rev [1; 2].
Proof. split; [repeat constructor|vm_compute; auto]. Qed.

Print Assumptions incr_val.
Print Assumptions iter_incr_unflat.
Print Assumptions iter_incr_flatIdx.
Print Assumptions flatIdx_unflatIdx.
