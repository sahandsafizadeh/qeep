(* OpsP.v — the components as straight-line programs.
   The forward entry points of Relu, LeakyRelu, Sigmoid, Softmax, FC, clip and the three losses are, after
   their argument check, [atomically h (doh .. <- m1; doh .. <- m2; .. mk)] for tracked tensor methods m1..mk
   whose operands are the inputs or earlier results (Tanh is a single call; SGD, Accuracy and the initializers
   are not chains).  Such a chain is written here as a list of
   instructions ([runOps]); the equations [*_forward_ops] / [*_compute_ops] hold by unfolding, so a
   fact about [runOps] (one induction on the list) is a fact about every component.
   [runOpsV] is the same program on values. *)
From Coq Require Import List Arith ZArith Bool.
From Qeep Require Import Model.Scalar Model.Nd Model.Fill Model.Data Model.Valid Model.Api Model.Grad Model.Components.
Import ListNotations.

Section Ops.
Context {A : Type} {SA : Scalar A}.
Notation T := (tensor A).
Notation heap := (@heap A).
Notation hres := (@hres A).

Inductive prim :=
| PScale (a : A) | PPow (a : A) (azero : bool) | PMath (f : mathfn) | PUnsq (dim : Z) | PRed (r : reducer) (dim : Z)
| PElsel (b : binary) | PArith (b : binary) | PMatmul.

Definition runPrim (p : prim) (h : heap) (args : list nat) (name : option nat) : hres :=
  match p, args with
  | PScale a, [x] => h_scale h x a name
  | PPow a az, [x] => h_pow h x a az name
  | PMath f, [x] => h_math h f x name
  | PUnsq d, [x] => h_unsqueeze h x d name
  | PRed r d, [x] => h_reduceAlong h r x d name
  | PElsel b, [x; u] => h_elsel h b x u name
  | PArith b, [x; u] => h_arith h b x u name
  | PMatmul, [x; u] => h_matmul h x u name
  | _, _ => (h, Panic)
  end.

Definition primV (p : prim) (args : list T) : res T :=
  match p, args with
  | PScale a, [x] => v_unary (UScale a) x
  | PPow a _, [x] => v_unary (UPow a) x
  | PMath f, [x] => v_unary (mathUnary f) x
  | PUnsq d, [x] => v_unsqueeze x d
  | PRed r d, [x] => v_reduceAlong r x d
  | PElsel b, [x; u] => v_same b x u
  | PArith b, [x; u] => v_arith b x u
  | PMatmul, [x; u] => v_matmul x u
  | _, _ => Panic
  end.

(* an instruction names its operands by position in the list of node ids so far: the inputs,
   then one id per executed instruction *)
Definition op := (prim * list nat)%type.

Definition pick {X} (env : list X) (d : X) (a : list nat) : list X := map (fun i => nth i env d) a.

(* only the last call carries the caller-visible name *)
Fixpoint runOps (ops : list op) (h : heap) (env : list nat) (name : option nat) : hres :=
  match ops with
  | [] => (h, Panic)
  | [(p, a)] => runPrim p h (pick env 0 a) name
  | (p, a) :: rest => hbind (runPrim p h (pick env 0 a) None) (fun h1 id => runOps rest h1 (env ++ [id]) name)
  end.

Definition noT : T := mkT [] (Sc s0).

Fixpoint runOpsV (ops : list op) (env : list T) : res T :=
  match ops with
  | [] => Panic
  | [(p, a)] => primV p (pick env noT a)
  | (p, a) :: rest => dor v <- primV p (pick env noT a); runOpsV rest (env ++ [v])
  end.

Notation c0 := (cst 0 0).
Notation c1 := (cst 1 0).
Notation c2 := (cst 2 0).
Notation cm1 := (cst (-1) 0).

(* inputs: [x] *)
Definition relu_ops : list op := [(PScale c0, [0]); (PElsel BiElMax, [1; 0])].
Definition leaky_ops (m : A) : list op :=
  [(PScale c0, [0]); (PElsel BiElMax, [1; 0]); (PElsel BiElMin, [1; 0]); (PScale m, [3]); (PArith BiAdd, [2; 4])].
Definition sigmoid_ops : list op :=
  [(PPow c0 true, [0]); (PScale cm1, [0]); (PMath FExp, [2]); (PArith BiAdd, [1; 3]); (PPow cm1 false, [4])].
Definition softmax_ops (dim : nat) : list op :=
  [(PMath FExp, [0]); (PRed RdSum (Z.of_nat dim), [1]); (PUnsq (Z.of_nat dim), [2]); (PArith BiDiv, [1; 3])].
Definition clip_ops (l u : A) : list op :=
  [(PPow c0 true, [0]); (PScale l, [1]); (PScale u, [1]); (PElsel BiElMin, [0; 3]); (PElsel BiElMax, [2; 4])].
(* inputs: [w; b; x] *)
Definition fc_ops : list op :=
  [(PUnsq 1%Z, [0]); (PUnsq 1%Z, [2]); (PMatmul, [3; 4]); (PRed RdSum 2%Z, [5]); (PArith BiAdd, [6; 1])].
(* inputs: [p; t] *)
Definition mse_ops : list op := [(PArith BiSub, [1; 0]); (PPow c2 false, [2]); (PRed RdMean 0%Z, [3])].
(* inputs: [p; t; clipped t; clipped p] *)
Definition bce_ops : list op :=
  [(PMath FLog, [3]); (PArith BiMul, [2; 4]); (PPow c0 true, [3]); (PArith BiSub, [6; 2]); (PArith BiSub, [6; 3]);
   (PMath FLog, [8]); (PArith BiMul, [7; 9]); (PArith BiAdd, [5; 10]); (PScale cm1, [11]); (PRed RdMean 0%Z, [12])].
Definition ce_ops : list op :=
  [(PMath FLog, [3]); (PArith BiMul, [2; 4]); (PRed RdSum 1%Z, [5]); (PScale cm1, [6]); (PRed RdMean 0%Z, [7])].

(* BCE and CE start alike: clip the targets into [0,1] and the predictions into [eps, 1-eps] *)
Definition clip2 (eps ome : A) (h : heap) (p t : nat) (k : heap -> list nat -> hres) : hres :=
  hbind (clip h t c0 c1) (fun h1 ytc => hbind (clip h1 p eps ome) (fun h2 ypc => k h2 [p; t; ytc; ypc])).

Lemma relu_forward_ops h x name : relu_forward h [Some x] name = atomically h (runOps relu_ops h [x] name).
Proof. reflexivity. Qed.

Lemma leaky_forward_ops h m x name : leaky_forward h m [Some x] name = atomically h (runOps (leaky_ops m) h [x] name).
Proof. reflexivity. Qed.

Lemma sigmoid_forward_ops h x name : sigmoid_forward h [Some x] name = atomically h (runOps sigmoid_ops h [x] name).
Proof. reflexivity. Qed.

Lemma softmax_forward_ops h dim x name : (dim < rankOf h x)%nat ->
  softmax_forward h dim [Some x] name = atomically h (runOps (softmax_ops dim) h [x] name).
Proof.
  intros H. unfold softmax_forward. cbn [oneInput]. apply Nat.leb_gt in H. rewrite H. reflexivity.
Qed.

Lemma fc_forward_ops h w b x name : rankOf h x = 2%nat ->
  fc_forward h w b [Some x] name = atomically h (runOps fc_ops h [w; b; x] name).
Proof. intros E. unfold fc_forward. cbn [oneInput]. rewrite E. reflexivity. Qed.

Lemma mse_compute_ops h yp yt p t name : lossArgs1 h yp yt = Some (p, t) ->
  mse_compute h yp yt name = atomically h (runOps mse_ops h [p; t] name).
Proof. intros E. unfold mse_compute. rewrite E. reflexivity. Qed.

Lemma bce_compute_ops eps ome h yp yt p t name : lossArgs1 h yp yt = Some (p, t) ->
  bce_compute eps ome h yp yt name = atomically h (clip2 eps ome h p t (fun h2 env => runOps bce_ops h2 env name)).
Proof. intros E. unfold bce_compute. rewrite E. reflexivity. Qed.

End Ops.
