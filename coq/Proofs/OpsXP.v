(* OpsXP.v — the exact heap a straight-line component leaves.
   For a chain of tracked methods written as an instruction list (Proofs/OpsP.v) whose operands are
   clean and have known tracked flags and values, [opsX] computes what [runOps] appends: the nodes with
   their flags and back edges, for all values that satisfy the forward equations
   ([runOps_X], one induction on the list).  MatMul is not covered. *)
From Coq Require Import List Arith ZArith Bool Lia.
From Qeep Require Import Model.Scalar Model.Nd Model.Fill Model.Data Model.Valid Model.Api Model.Grad Model.Components.
From Qeep Require Import Proofs.TrackP Proofs.OpsP Proofs.GradLossP.
Import ListNotations.
Local Open Scope nat_scope.

Section OpsX.
Context {A : Type} {SA : Scalar A}.
Notation T := (tensor A).
Notation heap := (@heap A).
Notation node := (@node A).
Notation rule := (@rule A).
Notation prim := (@prim A).
Notation op := (@op A).
Notation c0 := (@cst A SA 0 0).
Notation c1 := (@cst A SA 1 0).

(* an operand: its id, whether it is tracked, its value *)
Definition known := (nat * bool * T)%type.
Definition kid (r : known) : nat := fst (fst r).
Definition knows (H : heap) (r : known) : Prop :=
  let '(x, tr, v) := r in valOf H x = Some v /\ trackedOf H x = tr /\ dirtyOf H x = false.

Lemma knows_app (H l : heap) r : knows H r -> knows (H ++ l) r.
Proof.
  destruct r as [[x tr] v]. intros (V & Tr & D). pose proof (valOf_some_lt _ _ _ V) as Hx. cbn [knows].
  rewrite valOf_app, trackedOf_app, dirtyOf_app by exact Hx. auto.
Qed.

Lemma knows_off (H l : heap) L n k v tr es name : length H = L + n -> nth_error l k = Some (xnode v tr es name) ->
  knows (H ++ l) (L + (k + n), tr, v).
Proof.
  intros EL E. replace (L + (k + n)) with (length H + k) by lia. cbn [knows].
  rewrite valOf_off, trackedOf_off, dirtyOf_off. unfold valOf, trackedOf, dirtyOf. rewrite E. auto.
Qed.

Definition prim1 (p : prim) (x : nat) : option ((T -> res T) * (nat -> rule)) :=
  match p with
  | PScale a => Some (v_unary (UScale a), fun y => RScale y a)
  | PPow a az => Some (v_unary (UPow a), fun y => RPow y x a az)
  | PMath f => Some (v_unary (mathUnary f), fun y => mathRule f y x)
  | PUnsq d => Some (fun v => v_unsqueeze v d, fun y => RReshape y x)
  | PRed r d => Some (fun v => v_reduceAlong r v d, fun y => alongRule r y x d)
  | _ => None
  end.

(* the shape both operands of Add, Sub, Mul, Div are broadcast to *)
Definition bshape (x u : T) : list Z := map Z.of_nat (targetBroadcastDims (dims x) (dims u)).

(* one call, new ids from L + n: Q holds of the appended nodes and of the result, whatever values satisfy
   the forward equations.  As a hypothesis; False where nothing is claimed (MatMul, a wrong number of operands) *)
Definition primX (p : prim) (args : list known) (L n : nat) (name : option nat) (Q : list node -> known -> Prop) : Prop :=
  match args with
  | [(x, tr, xv)] =>
      match prim1 p x with
      | Some (f, mk) => forall v, f xv = Ok v -> Q [xnode v tr [(x, mk (L + n))] name] (L + n, tr, v)
      | None => False
      end
  | [(x, tx, xv); (u, tu, uv)] =>
      match p with
      | PElsel b => forall v, v_same b xv uv = Ok v ->
          Q [xnode v (tx || tu) [(x, RElSel (L + n) x u); (u, RElSel (L + n) u x)] name] (L + n, tx || tu, v)
      | PArith b =>
          forall v1 v2 v, v_broadcast xv (bshape xv uv) = Ok v1 -> v_broadcast uv (bshape xv uv) = Ok v2 ->
            apply2 (binaryF b) v1 v2 = Some v ->
            Q [xnode v1 tx [(x, RBroadcast (L + n) x)] None; xnode v2 tu [(u, RBroadcast (L + (1 + n)) u)] None;
               xnode v (tx || tu) (arithEdges b (L + (2 + n)) (L + n) (L + (1 + n))) name] (L + (2 + n), tx || tu, v)
      | _ => False
      end
  | _ => False
  end.

Definition dk : known := (0, false, noT).

(* how many nodes a call appends: Add, Sub, Mul, Div broadcast both operands first *)
Definition nnodes (p : prim) : nat := match p with PArith _ => 3 | _ => 1 end.

(* the next offset is nnodes p + n rather than length ns + n: ns mentions the offsets before it, and evaluating
   a chain would copy them into every later id *)
Fixpoint opsX (ops : list op) (L n : nat) (env : list known) (name : option nat) (Q : list node -> known -> Prop) : Prop :=
  match ops with
  | [] => False
  | [(p, a)] => primX p (pick env dk a) L n name Q
  | (p, a) :: rest =>
      primX p (pick env dk a) L n None (fun ns r => opsX rest L (nnodes p + n) (env ++ [r]) name (fun ms => Q (ns ++ ms)))
  end.

(* every operand position lies within the ids known so far *)
Fixpoint scoped (m : nat) (ops : list op) : bool :=
  match ops with
  | [] => true
  | (_, a) :: rest => forallb (fun i => i <? m) a && scoped (S m) rest
  end.

Lemma runPrim_X p (H : heap) L n args name h1 id (Q : list node -> known -> Prop) :
  length H = L + n -> Forall (knows H) args -> runPrim p H (map kid args) name = (h1, Ok id) -> primX p args L n name Q ->
  exists ns r, h1 = H ++ ns /\ length ns = nnodes p /\ id = kid r /\ knows h1 r /\ Q ns r.
Proof.
  intros EL K E HQ. destruct args as [|[[x tx] xv] [|[[u tu] uv] [|]]]; cbn [map kid fst] in E; try contradiction.
  - pose proof (Forall_inv K) as (Vx & Tx & Dx). cbn [primX] in HQ.
    destruct (prim1 p x) as [[f mk]|] eqn:E1; [|contradiction].
    assert (E' : h_op1 H x f mk name = (h1, Ok id)) by (destruct p; inversion E1; subst; exact E).
    destruct (op1_X [] H x f mk name h1 id tx E' Tx Dx) as (xv' & v & V & F & -> & ->). cbn [app] in V.
    assert (xv' = xv) by congruence. subst xv'. cbn [length Nat.add app]. rewrite EL.
    eexists _, (L + n, tx, v). split; [reflexivity|]. split; [destruct p; inversion E1; reflexivity|]. split; [reflexivity|].
    split; [apply (knows_off H [_] L n 0 _ _ _ _ EL eq_refl)|apply HQ, F].
  - pose proof (Forall_inv K) as (Vx & Tx & Dx). pose proof (Forall_inv (Forall_inv_tail K)) as (Vu & Tu & Du). cbn [primX] in HQ.
    destruct p; try contradiction; cbn [runPrim] in E.
    + destruct (elsel_X [] H b x u name h1 id tx tu E Tx Tu Dx Du) as (xv' & uv' & v & Vx' & Vu' & F & -> & ->). cbn [app] in Vx', Vu'.
      assert (xv' = xv) by congruence. assert (uv' = uv) by congruence. subst xv' uv'. cbn [length Nat.add app]. rewrite EL.
      eexists _, (L + n, tx || tu, v). split; [reflexivity|]. split; [reflexivity|]. split; [reflexivity|].
      split; [apply (knows_off H [_] L n 0 _ _ _ _ EL eq_refl)|apply HQ, F].
    + destruct (arith_X [] H b x u name h1 id tx tu E Tx Tu Dx Du) as (xv' & uv' & v1 & v2 & v & Vx' & Vu' & F1 & F2 & F & -> & ->). cbn [app] in Vx', Vu'.
      assert (xv' = xv) by congruence. assert (uv' = uv) by congruence. subst xv' uv'.
      cbn [length Nat.add app]. rewrite EL, <- !Nat.add_succ_r.
      eexists _, (L + (2 + n), tx || tu, v). split; [reflexivity|]. split; [reflexivity|]. split; [reflexivity|].
      split; [apply (knows_off H [_; _; _] L n 2 _ _ _ _ EL eq_refl)|exact (HQ v1 v2 v F1 F2 F)].
Qed.

Lemma pick_kid (env : list known) a : map kid (pick env dk a) = pick (map kid env) 0 a.
Proof. unfold pick. rewrite map_map. apply map_ext. intros i. symmetry. apply (map_nth kid env dk i). Qed.

Lemma pick_knows (H : heap) (env : list known) a : Forall (knows H) env -> forallb (fun i => i <? length env) a = true ->
  Forall (knows H) (pick env dk a).
Proof.
  intros K Ha. rewrite forallb_forall in Ha. rewrite Forall_forall in K |- *. intros r Hr. apply in_map_iff in Hr as (i & <- & Hi).
  apply K, nth_In, Nat.ltb_lt, Ha, Hi.
Qed.

Theorem runOps_X ops : forall (H : heap) L n env name h1 id (Q : list node -> known -> Prop),
  scoped (length env) ops = true -> length H = L + n -> Forall (knows H) env ->
  runOps ops H (map kid env) name = (h1, Ok id) -> opsX ops L n env name Q ->
  exists ns r, h1 = H ++ ns /\ id = kid r /\ knows h1 r /\ Q ns r.
Proof.
  induction ops as [|[p a] rest IH]; intros H L n env name h1 id Q Sc EL K E HQ; [discriminate E|].
  cbn [scoped] in Sc. apply andb_prop in Sc as [Sa Sc]. pose proof (pick_knows H env a K Sa) as Ka.
  destruct rest as [|o rest].
  - cbn [runOps] in E. rewrite <- pick_kid in E.
    destruct (runPrim_X p H L n _ name h1 id Q EL Ka E HQ) as (ns & r & Eh & _ & R). exists ns, r. auto.
  - remember (o :: rest) as ops eqn:Eo. assert (E' : hbind (runPrim p H (pick (map kid env) 0 a) None)
      (fun h2 x => runOps ops h2 (map kid env ++ [x]) name) = (h1, Ok id)) by (subst ops; exact E).
    assert (X : primX p (pick env dk a) L n None
      (fun ns r => opsX ops L (nnodes p + n) (env ++ [r]) name (fun ms => Q (ns ++ ms)))) by (subst ops; exact HQ).
    clear Eo E HQ. apply hbind_ok in E' as (h2 & x & E1 & E2). rewrite <- pick_kid in E1.
    destruct (runPrim_X p H L n _ None h2 x _ EL Ka E1 X) as (ns & r & -> & En & -> & Kr & HQ).
    destruct (IH (H ++ ns) L (nnodes p + n) (env ++ [r]) name h1 id (fun ms => Q (ns ++ ms))) as (ms & r' & -> & -> & Kr' & R);
      [| | | |exact HQ|].
    + rewrite app_length, Nat.add_1_r. exact Sc.
    + rewrite app_length, En. lia.
    + apply Forall_app. split; [|repeat constructor; exact Kr]. apply Forall_impl with (2 := K). intros k. apply knows_app.
    + rewrite map_app. exact E2.
    + exists (ns ++ ms), r'. rewrite app_assoc. auto.
Qed.

(* P of the outcome of a chain from what it appends *)
Corollary runOps_X0 ops (H : heap) L n env name h1 id (P : heap -> nat -> Prop) :
  Forall (knows H) env -> runOps ops H (map kid env) name = (h1, Ok id) ->
  scoped (length env) ops = true -> length H = L + n -> opsX ops L n env name (fun ns r => P (H ++ ns) (kid r)) -> P h1 id.
Proof. intros K E Sc EL HQ. destruct (runOps_X ops H L n env name h1 id _ Sc EL K E HQ) as (ns & r & -> & -> & _ & R). exact R. Qed.

(* the head BCE and CE share: ten nodes, then the continuation on [p; t; clipped t; clipped p] *)
Lemma clip2_X eps ome (h : heap) p t tp pv tv k h1 id (G : Prop) :
  knows h (p, tp, pv) -> knows h (t, false, tv) -> clip2 eps ome h p t k = (h1, Ok id) ->
  opsX (clip_ops c0 c1) (length h) 0 [(t, false, tv)] None (fun ns1 r1 =>
  opsX (clip_ops eps ome) (length h) (length ns1) [(p, tp, pv)] None (fun ns2 r2 =>
    let env := [(p, tp, pv); (t, false, tv); r1; r2] in
    Forall (knows (h ++ ns1 ++ ns2)) env -> k (h ++ ns1 ++ ns2) (map kid env) = (h1, Ok id) -> G)) -> G.
Proof.
  intros Kp Kt E HG. unfold clip2 in E. apply hbind_ok in E as (hh1 & ytc & E1 & E).
  destruct (runOps_X (clip_ops c0 c1) h (length h) 0 [(t, false, tv)] None hh1 ytc _ eq_refl (plus_n_O _)
              (Forall_cons _ Kt (Forall_nil _)) E1 HG) as (ns1 & r1 & -> & -> & K1 & HG1).
  apply hbind_ok in E as (hh2 & ypc & E2 & E).
  destruct (runOps_X (clip_ops eps ome) (h ++ ns1) (length h) (length ns1) [(p, tp, pv)] None hh2 ypc _ eq_refl
              (app_length _ _) (Forall_cons _ (knows_app h ns1 _ Kp) (Forall_nil _)) E2 HG1) as (ns2 & r2 & -> & -> & K2 & HG2).
  rewrite <- app_assoc in *. apply HG2; [|exact E].
  apply Forall_cons; [apply knows_app, Kp|]. apply Forall_cons; [apply knows_app, Kt|].
  apply Forall_cons; [rewrite app_assoc; apply knows_app, K1|]. apply Forall_cons, Forall_nil. exact K2.
Qed.

End OpsX.
