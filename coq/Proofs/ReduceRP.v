(* ReduceRP.v — the reducers' exact expressions read over the reals: the sum, the arithmetic mean,
   the unbiased sample variance and its root; the max / min folds are bounds that are attained,
   relative to their start value (RScalar's sneginf / sposinf are finite, so there is no
   statement "= the maximum of the list"). *)
From Coq Require Import List Arith Lia Reals Lra.
From Qeep Require Import Model.Scalar Proofs.ReduceP Spec.RScalar.
Import ListNotations.
Open Scope R_scope.

Definition Rsum (xs : list R) : R := fold_right Rplus 0 xs.

Lemma fold_left_Rplus xs : forall a, fold_left Rplus xs a = a + Rsum xs.
Proof. induction xs as [|x xs IH]; intros a; cbn [fold_left Rsum fold_right]; [ring|rewrite IH; unfold Rsum; ring]. Qed.

Section R.
Variable thr : R.
Variable draw : bool -> nat -> R.
Local Instance RS : Scalar R := R_scalar thr draw.

Theorem sum_is_sum xs : sumL xs = Rsum xs.
Proof. unfold sumL. cbn. rewrite fold_left_Rplus. ring. Qed.

Theorem mean_is_arithmetic_mean xs : meanL xs = Rsum xs / INR (length xs).
Proof. unfold meanL. rewrite sum_is_sum. reflexivity. Qed.

Lemma Rpow_2 x : Rpow x (dec2R 2 0) = x * x.
Proof.
  unfold dec2R. cbn [powerRZ]. replace (2 * 1) with 2 by ring. unfold Rpow.
  assert (E : Int_part 2 = 2%Z).
  { replace 2 with (INR 2) by (cbn; lra). rewrite Int_part_INR. reflexivity. }
  destruct (Req_EM_T 2 (IZR (Int_part 2))) as [_|N]; [|rewrite E in N; contradiction N; reflexivity].
  rewrite E. unfold powerRZ. cbn [Pos.to_nat Pos.iter_op Nat.add pow]. simpl. ring.
Qed.

Lemma fold_sq xs mu : forall a,
  fold_left (fun s x => sadd s (spow (ssub x mu) (sconst 2 0))) xs a = a + Rsum (map (fun x => (x - mu) * (x - mu)) xs).
Proof.
  induction xs as [|x xs IH]; intros a; cbn [fold_left map].
  - unfold Rsum; cbn [fold_right]. ring.
  - rewrite IH. unfold Rsum; cbn [fold_right]. cbn [sadd spow ssub sconst RS R_scalar]. rewrite Rpow_2. ring.
Qed.

(* unbiased sample variance: Σ (x - mean)^2 / (n - 1) for n > 1, and 0 for a single element *)
Theorem var_is_unbiased_sample_variance xs :
  varL xs = if Nat.ltb 1 (length xs)
            then Rsum (map (fun x => (x - meanL xs) * (x - meanL xs)) xs) / (INR (length xs) - 1)
            else 0.
Proof.
  unfold varL. destruct (Nat.ltb 1 (length xs)); [|reflexivity].
  rewrite fold_sq. cbn [s0 s1 sdiv ssub sofnat RS R_scalar]. f_equal. ring.
Qed.

Theorem std_is_root_of_variance xs : stdL xs = sqrt (varL xs).
Proof. reflexivity. Qed.

(* the reducer's  if a > b {a} else {b}  is the maximum; starting below every element (the
   library starts from -Inf) the fold is an upper bound that is attained *)
Lemma selgt_is_Rmax a b : (if Rgt_dec a b then a else b) = Rmax a b.
Proof. unfold Rmax. destruct (Rgt_dec a b), (Rle_dec a b); lra. Qed.
Lemma sellt_is_Rmin a b : (if Rlt_dec a b then a else b) = Rmin a b.
Proof. unfold Rmin. destruct (Rlt_dec a b), (Rle_dec a b); lra. Qed.

Theorem max_fold_upper_bound_attained xs : forall m0,
  let m := fold_left (fun a b => if Rgt_dec a b then a else b) xs m0 in
  m0 <= m /\ (forall x, In x xs -> x <= m) /\ (m = m0 \/ In m xs).
Proof.
  induction xs as [|x xs IH]; intros m0; cbn [fold_left].
  - split; [lra|]. split; [intros x []|left; reflexivity].
  - rewrite selgt_is_Rmax. destruct (IH (Rmax m0 x)) as (H1 & H2 & H3). cbn zeta in *.
    set (m := fold_left _ xs (Rmax m0 x)) in *.
    pose proof (Rmax_l m0 x). pose proof (Rmax_r m0 x).
    split; [lra|]. split.
    + intros y [->|Hy]; [lra|apply H2; exact Hy].
    + destruct H3 as [H3|H3]; [|right; right; exact H3].
      unfold Rmax in H3. destruct (Rle_dec m0 x); [right; left; symmetry; exact H3|left; exact H3].
Qed.

Theorem min_fold_lower_bound_attained xs : forall m0,
  let m := fold_left (fun a b => if Rlt_dec a b then a else b) xs m0 in
  m <= m0 /\ (forall x, In x xs -> m <= x) /\ (m = m0 \/ In m xs).
Proof.
  induction xs as [|x xs IH]; intros m0; cbn [fold_left].
  - split; [lra|]. split; [intros x []|left; reflexivity].
  - rewrite sellt_is_Rmin. destruct (IH (Rmin m0 x)) as (H1 & H2 & H3). cbn zeta in *.
    set (m := fold_left _ xs (Rmin m0 x)) in *.
    pose proof (Rmin_l m0 x). pose proof (Rmin_r m0 x).
    split; [lra|]. split.
    + intros y [->|Hy]; [lra|apply H2; exact Hy].
    + destruct H3 as [H3|H3]; [|right; right; exact H3].
      unfold Rmin in H3. destruct (Rle_dec m0 x); [left; exact H3|right; left; symmetry; exact H3].
Qed.

End R.
