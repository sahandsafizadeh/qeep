(* ReshapeP.v — reshape / unSqueeze / squeeze / flatten (shape_modifiers.go) preserve the
   row-major element sequence, and the public methods return Ok exactly when the validator
   accepts, Err otherwise, never Panic. *)
From Coq Require Import List Arith ZArith Bool Lia.
From Qeep Require Import Model.Scalar Model.Nd Model.Fill Model.Data Model.Valid Model.Api.
From Qeep Require Import Spec.ValidSpec Proofs.ValidP Proofs.NdP Proofs.FillP Proofs.OdometerP.
Import ListNotations.

Definition allpos (ds : list nat) : Prop := Forall (fun d => 0 < d) ds.

(* ---------- validators over Z vs. naturals ---------- *)

Lemma fold_left_Zmul_nat ds : forall a, fold_left Z.mul (map Z.of_nat ds) a = (a * Z.of_nat (prodn ds))%Z.
Proof.
  induction ds as [|d ds IH]; intros a; cbn [map fold_left].
  - cbn. lia.
  - rewrite IH, prodn_cons, Nat2Z.inj_mul. lia.
Qed.

Lemma dimsToNumElems_nat ds : dimsToNumElems (map Z.of_nat ds) = Z.of_nat (prodn ds).
Proof. unfold dimsToNumElems. rewrite fold_left_Zmul_nat. lia. Qed.

Lemma validateInputDims_iff shape : validateInputDims shape = true <-> Forall (fun z => (0 < z)%Z) shape.
Proof. apply validateInputDims_spec. Qed.

Lemma natsOf_id shape : Forall (fun z => (0 < z)%Z) shape -> map Z.of_nat (natsOf shape) = shape.
Proof.
  induction 1 as [|z l Hz _ IH]; [reflexivity|]. unfold natsOf in *. cbn [map]. rewrite IH.
  f_equal. apply Z2Nat.id. lia.
Qed.

Lemma natsOf_pos shape : Forall (fun z => (0 < z)%Z) shape -> allpos (natsOf shape).
Proof. apply ValidP.natsOf_pos. Qed.

Lemma natsOf_of_nat ds : natsOf (map Z.of_nat ds) = ds.
Proof. unfold natsOf. rewrite map_map. rewrite <- (map_id ds) at 2. apply map_ext. intros d. apply Nat2Z.id. Qed.

Lemma of_nat_pos ds : allpos ds -> Forall (fun z => (0 < z)%Z) (map Z.of_nat ds).
Proof. induction 1 as [|d l Hd _ IH]; cbn [map]; constructor; [lia|exact IH]. Qed.

(* the two validators of Reshape say: a positive shape with the same number of elements *)
Lemma validateReshape_iff {A} (t : tensor A) shape :
  validateInputDims shape && validateReshape (zdims t) shape = true <->
  exists ns, shape = map Z.of_nat ns /\ allpos ns /\ prodn ns = prodn (dims t).
Proof.
  rewrite andb_true_iff, validateInputDims_iff. unfold validateReshape, zdims. split.
  - intros [Hp He]. exists (natsOf shape). split; [symmetry; apply natsOf_id, Hp|].
    split; [apply natsOf_pos, Hp|]. apply Z.eqb_eq in He.
    rewrite <- (natsOf_id shape Hp) in He. rewrite !dimsToNumElems_nat in He. lia.
  - intros (ns & -> & Hp & He). split; [apply of_nat_pos, Hp|].
    apply Z.eqb_eq. rewrite !dimsToNumElems_nat. lia.
Qed.

(* ---------- shape functions ---------- *)

Lemma allpos_split n ds : allpos ds -> allpos (firstn n ds) /\ allpos (skipn n ds).
Proof. unfold allpos. intros H. rewrite <- (firstn_skipn n ds) in H. apply Forall_app in H. exact H. Qed.

Lemma prodn_split n ds : prodn ds = prodn (firstn n ds) * prodn (skipn n ds).
Proof. rewrite <- prodn_app, firstn_skipn. reflexivity. Qed.

Lemma skipn_nth_error {T} (l : list T) : forall n x, nth_error l n = Some x -> skipn n l = x :: skipn (S n) l.
Proof.
  induction l as [|a l IH]; intros [|n] x H; cbn in H; try discriminate.
  - inversion H; reflexivity.
  - cbn [skipn]. rewrite (IH n x H). reflexivity.
Qed.

Lemma unsqueezeDims_prodn dim ds : prodn (unsqueezeDims dim ds) = prodn ds.
Proof. unfold unsqueezeDims. rewrite prodn_app, prodn_cons, (prodn_split dim ds). lia. Qed.

Lemma unsqueezeDims_pos dim ds : allpos ds -> allpos (unsqueezeDims dim ds).
Proof.
  intros H. destruct (allpos_split dim ds H) as [H1 H2]. unfold unsqueezeDims, allpos.
  apply Forall_app. split; [exact H1|constructor; [lia|exact H2]].
Qed.

Lemma squeezeDims_prodn dim ds : nth_error ds dim = Some 1 -> prodn (squeezeDims dim ds) = prodn ds.
Proof.
  intros H. unfold squeezeDims. rewrite prodn_app, (prodn_split dim ds), (skipn_nth_error ds dim 1 H), prodn_cons. lia.
Qed.

Lemma squeezeDims_pos dim ds : allpos ds -> allpos (squeezeDims dim ds).
Proof.
  intros H. destruct (allpos_split dim ds H) as [H1 _]. destruct (allpos_split (S dim) ds H) as [_ H2].
  unfold squeezeDims, allpos. apply Forall_app. split; assumption.
Qed.

Lemma flattenDims_prodn dim ds : prodn (flattenDims dim ds) = prodn ds.
Proof. unfold flattenDims. rewrite prodn_app, (prodn_split dim ds). cbn. lia. Qed.

Lemma flattenDims_pos dim ds : allpos ds -> allpos (flattenDims dim ds).
Proof.
  intros H. destruct (allpos_split dim ds H) as [H1 H2]. unfold flattenDims, allpos.
  apply Forall_app. split; [exact H1|constructor; [apply prodn_pos, H2|constructor]].
Qed.

(* ---------- the linear generator ---------- *)
Section Reshape.
Variable A : Type.
Notation T := (tensor A).

Lemma linGen_ok ds (x : nd A) st : wfnd ds x -> ovalid (rev ds) st ->
  exists a, get x (rev st) = Some a /\ linGen ds x st = Some (Sc a, incr (rev ds) st).
Proof.
  intros Hw Hv. destruct (dataAt_full ds x (rev st) Hw (ovalid_rev_inv ds st Hv)) as (a & Ea & Eg).
  exists a. split; [exact Eg|]. unfold linGen. rewrite Ea. reflexivity.
Qed.

(* the data-layer core: any positive target shape with the same number of elements *)
Lemma reshape_data ds (x : nd A) shape :
  wfnd ds x -> allpos ds -> allpos shape -> prodn shape = prodn ds ->
  exists d, initWith shape (linGen ds x) (linInit ds) = Some d /\ wfnd shape d /\ flat d = flat x.
Proof.
  intros Hw Hp Hps Hn.
  destruct (initWith_get (linGen ds x) (incr (rev ds)) (fun st => get x (rev st)) (ovalid (rev ds))
              (fun st => linGen_ok ds x st Hw) (incr_valid (rev ds)) shape (linInit ds))
    as (d & Ed & Hwd & Hget).
  { unfold linInit. rewrite <- (rev_length ds). apply ovalid_zeros, Forall_rev, Hp. }
  exists d. split; [exact Ed|]. split; [exact Hwd|].
  apply (flat_ext_by_idx shape); [exact Hps|exact Hwd|rewrite (flat_length A ds x Hw); lia|].
  intros idx Hv. rewrite (Hget idx Hv).
  (* position k of the target is the k-th state of the source odometer *)
  pose proof (flatIdx_lt shape idx Hv) as Hk. rewrite Hn in Hk. set (k := flatIdx shape idx) in *.
  pose proof (unflatIdx_valid ds k Hp) as Hv'.
  rewrite <- (flatIdx_unflatIdx ds k Hp Hk) at 1. unfold linInit.
  rewrite (iter_incr_flatIdx ds _ Hv'), rev_involutive.
  rewrite <- (flat_nth A ds x _ Hw Hv'), (flatIdx_unflatIdx ds k Hp Hk). reflexivity.
Qed.

(* what "r is t reshaped to shape" means *)
Definition reshaped (t r : T) (shape : list nat) : Prop :=
  dims r = shape /\ wf r /\ flat (data r) = flat (data t).

(* 1. reshape *)
Theorem reshape_spec (t : T) shape :
  wf t -> allpos shape -> prodn shape = prodn (dims t) ->
  exists r, reshape t shape = Some r /\ dims r = shape /\ wf r /\ flat (data r) = flat (data t).
Proof.
  intros [Hw Hp] Hps Hn.
  destruct (reshape_data (dims t) (data t) shape Hw Hp Hps Hn) as (d & Ed & Hd & Hf).
  exists (mkT shape d). unfold reshape. rewrite Ed. cbn.
  split; [reflexivity|]. split; [reflexivity|]. split; [split; assumption|exact Hf].
Qed.

(* 3. element-level restatement *)
Theorem reshape_get (t : T) shape :
  wf t -> allpos shape -> prodn shape = prodn (dims t) ->
  exists r, reshape t shape = Some r /\ dims r = shape /\ wf r /\
    forall idx, validIdx shape idx -> get (data r) idx = nth_error (flat (data t)) (flatIdx shape idx).
Proof.
  intros Ht Hps Hn. destruct (reshape_spec t shape Ht Hps Hn) as (r & Er & Hd & Hr & Hf).
  exists r. repeat (split; [assumption|]). intros idx Hv.
  rewrite <- Hf. symmetry. apply (flat_nth A shape); [|exact Hv]. destruct Hr as [Hr _]. rewrite Hd in Hr. exact Hr.
Qed.

(* ... and between multi-indices of the two shapes *)
Corollary reshape_get_idx (t : T) shape :
  wf t -> allpos shape -> prodn shape = prodn (dims t) ->
  exists r, reshape t shape = Some r /\
    forall idx, validIdx shape idx ->
      get (data r) idx = get (data t) (unflatIdx (dims t) (flatIdx shape idx)).
Proof.
  intros Ht Hps Hn. destruct (reshape_get t shape Ht Hps Hn) as (r & Er & _ & _ & Hg).
  exists r. split; [exact Er|]. intros idx Hv. rewrite (Hg idx Hv). destruct Ht as [Hw Hp].
  pose proof (flatIdx_lt shape idx Hv) as Hk. rewrite Hn in Hk.
  rewrite <- (flat_nth A (dims t) (data t) _ Hw (unflatIdx_valid (dims t) _ Hp)).
  rewrite flatIdx_unflatIdx by assumption. reflexivity.
Qed.

(* 2. corollaries.  The numeric side conditions [dim <= rank] (unSqueeze) and [dim < rank]
   (flatten) of the validators are not needed by the data layer: beyond the rank the shape
   functions append a trailing 1, so these statements are stronger than asked. *)
Theorem unSqueeze_spec (t : T) dim : wf t ->
  exists r, unSqueeze t dim = Some r /\ reshaped t r (unsqueezeDims dim (dims t)).
Proof.
  intros Ht. unfold unSqueeze, reshaped. apply reshape_spec; [exact Ht| |apply unsqueezeDims_prodn].
  apply unsqueezeDims_pos. exact (proj2 Ht).
Qed.

Theorem squeeze_spec (t : T) dim : wf t -> nth_error (dims t) dim = Some 1 ->
  exists r, squeeze t dim = Some r /\ reshaped t r (squeezeDims dim (dims t)).
Proof.
  intros Ht H1. unfold squeeze, reshaped. apply reshape_spec; [exact Ht| |apply squeezeDims_prodn, H1].
  apply squeezeDims_pos. exact (proj2 Ht).
Qed.

Theorem flatten_spec (t : T) dim : wf t ->
  exists r, flatten t dim = Some r /\ reshaped t r (flattenDims dim (dims t)).
Proof.
  intros Ht. unfold flatten, reshaped. apply reshape_spec; [exact Ht| |apply flattenDims_prodn].
  apply flattenDims_pos. exact (proj2 Ht).
Qed.

(* ---------- API level ---------- *)

Theorem v_reshape_spec (t : T) (shape : list Z) : wf t ->
  (validateInputDims shape && validateReshape (zdims t) shape = true ->
     exists r, v_reshape t shape = Ok r /\ reshaped t r (natsOf shape)) /\
  (validateInputDims shape && validateReshape (zdims t) shape = false -> v_reshape t shape = Err).
Proof.
  intros Ht. split; intros H.
  - pose proof H as H'. apply validateReshape_iff in H' as (ns & -> & Hp & Hn).
    apply andb_true_iff in H as [H1 H2]. unfold v_reshape, guard. rewrite H1, H2.
    rewrite natsOf_of_nat. destruct (reshape_spec t ns Ht Hp Hn) as (r & Er & Hr).
    exists r. rewrite Er. split; [reflexivity|exact Hr].
  - unfold v_reshape, guard. destruct (validateInputDims shape); [|reflexivity].
    cbn [andb] in H. rewrite H. reflexivity.
Qed.

Lemma zlen_zdims (t : T) : zlen (zdims t) = Z.of_nat (length (dims t)).
Proof. unfold zlen, zdims. rewrite map_length. reflexivity. Qed.

Lemma validateUnSqueezeDim_iff (t : T) dim :
  validateUnSqueezeDim dim (zdims t) = true <-> (0 <= dim <= Z.of_nat (length (dims t)))%Z.
Proof. unfold validateUnSqueezeDim. rewrite zlen_zdims, andb_true_iff, !Z.leb_le. tauto. Qed.

Lemma validateFlattenDim_iff (t : T) dim :
  validateFlattenDim dim (zdims t) = true <-> (0 <= dim < Z.of_nat (length (dims t)))%Z.
Proof. unfold validateFlattenDim. rewrite zlen_zdims, andb_true_iff, Z.leb_le, Z.ltb_lt. tauto. Qed.

Lemma validateSqueezeDim_iff (t : T) dim :
  validateSqueezeDim dim (zdims t) = true <->
  (0 <= dim < Z.of_nat (length (dims t)))%Z /\ nth_error (dims t) (Z.to_nat dim) = Some 1.
Proof.
  unfold validateSqueezeDim. rewrite zlen_zdims, !andb_true_iff, Z.leb_le, Z.ltb_lt.
  unfold zdims. rewrite nth_error_map.
  destruct (nth_error (dims t) (Z.to_nat dim)) as [d|]; cbn [option_map].
  - rewrite Z.eqb_eq. split.
    + intros [H1 H2]. split; [tauto|]. f_equal. lia.
    + intros [H1 H2]. inversion H2; subst. split; [tauto|reflexivity].
  - split; [intros [_ H]; discriminate|intros [_ H]; discriminate].
Qed.

Theorem v_unsqueeze_spec (t : T) (dim : Z) : wf t ->
  (validateUnSqueezeDim dim (zdims t) = true ->
     exists r, v_unsqueeze t dim = Ok r /\ reshaped t r (unsqueezeDims (Z.to_nat dim) (dims t))) /\
  (validateUnSqueezeDim dim (zdims t) = false -> v_unsqueeze t dim = Err).
Proof.
  intros Ht. unfold v_unsqueeze, guard. split; intros H; rewrite H; [|reflexivity].
  destruct (unSqueeze_spec t (Z.to_nat dim) Ht) as (r & Er & Hr). exists r. rewrite Er. split; [reflexivity|exact Hr].
Qed.

Theorem v_squeeze_spec (t : T) (dim : Z) : wf t ->
  (validateSqueezeDim dim (zdims t) = true ->
     exists r, v_squeeze t dim = Ok r /\ reshaped t r (squeezeDims (Z.to_nat dim) (dims t))) /\
  (validateSqueezeDim dim (zdims t) = false -> v_squeeze t dim = Err).
Proof.
  intros Ht. unfold v_squeeze, guard. split; intros H; rewrite H; [|reflexivity].
  apply validateSqueezeDim_iff in H as [_ H1].
  destruct (squeeze_spec t (Z.to_nat dim) Ht H1) as (r & Er & Hr). exists r. rewrite Er. split; [reflexivity|exact Hr].
Qed.

Theorem v_flatten_spec (t : T) (dim : Z) : wf t ->
  (validateFlattenDim dim (zdims t) = true ->
     exists r, v_flatten t dim = Ok r /\ reshaped t r (flattenDims (Z.to_nat dim) (dims t))) /\
  (validateFlattenDim dim (zdims t) = false -> v_flatten t dim = Err).
Proof.
  intros Ht. unfold v_flatten, guard. split; intros H; rewrite H; [|reflexivity].
  destruct (flatten_spec t (Z.to_nat dim) Ht) as (r & Er & Hr). exists r. rewrite Er. split; [reflexivity|exact Hr].
Qed.

Corollary v_reshape_no_panic (t : T) shape : wf t -> v_reshape t shape <> Panic.
Proof.
  intros Ht E. destruct (v_reshape_spec t shape Ht) as [H1 H2].
  destruct (validateInputDims shape && validateReshape (zdims t) shape).
  - destruct (H1 eq_refl) as (r & Er & _). congruence.
  - rewrite (H2 eq_refl) in E. discriminate.
Qed.

End Reshape.

(* ---------- non-vacuity ---------- *)
Definition t23 : tensor nat := mkT [2; 3] (Vec [Vec [Sc 1; Sc 2; Sc 3]; Vec [Sc 4; Sc 5; Sc 6]]).
Definition t213 : tensor nat := mkT [2; 1; 3] (Vec [Vec [Vec [Sc 1; Sc 2; Sc 3]]; Vec [Vec [Sc 4; Sc 5; Sc 6]]]).
Definition t0 : tensor nat := mkT [] (Sc 7).

Example t23_wf : wf t23.
Proof. split; [apply wfndb_spec; reflexivity|repeat constructor]. Qed.
Example t0_wf : wf t0.
Proof. split; [exact I|constructor]. Qed.

Example reshape_ex :
  reshape t23 [3; 2] = Some (mkT [3; 2] (Vec [Vec [Sc 1; Sc 2]; Vec [Sc 3; Sc 4]; Vec [Sc 5; Sc 6]])).
Proof. vm_compute. reflexivity. Qed.
Example reshape_ex_hyps : allpos [3; 2] /\ prodn [3; 2] = prodn (dims t23).
Proof. split; [repeat constructor|reflexivity]. Qed.
(* rank 0 *)
Example reshape_rank0_ex : reshape t0 [1; 1] = Some (mkT [1; 1] (Vec [Vec [Sc 7]])).
Proof. vm_compute. reflexivity. Qed.
Example reshape_to_rank0_ex : reshape (mkT [1; 1] (Vec [Vec [Sc 7]])) [] = Some t0.
Proof. vm_compute. reflexivity. Qed.
Example v_reshape_ex :
  v_reshape t23 [6%Z] = Ok (mkT [6] (Vec [Sc 1; Sc 2; Sc 3; Sc 4; Sc 5; Sc 6])) /\
  v_reshape t23 [4%Z] = Err /\ v_reshape t23 [(-2)%Z; (-3)%Z] = Err /\ v_reshape t23 [6%Z; 0%Z] = Err.
Proof. vm_compute. auto. Qed.
Example v_unsqueeze_ex : v_unsqueeze t23 1 = Ok t213 /\ v_unsqueeze t23 3 = Err /\ v_unsqueeze t23 (-1) = Err.
Proof. vm_compute. auto. Qed.
Example v_squeeze_ex : v_squeeze t213 1 = Ok t23 /\ v_squeeze t213 0 = Err /\ v_squeeze t213 3 = Err.
Proof. vm_compute. auto. Qed.
Example v_flatten_ex :
  v_flatten t213 1 = Ok t23 /\ v_flatten t23 0 = Ok (mkT [6] (Vec [Sc 1; Sc 2; Sc 3; Sc 4; Sc 5; Sc 6])) /\
  v_flatten t23 2 = Err.
Proof. vm_compute. auto. Qed.

Print Assumptions reshape_spec.
Print Assumptions reshape_get.
Print Assumptions unSqueeze_spec.
Print Assumptions squeeze_spec.
Print Assumptions flatten_spec.
Print Assumptions v_reshape_spec.
Print Assumptions v_unsqueeze_spec.
Print Assumptions v_squeeze_spec.
Print Assumptions v_flatten_spec.
