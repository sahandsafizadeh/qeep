(* SliceP.v — accessors.go: completeIndex, Slice (copiedSliceOf), Patch (copiedWithPatchOf), At,
   at the data layer and at the public (validated, Z-argument) level, against the index-level
   specification.  All shapes and ranks, arbitrary element type. *)
From Coq Require Import List Arith ZArith Bool Lia ZifyBool.
From Qeep Require Import Model.Scalar Model.Nd Model.Fill Model.Data Model.Valid Model.Api Proofs.NdP Proofs.ElemP.
Import ListNotations.

(* extent of every range: To - From *)
Definition sizes (index : list range) : list nat := map (fun r => snd r - fst r) index.
(* idx + From, component-wise *)
Definition shift (idx : list nat) (index : list range) : list nat :=
  map (fun p => fst p + fst (snd p)) (combine idx index).

Lemma shift_cons i idx f t index : shift (i :: idx) ((f, t) :: index) = (i + f) :: shift idx index.
Proof. reflexivity. Qed.

Lemma shift_app i1 : forall index1 i2 index2, length i1 = length index1 ->
  shift (i1 ++ i2) (index1 ++ index2) = shift i1 index1 ++ shift i2 index2.
Proof. intros index1 i2 index2 H. unfold shift. rewrite combine_app_eq by exact H. apply map_app. Qed.

Definition completeEntry (o : option range) (d : nat) : range :=
  match o with
  | Some (f, t) => if (f =? 0) && (t =? 0) then (0, d) else (f, t)
  | None => (0, d)
  end.

Lemma completeIndex_length index ds : length (completeIndex index ds) = length ds.
Proof.
  revert index. induction ds as [|d ds IH]; intros [|[f t] index]; cbn; try reflexivity; rewrite IH; reflexivity.
Qed.

Lemma completeIndex_nth index ds : forall k d, nth_error ds k = Some d ->
  nth_error (completeIndex index ds) k = Some (completeEntry (nth_error index k) d).
Proof.
  revert index. induction ds as [|d0 ds IH]; intros index k d Hk; [destruct k; discriminate|].
  destruct k as [|k]; cbn in Hk.
  - inversion Hk; subst. destruct index as [|[f t] index]; reflexivity.
  - destruct index as [|[f t] index]; cbn [completeIndex nth_error].
    + rewrite (IH [] k d Hk). destruct k; reflexivity.
    + apply IH. exact Hk.
Qed.

(* the k-th entry is (0, d_k) when the index is too short or its k-th entry is (0,0); otherwise it is
   the k-th entry of the index *)
Theorem completeIndex_spec index ds :
  length (completeIndex index ds) = length ds /\
  forall k d, nth_error ds k = Some d ->
    exists r, nth_error (completeIndex index ds) k = Some r /\
      (length index <= k \/ nth_error index k = Some (0, 0) -> r = (0, d)) /\
      (forall e, nth_error index k = Some e -> e <> (0, 0) -> r = e).
Proof.
  split; [apply completeIndex_length|]. intros k d Hk. eexists. split; [apply completeIndex_nth; exact Hk|]. split.
  - intros [Hl|He].
    + apply nth_error_None in Hl. rewrite Hl. reflexivity.
    + rewrite He. reflexivity.
  - intros [f t] He Hne. rewrite He. cbn. destruct ((f =? 0) && (t =? 0)) eqn:E; [|reflexivity].
    apply andb_true_iff in E as [E1 E2]. apply Nat.eqb_eq in E1, E2. subst. contradiction.
Qed.

Lemma completeIndex_nil ds : completeIndex [] ds = map (fun d => (0, d)) ds.
Proof. induction ds as [|d ds IH]; cbn; [reflexivity|]. rewrite IH. reflexivity. Qed.

Section SliceP.
Context {A : Type}.
Notation T := (tensor A).

Theorem sliceData_spec : forall (index : list range) (ds : list nat) (src : nd A),
  wfnd ds src ->
  Forall2 (fun r d => fst r <= snd r /\ snd r <= d) index ds ->
  exists r, sliceData index src = Some r /\ wfnd (sizes index) r /\
            forall idx, validIdx (sizes index) idx -> get r idx = get src (shift idx index).
Proof.
  induction index as [|[f t] index IH]; intros ds src Hw HF; inversion HF as [|r0 d index0 ds' Hr HF']; subst.
  - apply wfnd_nil in Hw as (a & ->). exists (Sc a). split; [reflexivity|apply tabulates_Sc; reflexivity].
  - cbn [fst snd] in Hr. destruct Hr as [Hft Htd].
    apply wfnd_cons in Hw as (rows & -> & Hl & Hf). cbn [sliceData asV obind].
    destruct (tabulates_Vec (t - f) (sizes index) (fun i => do r <- nth_error rows (i + f); sliceData index r)
                (fun idx => get (Vec rows) (shift idx ((f, t) :: index)))) as (out & -> & Hr).
    + intros i Hi. destruct (wfnd_row d ds' rows (i + f) Hl Hf ltac:(lia)) as (row & Er & Hwr).
      rewrite Er. cbn [obind].
      destruct (IH ds' row Hwr HF') as (y & Ey & Hy). exists y. split; [exact Ey|].
      eapply tabulates_ext; [|exact Hy]. intros r _. cbn beta. rewrite shift_cons, get_cons, Er. reflexivity.
    + eexists; split; [reflexivity|exact Hr].
Qed.

(* a validated slice index: not longer than the shape; every entry is (0,0) (= whole dimension) or a
   non-empty range inside the dimension *)
Fixpoint sliceIndexOk (index : list range) (ds : list nat) : Prop :=
  match index, ds with
  | [], _ => True
  | r :: index', d :: ds' => (r = (0, 0) \/ (fst r < snd r /\ snd r <= d)) /\ sliceIndexOk index' ds'
  | _ :: _, [] => False
  end.

Lemma sliceIndexOk_iff index : forall ds,
  sliceIndexOk index ds <->
  length index <= length ds /\
  forall k r d, nth_error index k = Some r -> nth_error ds k = Some d -> r = (0, 0) \/ (fst r < snd r /\ snd r <= d).
Proof.
  induction index as [|r0 index IH]; intros ds.
  - cbn. split; [|tauto]. intros _. split; [lia|]. intros k r d Hk. destruct k; discriminate.
  - destruct ds as [|d0 ds]; cbn [sliceIndexOk length].
    + split; [tauto|]. intros [Hl _]. lia.
    + rewrite IH. split.
      * intros [H0 [Hl Hn]]. split; [lia|]. intros k r d Hk Hd. destruct k as [|k]; cbn in Hk, Hd.
        -- inversion Hk; inversion Hd; subst. exact H0.
        -- eapply Hn; eauto.
      * intros [Hl Hn]. split; [apply (Hn 0); reflexivity|]. split; [lia|].
        intros k r d Hk Hd. apply (Hn (S k)); assumption.
Qed.

Lemma completeIndex_ok : forall ds index, sliceIndexOk index ds -> Forall (fun d => 0 < d) ds ->
  Forall2 (fun r d => fst r < snd r /\ snd r <= d) (completeIndex index ds) ds.
Proof.
  induction ds as [|d ds IH]; intros index Hok Hp; [constructor|].
  inversion Hp as [|d' ds'' Hd Hp']; subst.
  destruct index as [|[f t] index]; cbn [completeIndex].
  - constructor; [cbn; lia|]. apply IH; [exact I|exact Hp'].
  - cbn [sliceIndexOk] in Hok. destruct Hok as [H0 Hok]. constructor; [|apply IH; assumption].
    destruct ((f =? 0) && (t =? 0)) eqn:E; [cbn; lia|].
    destruct H0 as [H0|H0]; [|exact H0]. inversion H0; subst. discriminate.
Qed.

Lemma sizes_pos (l : list range) (ds : list nat) :
  Forall2 (fun r d => fst r < snd r /\ snd r <= d) l ds -> Forall (fun d => 0 < d) (sizes l).
Proof. intros HF. induction HF as [|r0 d0 l l' H HF IH]; cbn; constructor; [lia|exact IH]. Qed.

Lemma sizes_length index : length (sizes index) = length index.
Proof. apply map_length. Qed.

Lemma sizes_app a b : sizes (a ++ b) = sizes a ++ sizes b.
Proof. apply map_app. Qed.

Lemma sizes_cons f t index : sizes ((f, t) :: index) = (t - f) :: sizes index.
Proof. reflexivity. Qed.

Theorem slice_spec (t : T) (index : list range) : wf t -> sliceIndexOk index (dims t) ->
  exists r, slice t index = Some r /\
            dims r = sizes (completeIndex index (dims t)) /\ wf r /\
            forall idx, validIdx (dims r) idx ->
              get (data r) idx = get (data t) (shift idx (completeIndex index (dims t))).
Proof.
  intros [Hw Hp] Hok. pose proof (completeIndex_ok _ _ Hok Hp) as HF.
  unfold slice, copiedSliceOf.
  destruct (sliceData_spec (completeIndex index (dims t)) (dims t) (data t) Hw) as (d & Ed & Hwd & Hg).
  - eapply Forall2_weaken; [|exact HF]. cbn. intros r0 d0 H. lia.
  - rewrite Ed. cbn [obind]. eexists. split; [reflexivity|]. cbn [dims data]. split; [reflexivity|].
    split; [|exact Hg]. split; cbn [dims data]; [exact Hwd|].
    eapply sizes_pos; exact HF.
Qed.

Lemma shift_nil_index ds : forall idx, validIdx ds idx -> shift idx (map (fun d => (0, d)) ds) = idx.
Proof.
  induction ds as [|d ds IH]; intros idx Hv.
  - apply validIdx_nil in Hv; subst. reflexivity.
  - apply validIdx_cons in Hv as (i & rr & -> & _ & Hr). cbn [map]. rewrite shift_cons, IH by exact Hr.
    f_equal. lia.
Qed.

Lemma sizes_nil_index ds : sizes (map (fun d => (0, d)) ds) = ds.
Proof. unfold sizes. rewrite map_map. cbn. induction ds as [|d ds IH]; cbn; [reflexivity|]. rewrite IH. f_equal. lia. Qed.

Lemma full_ranges ds : Forall2 (fun (r : range) d => fst r <= snd r /\ snd r <= d) (map (fun d => (0, d)) ds) ds.
Proof. induction ds as [|d ds IH]; cbn [map]; constructor; [cbn; lia|exact IH]. Qed.

(* slicing with the empty index copies the tensor (used by patch and concat) *)
Lemma slice_nil (t : T) : wfnd (dims t) (data t) -> slice t [] = Some t.
Proof.
  intros Hw. unfold slice, copiedSliceOf. rewrite completeIndex_nil.
  destruct (sliceData_spec _ _ _ Hw (full_ranges (dims t))) as (d & -> & Hwd & Hg).
  cbn [obind]. f_equal. rewrite sizes_nil_index in Hwd, Hg.
  apply tensor_ext; cbn [dims data]; [apply sizes_nil_index|rewrite sizes_nil_index; exact Hwd|exact Hw|].
  rewrite sizes_nil_index. intros idx Hv. rewrite Hg, shift_nil_index by exact Hv. reflexivity.
Qed.

Local Open Scope Z_scope.

Fixpoint zsliceOk (index : list zrange) (ds : list nat) : Prop :=
  match index, ds with
  | [], _ => True
  | (f, t) :: index', d :: ds' =>
      ((f = 0 /\ t = 0) \/ (0 <= f /\ f < t /\ t <= Z.of_nat d)) /\ zsliceOk index' ds'
  | _ :: _, [] => False
  end.

Lemma sliceRangesOk_iff index : forall ds, sliceRangesOk index (map Z.of_nat ds) = true <-> zsliceOk index ds.
Proof.
  induction index as [|[f t] index IH]; intros ds; cbn; [tauto|].
  destruct ds as [|d ds]; cbn; [split; [discriminate|tauto]|].
  rewrite andb_true_iff, IH.
  destruct ((f =? 0) && (t =? 0)) eqn:E; split; intros [H1 H2]; (split; [|exact H2]); try lia.
Qed.

Lemma sliceRangesOk_length index : forall dsz, sliceRangesOk index dsz = true -> (length index <= length dsz)%nat.
Proof.
  induction index as [|[f t] index IH]; intros dsz H; cbn; [lia|].
  destruct dsz as [|d dsz]; cbn in H; [discriminate|]. apply andb_true_iff in H as [_ H]. specialize (IH _ H). cbn. lia.
Qed.

Lemma validateSlice_iff index ds : validateSliceIndexAgainstDims index (map Z.of_nat ds) = true <-> zsliceOk index ds.
Proof.
  unfold validateSliceIndexAgainstDims. rewrite andb_true_iff, sliceRangesOk_iff. split; [tauto|].
  intros H. split; [|exact H]. apply Nat.leb_le. apply sliceRangesOk_length. apply sliceRangesOk_iff. exact H.
Qed.

Lemma zsliceOk_nat index : forall ds, zsliceOk index ds -> sliceIndexOk (rangesOf index) ds.
Proof.
  induction index as [|[f t] index IH]; intros ds H; cbn; [exact I|].
  destruct ds as [|d ds]; cbn in H; [contradiction|]. destruct H as [H0 H]. split; [|apply IH; exact H].
  cbn [fst snd]. destruct H0 as [[-> ->]|H0]; [left; reflexivity|right; lia].
Qed.

Theorem v_slice_spec (t : T) (index : list zrange) : wf t ->
  (validateSliceIndexAgainstDims index (zdims t) = true ->
     exists r, v_slice t index = Ok r /\
               dims r = sizes (completeIndex (rangesOf index) (dims t)) /\ wf r /\
               forall idx, validIdx (dims r) idx ->
                 get (data r) idx = get (data t) (shift idx (completeIndex (rangesOf index) (dims t))))
  /\ (validateSliceIndexAgainstDims index (zdims t) = false -> v_slice t index = Err).
Proof.
  intros Hw. unfold v_slice, guard. split; intros V; rewrite V; [|reflexivity].
  apply validateSlice_iff, zsliceOk_nat in V.
  destruct (slice_spec t (rangesOf index) Hw V) as (r & Er & H). rewrite Er. exists r. split; [reflexivity|exact H].
Qed.

Corollary v_slice_ok_iff (t : T) (index : list zrange) : wf t ->
  ((exists r, v_slice t index = Ok r) <-> zsliceOk index (dims t)) /\ v_slice t index <> Panic.
Proof.
  intros Hw. destruct (v_slice_spec t index Hw) as [H1 H2]. rewrite <- validateSlice_iff. fold (zdims t).
  eapply ok_iff_of_spec; [|exact H1|intros H; apply H2, not_true_is_false, H].
  destruct (validateSliceIndexAgainstDims index (zdims t)); [left; reflexivity|right; discriminate].
Qed.

Lemma atIndexOk_iff index : forall ds,
  atIndexOk index (map Z.of_nat ds) = true <-> Forall2 (fun i d => 0 <= i /\ i < Z.of_nat d) index ds.
Proof.
  induction index as [|i index IH]; intros [|d ds]; cbn.
  - split; [constructor|reflexivity].
  - split; [discriminate|intros H; inversion H].
  - split; [discriminate|intros H; inversion H].
  - rewrite andb_true_iff, IH. split.
    + intros [H1 H2]. constructor; [lia|exact H2].
    + intros H. inversion H; subst. split; [lia|assumption].
Qed.

Lemma validateAt_iff index ds :
  validateAtIndexAgainstDims index (map Z.of_nat ds) = true <-> Forall2 (fun i d => 0 <= i /\ i < Z.of_nat d) index ds.
Proof.
  unfold validateAtIndexAgainstDims. rewrite andb_true_iff, atIndexOk_iff. split; [tauto|].
  intros H. split; [|exact H]. apply Nat.eqb_eq. rewrite map_length. clear -H. induction H; cbn; congruence.
Qed.

Lemma validIdx_natsOf index ds :
  Forall2 (fun i d => 0 <= i /\ i < Z.of_nat d) index ds -> validIdx ds (natsOf index).
Proof. intros H. unfold validIdx, natsOf. induction H as [|i d index ds Hi H IH]; cbn; constructor; [lia|exact IH]. Qed.

Theorem v_at_spec (t : T) (index : list Z) : wf t ->
  (Forall2 (fun i d => 0 <= i /\ i < Z.of_nat d) index (dims t) ->
     exists a, v_at t index = Ok a /\ get (data t) (natsOf index) = Some a)
  /\ (~ Forall2 (fun i d => 0 <= i /\ i < Z.of_nat d) index (dims t) -> v_at t index = Err).
Proof.
  intros [Hw _]. unfold v_at. split; intros H.
  - pose proof (proj2 (validateAt_iff index (dims t)) H) as V. fold (zdims t) in V. rewrite V.
    destruct (get_wf A _ _ _ Hw (validIdx_natsOf _ _ H)) as (a & Ea). rewrite Ea. exists a. split; reflexivity.
  - destruct (validateAtIndexAgainstDims index (zdims t)) eqn:V; [|reflexivity].
    apply validateAt_iff in V. contradiction.
Qed.

Corollary v_at_ok_iff (t : T) (index : list Z) (a : A) : wf t ->
  (v_at t index = Ok a <->
     Forall2 (fun i d => 0 <= i /\ i < Z.of_nat d) index (dims t) /\ get (data t) (natsOf index) = Some a)
  /\ v_at t index <> Panic.
Proof.
  intros Hw. destruct (v_at_spec t index Hw) as [H1 H2].
  destruct (validateAtIndexAgainstDims index (zdims t)) eqn:V.
  - apply validateAt_iff in V. destruct (H1 V) as (a' & Ea & Eg). rewrite Ea. split; [|discriminate]. split.
    + intros E. inversion E; subst. split; assumption.
    + intros [_ E]. congruence.
  - assert (N : ~ Forall2 (fun i d => 0 <= i /\ i < Z.of_nat d) index (dims t)).
    { intros H. apply validateAt_iff in H. fold (zdims t) in H. congruence. }
    rewrite (H2 N). split; [|discriminate]. split; [discriminate|]. intros [H _]. contradiction.
Qed.

Local Close Scope Z_scope.

(* idx lies inside the block [From_k, From_k + du_k) in every dimension *)
Fixpoint inBlock (index : list range) (dus idx : list nat) : bool :=
  match index, dus, idx with
  | (f, _) :: index', du :: dus', i :: idx' => (f <=? i) && (i <? f + du) && inBlock index' dus' idx'
  | _, _, _ => true
  end.
(* idx - From, component-wise *)
Definition unshift (idx : list nat) (index : list range) : list nat :=
  map (fun p => fst p - fst (snd p)) (combine idx index).

Lemma unshift_cons i idx f t index : unshift (i :: idx) ((f, t) :: index) = (i - f) :: unshift idx index.
Proof. reflexivity. Qed.

(* the source block placed at the offsets fits into the target *)
Fixpoint fits (index : list range) (dus dts : list nat) : Prop :=
  match index, dus, dts with
  | [], [], [] => True
  | r :: index', du :: dus', dt :: dts' => fst r + du <= dt /\ fits index' dus' dts'
  | _, _, _ => False
  end.

Lemma setNth_some {X} (l : list X) : forall i v, i < length l ->
  exists l', setNth l i v = Some l' /\ length l' = length l /\ nth_error l' i = Some v /\
             forall j, j <> i -> nth_error l' j = nth_error l j.
Proof.
  induction l as [|x l IH]; intros i v Hi; cbn in Hi; [lia|].
  destruct i as [|i]; cbn [setNth].
  - eexists. split; [reflexivity|]. split; [reflexivity|]. split; [reflexivity|].
    intros j Hj. destruct j; [lia|reflexivity].
  - destruct (IH i v ltac:(lia)) as (l' & E & Hl & Hn & Ho). rewrite E. cbn [obind].
    eexists. split; [reflexivity|]. split; [cbn; lia|]. split; [exact Hn|].
    intros j Hj. destruct j as [|j]; [reflexivity|]. cbn. apply Ho. lia.
Qed.

(* the row loop of copiedWithPatchOf.copyData, for an abstract row-patching function *)
Lemma foldM_patch_rows (pd : nd A -> nd A -> option (nd A)) (f : nat) (Ps Pd : nd A -> Prop)
      (Q : nd A -> nd A -> nd A -> Prop) :
  (forall s d, Ps s -> Pd d -> exists n, pd s d = Some n /\ Pd n /\ Q s d n) ->
  forall (srows : list (nd A)) (s : nat) (acc : list (nd A)),
  Forall Ps srows -> Forall Pd acc -> s + length srows + f <= length acc ->
  exists out,
    foldM (fun (acc : list (nd A)) (ir : nat * nd A) =>
             let '(i, srow) := ir in
             do drow <- nth_error acc (i + f);
             do nrow <- pd srow drow;
             setNth acc (i + f) nrow)
          (combine (seq s (length srows)) srows) acc = Some out
    /\ length out = length acc /\ Forall Pd out
    /\ (forall i, i < s + f \/ s + f + length srows <= i -> nth_error out i = nth_error acc i)
    /\ (forall j srow, nth_error srows j = Some srow ->
          exists drow nrow, nth_error acc (s + j + f) = Some drow /\ nth_error out (s + j + f) = Some nrow /\
                            Q srow drow nrow).
Proof.
  intros Hpd. induction srows as [|srow srows IH]; intros s acc HPs HPd Hlen.
  - cbn. exists acc. split; [reflexivity|]. split; [reflexivity|]. split; [exact HPd|]. split; [reflexivity|].
    intros j srow Hj. destruct j; discriminate.
  - inversion HPs as [|x l HPsrow HPs']; subst. cbn [length] in Hlen. cbn [length seq combine foldM].
    destruct (nth_error_lt_some acc (s + f) ltac:(lia)) as (drow & Ed). rewrite Ed. cbn [obind].
    pose proof (Forall_nth_error_inv _ _ _ _ HPd Ed) as HPdrow.
    destruct (Hpd srow drow HPsrow HPdrow) as (nrow & En & HPn & HQ). rewrite En. cbn [obind].
    destruct (setNth_some acc (s + f) nrow ltac:(lia)) as (acc' & Es & Hl' & Hn' & Ho'). rewrite Es. cbn [obind].
    assert (HPd' : Forall Pd acc').
    { apply Forall_nth_error. intros j y Hy. destruct (Nat.eq_dec j (s + f)) as [->|Hne].
      - rewrite Hn' in Hy. inversion Hy; subst. exact HPn.
      - rewrite Ho' in Hy by exact Hne. eapply Forall_nth_error_inv; eauto. }
    destruct (IH (S s) acc' HPs' HPd' ltac:(lia)) as (out & Eo & Hlo & HPo & Hout & Hin).
    exists out. split; [exact Eo|]. split; [lia|]. split; [exact HPo|]. split.
    + intros i Hi. rewrite Hout by lia. apply Ho'. lia.
    + intros j srow' Hj. destruct j as [|j]; cbn in Hj.
      * inversion Hj; subst srow'. exists drow, nrow. replace (s + 0 + f) with (s + f) by lia.
        split; [exact Ed|]. split; [|exact HQ]. rewrite Hout by lia. exact Hn'.
      * destruct (Hin j srow' Hj) as (drow' & nrow' & Ha & Hb & Hc). exists drow', nrow'.
        replace (s + S j + f) with (S s + j + f) by lia. split; [|split; assumption].
        rewrite <- Ha. symmetry. apply Ho'. lia.
Qed.

Theorem patchData_spec : forall (index : list range) (dus dts : list nat) (src dst : nd A),
  wfnd dus src -> wfnd dts dst -> fits index dus dts ->
  exists r, patchData index src dst = Some r /\ wfnd dts r /\
            forall idx, validIdx dts idx ->
              get r idx = if inBlock index dus idx then get src (unshift idx index) else get dst idx.
Proof.
  induction index as [|[f t] index IH]; intros dus dts src dst Hws Hwd Hfit.
  - destruct dus as [|du dus]; [|contradiction]. destruct dts as [|dt dts]; [|contradiction].
    apply wfnd_nil in Hws as (a & ->). apply wfnd_nil in Hwd as (b & ->).
    exists (Sc a). cbn. split; [reflexivity|]. split; [exact I|].
    intros idx Hv. apply validIdx_nil in Hv; subst. reflexivity.
  - destruct dus as [|du dus]; [contradiction|]. destruct dts as [|dt dts]; [contradiction|].
    cbn [fits fst] in Hfit. destruct Hfit as [Hf Hfit].
    apply wfnd_cons in Hws as (srows & -> & Hls & Hfs). apply wfnd_cons in Hwd as (drows & -> & Hld & Hfd).
    cbn [patchData asV obind].
    destruct (foldM_patch_rows (patchData index) f (wfnd dus) (wfnd dts)
                (fun s d n => forall idx, validIdx dts idx ->
                   get n idx = if inBlock index dus idx then get s (unshift idx index) else get d idx))
      with (srows := srows) (s := 0) (acc := drows)
      as (out & Eo & Hlo & HPo & Hout & Hin).
    + intros s d Hs Hd. destruct (IH dus dts s d Hs Hd Hfit) as (n & En & Hwn & Hg). exists n. auto.
    + exact Hfs.
    + exact Hfd.
    + lia.
    + rewrite Eo. cbn [obind]. exists (Vec out). split; [reflexivity|]. split.
      * cbn. split; [lia|exact HPo].
      * intros idx Hv. apply validIdx_cons in Hv as (i & rr & -> & Hi & Hr).
        cbn [inBlock]. rewrite unshift_cons, !get_cons.
        destruct (f <=? i) eqn:E1; [destruct (i <? f + du) eqn:E2|]; cbn [andb].
        -- apply Nat.leb_le in E1. apply Nat.ltb_lt in E2.
           destruct (nth_error_lt_some srows (i - f) ltac:(lia)) as (srow & Es).
           destruct (Hin (i - f) srow Es) as (drow & nrow & Ha & Hb & Hc).
           replace (0 + (i - f) + f) with i in Ha, Hb by lia. rewrite Hb, Ha, Es.
           rewrite (Hc rr Hr). reflexivity.
        -- apply Nat.ltb_ge in E2. rewrite Hout by lia. reflexivity.
        -- apply Nat.leb_gt in E1. rewrite Hout by lia. reflexivity.
Qed.

(* a validated patch index, on naturals: entries are (0,0) (= offset 0) or ranges of exactly the source's
   extent that end inside the target *)
Fixpoint patchIndexOk (index : list range) (dus dts : list nat) : Prop :=
  match index, dus, dts with
  | [], _, _ => True
  | r :: index', du :: dus', dt :: dts' =>
      (r = (0, 0) \/ (fst r + du = snd r /\ snd r <= dt)) /\ patchIndexOk index' dus' dts'
  | _ :: _, _, _ => False
  end.

(* what completeIndex index (dims u) looks like for a validated patch: the exact region written *)
Fixpoint region (ci : list range) (dus dts : list nat) : Prop :=
  match ci, dus, dts with
  | [], [], [] => True
  | r :: ci', du :: dus', dt :: dts' => (fst r + du = snd r /\ snd r <= dt) /\ region ci' dus' dts'
  | _, _, _ => False
  end.

Lemma completeIndex_region : forall dus dts, Forall2 le dus dts ->
  forall index, patchIndexOk index dus dts -> region (completeIndex index dus) dus dts.
Proof.
  intros dus dts HF. induction HF as [|du dt dus dts Hle HF IH]; intros index Hok.
  - destruct index as [|[f t] index]; exact I.
  - destruct index as [|[f t] index]; cbn [completeIndex region].
    + split; [cbn; lia|]. apply IH. exact I.
    + cbn [patchIndexOk] in Hok. destruct Hok as [H0 Hok]. split; [|apply IH; exact Hok].
      destruct ((f =? 0) && (t =? 0)) eqn:E; [cbn; lia|].
      destruct H0 as [H0|H0]; [inversion H0; subst; discriminate|exact H0].
Qed.

Lemma region_fits : forall ci dus dts, region ci dus dts -> fits ci dus dts.
Proof.
  induction ci as [|r ci IH]; intros [|du dus] [|dt dts] H; cbn in *; try tauto.
  destruct H as [[H1 H2] H]. split; [lia|apply IH; exact H].
Qed.

Theorem patch_spec (t u : T) (index : list range) :
  wf t -> wf u -> Forall2 le (dims u) (dims t) -> patchIndexOk index (dims u) (dims t) ->
  exists r, patch t index u = Some r /\ dims r = dims t /\ wf r /\
            forall idx, validIdx (dims t) idx ->
              get (data r) idx =
              if inBlock (completeIndex index (dims u)) (dims u) idx
              then get (data u) (unshift idx (completeIndex index (dims u)))
              else get (data t) idx.
Proof.
  intros [Hwt Hpt] [Hwu _] Hle Hok. unfold patch. rewrite slice_nil by exact Hwt. cbn [obind].
  destruct (patchData_spec (completeIndex index (dims u)) (dims u) (dims t) (data u) (data t) Hwu Hwt)
    as (d & Ed & Hwd & Hg).
  - apply region_fits. apply completeIndex_region; assumption.
  - rewrite Ed. cbn [obind]. eexists. split; [reflexivity|]. cbn [dims data]. split; [reflexivity|].
    split; [|exact Hg]. split; cbn [dims data]; assumption.
Qed.

Lemma region_complete : forall ci dus dts, region ci dus dts -> Forall (fun d => 0 < d) dus ->
  completeIndex ci dts = ci.
Proof.
  induction ci as [|[f t] ci IH]; intros [|du dus] [|dt dts] H Hp; cbn in H; try tauto.
  destruct H as [[H1 H2] H]. inversion Hp; subst. cbn [completeIndex fst snd] in *.
  rewrite (IH dus dts H) by assumption.
  destruct ((f =? 0) && (f + du =? 0)) eqn:E; [|reflexivity]. lia.
Qed.

Lemma region_sizes : forall ci dus dts, region ci dus dts -> sizes ci = dus.
Proof.
  induction ci as [|[f t] ci IH]; intros [|du dus] [|dt dts] H; cbn in H; try tauto.
  destruct H as [[H1 H2] H]. cbn [sizes map fst snd] in *. fold (sizes ci). rewrite (IH dus dts H). f_equal. lia.
Qed.

Lemma region_ranges : forall ci dus dts, region ci dus dts ->
  Forall2 (fun r d => fst r <= snd r /\ snd r <= d) ci dts.
Proof.
  induction ci as [|[f t] ci IH]; intros [|du dus] [|dt dts] H; cbn in H; try tauto; try (constructor; fail).
  destruct H as [[H1 H2] H]. constructor; [cbn in *; lia|]. eapply IH; exact H.
Qed.

Lemma region_shift : forall ci dus dts, region ci dus dts -> forall idx, validIdx dus idx ->
  validIdx dts (shift idx ci) /\ inBlock ci dus (shift idx ci) = true /\ unshift (shift idx ci) ci = idx.
Proof.
  induction ci as [|[f t] ci IH]; intros [|du dus] [|dt dts] H idx Hv; cbn in H; try tauto.
  - apply validIdx_nil in Hv; subst. split; [constructor|]. split; reflexivity.
  - destruct H as [[H1 H2] H]. apply validIdx_cons in Hv as (i & rr & -> & Hi & Hr).
    destruct (IH dus dts H rr Hr) as (Ha & Hb & Hc). rewrite shift_cons. cbn [fst snd] in *. split.
    + constructor; [lia|exact Ha].
    + cbn [inBlock]. rewrite unshift_cons, Hb, Hc. split.
      * assert (E1 : (f <=? i + f) = true) by (apply Nat.leb_le; lia).
        assert (E2 : (i + f <? f + du) = true) by (apply Nat.ltb_lt; lia). rewrite E1, E2. reflexivity.
      * f_equal. lia.
Qed.

(* slicing the patched region out again gives back the source *)
Theorem slice_patch (t u r : T) (index : list range) :
  wf t -> wf u -> Forall2 le (dims u) (dims t) -> patchIndexOk index (dims u) (dims t) ->
  patch t index u = Some r -> slice r (completeIndex index (dims u)) = Some u.
Proof.
  intros Hwt Hwu Hle Hok Er. destruct (patch_spec t u index Hwt Hwu Hle Hok) as (r' & Er' & Hd & [Hwr _] & Hg).
  rewrite Er in Er'. inversion Er'; subst r'. clear Er'.
  pose proof (completeIndex_region _ _ Hle _ Hok) as Hreg. destruct Hwu as [Hwu Hpu].
  unfold slice, copiedSliceOf. rewrite Hd. rewrite (region_complete _ _ _ Hreg Hpu). rewrite Hd in Hwr.
  destruct (sliceData_spec _ _ _ Hwr (region_ranges _ _ _ Hreg)) as (d & Ed & Hwd & Hgd).
  rewrite Ed. cbn [obind]. fold (sizes (completeIndex index (dims u))).
  rewrite (region_sizes _ _ _ Hreg) in *. f_equal.
  apply tensor_ext; cbn [dims data]; [reflexivity|exact Hwd|exact Hwu|]. intros idx Hv.
  destruct (region_shift _ _ _ Hreg idx Hv) as (Ha & Hb & Hc).
  rewrite (Hgd idx Hv), (Hg _ Ha), Hb, Hc. reflexivity.
Qed.

Local Open Scope Z_scope.

(* validatePatchIndexAgainstDims, declaratively: the source fits the target in every dimension (same rank),
   every given range is (0,0) or a valid slice range of the target whose extent is the source's *)
Fixpoint zpatchOk (index : list zrange) (dus dts : list nat) : Prop :=
  match index, dus, dts with
  | [], _, _ => True
  | (f, t) :: index', du :: dus', dt :: dts' =>
      ((f = 0 /\ t = 0) \/ (0 <= f /\ f < t /\ t <= Z.of_nat dt /\ t - f = Z.of_nat du))
      /\ zpatchOk index' dus' dts'
  | _ :: _, _, _ => False
  end.

Lemma srcFits_iff : forall dus dts : list nat,
  ((length (map Z.of_nat dus) =? length (map Z.of_nat dts))%nat = true /\
   srcFits (map Z.of_nat dus) (map Z.of_nat dts) = true) <-> Forall2 le dus dts.
Proof.
  induction dus as [|du dus IH]; intros [|dt dts]; cbn.
  - split; [constructor|auto].
  - split; [intros [H _]; discriminate|intros H; inversion H].
  - split; [intros [H _]; discriminate|intros H; inversion H].
  - rewrite andb_true_iff. split.
    + intros [Hl [H1 H2]]. constructor; [lia|]. apply IH. split; assumption.
    + intros H. inversion H as [|x y l l' Hxy H']; subst. apply IH in H' as [Ha Hb].
      split; [exact Ha|]. split; [lia|exact Hb].
Qed.

Lemma zpatch_iff index : forall dus dts : list nat, length dus = length dts ->
  (sliceRangesOk index (map Z.of_nat dts) = true /\ coversSrc index (map Z.of_nat dus) = true)
  <-> zpatchOk index dus dts.
Proof.
  induction index as [|[f t] index IH]; intros dus dts Hl.
  - cbn. tauto.
  - destruct dus as [|du dus]; destruct dts as [|dt dts]; cbn in Hl; try discriminate.
    + cbn. split; [intros [H _]; discriminate|tauto].
    + cbn [sliceRangesOk coversSrc zpatchOk map]. rewrite <- (IH dus dts) by lia.
      rewrite !andb_true_iff.
      destruct ((f =? 0) && (t =? 0)) eqn:E; split.
      * intros [[_ H1] [_ H2]]. split; [left; lia|tauto].
      * intros [_ [H1 H2]]. tauto.
      * intros [[H0 H1] [H2 H3]]. split; [right; lia|tauto].
      * intros [[H0|H0] [H1 H2]]; [lia|]. split; (split; [lia|assumption]).
Qed.

Lemma validatePatch_iff index (dus dts : list nat) :
  validatePatchIndexAgainstDims index (map Z.of_nat dus) (map Z.of_nat dts) = true
  <-> Forall2 le dus dts /\ zpatchOk index dus dts.
Proof.
  unfold validatePatchIndexAgainstDims, validateSliceIndexAgainstDims. rewrite !andb_true_iff. split.
  - intros [[[Hl Hf] [_ Hs]] Hc]. pose proof (proj1 (srcFits_iff dus dts) (conj Hl Hf)) as HF.
    split; [exact HF|]. apply zpatch_iff; [|split; assumption].
    clear -HF. induction HF; cbn; congruence.
  - intros [HF Hz]. assert (Hlen : length dus = length dts) by (clear -HF; induction HF; cbn; congruence).
    apply srcFits_iff in HF as [Hl Hf]. apply (zpatch_iff index dus dts Hlen) in Hz as [Hs Hc].
    split; [split; [split; assumption|]|exact Hc]. split; [|exact Hs].
    apply Nat.leb_le. apply sliceRangesOk_length. exact Hs.
Qed.

Lemma zpatchOk_nat index : forall dus dts, zpatchOk index dus dts -> patchIndexOk (rangesOf index) dus dts.
Proof.
  induction index as [|[f t] index IH]; intros dus dts H; cbn; [exact I|].
  destruct dus as [|du dus]; [contradiction|]. destruct dts as [|dt dts]; [contradiction|].
  cbn in H. destruct H as [H0 H]. split; [|apply IH; exact H].
  cbn [fst snd]. destruct H0 as [[-> ->]|H0]; [left; reflexivity|right; lia].
Qed.

Theorem v_patch_spec (t u : T) (index : list zrange) : wf t -> wf u ->
  (validatePatchIndexAgainstDims index (zdims u) (zdims t) = true ->
     exists r, v_patch t index u = Ok r /\ dims r = dims t /\ wf r /\
               forall idx, validIdx (dims t) idx ->
                 get (data r) idx =
                 if inBlock (completeIndex (rangesOf index) (dims u)) (dims u) idx
                 then get (data u) (unshift idx (completeIndex (rangesOf index) (dims u)))
                 else get (data t) idx)
  /\ (validatePatchIndexAgainstDims index (zdims u) (zdims t) = false -> v_patch t index u = Err).
Proof.
  intros Hwt Hwu. unfold v_patch, guard. split; intros V; rewrite V; [|reflexivity].
  apply validatePatch_iff in V as [HF Hz]. apply zpatchOk_nat in Hz.
  destruct (patch_spec t u (rangesOf index) Hwt Hwu HF Hz) as (r & Er & H). rewrite Er.
  exists r. split; [reflexivity|exact H].
Qed.

Corollary v_patch_ok_iff (t u : T) (index : list zrange) : wf t -> wf u ->
  ((exists r, v_patch t index u = Ok r) <-> Forall2 le (dims u) (dims t) /\ zpatchOk index (dims u) (dims t))
  /\ v_patch t index u <> Panic.
Proof.
  intros Hwt Hwu. destruct (v_patch_spec t u index Hwt Hwu) as [H1 H2]. rewrite <- validatePatch_iff.
  fold (zdims t). fold (zdims u).
  eapply ok_iff_of_spec; [|exact H1|intros H; apply H2, not_true_is_false, H].
  destruct (validatePatchIndexAgainstDims index (zdims u) (zdims t)); [left; reflexivity|right; discriminate].
Qed.

(* public-level round trip: a successful Patch followed by Slice of the written region returns the source *)
Corollary v_slice_patch (t u r : T) (index : list zrange) : wf t -> wf u ->
  v_patch t index u = Ok r -> slice r (completeIndex (rangesOf index) (dims u)) = Some u.
Proof.
  intros Hwt Hwu Er. destruct (v_patch_ok_iff t u index Hwt Hwu) as [[Hiff _] _].
  destruct (Hiff (ex_intro _ r Er)) as [HF Hz]. apply zpatchOk_nat in Hz.
  apply (slice_patch t u r (rangesOf index) Hwt Hwu HF Hz).
  unfold v_patch, guard in Er. destruct (validatePatchIndexAgainstDims index (zdims u) (zdims t)); [|discriminate].
  destruct (patch t (rangesOf index) u) as [r'|]; cbn in Er; [|discriminate]. inversion Er; reflexivity.
Qed.

Local Close Scope Z_scope.

End SliceP.

Module SliceExamples.

(* 3x4:  [[0;1;2;3];[10;11;12;13];[20;21;22;23]] *)
Definition ex : tensor nat := mkT [3;4] (tab [3;4] (fun idx => match idx with [i;j] => 10 * i + j | _ => 0 end)).
(* 2x2 source block *)
Definition eu : tensor nat := mkT [2;2] (Vec [Vec [Sc 100; Sc 101]; Vec [Sc 110; Sc 111]]).

Lemma wf_ex : wf ex. Proof. split; cbn; repeat constructor. Qed.
Lemma wf_eu : wf eu. Proof. split; cbn; repeat constructor. Qed.

Example completeIndex_ex : completeIndex [(0,0); (1,3)] [2;3;4] = [(0,2); (1,3); (0,4)].
Proof. reflexivity. Qed.

Example sliceData_ex : sliceData [(1,3); (2,4)] (data ex) = Some (Vec [Vec [Sc 12; Sc 13]; Vec [Sc 22; Sc 23]]).
Proof. vm_compute. reflexivity. Qed.
Example sliceData_hyp : Forall2 (fun r d => fst r <= snd r /\ snd r <= d) [(1,3); (2,4)] [3;4].
Proof. repeat constructor. Qed.
(* outside the hypotheses the data layer panics *)
Example sliceData_oob : sliceData [(1,4); (2,4)] (data ex) = None.
Proof. vm_compute. reflexivity. Qed.

Example sliceIndexOk_ex : sliceIndexOk [(1,3)] (dims ex).
Proof. cbn. split; [right; lia|exact I]. Qed.
Example slice_ex : slice ex [(1,3)] = Some (mkT [2;4] (Vec [Vec [Sc 10; Sc 11; Sc 12; Sc 13]; Vec [Sc 20; Sc 21; Sc 22; Sc 23]])).
Proof. vm_compute. reflexivity. Qed.
Example slice_get_ex : exists r, slice ex [(0,0); (1,3)] = Some r /\ dims r = [3;2] /\ get (data r) [2;1] = Some 22.
Proof.
  destruct (slice_spec ex [(0,0); (1,3)] wf_ex) as (r & Er & Hd & _ & Hg).
  - cbn. split; [left; reflexivity|]. split; [right; lia|exact I].
  - exists r. split; [exact Er|]. split; [exact Hd|]. rewrite Hg by (rewrite Hd; repeat constructor). reflexivity.
Qed.

Example v_slice_ex : v_slice ex [(1,3); (2,4)]%Z = Ok (mkT [2;2] (Vec [Vec [Sc 12; Sc 13]; Vec [Sc 22; Sc 23]])).
Proof. vm_compute. reflexivity. Qed.
Example v_slice_err1 : v_slice ex [(2,1)]%Z = Err.          Proof. vm_compute. reflexivity. Qed.
Example v_slice_err2 : v_slice ex [(0,4)]%Z = Err.          Proof. vm_compute. reflexivity. Qed.
Example v_slice_err3 : v_slice ex [(-1,2)]%Z = Err.         Proof. vm_compute. reflexivity. Qed.
Example v_slice_err4 : v_slice ex [(0,0);(0,0);(0,0)]%Z = Err. Proof. vm_compute. reflexivity. Qed.
Example zsliceOk_ex : zsliceOk [(1,3); (2,4)]%Z (dims ex).
Proof. cbn. split; [right; lia|]. split; [right; lia|exact I]. Qed.

Example v_at_ex : v_at ex [2; 3]%Z = Ok 23.   Proof. vm_compute. reflexivity. Qed.
Example v_at_err1 : v_at ex [3; 0]%Z = Err.   Proof. vm_compute. reflexivity. Qed.
Example v_at_err2 : v_at ex [-1; 0]%Z = Err.  Proof. vm_compute. reflexivity. Qed.
Example v_at_err3 : v_at ex [1]%Z = Err.      Proof. vm_compute. reflexivity. Qed.
Example v_at_hyp : Forall2 (fun i d => 0 <= i /\ i < Z.of_nat d)%Z [2; 3]%Z (dims ex).
Proof. repeat constructor; cbn; lia. Qed.

Example patchData_ex :
  patchData [(1,3); (2,4)] (data eu) (data ex)
  = Some (Vec [Vec [Sc 0; Sc 1; Sc 2; Sc 3]; Vec [Sc 10; Sc 11; Sc 100; Sc 101]; Vec [Sc 20; Sc 21; Sc 110; Sc 111]]).
Proof. vm_compute. reflexivity. Qed.
Example fits_ex : fits [(1,3); (2,4)] (dims eu) (dims ex).
Proof. cbn. lia. Qed.
(* a block that does not fit makes the data layer panic *)
Example patchData_oob : patchData [(2,4); (2,4)] (data eu) (data ex) = None.
Proof. vm_compute. reflexivity. Qed.

Example patchIndexOk_ex : patchIndexOk [(1,3)] (dims eu) (dims ex).
Proof. cbn. split; [right; lia|exact I]. Qed.
Example patch_ex :
  patch ex [(1,3)] eu
  = Some (mkT [3;4] (Vec [Vec [Sc 0; Sc 1; Sc 2; Sc 3]; Vec [Sc 100; Sc 101; Sc 12; Sc 13]; Vec [Sc 110; Sc 111; Sc 22; Sc 23]])).
Proof. vm_compute. reflexivity. Qed.
Example patch_get_ex : exists r, patch ex [(1,3)] eu = Some r /\ get (data r) [2;1] = Some 111 /\ get (data r) [2;2] = Some 22.
Proof.
  destruct (patch_spec ex eu [(1,3)] wf_ex wf_eu) as (r & Er & _ & _ & Hg).
  - repeat constructor.
  - exact patchIndexOk_ex.
  - exists r. split; [exact Er|]. split; rewrite Hg by (repeat constructor); reflexivity.
Qed.

Example v_patch_ex :
  v_patch ex [(1,3); (2,4)]%Z eu
  = Ok (mkT [3;4] (Vec [Vec [Sc 0; Sc 1; Sc 2; Sc 3]; Vec [Sc 10; Sc 11; Sc 100; Sc 101]; Vec [Sc 20; Sc 21; Sc 110; Sc 111]])).
Proof. vm_compute. reflexivity. Qed.
Example v_patch_err1 : v_patch ex [(1,2)]%Z eu = Err.        Proof. vm_compute. reflexivity. Qed.   (* extent 1 <> 2 *)
Example v_patch_err2 : v_patch ex [(2,4)]%Z eu = Err.        Proof. vm_compute. reflexivity. Qed.   (* ends outside *)
Example v_patch_err3 : v_patch eu []%Z ex = Err.             Proof. vm_compute. reflexivity. Qed.   (* source larger *)
Example zpatchOk_ex : Forall2 le (dims eu) (dims ex) /\ zpatchOk [(1,3); (2,4)]%Z (dims eu) (dims ex).
Proof. split; [repeat constructor|]. cbn. split; [right; lia|]. split; [right; lia|exact I]. Qed.

Example slice_patch_ex : forall r, patch ex [(1,3)] eu = Some r -> slice r (completeIndex [(1,3)] (dims eu)) = Some eu.
Proof.
  intros r. apply (slice_patch ex eu r [(1,3)] wf_ex wf_eu); [repeat constructor|exact patchIndexOk_ex].
Qed.
Example slice_patch_compute :
  (do r <- patch ex [(1,3)] eu; slice r (completeIndex [(1,3)] (dims eu))) = Some eu.
Proof. vm_compute. reflexivity. Qed.

(* NOT true with the caller's raw index when a range is omitted and the source is smaller: the omitted
   range means [0, du) for Patch but [0, dt) for Slice (this is the root of the Patch-backward defect D4) *)
Example slice_patch_raw_index_refuted :
  exists (t u : tensor nat) index r, wf t /\ wf u /\ Forall2 le (dims u) (dims t) /\
    patchIndexOk index (dims u) (dims t) /\ patch t index u = Some r /\ slice r index <> Some u.
Proof.
  exists ex, eu, [(1,3)]. eexists. split; [exact wf_ex|]. split; [exact wf_eu|]. split; [repeat constructor|].
  split; [exact patchIndexOk_ex|]. split; [exact patch_ex|]. vm_compute. discriminate.
Qed.

End SliceExamples.

Print Assumptions completeIndex_spec.
Print Assumptions sliceData_spec.
Print Assumptions slice_spec.
Print Assumptions slice_nil.
Print Assumptions v_slice_spec.
Print Assumptions v_slice_ok_iff.
Print Assumptions v_at_spec.
Print Assumptions v_at_ok_iff.
Print Assumptions patchData_spec.
Print Assumptions patch_spec.
Print Assumptions v_patch_spec.
Print Assumptions v_patch_ok_iff.
Print Assumptions slice_patch.
Print Assumptions v_slice_patch.
