(* SoftmaxP.v — the Softmax activation (component/layers/activations/softmax.go, with the
   normaliser unsqueezed back before dividing) against the exact element expression, for an
   arbitrary [Scalar A] with no laws (property C14, Softmax part):

       y[idx] = exp(x[idx]) / ((((0 + exp x[idx|dim:=0]) + exp x[idx|dim:=1]) + ...) + exp x[idx|dim:=n-1])

   for an input of ANY rank greater than dim. *)
From Coq Require Import List Arith ZArith Bool Lia.
From Qeep Require Import Model.Scalar Model.Nd Model.Fill Model.Data Model.Valid Model.Api Model.Grad Model.Components.
From Qeep Require Import Proofs.NdP Proofs.ElemP Proofs.ReshapeP Proofs.BroadcastP Proofs.ReduceP Proofs.ArithP
  Proofs.MatMulP Proofs.TrackP Proofs.FibreP Proofs.OpsP Proofs.CompP.
Import ListNotations.

(* ---- index surgery: deleting / inserting / overwriting a component ---- *)

(* idx with component dim set to k *)
Definition setAt (dim k : nat) (idx : list nat) : list nat := ins dim k (del dim idx).

Lemma validIdx_setAt dim k ds idx : dim < length ds -> k < nth dim ds 0 -> validIdx ds idx -> validIdx ds (setAt dim k idx).
Proof.
  intros Hd Hk Hv. unfold setAt. rewrite <- (ins_del dim 0 ds Hd) at 1.
  apply validIdx_ins; [exact Hk|apply validIdx_del, Hv].
Qed.

Lemma setAt_self dim idx : dim < length idx -> setAt dim (nth dim idx 0) idx = idx.
Proof. apply ins_del. Qed.

Lemma validIdx_nth dim ds idx : validIdx ds idx -> dim < length ds -> nth dim idx 0 < nth dim ds 0.
Proof.
  intros Hv. revert dim. induction Hv as [|i d idx ds Hi _ IH]; intros dim Hd; cbn in Hd; [lia|].
  destruct dim as [|dim]; cbn [nth]; [exact Hi|apply IH; lia].
Qed.

(* the shape of the normaliser after UnSqueeze(dim): entry dim replaced by 1 *)
Lemma unsq_squeeze_rel dim : forall ds, dim < length ds ->
  Forall2 (fun a b => b = a \/ b = 1) ds (unsqueezeDims dim (squeezeDims dim ds)).
Proof.
  change (forall ds, dim < length ds -> Forall2 (fun a b => b = a \/ b = 1) ds (ins dim 1 (del dim ds))).
  induction dim as [|dim IH]; intros [|d ds] Hd; cbn in Hd; try lia.
  - rewrite del_0, ins_0. constructor; [right; reflexivity|]. clear Hd.
    induction ds as [|a ds IHds]; constructor; [left; reflexivity|exact IHds].
  - rewrite del_S, ins_S. constructor; [left; reflexivity|apply IH; lia].
Qed.

Lemma rel_compat2R l1 : forall l2, Forall2 (fun a b => b = a \/ b = 1) l1 l2 -> compat2R l1 l2.
Proof.
  intros l2 H. induction H as [|a b l1 l2 Hab _ IH]; cbn [compat2R]; [exact I|].
  split; [destruct Hab as [->| ->]; auto|exact IH].
Qed.

Lemma rel_tbdRev l1 : forall l2, Forall2 (fun a b => b = a \/ b = 1) l1 l2 -> allpos l1 -> tbdRev l1 l2 = l1.
Proof.
  intros l2 H. induction H as [|a b l1 l2 Hab _ IH]; intros Hp; cbn [tbdRev]; [reflexivity|].
  inversion Hp as [|? ? Ha Hp']; subst. rewrite IH by exact Hp'. f_equal. destruct Hab as [->| ->]; lia.
Qed.

Lemma rel_bcompat2 ds ds1 : Forall2 (fun a b => b = a \/ b = 1) ds ds1 -> bcompat2 ds ds1.
Proof. intros H. unfold bcompat2. apply rel_compat2R, OdometerP.Forall2_rev', H. Qed.

Lemma rel_target ds ds1 : Forall2 (fun a b => b = a \/ b = 1) ds ds1 -> allpos ds -> targetBroadcastDims ds ds1 = ds.
Proof.
  intros H Hp. unfold targetBroadcastDims. rewrite rel_tbdRev; [apply rev_involutive|apply OdometerP.Forall2_rev', H|].
  apply Forall_rev, Hp.
Qed.

(* projecting a target index onto the normaliser: component dim becomes 0 *)
Lemma bmap_id ds idx : validIdx ds idx -> map (fun p => if fst p =? 1 then 0 else snd p) (combine ds idx) = idx.
Proof.
  intros Hv. pose proof (bproj_id ds idx Hv) as H. unfold bproj in H. rewrite Nat.sub_diag in H. exact H.
Qed.

Lemma bproj_unsq dim : forall ds idx, dim < length ds -> validIdx ds idx ->
  bproj (unsqueezeDims dim (squeezeDims dim ds)) ds idx = setAt dim 0 idx.
Proof.
  intros ds idx Hd Hv. unfold bproj, setAt.
  change (unsqueezeDims dim (squeezeDims dim ds)) with (ins dim 1 (del dim ds)).
  rewrite ins_length, del_length by exact Hd. replace (length ds - S (length ds - 1)) with 0 by lia. cbn [skipn].
  revert ds idx Hd Hv. induction dim as [|dim IH]; intros ds idx Hd Hv.
  - destruct Hv as [|i d idx ds Hi Hv]; [cbn in Hd; lia|]. rewrite !del_0, !ins_0. cbn [combine map fst snd Nat.eqb].
    f_equal. apply bmap_id, Hv.
  - destruct Hv as [|i d idx ds Hi Hv]; [cbn in Hd; lia|]. rewrite !del_S, !ins_S. cbn [combine map fst snd].
    cbn in Hd. rewrite IH by (try exact Hv; lia). f_equal.
    destruct (d =? 1) eqn:E; [apply Nat.eqb_eq in E; lia|reflexivity].
Qed.

Section SoftmaxP.
Context {A : Type} {SA : Scalar A}.
Notation T := (tensor A).
Notation heap := (@heap A).
Notation hres := (@hres A).

(* the composition at the value level, in the order of the Go code *)
Definition softmax_val (dim : nat) (xv : T) : res T := runOpsV (softmax_ops dim) [xv].

Theorem softmax_forward_tracks (h : heap) dim x name xv : valOf h x = Some xv -> dim < length (dims xv) ->
  tracks h (softmax_forward h dim [Some x] name) (softmax_val dim xv) name.
Proof.
  intros Hx Hd. rewrite softmax_forward_ops by (unfold rankOf; rewrite Hx; exact Hd).
  apply tracks_atomically, runOps_tracks_w; [repeat constructor; exact Hx|reflexivity].
Qed.

(* e^x[idx] / (((0 + e^x[idx|dim:=0]) + e^x[idx|dim:=1]) + ... + e^x[idx|dim:=n-1]) *)
Definition smSum (xv : T) (dim : nat) (idx : list nat) : A :=
  fold_left sadd (map (fun k => sexp (elt (data xv) (setAt dim k idx))) (seq 0 (nth dim (dims xv) 0))) s0.
Definition smEl (xv : T) (dim : nat) (idx : list nat) : A :=
  sdiv (sexp (elt (data xv) idx)) (smSum xv dim idx).

Theorem softmax_val_spec (dim : nat) (xv : T) : wf xv -> dim < length (dims xv) ->
  exists r, softmax_val dim xv = Ok r /\ dims r = dims xv /\ wf r /\
    forall idx, validIdx (dims xv) idx -> get (data r) idx = Some (smEl xv dim idx).
Proof.
  intros Wx Hd. unfold softmax_val, softmax_ops. cbn [runOpsV pick map nth primV app mathUnary]. pose proof Wx as [Wxd Px].
  (* ex := x.Exp() *)
  destruct (v_unary_spec UExpo xv Wx) as (ex & E1 & Dex & Wex & Gex). rewrite E1. cbn [res_bind unaryF] in *.
  (* s := ex.SumAlong(dim) *)
  assert (Hrg : (0 <= Z.of_nat dim < Z.of_nat (length (dims ex)))%Z) by (rewrite Dex; lia).
  destruct (v_reduceAlong_elt RdSum ex (Z.of_nat dim) Wex Hrg) as (s & E2 & Ds & Ws & Gs).
  rewrite Nat2Z.id, Dex in Ds, Gs. rewrite E2. cbn [res_bind].
  (* su := s.UnSqueeze(dim) *)
  destruct (v_unsqueeze_get s dim Ws) as (su & E3 & Dsu & Wsu & Gsu).
  { rewrite Ds, squeezeDims_del, del_length by exact Hd. lia. }
  rewrite E3. cbn [res_bind]. rewrite Ds in Dsu, Gsu.
  change (ins dim 1 (squeezeDims dim (dims xv))) with (unsqueezeDims dim (squeezeDims dim (dims xv))) in Dsu.
  (* result := ex.Div(su) *)
  pose proof (unsq_squeeze_rel dim (dims xv) Hd) as Rel.
  pose proof (v_arith_spec BiDiv ex su Wex Wsu) as Ha. cbv zeta in Ha. destruct Ha as [Ha _].
  rewrite Dex, Dsu, (rel_target _ _ Rel Px) in Ha.
  destruct (Ha (rel_bcompat2 _ _ Rel)) as (r & E4 & Dr & Wr & Gr).
  exists r. split; [exact E4|]. split; [exact Dr|]. split; [exact Wr|].
  intros idx Hv. rewrite (Gr idx Hv), (bproj_id _ _ Hv), (bproj_unsq dim _ _ Hd Hv).
  rewrite (Gex idx Hv), (elt_some _ _ _ Wxd Hv). cbn [option_map].
  (* su[idx|dim:=0] = s[idx without dim] = the sum over the fibre *)
  pose proof (validIdx_del dim _ _ Hv) as Hv'. rewrite <- squeezeDims_del in Hv'.
  unfold setAt at 1. rewrite (Gsu _ Hv'), (Gs _ Hv'). cbn [binaryF redL]. unfold smEl, smSum, sumL.
  do 3 f_equal. apply map_ext_in. intros k Hk. apply in_seq in Hk.
  change (firstn dim (del dim idx) ++ k :: skipn dim (del dim idx)) with (setAt dim k idx).
  assert (Hvk : validIdx (dims xv) (setAt dim k idx)) by (apply validIdx_setAt; [exact Hd|lia|exact Hv]).
  unfold elt at 1. rewrite (Gex _ Hvk), (elt_some _ _ _ Wxd Hvk). reflexivity.
Qed.

(* ---- the user-facing statement (C14, Softmax) ---- *)
Theorem softmax_forward_spec (h : heap) dim x name (xv : T) :
  valOf h x = Some xv -> wf xv -> dim < length (dims xv) ->
  exists r, produces h (softmax_forward h dim [Some x] name) r name /\ dims r = dims xv /\ wf r /\
    forall idx, validIdx (dims xv) idx ->
      get (data r) idx =
      Some (sdiv (sexp (elt (data xv) idx))
                 (fold_left sadd
                    (map (fun k => sexp (elt (data xv) (setAt dim k idx))) (seq 0 (nth dim (dims xv) 0))) s0)).
Proof.
  intros Hx Wx Hd. exact (spec_of_tracks _ _ _ _ _ (softmax_forward_tracks h dim x name xv Hx Hd) (softmax_val_spec dim xv Wx Hd)).
Qed.

(* the operands of the formula are the elements of x; idx itself is one of the positions summed over *)
Lemma softmax_operands (xv : T) dim idx : wf xv -> dim < length (dims xv) -> validIdx (dims xv) idx ->
  get (data xv) idx = Some (elt (data xv) idx) /\
  (forall k, k < nth dim (dims xv) 0 ->
     validIdx (dims xv) (setAt dim k idx) /\
     get (data xv) (setAt dim k idx) = Some (elt (data xv) (setAt dim k idx))) /\
  nth dim idx 0 < nth dim (dims xv) 0 /\ setAt dim (nth dim idx 0) idx = idx /\ 0 < nth dim (dims xv) 0.
Proof.
  intros [Wxd Px] Hd Hv. split; [apply (elt_some _ _ _ Wxd Hv)|]. split.
  - intros k Hk. assert (Hvk : validIdx (dims xv) (setAt dim k idx)) by (apply validIdx_setAt; assumption).
    split; [exact Hvk|apply (elt_some _ _ _ Wxd Hvk)].
  - pose proof (validIdx_nth dim _ _ Hv Hd) as Hn. split; [exact Hn|].
    split; [apply setAt_self; rewrite (validIdx_length _ _ Hv); exact Hd|lia].
Qed.

(* ---- rejections ---- *)
Theorem softmax_rejects (h : heap) dim xs name :
  (oneInput xs = None -> softmax_forward h dim xs name = (h, Err)) /\
  (forall x, xs = [Some x] -> rankOf h x <= dim -> softmax_forward h dim xs name = (h, Err)).
Proof.
  split.
  - intros E. unfold softmax_forward. rewrite E. reflexivity.
  - intros x -> Hr. unfold softmax_forward. cbn [oneInput].
    destruct (rankOf h x <=? dim) eqn:E; [reflexivity|apply Nat.leb_gt in E; lia].
Qed.

Theorem softmax_fail_frame (h : heap) dim xs name :
  (forall id, snd (softmax_forward h dim xs name) <> Ok id) -> fst (softmax_forward h dim xs name) = h.
Proof.
  unfold softmax_forward. destruct (oneInput xs) as [x|]; [|reflexivity].
  destruct (rankOf h x <=? dim); [reflexivity|apply atomically_fail].
Qed.

(* a well-formed input never makes Softmax fail or panic once the rank test is passed *)
Corollary softmax_forward_ok (h : heap) dim x name (xv : T) :
  valOf h x = Some xv -> wf xv -> dim < length (dims xv) ->
  exists h' id, softmax_forward h dim [Some x] name = (h', Ok id).
Proof.
  intros Hx Wx Hd. destruct (softmax_forward_spec h dim x name xv Hx Wx Hd) as (r & (h' & id & E & _) & _).
  exists h', id. exact E.
Qed.

End SoftmaxP.

(* ---- non-vacuity ---- *)
Module SoftmaxExamples.

(* 1. the free term algebra: the model's result IS the expression of the theorem *)
Definition xT : tensor term := mkT [1; 2] (Vec [Vec [Sc (TVal 0 0); Sc (TVal 0 1)]]).
Lemma wf_xT : wf xT. Proof. split; [apply wfndb_spec; reflexivity|repeat constructor]. Qed.
Definition hT : @heap term := fst (leaf [] xT false (Some 0)).

Example softmax_term_ex :
  exists h', @softmax_forward term term_scalar hT 1 [Some 0] (Some 1) = (h', Ok 6) /\
    valOf h' 6 =
    Some (mkT [1; 2]
      (Vec [Vec [Sc (TBin BDiv (TUn UExp (TVal 0 0))
                      (TBin BAdd (TBin BAdd (TConst 0 0) (TUn UExp (TVal 0 0))) (TUn UExp (TVal 0 1))));
                 Sc (TBin BDiv (TUn UExp (TVal 0 1))
                      (TBin BAdd (TBin BAdd (TConst 0 0) (TUn UExp (TVal 0 0))) (TUn UExp (TVal 0 1))))]])).
Proof. eexists. vm_compute. auto. Qed.

Example softmax_spec_inst :
  exists r, produces hT (@softmax_forward term term_scalar hT 1 [Some 0] None) r None /\
    get (data r) [0; 1] =
    Some (TBin BDiv (TUn UExp (TVal 0 1))
            (TBin BAdd (TBin BAdd (TConst 0 0) (TUn UExp (TVal 0 0))) (TUn UExp (TVal 0 1)))).
Proof.
  destruct (@softmax_forward_spec term term_scalar hT 1 0 None xT eq_refl wf_xT ltac:(cbn; lia)) as (r & P & _ & _ & G).
  exists r. split; [exact P|]. rewrite G by (repeat constructor). reflexivity.
Qed.

(* 2. the throw-away integer instance (exp a = 2^a, integer division), rank 3, dim 1 *)
Import CompExamples.
Close Scope Z_scope.
Definition x3 : tensor Z := mkT [2; 2; 1] (Vec [Vec [Vec [Sc 3]; Vec [Sc 0]]; Vec [Vec [Sc 1]; Vec [Sc 1]]])%Z.
Lemma wf_x3 : wf x3. Proof. split; [apply wfndb_spec; reflexivity|repeat constructor]. Qed.
Definition h3 : @heap Z := fst (leaf [] x3 false (Some 0)).

Example softmax_z_ex :
  exists h', softmax_forward h3 1 [Some 0] (Some 1) = (h', Ok 6) /\ length h' = 7 /\
    valOf h' 6 = Some (mkT [2; 2; 1] (Vec [Vec [Vec [Sc (8 / (0 + 8 + 1))]; Vec [Sc (1 / (0 + 8 + 1))]];
                                          Vec [Vec [Sc (2 / (0 + 2 + 2))]; Vec [Sc (2 / (0 + 2 + 2))]]])%Z).
Proof. eexists. vm_compute. auto. Qed.

Example softmax_z_spec_inst :
  exists r, produces h3 (softmax_forward h3 1 [Some 0] None) r None /\ dims r = [2; 2; 1] /\
    get (data r) [0; 1; 0] = Some (2 ^ 0 / (0 + 2 ^ 3 + 2 ^ 0))%Z.
Proof.
  destruct (softmax_forward_spec h3 1 0 None x3 eq_refl wf_x3 ltac:(cbn; lia)) as (r & P & D & _ & G).
  exists r. split; [exact P|]. split; [exact D|]. rewrite G by (repeat constructor). reflexivity.
Qed.

Example softmax_reject_ex :
  softmax_forward h3 3 [Some 0] None = (h3, Err) /\          (* rank 3 <= dim 3 *)
  softmax_forward h3 1 [] None = (h3, Err) /\ softmax_forward h3 1 [None] None = (h3, Err) /\
  softmax_forward h3 1 [Some 0; Some 0] None = (h3, Err) /\
  softmax_forward h3 1 [Some 5] None = (h3, Err).            (* no such tensor: rank 0 <= dim *)
Proof. vm_compute. repeat split. Qed.

Example setAt_ex : setAt 1 7 [4; 5; 6] = [4; 7; 6] /\ setAt 0 7 [4; 5; 6] = [7; 5; 6] /\ setAt 2 7 [4; 5; 6] = [4; 5; 7].
Proof. vm_compute. auto. Qed.

End SoftmaxExamples.

Print Assumptions softmax_forward_tracks.
Print Assumptions softmax_val_spec.
Print Assumptions softmax_forward_spec.
Print Assumptions softmax_operands.
Print Assumptions softmax_rejects.
Print Assumptions softmax_fail_frame.
Print Assumptions softmax_forward_ok.
