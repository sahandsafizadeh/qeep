(* StepP.v — what one command of the scenario interpreter [step] may do to heap and environment, for
   ALL commands and all states (C10 first half, the heap part of C08/C20).  [okw] is what every chain
   of tracked methods guarantees; [step_rel] is the case analysis over the commands; [step_node]
   reads it for one existing node, and the frame statements and their lifts to histories ([exec])
   follow from that.  Everything is proved for arbitrary [rd], arbitrary sealing functions
   [sealv]/[sealg] (the identity sealing of the properties is an instance) and arbitrary constants. *)
From Coq Require Import List Arith ZArith Bool Lia.
From Qeep Require Import Model.Scalar Model.Nd Model.Fill Model.Data Model.Valid Model.Api Model.Grad
     Model.Backprop Model.Components Model.Scenario.
From Qeep Require Import Proofs.NdP Proofs.TrackP Proofs.DfsP Proofs.BpFlagsP.
From Qeep Require Proofs.BackpropP.
Import ListNotations.

Section Okw.
Context {A : Type} {SA : Scalar A}.
Notation T := (tensor A).
Notation heap := (@heap A).
Notation hres := (@hres A).

(* the heap invariant: back edges point at older tensors and every rule stored at node c reads the
   gradient of c *)
Definition hinv (h : heap) : Prop := BackpropP.wf_heap h /\ BackpropP.rules_own h.

Lemma hinv_wf (h : heap) : hinv h -> wf_heap h.
Proof. intros [W _]. exact (proj1 (BackpropP.wf_heap_Forall h) W). Qed.

Lemma wf_of_track (h : heap) : wf_heap h -> BackpropP.wf_heap h.
Proof. intros W. exact (proj2 (BackpropP.wf_heap_Forall h) W). Qed.

Lemma hinv_nil : hinv [].
Proof. split; [apply BackpropP.wf_heap_nil|apply BackpropP.rules_own_nil]. Qed.

Lemma hinv_updNode (h : heap) i f : (forall n, nedges (f n) = nedges n) -> hinv h -> hinv (updNode h i f).
Proof.
  intros Hf [W O]. split; apply BackpropP.edges_ok_updNode; try assumption;
    intros n e He; rewrite Hf in He; exact He.
Qed.

Lemma hinv_alloc_noedges (h : heap) v tr di name : hinv h -> hinv (fst (alloc h v (tr, di, []) name)).
Proof. intros [W O]. split; apply BackpropP.edges_ok_alloc; try assumption; intros e []. Qed.

(* what a (possibly failing, possibly non-atomic) chain of tracked methods may do *)
Definition okw (h : heap) (hr : hres) : Prop :=
  extends h (fst hr) /\
  (forall id, snd hr = Ok id -> length h <= id /\ S id = length (fst hr)) /\
  (hinv h -> hinv (fst hr)).

Lemma okw_prim (h : heap) (hr : hres) : frame_ok h hr ->
  (BackpropP.wf_heap h -> BackpropP.wf_heap (fst hr)) -> (BackpropP.rules_own h -> BackpropP.rules_own (fst hr)) ->
  okw h hr.
Proof.
  intros (He & _ & Hid & _) HW HO. split; [exact He|]. split; [|intros [W O]; split; auto].
  intros id E. destruct (Hid id E) as (H1 & _ & H3). split; assumption.
Qed.

Lemma okw_fail (h : heap) (r : res nat) : (forall id, r <> Ok id) -> okw h (h, r).
Proof.
  intros Hr. split; [apply extends_refl|]. split; [|intros H; exact H].
  intros id E. exfalso. apply (Hr id E).
Qed.

Lemma okw_bind (h : heap) (r : hres) (f : heap -> nat -> hres) :
  okw h r -> (forall h1 id, okw h1 (f h1 id)) -> okw h (hbind r f).
Proof.
  intros (He & Hid & Hi) Hf. destruct r as [h1 [id| |]]; cbn [hbind fst snd] in *.
  - destruct (Hf h1 id) as (He2 & Hid2 & Hi2). split; [eapply extends_trans; eauto|]. split.
    + intros id' E. destruct (Hid2 id' E) as [L1 L2]. split; [|exact L2].
      pose proof (extends_length _ _ He). lia.
    + intros H. apply Hi2, Hi, H.
  - split; [exact He|]. split; [intros id E; discriminate|exact Hi].
  - split; [exact He|]. split; [intros id E; discriminate|exact Hi].
Qed.

Lemma okw_atomically (h : heap) (r : hres) : okw h r -> okw h (atomically h r).
Proof.
  intros H. destruct r as [h1 [id| |]]; cbn [atomically]; [exact H|apply okw_fail; discriminate..].
Qed.

Lemma atomically_fail (h : heap) (r : hres) : (forall id, snd (atomically h r) <> Ok id) -> fst (atomically h r) = h.
Proof.
  destruct r as [h1 [id| |]]; cbn [atomically fst snd]; intros H; [|reflexivity|reflexivity].
  exfalso. apply (H id). reflexivity.
Qed.

(* [atomically] adds the original heap on failure: together this is [frame_ok] *)
Theorem atomically_frame (h : heap) (r : hres) : okw h r -> frame_ok h (atomically h r).
Proof.
  intros H. pose proof (okw_atomically h r H) as (He & Hid & _).
  split; [exact He|]. split; [apply extends_nth; exact He|]. split.
  - intros id E. destruct (Hid id E) as [L1 L2]. repeat split; try assumption. lia.
  - intros E. apply atomically_fail. intros id X. rewrite X in E. destruct E; discriminate.
Qed.

Lemma okw_scale h x a nm : okw h (h_scale h x a nm).
Proof. apply okw_prim; [apply h_scale_frame|apply BackpropP.wf_heap_op1|apply BackpropP.rules_own_scale]. Qed.
Lemma okw_pow h x a az nm : okw h (h_pow h x a az nm).
Proof. apply okw_prim; [apply h_pow_frame|apply BackpropP.wf_heap_op1|apply BackpropP.rules_own_pow]. Qed.
Lemma okw_math h f x nm : okw h (h_math h f x nm).
Proof. apply okw_prim; [apply h_math_frame|apply BackpropP.wf_heap_op1|apply BackpropP.rules_own_math]. Qed.
Lemma okw_transpose h x nm : okw h (h_transpose h x nm).
Proof. apply okw_prim; [apply h_transpose_frame|apply BackpropP.wf_heap_op1|apply BackpropP.rules_own_transpose]. Qed.
Lemma okw_reshape h x sh nm : okw h (h_reshape h x sh nm).
Proof. apply okw_prim; [apply h_reshape_frame|apply BackpropP.wf_heap_op1|apply BackpropP.rules_own_reshape]. Qed.
Lemma okw_broadcast h x sh nm : okw h (h_broadcast h x sh nm).
Proof. apply okw_prim; [apply h_broadcast_frame|apply BackpropP.wf_heap_op1|apply BackpropP.rules_own_broadcast]. Qed.
Lemma okw_unsqueeze h x d nm : okw h (h_unsqueeze h x d nm).
Proof. apply okw_prim; [apply h_unsqueeze_frame|apply BackpropP.wf_heap_op1|apply BackpropP.rules_own_unsqueeze]. Qed.
Lemma okw_squeeze h x d nm : okw h (h_squeeze h x d nm).
Proof. apply okw_prim; [apply h_squeeze_frame|apply BackpropP.wf_heap_op1|apply BackpropP.rules_own_squeeze]. Qed.
Lemma okw_flatten h x d nm : okw h (h_flatten h x d nm).
Proof. apply okw_prim; [apply h_flatten_frame|apply BackpropP.wf_heap_op1|apply BackpropP.rules_own_flatten]. Qed.
Lemma okw_reduceAlong h r x d nm : okw h (h_reduceAlong h r x d nm).
Proof. apply okw_prim; [apply h_reduceAlong_frame|apply BackpropP.wf_heap_op1|apply BackpropP.rules_own_reduceAlong]. Qed.
Lemma okw_slice h x idx nm : okw h (h_slice h x idx nm).
Proof. apply okw_prim; [apply h_slice_frame|apply BackpropP.wf_heap_op1|apply BackpropP.rules_own_slice]. Qed.
Lemma okw_cmp h b x u nm : okw h (h_cmp h b x u nm).
Proof. apply okw_prim; [apply h_cmp_frame|apply BackpropP.wf_heap_cmp|apply BackpropP.rules_own_cmp]. Qed.
Lemma okw_elsel h b x u nm : okw h (h_elsel h b x u nm).
Proof. apply okw_prim; [apply h_elsel_frame|apply BackpropP.wf_heap_elsel|apply BackpropP.rules_own_elsel]. Qed.
Lemma okw_arith h b x u nm : okw h (h_arith h b x u nm).
Proof. apply okw_prim; [apply h_arith_frame|apply BackpropP.wf_heap_arith|apply BackpropP.rules_own_arith]. Qed.
Lemma okw_dot h x u nm : okw h (h_dot h x u nm).
Proof. apply okw_prim; [apply h_dot_frame|apply BackpropP.wf_heap_dot|apply BackpropP.rules_own_dot]. Qed.
Lemma okw_matmul h x u nm : okw h (h_matmul h x u nm).
Proof. apply okw_prim; [apply h_matmul_frame|apply BackpropP.wf_heap_matmul|apply BackpropP.rules_own_matmul]. Qed.
Lemma okw_patch h x idx p nm : okw h (h_patch h x idx p nm).
Proof. apply okw_prim; [apply h_patch_frame|apply BackpropP.wf_heap_patch|apply BackpropP.rules_own_patch]. Qed.
Lemma okw_concat h xs d nm : okw h (h_concat h xs d nm).
Proof. apply okw_prim; [apply h_concat_frame|apply BackpropP.wf_heap_concat|apply BackpropP.rules_own_concat]. Qed.

(* allocation of an edge-free node: leaves, gradient tensors, SGD results, initializers *)
Lemma okw_alloc0 (h : heap) v tr di nm : okw h (let '(h', id) := alloc h v (tr, di, []) nm in (h', Ok id)).
Proof.
  pose proof (hinv_alloc_noedges h v tr di nm) as Hi. rewrite alloc_eq in *. cbn [fst] in Hi.
  split; [eexists; reflexivity|]. split; [|exact Hi].
  cbn [fst snd]. intros id E. inversion E; subst id. rewrite app_length. cbn. lia.
Qed.

End Okw.

(* [okw] holds of every tracked method and is closed under [hbind], [atomically] and failure:
   the database proves it of every chain, behind whatever guards *)
Create HintDb okw discriminated.
#[export] Hint Constants Opaque : okw.
#[export] Hint Resolve okw_bind okw_atomically okw_scale okw_pow okw_math okw_transpose okw_reshape okw_broadcast
  okw_unsqueeze okw_squeeze okw_flatten okw_reduceAlong okw_slice okw_cmp okw_elsel okw_arith okw_dot okw_matmul
  okw_patch okw_concat : okw.
#[export] Hint Extern 1 (okw _ (_, _)) => apply okw_fail; discriminate : okw.
#[export] Hint Extern 1 (okw _ (match _ with _ => _ end)) => apply okw_alloc0 : okw.

Section OkwComponents.
Context {A : Type} {SA : Scalar A}.
Notation heap := (@heap A).

Lemma okw_clip (h : heap) x l u : okw h (clip h x l u).
Proof. unfold clip. auto 8 with okw. Qed.
Hint Resolve okw_clip : okw.

Lemma okw_fc_forward (h : heap) w b xs nm : okw h (fc_forward h w b xs nm).
Proof.
  unfold fc_forward. destruct (oneInput xs) as [x|]; [|auto with okw].
  destruct (negb (rankOf h x =? 2)); auto 8 with okw.
Qed.

Lemma okw_relu (h : heap) xs nm : okw h (relu_forward h xs nm).
Proof. unfold relu_forward. destruct (oneInput xs); auto 8 with okw. Qed.

Lemma okw_leaky (h : heap) m xs nm : okw h (leaky_forward h m xs nm).
Proof. unfold leaky_forward. destruct (oneInput xs); auto 8 with okw. Qed.

Lemma okw_sigmoid (h : heap) xs nm : okw h (sigmoid_forward h xs nm).
Proof. unfold sigmoid_forward. destruct (oneInput xs); auto 8 with okw. Qed.

Lemma okw_tanh (h : heap) xs nm : okw h (tanh_forward h xs nm).
Proof. unfold tanh_forward. destruct (oneInput xs); auto with okw. Qed.

Lemma okw_softmax (h : heap) d xs nm : okw h (softmax_forward h d xs nm).
Proof.
  unfold softmax_forward. destruct (oneInput xs) as [x|]; [|auto with okw].
  destruct (rankOf h x <=? d); auto 8 with okw.
Qed.

Lemma okw_mse (h : heap) yp yt nm : okw h (mse_compute h yp yt nm).
Proof. unfold mse_compute. destruct (lossArgs1 h yp yt) as [[p t]|]; auto 8 with okw. Qed.

Lemma okw_bce e1 e2 (h : heap) yp yt nm : okw h (bce_compute e1 e2 h yp yt nm).
Proof. unfold bce_compute. destruct (lossArgs1 h yp yt) as [[p t]|]; auto 16 with okw. Qed.

Lemma okw_ce e1 e2 (h : heap) yp yt nm : okw h (ce_compute e1 e2 h yp yt nm).
Proof.
  unfold ce_compute. destruct yp as [p|]; [|auto with okw]. destruct yt as [t|]; [|auto with okw].
  match goal with |- context [if ?c then _ else _] => destruct c end; auto 16 with okw.
Qed.

Lemma okw_sgd (h : heap) lr cell nm : okw h (sgd_update h lr cell nm).
Proof.
  unfold sgd_update. destruct cell as [w|]; [|auto with okw].
  destruct (valOf h w) as [wv|]; [|auto with okw]. destruct (gradOf h w) as [g|]; [|auto with okw].
  match goal with |- context [match ?c with Ok _ => _ | Err => _ | Panic => _ end] => destruct c end; auto with okw.
Qed.

End OkwComponents.

#[export] Hint Resolve okw_clip okw_fc_forward okw_relu okw_leaky okw_sigmoid okw_tanh okw_softmax okw_mse okw_bce okw_ce
  okw_sgd : okw.

Section StepP.
Context {A : Type} {SA : Scalar A}.
Notation T := (tensor A).
Notation heap := (@heap A).
Notation node := (@node A).
Notation rule := (@rule A).
Notation hres := (@hres A).
Notation state := (@state A).
Notation cmd := (@cmd A).
Notation obj := (@obj A).
Notation obs := (@obs A).

Lemma okw_init d1 d2 d3 d4 d5 (h : heap) sp shape pos nm h' r pos' :
  init_run d1 d2 d3 d4 d5 h sp shape pos nm = (h', r, pos') -> okw h (h', r).
Proof.
  unfold init_run, leaf. destruct (negb (init_valid d2 d3 d5 sp)); [intros [= <- <- _]; auto with okw|].
  destruct (init_value d1 d2 d3 d4 d5 sp shape pos) as [v| |]; [|intros [= <- <- _]; auto with okw..].
  pose proof (okw_alloc0 h v true false nm) as H. rewrite alloc_eq in *. intros [= <- <- _]. exact H.
Qed.

(* NewFC: which initializers are run depends on the arguments only; then two [init_run]s in a row *)
Definition fc_specs (i o : Z) (wi bi : option (option initSpec)) : option (initSpec * initSpec) :=
  if (i <=? 0)%Z || (o <=? 0)%Z then None else
  match wi, bi with
  | Some None, _ | _, Some None => None
  | _, _ => Some (match wi with Some (Some s) => s | _ => IXavierUniform (Some (i, o)) end,
                  match bi with Some (Some s) => s | _ => IFull (Some (0%Z, 0%Z)) end)
  end.

Definition fc_inits d1 d2 d3 d4 d5 (h : heap) ws bs (o : Z) pos : heap * res (nat * nat) * nat :=
  match init_run d1 d2 d3 d4 d5 h ws [o] pos None with
  | (h1, Ok w, pos1) =>
      match init_run d1 d2 d3 d4 d5 h1 bs [o] pos1 None with
      | (h2, Ok b, pos2) => (h2, Ok (w, b), pos2)
      | (_, Err, _) => (h, Err, pos)
      | (_, Panic, _) => (h, Panic, pos)
      end
  | (_, Err, _) => (h, Err, pos)
  | (_, Panic, _) => (h, Panic, pos)
  end.

Lemma fc_new_eq d1 d2 d3 d4 d5 (h : heap) i o wi bi pos :
  fc_new d1 d2 d3 d4 d5 h i o wi bi pos =
  match fc_specs i o wi bi with Some (ws, bs) => fc_inits d1 d2 d3 d4 d5 h ws bs o pos | None => (h, Err, pos) end.
Proof.
  unfold fc_new, fc_specs. destruct ((i <=? 0)%Z || (o <=? 0)%Z); [reflexivity|].
  destruct wi as [[s1|]|], bi as [[s2|]|]; reflexivity.
Qed.

Lemma fc_new_ext d1 d2 d3 d4 d5 (h : heap) i o wi bi pos h' r pos' :
  fc_new d1 d2 d3 d4 d5 h i o wi bi pos = (h', r, pos') ->
  extends h h' /\ (hinv h -> hinv h') /\
  (forall w b, r = Ok (w, b) -> length h <= w /\ length h <= b).
Proof.
  assert (Same : forall (r0 : res (nat * nat)) p0, (forall wb, r0 <> Ok wb) -> (h, r0, p0) = (h', r, pos') ->
            extends h h' /\ (hinv h -> hinv h') /\ (forall w b, r = Ok (w, b) -> length h <= w /\ length h <= b)).
  { intros r0 p0 Hr [= <- <- _]. split; [apply extends_refl|]. split; [auto|]. intros w b X. destruct (Hr _ X). }
  rewrite fc_new_eq. destruct (fc_specs i o wi bi) as [[ws bs]|]; [|apply Same; discriminate]. unfold fc_inits.
  destruct (init_run d1 d2 d3 d4 d5 h ws [o] pos None) as [[h1 [w| |]] p1] eqn:E1; [|apply Same; discriminate..].
  destruct (init_run d1 d2 d3 d4 d5 h1 bs [o] p1 None) as [[h2 [b| |]] p2] eqn:E2; [|apply Same; discriminate..].
  apply okw_init in E1, E2. destruct E1 as (X1 & I1 & J1), E2 as (X2 & I2 & J2). cbn [fst snd] in *.
  intros [= <- <- _]. split; [eapply extends_trans; eauto|]. split; [auto|].
  intros w' b' [= <- <-]. destruct (I1 _ eq_refl), (I2 _ eq_refl). pose proof (extends_length _ _ X1). lia.
Qed.

Variable rd : bred.
Variable sealv : nat -> T -> T.
Variable sealg : nat -> option nat -> T -> T.
Variables (c_eps c_one_m_eps : A) (c_leaky c_sgd_lr dFull dUniL dUniU dNorM dNorS : dec) (c_softmax_dim : Z).
Notation step := (step rd sealv sealg c_eps c_one_m_eps c_leaky c_sgd_lr dFull dUniL dUniU dNorM dNorS c_softmax_dim).
Notation run_from := (run_from rd sealv sealg c_eps c_one_m_eps c_leaky c_sgd_lr dFull dUniL dUniU dNorM dNorS c_softmax_dim).

(* the two forms the interpreter inlines: the optimizer step stored back into its cell, and a
   result whose position of the random source is set afterwards *)
Definition sgd_fin (s : state) (lr : A) (content : option nat) (store : nat -> list obj) : state * obs :=
  match sgd_update (st_heap s) lr content (Some (length (st_env s))) with
  | (h', Ok id) =>
      (mkState (sealNode sealv h' id (length (st_env s))) (store id ++ [OTensor id]) (st_rng s), tensorObs h' id)
  | (_, Err) => plain s ObErr
  | (_, Panic) => plain s ObPanic
  end.

Definition with_rng (p : state * obs) (rng : nat) : state * obs :=
  let '(s', o) := p in (mkState (st_heap s') (st_env s') rng, o).

(* the only environment entries a command can overwrite *)
Definition writes (c : cmd) (k : nat) : Prop :=
  match c with
  | CFCSet fc _ _ => k = fc
  | CSGDUpdate _ (CrFCW fc) => k = fc
  | CSGDUpdate _ (CrFCB fc) => k = fc
  | CSGDUpdate _ (CrCell cl) => k = cl
  | CAccumulate acc _ _ => k = acc
  | _ => False
  end.

Definition env_rel (c : cmd) (env env' : list obj) : Prop :=
  exists o, env' = env ++ [o] \/ exists k o', writes c k /\ env' = setNthObj env k o' ++ [o].

(* the only things a command can do to the heap *)
Inductive heap_rel (s : state) (c : cmd) (h' : heap) : Prop :=
| HrExt : extends (st_heap s) h' -> (hinv (st_heap s) -> hinv h') -> heap_rel s c h'
| HrReset t b x : c = CReset t b -> lookupT s t = Some x -> h' = h_reset (st_heap s) x b -> heap_rel s c h'
| HrBp t x log : c = CBackprop (Some t) -> lookupT s t = Some x ->
    bp_topo rd (sealg (length (st_env s))) (st_heap s) x = (h', log, Ok tt) -> heap_rel s c h'.

Definition cmd_rel (s : state) (c : cmd) (s' : state) : Prop :=
  heap_rel s c (st_heap s') /\ env_rel c (st_env s) (st_env s').

Lemma sealNode_ext (h0 h : heap) id name : extends h0 h -> length h0 <= id -> extends h0 (sealNode sealv h id name).
Proof.
  intros He Hid. apply extends_iff_nth. intros i n Hn. unfold sealNode. rewrite updNode_nth_other.
  - eapply extends_nth; eauto.
  - assert (i < length h0) by (apply nth_error_Some; congruence). lia.
Qed.

Lemma sealNode_hinv (h : heap) id name : hinv h -> hinv (sealNode sealv h id name).
Proof. apply hinv_updNode. reflexivity. Qed.

Lemma rel_push s c h o rng : extends (st_heap s) h -> (hinv (st_heap s) -> hinv h) -> cmd_rel s c (push s h o rng).
Proof. intros He Hi. split; [apply HrExt; assumption|]. exists o. left. reflexivity. Qed.

Lemma rel_same s c o rng : cmd_rel s c (push s (st_heap s) o rng).
Proof. apply rel_push; [apply extends_refl|auto]. Qed.

Lemma rel_plain s c o : cmd_rel s c (fst (plain s o)).
Proof. apply rel_same. Qed.

Lemma rel_set s c k o : writes c k -> cmd_rel s c (mkState (st_heap s) (setNthObj (st_env s) k o ++ [ONone]) (st_rng s)).
Proof. intros Hw. split; [apply HrExt; [apply extends_refl|auto]|]. exists ONone. right. exists k, o. auto. Qed.

Lemma rel_fin s c r : okw (st_heap s) r -> cmd_rel s c (fst (fin sealv s r)).
Proof.
  intros (He & Hid & Hi). unfold fin. destruct r as [h [id| |]]; cbn [fst snd] in *; [|apply rel_same..].
  destruct (Hid id eq_refl) as [L1 L2]. apply rel_push; [apply sealNode_ext; assumption|].
  intros H. apply sealNode_hinv. auto.
Qed.

Lemma rel_of_value s c v tr : cmd_rel s c (fst (of_value sealv s v tr)).
Proof. unfold of_value, leaf. destruct v as [t| |]; apply rel_fin; auto with okw. Qed.

Lemma rel_with_rng s c p rng : cmd_rel s c (fst p) -> cmd_rel s c (fst (with_rng p rng)).
Proof. destruct p as [s' o]. exact (fun H => H). Qed.

Lemma rel_sgd_fin s sgd cell lr content k o :
  writes (CSGDUpdate sgd cell) k ->
  cmd_rel s (CSGDUpdate sgd cell) (fst (sgd_fin s lr content (fun id => setNthObj (st_env s) k (o id)))).
Proof.
  intros Hw. unfold sgd_fin. pose proof (okw_sgd (st_heap s) lr content (Some (length (st_env s)))) as (He & Hid & Hi).
  destruct (sgd_update (st_heap s) lr content (Some (length (st_env s)))) as [h' [id| |]]; [|apply rel_same..].
  cbn [fst snd] in *. destruct (Hid id eq_refl) as [L1 L2]. split.
  - apply HrExt; cbn [st_heap]; [apply sealNode_ext; assumption|intros H; apply sealNode_hinv; auto].
  - exists (OTensor id). right. exists k, (o id). auto.
Qed.

Lemma lookupArg_some (s : state) (a : targ) x : lookupArg s a = Some (Some x) -> exists t, a = Some t /\ lookupT s t = Some x.
Proof.
  unfold lookupArg. destruct a as [t|]; [|discriminate]. destruct (lookupT s t) as [y|] eqn:E; [|discriminate].
  intros [= <-]. exists t. auto.
Qed.

Hint Resolve rel_fin rel_plain rel_of_value rel_same : okw.

(* case analysis on everything the command inspects; what remains is the result of a tracked
   method, a plain observable, a fresh value, or a new object on an unchanged heap *)
Ltac rel_cases :=
  repeat match goal with
    | |- cmd_rel _ _ (fst (match ?x with _ => _ end)) => destruct x
    | |- cmd_rel _ _ (fst (if ?x then _ else _)) => destruct x
    end.

(* an initializer run is finished like any tensor-producing call, whatever its outcome; only the
   position of the random source is its own *)
Lemma step_init (s : state) sp shape :
  step s (CInit sp shape) =
  let '(h', r, rng) := init_run dFull dUniL dUniU dNorM dNorS (st_heap s) sp shape (st_rng s) (Some (length (st_env s))) in
  with_rng (fin sealv s (h', r)) (match r with Ok _ => rng | _ => st_rng s end).
Proof.
  unfold Scenario.step. destruct (init_run dFull dUniL dUniU dNorM dNorS (st_heap s) sp shape (st_rng s) _) as [[h' [id| |]] rng]; reflexivity.
Qed.

Lemma step_sgd (s : state) sgd cell :
  step s (CSGDUpdate sgd cell) =
  match nth_error (st_env s) sgd with
  | Some (OSGD lr) =>
      match cell with
      | CrNilPtr => plain s ObErr
      | CrFCW fc =>
          match nth_error (st_env s) fc with
          | Some (OFC w b) => sgd_fin s lr w (fun id => setNthObj (st_env s) fc (OFC (Some id) b))
          | _ => bad s
          end
      | CrFCB fc =>
          match nth_error (st_env s) fc with
          | Some (OFC w b) => sgd_fin s lr b (fun id => setNthObj (st_env s) fc (OFC w (Some id)))
          | _ => bad s
          end
      | CrCell c =>
          match nth_error (st_env s) c with
          | Some (OCell t) => sgd_fin s lr t (fun id => setNthObj (st_env s) c (OCell (Some id)))
          | _ => bad s
          end
      end
  | _ => bad s
  end.
Proof. reflexivity. Qed.

Theorem step_rel (s : state) (c : cmd) : cmd_rel s c (fst (step s c)).
Proof.
  destruct c; try rewrite step_init; try rewrite step_sgd; unfold Scenario.step, bad, scalarObs, plain; cbv beta iota zeta.
  all: try solve [rel_cases; cbn [fst]; auto with okw].
  - (* CRandU *) destruct (negb (cfg_ok c)); [apply rel_same|]. apply (rel_with_rng s _ (of_value _ _ _ _)), rel_of_value.
  - (* CRandN *) destruct (negb (cfg_ok c)); [apply rel_same|]. apply (rel_with_rng s _ (of_value _ _ _ _)), rel_of_value.
  - (* CBackprop *)
    destruct (lookupArg s t) as [[x|]|] eqn:El; [|apply rel_same..].
    destruct (lookupArg_some _ _ _ El) as (t0 & -> & Ht0).
    destruct (bp_topo rd (sealg (length (st_env s))) (st_heap s) x) as [[h' log] [[]| |]] eqn:Eb; [|apply rel_same..].
    split; [|exists ONone; left; reflexivity]. eapply HrBp; [reflexivity|exact Ht0|exact Eb].
  - (* CReset *)
    destruct (lookupT s t) as [x|] eqn:El; [|apply rel_same].
    split; [|exists ONone; left; reflexivity]. eapply HrReset; [reflexivity|exact El|reflexivity].
  - (* CFCNew *)
    destruct (fc_new dFull dUniL dUniU dNorM dNorS (st_heap s) inputs outputs wi bi (st_rng s)) as [[h' r] rng] eqn:E.
    apply fc_new_ext in E. destruct E as (He & Hi & _).
    destruct r as [[w b]| |]; [|apply rel_same..]. apply rel_push; assumption.
  - (* CFCSet *) rel_cases; try apply rel_same. apply rel_set. reflexivity.
  - (* CSGDUpdate *) rel_cases; try apply rel_same; apply rel_sgd_fin; reflexivity.
  - (* CAccumulate *) rel_cases; try apply rel_same. apply rel_set. reflexivity.
  - (* CInit *)
    destruct (init_run dFull dUniL dUniU dNorM dNorS (st_heap s) s0 shape (st_rng s) (Some (length (st_env s))))
      as [[h' r] rng] eqn:E.
    apply okw_init in E. apply rel_with_rng, rel_fin, E.
Qed.

(* whatever its outcome, back-propagation leaves the heap alone or changes the spent flags of the
   visiting order and then only gradients *)
Lemma bp_skel (sg : option nat -> T -> T) (h : heap) root h' log r : bp_topo rd sg h root = (h', log, r) ->
  (h' = h /\ (r = Ok tt -> trackedOf h root = false)) \/ same_skel (markDirty h (topoOrder h root)) h'.
Proof.
  unfold bp_topo. destruct (trackedOf h root); cbn [negb]; [|intros [= <- _ _]; auto].
  set (order := topoOrder h root). set (h1 := markDirty h order).
  destruct (valOf h1 root) as [rv|]; [|intros [= <- _ <-]; left; split; [reflexivity|discriminate]].
  destruct (toOnes rv) as [ones| |]; [|intros [= <- _ _]; right; apply same_skel_refl..].
  destruct (accumulate h1 root ones) as [h2 r2] eqn:Ea. apply accumulate_ok in Ea. destruct Ea as [(Sa & _) _].
  destruct r2 as [[]| |]; [|intros [= <- _ _]; right; exact Sa..]. intros E.
  assert (Htriv : forall (n : nat) (e : nat * rule), True -> In e (edgesOf h1 n) -> trackedOf h1 (fst e) = true -> True) by auto.
  destruct (fold_nodes_frame rd sg (fun _ => True) h1 Htriv order h2 [] (Ok tt) h' log r
              (same_skel_sym _ _ Sa) (fun _ _ => I) E) as ((Sf & _) & _).
  right. eapply same_skel_trans; eauto.
Qed.

Lemma bp_nodes (sg : option nat -> T -> T) (h : heap) root h' log r : bp_topo rd sg h root = (h', log, r) ->
  length h' = length h /\
  forall i n, nth_error h i = Some n ->
    exists n', nth_error h' i = Some n' /\ nval n' = nval n /\ ntracked n' = ntracked n /\
               nedges n' = nedges n /\ nname n' = nname n.
Proof.
  intros E. destruct (bp_skel sg h root h' log r E) as [[-> _]|Sk]; [split; eauto 6|].
  split; [rewrite <- (same_skel_length _ _ Sk); apply markDirty_length|].
  intros i n Hn. destruct (markDirty_node h (topoOrder h root) i n Hn) as (m & Hm & M1 & M2 & M3 & M4 & _).
  destruct (same_skel_node _ _ i m Sk Hm) as (n' & Hn' & Hs). unfold skel in Hs. inversion Hs.
  exists n'. split; [exact Hn'|]. repeat split; congruence.
Qed.

Lemma bp_hinv (sg : option nat -> T -> T) (h : heap) root h' log r :
  bp_topo rd sg h root = (h', log, r) -> hinv h -> hinv h'.
Proof.
  intros E [W O]. destruct (bp_nodes sg h root h' log r E) as [Hl Hn].
  assert (Back : forall c n', nth_error h' c = Some n' -> exists n, nth_error h c = Some n /\ nedges n' = nedges n).
  { intros c n' Hc. assert (Hlt : c < length h) by (rewrite <- Hl; apply nth_error_Some; congruence).
    destruct (lt_nth_some h c Hlt) as [n En]. destruct (Hn c n En) as (n'' & Hn'' & _ & _ & V & _).
    exists n. split; [exact En|]. congruence. }
  split.
  - intros c n' e Hc He. destruct (Back c n' Hc) as (n & En & Ee). rewrite Ee in He. eapply W; eauto.
  - intros c n' e Hc He. destruct (Back c n' Hc) as (n & En & Ee). rewrite Ee in He. eapply O; eauto.
Qed.

Theorem step_heap_length (s : state) (c : cmd) : length (st_heap s) <= length (st_heap (fst (step s c))).
Proof.
  destruct (step_rel s c) as [[He _|t b x _ _ ->|t x log _ _ Eb] _].
  - apply extends_length. exact He.
  - destruct (h_reset_spec (st_heap s) x b) as (Hl & _). rewrite Hl. lia.
  - destruct (bp_nodes _ _ _ _ _ _ Eb) as [Hl _]. rewrite Hl. lia.
Qed.

Lemma setNthObj_length (l : list obj) k o : length (setNthObj l k o) = length l.
Proof. unfold setNthObj. apply mapi_length. Qed.

Lemma setNthObj_nth (l : list obj) k o j :
  nth_error (setNthObj l k o) j = option_map (fun x => if j =? k then o else x) (nth_error l j).
Proof. unfold setNthObj. rewrite mapi_nth. reflexivity. Qed.

Theorem step_env_length (s : state) (c : cmd) : length (st_env (fst (step s c))) = S (length (st_env s)).
Proof.
  destruct (step_rel s c) as [_ (o & [E|(k & o' & _ & E)])]; rewrite E, app_length; cbn [length];
    rewrite ?setNthObj_length; lia.
Qed.

(* what one command may do to ONE existing node: nothing; make it a fresh leaf (ResetGradContext on
   it); change its gradient and spent flag (a successful BackPropagate) *)
Inductive node_rel (s : state) (c : cmd) (i : nat) (n n' : node) : Prop :=
| NrSame : n' = n -> node_rel s c i n n'
| NrReset t b : c = CReset t b -> lookupT s t = Some i -> n' = mkNode (nval n) b false None [] (nname n) ->
    node_rel s c i n n'
| NrBp t x log : c = CBackprop (Some t) -> lookupT s t = Some x ->
    bp_topo rd (sealg (length (st_env s))) (st_heap s) x = (st_heap (fst (step s c)), log, Ok tt) ->
    nval n' = nval n -> ntracked n' = ntracked n -> nedges n' = nedges n -> nname n' = nname n ->
    node_rel s c i n n'.

Theorem step_node (s : state) (c : cmd) i n : nth_error (st_heap s) i = Some n ->
  exists n', nth_error (st_heap (fst (step s c))) i = Some n' /\ node_rel s c i n n'.
Proof.
  intros Hn. destruct (step_rel s c) as [[He _|t b x Ec El E|t x log Ec El Eb] _].
  - exists n. split; [eapply extends_nth; eauto|apply NrSame; reflexivity].
  - rewrite E. destruct (h_reset_spec (st_heap s) x b) as (_ & Hs & Ho & _).
    destruct (Nat.eq_dec i x) as [->|Hne].
    + eexists. split; [apply Hs; exact Hn|]. eapply NrReset; eauto.
    + exists n. rewrite Ho by exact Hne. split; [exact Hn|apply NrSame; reflexivity].
  - destruct (bp_nodes _ _ _ _ _ _ Eb) as [_ Hb]. destruct (Hb i n Hn) as (n' & Hn' & V1 & V2 & V3 & V4).
    exists n'. split; [exact Hn'|]. eapply NrBp; eauto.
Qed.

(* no command changes the value (shape and elements) or the name of an existing tensor *)
Theorem step_frame_values (s : state) (c : cmd) i n : nth_error (st_heap s) i = Some n ->
  exists n', nth_error (st_heap (fst (step s c))) i = Some n' /\ nval n' = nval n /\ nname n' = nname n.
Proof.
  intros Hn. destruct (step_node s c i n Hn) as (n' & Hn' & [->|t b _ _ ->|t x log _ _ _ V1 _ _ V4]); eauto.
Qed.

(* only ResetGradContext changes tracking (flag and back edges), and only of its receiver *)
Theorem step_frame_tracking (s : state) (c : cmd) i n n' :
  nth_error (st_heap s) i = Some n -> nth_error (st_heap (fst (step s c))) i = Some n' ->
  (forall t b, c = CReset t b -> lookupT s t <> Some i) ->
  ntracked n' = ntracked n /\ nedges n' = nedges n.
Proof.
  intros Hn Hn' Hc. destruct (step_node s c i n Hn) as (n1 & Hn1 & Hr). assert (n1 = n') by congruence. subst n1.
  destruct Hr as [->|t b Ec El _|t x log _ _ _ _ V2 V3 _]; [auto|destruct (Hc t b Ec El)|auto].
Qed.

(* the receiver of ResetGradContext becomes a fresh leaf *)
Theorem step_reset_spec (s : state) t b x n : lookupT s t = Some x -> nth_error (st_heap s) x = Some n ->
  nth_error (st_heap (fst (step s (CReset t b)))) x = Some (mkNode (nval n) b false None [] (nname n)) /\
  (forall j, j <> x -> nth_error (st_heap (fst (step s (CReset t b)))) j = nth_error (st_heap s) j) /\
  snd (step s (CReset t b)) = ObOk.
Proof.
  intros El Hn. unfold Scenario.step. rewrite El. cbn [fst snd push st_heap].
  destruct (h_reset_spec (st_heap s) x b) as (_ & Hs & Ho & _). split; [apply Hs; exact Hn|]. split; [exact Ho|reflexivity].
Qed.

(* only BackPropagate assigns gradients / spends tensors, only ResetGradContext clears them *)
Theorem step_frame_grad (s : state) (c : cmd) i n n' :
  nth_error (st_heap s) i = Some n -> nth_error (st_heap (fst (step s c))) i = Some n' ->
  (forall t, c <> CBackprop t) -> (forall t b, c = CReset t b -> lookupT s t <> Some i) ->
  ngrad n' = ngrad n /\ ndirty n' = ndirty n.
Proof.
  intros Hn Hn' Hb Hc. destruct (step_node s c i n Hn) as (n1 & Hn1 & Hr). assert (n1 = n') by congruence. subst n1.
  destruct Hr as [->|t b Ec El _|t x log Ec _ _ _ _ _ _]; [auto|destruct (Hc t b Ec El)|destruct (Hb _ Ec)].
Qed.

(* commands other than BackPropagate / ResetGradContext leave every existing node exactly as it is *)
Theorem step_frame_exact (s : state) (c : cmd) : (forall t, c <> CBackprop t) -> (forall t b, c <> CReset t b) ->
  extends (st_heap s) (st_heap (fst (step s c))).
Proof.
  intros Hb Hr. destruct (step_rel s c) as [[He _|t b x Ec _ _|t x log Ec _ _] _];
    [exact He|destruct (Hr _ _ Ec)|destruct (Hb _ Ec)].
Qed.

(* BackPropagate: the outcome decides; on success the changes are those of [bp_topo_flags] *)
Theorem step_frame_bp (s : state) t x : wf_heap (st_heap s) -> lookupT s t = Some x ->
  let h := st_heap s in
  let s' := fst (step s (CBackprop (Some t))) in
  let order := topoOrder h x in
  match snd (step s (CBackprop (Some t))) with
  | ObGrads _ _ =>
      length (st_heap s') = length h /\
      forall i n, nth_error h i = Some n ->
        exists n', nth_error (st_heap s') i = Some n' /\
          nval n' = nval n /\ ntracked n' = ntracked n /\ nedges n' = nedges n /\ nname n' = nname n /\
          ndirty n' = ndirty n || memb i order /\
          (~ In i order -> ngrad n' = ngrad n) /\
          (In i order -> ngrad n' <> None)
  | _ => st_heap s' = h
  end.
Proof.
  intros W El. cbv zeta. unfold Scenario.step, lookupArg. rewrite El. cbn [obind].
  destruct (bp_topo rd (sealg (length (st_env s))) (st_heap s) x) as [[h' log] r] eqn:Eb.
  destruct r as [[]| |]; [|reflexivity|reflexivity]. cbn [fst snd push st_heap].
  destruct (trackedOf (st_heap s) x) eqn:Ht.
  - destruct (bp_topo_flags _ _ _ _ _ _ _ W Ht Eb) as (Hl & Hn & Hg). split; [exact Hl|].
    intros i n Hi. destruct (Hn i n Hi) as (n' & Hn' & V1 & V2 & V3 & V4 & V5 & V6).
    exists n'. repeat (split; [assumption|]). intros Hin. specialize (Hg eq_refl i Hin).
    unfold gradOf in Hg. rewrite Hn' in Hg. exact Hg.
  - rewrite bp_untracked_root in Eb by exact Ht. inversion Eb; subst. split; [reflexivity|].
    rewrite topoOrder_untracked by exact Ht. intros i n Hi. exists n. cbn [memb existsb In].
    rewrite orb_false_r. repeat (split; [auto|]). intros [].
Qed.

Theorem step_hinv (s : state) (c : cmd) : hinv (st_heap s) -> hinv (st_heap (fst (step s c))).
Proof.
  intros H. destruct (step_rel s c) as [[_ Hi|t b x _ _ E|t x log _ _ Eb] _].
  - apply Hi, H.
  - rewrite E. destruct H as [W O]. split; apply BackpropP.edges_ok_reset; assumption.
  - eapply bp_hinv; eauto.
Qed.

Fixpoint exec (s : state) (cs : list cmd) : state :=
  match cs with [] => s | c :: r => exec (fst (step s c)) r end.

(* s' is the state after executing cs from s *)
Definition reach (s : state) (cs : list cmd) (s' : state) : Prop := exec s cs = s'.

Lemma exec_app s cs1 cs2 : exec s (cs1 ++ cs2) = exec (exec s cs1) cs2.
Proof. revert s. induction cs1 as [|c cs1 IH]; intros s; cbn; [reflexivity|apply IH]. Qed.

Lemma run_from_app s cs1 cs2 : run_from s (cs1 ++ cs2) = run_from s cs1 ++ run_from (exec s cs1) cs2.
Proof.
  revert s. induction cs1 as [|c cs1 IH]; intros s; cbn [app Scenario.run_from exec]; [reflexivity|].
  destruct (step s c) as [s' o]. cbn [fst]. rewrite IH. reflexivity.
Qed.

Theorem exec_hinv s cs : hinv (st_heap s) -> hinv (st_heap (exec s cs)).
Proof. revert s. induction cs as [|c cs IH]; intros s H; cbn [exec]; [exact H|]. apply IH, step_hinv, H. Qed.

(* every heap reachable from the empty state is well formed *)
Corollary reachable_hinv cs : hinv (st_heap (exec init_state cs)).
Proof. apply exec_hinv. apply hinv_nil. Qed.

Corollary reachable_wf cs : wf_heap (st_heap (exec init_state cs)).
Proof. apply hinv_wf, reachable_hinv. Qed.

Corollary reachable_rules_own cs : BackpropP.rules_own (st_heap (exec init_state cs)).
Proof. apply reachable_hinv. Qed.

Theorem exec_heap_length s cs : length (st_heap s) <= length (st_heap (exec s cs)).
Proof.
  revert s. induction cs as [|c cs IH]; intros s; cbn [exec]; [lia|].
  pose proof (step_heap_length s c). pose proof (IH (fst (step s c))). lia.
Qed.

Theorem exec_env_length s cs : length (st_env (exec s cs)) = length (st_env s) + length cs.
Proof.
  revert s. induction cs as [|c cs IH]; intros s; cbn [exec length]; [lia|].
  rewrite IH, step_env_length. lia.
Qed.

Definition is_reset (c : cmd) : bool := match c with CReset _ _ => true | _ => false end.
Definition is_bp (c : cmd) : bool := match c with CBackprop _ => true | _ => false end.

(* histories that may reset OTHER tensors than [i] *)
Fixpoint never_resets (i : nat) (s : state) (cs : list cmd) : Prop :=
  match cs with
  | [] => True
  | c :: r => (forall t b, c = CReset t b -> lookupT s t <> Some i) /\ never_resets i (fst (step s c)) r
  end.

Lemma no_reset_never_resets i s cs : forallb (fun c => negb (is_reset c)) cs = true -> never_resets i s cs.
Proof.
  revert s. induction cs as [|c cs IH]; intros s Hcs; [exact I|].
  apply andb_true_iff in Hcs. destruct Hcs as [Hc Hcs]. split; [intros t b ->; discriminate|apply IH, Hcs].
Qed.

(* what any history does to one existing tensor: shape, elements and name stay; while it is not
   reset, so do its tracking flag and back edges, and while moreover nothing is back-propagated,
   its gradient and spent flag *)
Theorem exec_frame_node s cs i n : nth_error (st_heap s) i = Some n ->
  exists n', nth_error (st_heap (exec s cs)) i = Some n' /\ nval n' = nval n /\ nname n' = nname n /\
    (never_resets i s cs -> ntracked n' = ntracked n /\ nedges n' = nedges n /\
       (forallb (fun c => negb (is_bp c)) cs = true -> ngrad n' = ngrad n /\ ndirty n' = ndirty n)).
Proof.
  revert s n. induction cs as [|c cs IH]; intros s n Hn; cbn [exec]; [exists n; auto 12|].
  destruct (step_node s c i n Hn) as (n1 & Hn1 & Hr). destruct (IH _ n1 Hn1) as (n' & Hn' & V & N & K).
  exists n'. split; [exact Hn'|]. destruct Hr as [->|t b Ec El ->|t x log -> _ _ V1 V2 V3 V4].
  - repeat (split; [assumption|]). intros [_ Hcs]. destruct (K Hcs) as (T & E & G). repeat (split; [assumption|]).
    intros Hb. apply andb_true_iff in Hb. apply G, Hb.
  - repeat (split; [assumption|]). intros [Hc _]. destruct (Hc t b Ec El).
  - split; [congruence|]. split; [congruence|]. intros [_ Hcs]. destruct (K Hcs) as (T & E & _).
    split; [congruence|]. split; [congruence|discriminate].
Qed.

(* after ANY history every tensor still has its shape, elements and name *)
Theorem exec_frame_values s cs i n : nth_error (st_heap s) i = Some n ->
  exists n', nth_error (st_heap (exec s cs)) i = Some n' /\ nval n' = nval n /\ nname n' = nname n.
Proof. intros Hn. destruct (exec_frame_node s cs i n Hn) as (n' & Hn' & V & N & _). eauto. Qed.

Corollary exec_frame_valOf s cs i v : valOf (st_heap s) i = Some v -> valOf (st_heap (exec s cs)) i = Some v.
Proof.
  unfold valOf. destruct (nth_error (st_heap s) i) as [n|] eqn:En; [|discriminate]. cbn. intros E.
  destruct (exec_frame_values s cs i n En) as (n' & Hn' & V & _). rewrite Hn'. cbn. congruence.
Qed.

(* tracking and gradients of one tensor, in histories that may reset / back-propagate OTHER tensors *)
Theorem exec_frame_tracking_gen s cs i n : never_resets i s cs -> nth_error (st_heap s) i = Some n ->
  exists n', nth_error (st_heap (exec s cs)) i = Some n' /\ ntracked n' = ntracked n /\ nedges n' = nedges n.
Proof. intros Hcs Hn. destruct (exec_frame_node s cs i n Hn) as (n' & Hn' & _ & _ & K). destruct (K Hcs) as (T & E & _). eauto. Qed.

Theorem exec_frame_grad_gen s cs i n : never_resets i s cs -> forallb (fun c => negb (is_bp c)) cs = true ->
  nth_error (st_heap s) i = Some n ->
  exists n', nth_error (st_heap (exec s cs)) i = Some n' /\ ngrad n' = ngrad n /\ ndirty n' = ndirty n.
Proof. intros Hcs Hb Hn. destruct (exec_frame_node s cs i n Hn) as (n' & Hn' & _ & _ & K). destruct (K Hcs) as (_ & _ & G). eauto. Qed.

(* tracking, for histories without ResetGradContext *)
Theorem exec_frame_tracking s cs i n : forallb (fun c => negb (is_reset c)) cs = true ->
  nth_error (st_heap s) i = Some n ->
  exists n', nth_error (st_heap (exec s cs)) i = Some n' /\ ntracked n' = ntracked n /\ nedges n' = nedges n.
Proof. intros Hcs. apply exec_frame_tracking_gen, no_reset_never_resets, Hcs. Qed.

(* histories without BackPropagate and ResetGradContext leave every node untouched *)
Theorem exec_frame_exact s cs : forallb (fun c => negb (is_reset c) && negb (is_bp c)) cs = true ->
  extends (st_heap s) (st_heap (exec s cs)).
Proof.
  revert s. induction cs as [|c cs IH]; intros s Hcs; cbn [exec]; [apply extends_refl|].
  cbn [forallb] in Hcs. apply andb_true_iff in Hcs. destruct Hcs as [Hc Hcs]. apply andb_true_iff in Hc. destruct Hc as [H1 H2].
  eapply extends_trans; [|apply IH; exact Hcs]. apply step_frame_exact.
  - intros t ->. discriminate.
  - intros t b ->. discriminate.
Qed.

Corollary exec_frame_grad s cs i n : forallb (fun c => negb (is_reset c) && negb (is_bp c)) cs = true ->
  nth_error (st_heap s) i = Some n -> nth_error (st_heap (exec s cs)) i = Some n.
Proof. intros Hcs Hn. eapply extends_nth; [apply exec_frame_exact; exact Hcs|exact Hn]. Qed.

End StepP.

(* a history with every kind of command that touches flags *)
Module StepEx.
Import TrackEx.
#[local] Existing Instance Z_scalar.
Local Open Scope Z_scope.

Definition idv : nat -> tensor Z -> tensor Z := fun _ t => t.
Definition idg : nat -> option nat -> tensor Z -> tensor Z := fun _ _ g => g.
Definition d0 : dec := (0, 0).
Notation stepZ := (step RedSum idv idg 0 1 d0 d0 d0 d0 d0 d0 d0 0).
Notation runZ := (run_from RedSum idv idg 0 1 d0 d0 d0 d0 d0 d0 d0 0).
Notation execZ := (exec RedSum idv idg 0 1 d0 d0 d0 d0 d0 d0 d0 0).

(* names: 0 x=[3;5] tracked, 1 c=[1;1], 2 m=x*2, 3 y=m+c, 4 BackPropagate(y), 5 x.Gradient(),
   6 x.ResetGradContext(true), 7 x*3 *)
Definition hist : list (@cmd Z) :=
  [CLeaf [2%nat] [3; 5] true; CLeaf [2%nat] [1; 1] false; CScale 0 (2, 0); CBin BiAdd 2 (Some 1%nat);
   CBackprop (Some 3%nat); CGradOf 0; CReset 0 true; CScale 0 (3, 0)].

Definition flagsOf (h : @heap Z) := map (fun n => (ntracked n, ndirty n, match ngrad n with Some _ => true | None => false end)) h.

Example ex_run :
  runZ init_state hist =
    [ObTensor [2%nat] [3; 5]; ObTensor [2%nat] [1; 1]; ObTensor [2%nat] [6; 10]; ObTensor [2%nat] [7; 11];
     ObGrads 4 [(0%nat, Some ([2%nat], [2; 2])); (1%nat, None); (2%nat, Some ([2%nat], [1; 1])); (3%nat, Some ([2%nat], [1; 1]))];
     ObTensor [2%nat] [2; 2]; ObOk; ObTensor [2%nat] [9; 15]] /\
  flagsOf (st_heap (execZ init_state (firstn 4 hist))) =
    [(true, false, false); (false, false, false); (true, false, false); (true, false, false); (false, false, false); (true, false, false)] /\
  flagsOf (st_heap (execZ init_state (firstn 5 hist))) =
    [(true, true, true); (false, false, false); (true, true, true); (true, true, true); (false, false, false); (true, true, true)] /\
  flagsOf (st_heap (execZ init_state hist)) =
    [(true, false, false); (false, false, false); (true, true, true); (true, true, true); (false, false, false); (true, true, true);
     (false, true, false); (true, false, false)] /\
  erase (firstn 6 (st_heap (execZ init_state hist))) = erase (st_heap (execZ init_state (firstn 4 hist))).
Proof. vm_compute. repeat split. Qed.

Example ex_values : forall i n, nth_error (st_heap (execZ init_state (firstn 4 hist))) i = Some n ->
  exists n', nth_error (st_heap (execZ init_state hist)) i = Some n' /\ nval n' = nval n /\ nname n' = nname n.
Proof.
  intros i n Hn. change hist with (firstn 4 hist ++ skipn 4 hist). rewrite exec_app.
  apply exec_frame_values. exact Hn.
Qed.

Example ex_wf : wf_heap (st_heap (execZ init_state hist)).
Proof. apply reachable_wf. Qed.

(* node 2 (m) is never reset in the history: its tracking flag survives although x is reset *)
Example ex_tracking : exists n', nth_error (st_heap (execZ init_state hist)) 2 = Some n' /\ ntracked n' = true.
Proof.
  destruct (exec_frame_tracking_gen RedSum idv idg 0 1 d0 d0 d0 d0 d0 d0 d0 0
              (execZ init_state (firstn 4 hist)) (skipn 4 hist) 2
              (mkNode (vec2 6 10) true false None [(0%nat, RScale 2 2)] (Some 2%nat))) as (n' & Hn' & Ht & _).
  - cbn [skipn hist never_resets]. repeat split; intros t b E; inversion E; subst; vm_compute; discriminate.
  - vm_compute. reflexivity.
  - exists n'. rewrite <- exec_app in Hn'. split; [exact Hn'|exact Ht].
Qed.
End StepEx.

Print Assumptions atomically_frame.
Print Assumptions step_rel.
Print Assumptions step_frame_values.
Print Assumptions step_frame_tracking.
Print Assumptions step_frame_grad.
Print Assumptions step_reset_spec.
Print Assumptions step_frame_bp.
Print Assumptions step_hinv.
Print Assumptions reachable_wf.
Print Assumptions reachable_rules_own.
Print Assumptions exec_frame_values.
Print Assumptions exec_frame_tracking.
Print Assumptions exec_frame_exact.
Print Assumptions exec_frame_tracking_gen.
Print Assumptions exec_frame_grad_gen.
Print Assumptions run_from_app.
