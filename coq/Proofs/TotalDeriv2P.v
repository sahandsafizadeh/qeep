(* TotalDeriv2P.v — the chain-rule step ([chain_hyp] of TotalDerivP.v) for nodes with SEVERAL back
   edges, also two edges to the SAME target (m.Add(m), x.Mul(x)).
   Everything is stated along a curve in the single real variable t, so the chain rule at a node is
   one-variable calculus (Coquelicot [is_derive]); what is shown in addition is the algebra that the
   resulting derivative equals [Jt dm n j] for the node's edge list and Jacobian entries [D n e i j].
   [chain_node_linear_multi]: value affine in all tracked operands (Add, Sub, Concat, Patch, and every
     single-edge linear op);
   [chain_node_pointwise2]: element-wise binary op  val n j = f (val a j) (val b j)  with f
     differentiable along curves ([curve_diff2]; implied by Fréchet differentiability,
     [curve_diff2_of_filterdiff]); instances [chain_node_mul], [chain_node_div];
   [chain_node_bilinear]: finite sums of products  Σ_k val a (α j k) * val b (β j k)  (MatMul, Dot);
     instance [chain_node_matmul2] for the 2-D matrix product with closed-form Jacobian entries;
   [chain_hyp_of_nodes]: [chain_hyp] for a whole graph from a per-node case analysis ([node_ok]);
   Module [TotalDeriv2Example] (all hypotheses of bp_total_derivative discharged on heaps built by the
     model's own h_* functions, x = [x0; x1] arbitrary reals):  the diamond  m = 2 x; y = m + m
     ([diamond_gradient]: 4),  y = x * x  ([square_gradient]: 2 x),  y = c / x  with c untracked
     ([quot_gradient]: - c / x²),  y = x · xᵀ  through Transpose and MatMul ([gram_gradient]: 2 x). *)
From Coq Require Import List Arith ZArith Bool Lia Reals Lra.
From Coquelicot Require Import Coquelicot.
From Qeep Require Import Model.Scalar Model.Nd Model.Fill Model.Data Model.Valid Model.Api Model.Grad Model.Backprop.
From Qeep Require Import Proofs.NdP Proofs.ElemP Proofs.ArithP Proofs.BackpropP.
From Qeep Require Import Spec.RScalar Spec.ScalarDeriv Spec.VjpSpec.
From Qeep Require Import Proofs.VjpGatherP Proofs.VjpElemP Proofs.TotalDerivP.
From Qeep Require Proofs.VjpLinalgP.   (* not imported: it has its own (convertible) sumN *)
Import ListNotations.
Local Open Scope R_scope.

(* two-argument scalar functions differentiable along curves *)

(* f is differentiable at (a0, b0) with partial derivatives d1, d2, in the form the node lemma uses:
   along every pair of curves through (a0, b0) that are differentiable at 0 *)
Definition curve_diff2 (f : R -> R -> R) (a0 b0 d1 d2 : R) : Prop :=
  forall (u v : R -> R) (du dv : R), u 0 = a0 -> v 0 = b0 ->
    is_derive u 0 du -> is_derive v 0 dv ->
    is_derive (fun t => f (u t) (v t)) 0 (d1 * du + d2 * dv).

Lemma curve_diff2_plus a0 b0 : curve_diff2 Rplus a0 b0 1 1.
Proof.
  intros u v du dv _ _ Du Dv.
  replace (1 * du + 1 * dv) with (plus du dv) by (unfold plus; cbn; ring).
  exact (is_derive_plus u v 0 du dv Du Dv).
Qed.

Lemma curve_diff2_minus a0 b0 : curve_diff2 Rminus a0 b0 1 (-1).
Proof.
  intros u v du dv _ _ Du Dv.
  replace (1 * du + -1 * dv) with (minus du dv) by (unfold minus, plus, opp; cbn; ring).
  exact (is_derive_minus u v 0 du dv Du Dv).
Qed.

Lemma curve_diff2_mult a0 b0 : curve_diff2 Rmult a0 b0 b0 a0.
Proof.
  intros u v du dv Hu Hv Du Dv.
  pose proof (is_derive_mult u v 0 du dv Du Dv Rmult_comm) as H. rewrite Hu, Hv in H.
  replace (b0 * du + a0 * dv) with (plus (mult du b0) (mult a0 dv)) by (unfold plus, mult; cbn; ring).
  exact H.
Qed.

Lemma curve_diff2_div a0 b0 : b0 <> 0 -> curve_diff2 Rdiv a0 b0 (/ b0) (- a0 / b0 ^ 2).
Proof.
  intros Hb u v du dv Hu Hv Du Dv.
  assert (Hv0 : v 0 <> 0) by (rewrite Hv; exact Hb).
  pose proof (is_derive_div u v 0 du dv Du Dv Hv0) as H. rewrite Hu, Hv in H.
  replace (/ b0 * du + - a0 / b0 ^ 2 * dv) with ((du * b0 - a0 * dv) / b0 ^ 2) by (field; exact Hb).
  exact H.
Qed.

(* Fréchet differentiability of (a, b) |-> f a b  at (a0, b0) implies differentiability along curves *)
Lemma curve_diff2_of_filterdiff (f : R -> R -> R) a0 b0 d1 d2 :
  filterdiff (fun p : R * R => f (fst p) (snd p)) (locally (a0, b0))
             (fun p : R * R => d1 * fst p + d2 * snd p) ->
  curve_diff2 f a0 b0 d1 d2.
Proof.
  intros Hf u v du dv Hu Hv Du Dv. unfold is_derive.
  apply (filterdiff_ext_lin _ (fun y : R => d1 * scal y du + d2 * scal y dv)).
  - apply (filterdiff_comp'_2 u v f 0 (fun y : R => scal y du) (fun y : R => scal y dv)
             (fun p q : R => d1 * p + d2 * q) Du Dv).
    rewrite Hu, Hv. exact Hf.
  - intros y. unfold scal; cbn. unfold mult; cbn. ring.
Qed.

(* the usual sufficient condition: the first partial derivative exists near the point and is
   continuous there, the second exists at the point *)
Lemma curve_diff2_of_partials (f : R -> R -> R) a0 b0 (dfx : R -> R -> R) (d2 : R) :
  locally (a0, b0) (fun p : R * R => is_derive (fun z => f z (snd p)) (fst p) (dfx (fst p) (snd p))) ->
  is_derive (fun z => f a0 z) b0 d2 ->
  continuous (fun p : R * R => dfx (fst p) (snd p)) (a0, b0) ->
  curve_diff2 f a0 b0 (dfx a0 b0) d2.
Proof.
  intros H1 H2 H3. apply curve_diff2_of_filterdiff.
  apply (filterdiff_ext_lin _ _ _ (is_derive_filterdiff f a0 b0 dfx d2 H1 H2 H3)).
  intros p. unfold plus, scal; cbn. unfold mult; cbn. ring.
Qed.

(* the setting of TotalDerivP.v: graph h, local Jacobians D, re-evaluated values val *)
Section Chain2.
Variable h : @heap R.
Variable D : nat -> nat * @rule R -> list nat -> list nat -> R.
Variable val : R -> nat -> assignment.

(* the premise of [chain_hyp] at node n: the tracked operands are differentiable at 0, with
   derivatives dm *)
Definition ops_diff (dm : nat -> assignment) (n : nat) : Prop :=
  forall e, In e (edgesOf h n) -> trackedOf h (fst e) = true ->
    forall i, validIdx (dimsOf h (fst e)) i -> is_derive (fun t => val t (fst e) i) 0 (dm (fst e) i).

(* an operand that is not tracked does not depend on x, so its re-evaluated value is the same for all t *)
Definition frozen (m : nat) : Prop :=
  forall t i, validIdx (dimsOf h m) i -> val t m i = val 0 m i.

(* the tangent of operand m as Jt sees it: dm m if m is tracked, 0 otherwise *)
Definition dop (dm : nat -> assignment) (m : nat) : assignment :=
  fun i => if trackedOf h m then dm m i else 0.

Lemma operand_derive dm n e i :
  ops_diff dm n -> In e (edgesOf h n) -> (trackedOf h (fst e) = false -> frozen (fst e)) ->
  validIdx (dimsOf h (fst e)) i ->
  is_derive (fun t => val t (fst e) i) 0 (dop dm (fst e) i).
Proof.
  intros Hd He Hz Hi. unfold dop. destruct (trackedOf h (fst e)) eqn:Et.
  - apply (Hd e He Et i Hi).
  - apply (is_derive_ext (fun _ => val 0 (fst e) i)); [intros t; symmetry; apply (Hz eq_refl); exact Hi|].
    apply (is_derive_const (val 0 (fst e) i) 0).
Qed.

(* one summand of Jt *)
Definition Jterm (dm : nat -> assignment) (n : nat) (e : nat * @rule R) (j : list nat) : R :=
  if trackedOf h (fst e)
  then sumIdx (dimsOf h (fst e)) (fun i => D n e i j * dm (fst e) i) else 0.

Lemma Jt_Jterm dm n j : Jt h D dm n j = lsum (edgesOf h n) (fun e => Jterm dm n e j).
Proof. reflexivity. Qed.

Lemma Jt_pair dm n e1 e2 j : edgesOf h n = [e1; e2] ->
  Jt h D dm n j = Jterm dm n e1 j + Jterm dm n e2 j.
Proof. intros He. rewrite Jt_Jterm, He, !lsum_cons, lsum_nil. ring. Qed.

(* a diagonal Jacobian block *)
Lemma Jterm_diag dm n e (d : assignment) j :
  dimsOf h (fst e) = dimsOf h n ->
  (forall i j, D n e i j = if idx_eqb i j then d j else 0) ->
  validIdx (dimsOf h n) j ->
  Jterm dm n e j = d j * dop dm (fst e) j.
Proof.
  intros Hdim HD Hj. unfold Jterm, dop. destruct (trackedOf h (fst e)); [|ring].
  rewrite <- (sumIdx_diag_l (dimsOf h (fst e)) d (dm (fst e)) j) by (rewrite Hdim; exact Hj).
  apply sumIdx_ext. intros i _. rewrite HD. reflexivity.
Qed.

(* a gather-type Jacobian block: Σ_k [i = s k] * c k *)
Lemma Jterm_gather dm n e (K : nat) (s : nat -> list nat) (c : nat -> R) j :
  (forall k, (k < K)%nat -> validIdx (dimsOf h (fst e)) (s k)) ->
  (forall i, validIdx (dimsOf h (fst e)) i ->
     D n e i j = sumN K (fun k => if idx_eqb i (s k) then c k else 0)) ->
  Jterm dm n e j = sumN K (fun k => c k * dop dm (fst e) (s k)).
Proof.
  intros Hs HD. unfold Jterm, dop. destruct (trackedOf h (fst e)).
  - rewrite (sumIdx_ext (dimsOf h (fst e)) _
              (fun i => lsum (seq 0 K) (fun k => if idx_eqb i (s k) then c k * dm (fst e) i else 0))).
    2:{ intros i Hi. rewrite (HD i Hi). unfold sumN. rewrite <- lsum_scal_r. apply lsum_ext_in.
        intros k _. destruct (idx_eqb i (s k)); ring. }
    rewrite sumIdx_lsum. unfold sumN. apply lsum_ext_in. intros k Hk. apply in_seq in Hk.
    apply (sumIdx_single (dimsOf h (fst e)) (s k) (fun i => c k * dm (fst e) i)). apply Hs. lia.
  - unfold sumN. symmetry. transitivity (lsum (seq 0 K) (fun _ => 0)); [|apply lsum_zero].
    apply lsum_ext_in. intros k _. ring.
Qed.

(* (i') a node that is affine in ALL its tracked operands *)
(* Add, Sub (both operands), Concat, Patch (both operands), and every single-edge linear op;
   edges to untracked targets contribute to the constant k *)
Theorem chain_node_linear_multi (dm : nat -> assignment) n (k : assignment) :
  (forall t j, validIdx (dimsOf h n) j ->
     val t n j = lsum (edgesOf h n)
                   (fun e => if trackedOf h (fst e)
                             then sumIdx (dimsOf h (fst e)) (fun i => D n e i j * val t (fst e) i)
                             else 0) + k j) ->
  ops_diff dm n ->
  forall j, validIdx (dimsOf h n) j -> is_derive (fun t => val t n j) 0 (Jt h D dm n j).
Proof.
  intros Hv Hd j Hj.
  apply (is_derive_eq (fun t => lsum (edgesOf h n) (fun e => Jterm (val t) n e j) + k j) _ 0 (Jt h D dm n j + 0));
    [intros t; symmetry; apply Hv; exact Hj|ring|].
  apply (is_derive_plus (fun t => lsum (edgesOf h n) (fun e => Jterm (val t) n e j)) (fun _ => k j));
    [|apply (is_derive_const (k j) 0)].
  rewrite Jt_Jterm.
  apply (is_derive_lsum (edgesOf h n) (fun t e => Jterm (val t) n e j) (fun e => Jterm dm n e j)).
  intros e He. unfold Jterm. destruct (trackedOf h (fst e)) eqn:Et.
  - apply (is_derive_sumIdx (dimsOf h (fst e)) (fun t i => D n e i j * val t (fst e) i)
                            (fun i => D n e i j * dm (fst e) i)).
    intros i Hi. apply is_derive_scal. apply (Hd e He Et i Hi).
  - apply (is_derive_const 0 0).
Qed.

(* the value hypothesis of [chain_node_linear_multi] is  val t n = Jt (val t) n + k *)
Lemma linear_multi_value_form t n j :
  lsum (edgesOf h n)
       (fun e => if trackedOf h (fst e)
                 then sumIdx (dimsOf h (fst e)) (fun i => D n e i j * val t (fst e) i) else 0)
  = Jt h D (val t) n j.
Proof. reflexivity. Qed.

(* (ii') an element-wise binary node  val n j = f (val a j) (val b j) *)
(* two edges [e1; e2]; the targets a = fst e1, b = fst e2 may coincide, either may be untracked *)
Theorem chain_node_pointwise2 (dm : nat -> assignment) n e1 e2 (f : R -> R -> R) (d1 d2 : assignment) :
  edgesOf h n = [e1; e2] ->
  dimsOf h (fst e1) = dimsOf h n -> dimsOf h (fst e2) = dimsOf h n ->
  (forall i j, D n e1 i j = if idx_eqb i j then d1 j else 0) ->
  (forall i j, D n e2 i j = if idx_eqb i j then d2 j else 0) ->
  (forall t j, validIdx (dimsOf h n) j -> val t n j = f (val t (fst e1) j) (val t (fst e2) j)) ->
  (forall j, validIdx (dimsOf h n) j ->
     curve_diff2 f (val 0 (fst e1) j) (val 0 (fst e2) j) (d1 j) (d2 j)) ->
  (trackedOf h (fst e1) = false -> frozen (fst e1)) ->
  (trackedOf h (fst e2) = false -> frozen (fst e2)) ->
  ops_diff dm n ->
  forall j, validIdx (dimsOf h n) j -> is_derive (fun t => val t n j) 0 (Jt h D dm n j).
Proof.
  intros He Hd1 Hd2 HD1 HD2 Hv Hf Hz1 Hz2 Hd j Hj.
  rewrite (Jt_pair dm n e1 e2 j He).
  rewrite (Jterm_diag dm n e1 d1 j Hd1 HD1 Hj), (Jterm_diag dm n e2 d2 j Hd2 HD2 Hj).
  apply (is_derive_ext (fun t => f (val t (fst e1) j) (val t (fst e2) j))).
  { intros t. symmetry. apply Hv. exact Hj. }
  apply (Hf j Hj (fun t => val t (fst e1) j) (fun t => val t (fst e2) j)); try reflexivity.
  - apply (operand_derive dm n e1 j Hd); [rewrite He; left; reflexivity|exact Hz1|rewrite Hd1; exact Hj].
  - apply (operand_derive dm n e2 j Hd); [rewrite He; right; left; reflexivity|exact Hz2|rewrite Hd2; exact Hj].
Qed.

(* Mul: the back edges carry RMul y b / RMul y a:  D n e1 = diag (val b), D n e2 = diag (val a) *)
Theorem chain_node_mul (dm : nat -> assignment) n e1 e2 :
  edgesOf h n = [e1; e2] ->
  dimsOf h (fst e1) = dimsOf h n -> dimsOf h (fst e2) = dimsOf h n ->
  (forall i j, D n e1 i j = if idx_eqb i j then val 0 (fst e2) j else 0) ->
  (forall i j, D n e2 i j = if idx_eqb i j then val 0 (fst e1) j else 0) ->
  (forall t j, validIdx (dimsOf h n) j -> val t n j = val t (fst e1) j * val t (fst e2) j) ->
  (trackedOf h (fst e1) = false -> frozen (fst e1)) ->
  (trackedOf h (fst e2) = false -> frozen (fst e2)) ->
  ops_diff dm n ->
  forall j, validIdx (dimsOf h n) j -> is_derive (fun t => val t n j) 0 (Jt h D dm n j).
Proof.
  intros He Hd1 Hd2 HD1 HD2 Hv.
  apply (chain_node_pointwise2 dm n e1 e2 Rmult (fun j => val 0 (fst e2) j) (fun j => val 0 (fst e1) j)
           He Hd1 Hd2 HD1 HD2 Hv).
  intros j _. apply curve_diff2_mult.
Qed.

(* Div: RDivA y b / RDivB y a b:  D n e1 = diag (1 / val b), D n e2 = diag (- val a / (val b)^2);
   the denominator is non-zero at t = 0 *)
Theorem chain_node_div (dm : nat -> assignment) n e1 e2 :
  edgesOf h n = [e1; e2] ->
  dimsOf h (fst e1) = dimsOf h n -> dimsOf h (fst e2) = dimsOf h n ->
  (forall i j, D n e1 i j = if idx_eqb i j then / val 0 (fst e2) j else 0) ->
  (forall i j, D n e2 i j = if idx_eqb i j then - val 0 (fst e1) j / val 0 (fst e2) j ^ 2 else 0) ->
  (forall t j, validIdx (dimsOf h n) j -> val t n j = val t (fst e1) j / val t (fst e2) j) ->
  (forall j, validIdx (dimsOf h n) j -> val 0 (fst e2) j <> 0) ->
  (trackedOf h (fst e1) = false -> frozen (fst e1)) ->
  (trackedOf h (fst e2) = false -> frozen (fst e2)) ->
  ops_diff dm n ->
  forall j, validIdx (dimsOf h n) j -> is_derive (fun t => val t n j) 0 (Jt h D dm n j).
Proof.
  intros He Hd1 Hd2 HD1 HD2 Hv Hnz.
  apply (chain_node_pointwise2 dm n e1 e2 Rdiv (fun j => / val 0 (fst e2) j)
           (fun j => - val 0 (fst e1) j / val 0 (fst e2) j ^ 2) He Hd1 Hd2 HD1 HD2 Hv).
  intros j Hj. apply curve_diff2_div. apply Hnz. exact Hj.
Qed.

(* (iii) a bilinear node  val n j = Σ_{k<K} val a (α j k) * val b (β j k) *)
Theorem chain_node_bilinear (dm : nat -> assignment) n e1 e2 (K : nat)
        (al be : list nat -> nat -> list nat) :
  edgesOf h n = [e1; e2] ->
  (forall j k, validIdx (dimsOf h n) j -> (k < K)%nat -> validIdx (dimsOf h (fst e1)) (al j k)) ->
  (forall j k, validIdx (dimsOf h n) j -> (k < K)%nat -> validIdx (dimsOf h (fst e2)) (be j k)) ->
  (forall i j, validIdx (dimsOf h (fst e1)) i -> validIdx (dimsOf h n) j ->
     D n e1 i j = sumN K (fun k => if idx_eqb i (al j k) then val 0 (fst e2) (be j k) else 0)) ->
  (forall i j, validIdx (dimsOf h (fst e2)) i -> validIdx (dimsOf h n) j ->
     D n e2 i j = sumN K (fun k => if idx_eqb i (be j k) then val 0 (fst e1) (al j k) else 0)) ->
  (forall t j, validIdx (dimsOf h n) j ->
     val t n j = sumN K (fun k => val t (fst e1) (al j k) * val t (fst e2) (be j k))) ->
  (trackedOf h (fst e1) = false -> frozen (fst e1)) ->
  (trackedOf h (fst e2) = false -> frozen (fst e2)) ->
  ops_diff dm n ->
  forall j, validIdx (dimsOf h n) j -> is_derive (fun t => val t n j) 0 (Jt h D dm n j).
Proof.
  intros He Ha Hb HD1 HD2 Hv Hz1 Hz2 Hd j Hj.
  rewrite (Jt_pair dm n e1 e2 j He).
  rewrite (Jterm_gather dm n e1 K (al j) (fun k => val 0 (fst e2) (be j k)) j).
  2:{ intros k Hk. apply Ha; assumption. }
  2:{ intros i Hi. apply HD1; assumption. }
  rewrite (Jterm_gather dm n e2 K (be j) (fun k => val 0 (fst e1) (al j k)) j).
  2:{ intros k Hk. apply Hb; assumption. }
  2:{ intros i Hi. apply HD2; assumption. }
  unfold sumN. rewrite <- lsum_plus.
  apply (is_derive_ext (fun t => lsum (seq 0 K) (fun k => val t (fst e1) (al j k) * val t (fst e2) (be j k)))).
  { intros t. symmetry. apply (Hv t j Hj). }
  apply (is_derive_lsum (seq 0 K) (fun t k => val t (fst e1) (al j k) * val t (fst e2) (be j k))).
  intros k Hk. apply in_seq in Hk.
  apply (curve_diff2_mult (val 0 (fst e1) (al j k)) (val 0 (fst e2) (be j k))
           (fun t => val t (fst e1) (al j k)) (fun t => val t (fst e2) (be j k))); try reflexivity.
  - apply (operand_derive dm n e1 (al j k) Hd); [rewrite He; left; reflexivity|exact Hz1|apply Ha; [exact Hj|lia]].
  - apply (operand_derive dm n e2 (be j k) Hd); [rewrite He; right; left; reflexivity|exact Hz2|apply Hb; [exact Hj|lia]].
Qed.

(* ---------- the plain 2-D matrix product  [m,q]·[q,p]  with closed-form Jacobian entries ---------- *)
(* RMatMulA: gA = gy·Bᵀ, so  D n e1 [r;k] [r';c] = [r = r'] * B[k;c];
   RMatMulB: gB = Aᵀ·gy, so  D n e2 [k;c] [r;c'] = [c = c'] * A[r;k] *)
Lemma valid2d_inv a b j : validIdx [a; b] j -> exists r c, j = [r; c] /\ (r < a)%nat /\ (c < b)%nat.
Proof.
  intros Hj. apply validIdx_cons in Hj as (r & j1 & -> & Hr & Hj1).
  apply validIdx_cons in Hj1 as (c & j2 & -> & Hc & Hj2). apply validIdx_nil in Hj2. subst j2.
  exists r, c. auto.
Qed.

Lemma valid2d_intro a b r c : (r < a)%nat -> (c < b)%nat -> validIdx [a; b] [r; c].
Proof. intros Hr Hc. repeat constructor; assumption. Qed.

Lemma idx_eqb2 a b c d : idx_eqb [a; b] [c; d] = ((a =? c)%nat && (b =? d)%nat)%bool.
Proof. rewrite !idx_eqb_cons, (VjpGatherP.idx_eqb_refl []), andb_true_r. reflexivity. Qed.

Theorem chain_node_matmul2 (dm : nat -> assignment) n e1 e2 (m q p : nat) :
  edgesOf h n = [e1; e2] ->
  dimsOf h (fst e1) = [m; q] -> dimsOf h (fst e2) = [q; p] -> dimsOf h n = [m; p] ->
  (forall r k r' c, D n e1 [r; k] [r'; c] = if (r =? r')%nat then val 0 (fst e2) [k; c] else 0) ->
  (forall k c r c', D n e2 [k; c] [r; c'] = if (c =? c')%nat then val 0 (fst e1) [r; k] else 0) ->
  (forall t r c, (r < m)%nat -> (c < p)%nat ->
     val t n [r; c] = sumN q (fun k => val t (fst e1) [r; k] * val t (fst e2) [k; c])) ->
  (trackedOf h (fst e1) = false -> frozen (fst e1)) ->
  (trackedOf h (fst e2) = false -> frozen (fst e2)) ->
  ops_diff dm n ->
  forall j, validIdx (dimsOf h n) j -> is_derive (fun t => val t n j) 0 (Jt h D dm n j).
Proof.
  intros He Hd1 Hd2 Hdn HD1 HD2 Hv Hz1 Hz2 Hd.
  apply (chain_node_bilinear dm n e1 e2 q (fun j k => [nth 0 j 0%nat; k]) (fun j k => [k; nth 1 j 0%nat]) He);
    try assumption.
  - intros j k Hj Hk. rewrite Hdn in Hj. apply valid2d_inv in Hj as (r & c & -> & Hr & Hc).
    rewrite Hd1. cbn [nth]. apply valid2d_intro; assumption.
  - intros j k Hj Hk. rewrite Hdn in Hj. apply valid2d_inv in Hj as (r & c & -> & Hr & Hc).
    rewrite Hd2. cbn [nth]. apply valid2d_intro; assumption.
  - intros i j Hi Hj. rewrite Hd1 in Hi. rewrite Hdn in Hj.
    apply valid2d_inv in Hi as (r & k' & -> & Hr & Hk'). apply valid2d_inv in Hj as (r' & c & -> & Hr' & Hc).
    cbn [nth]. rewrite HD1.
    rewrite (sumN_ext q _ (fun k => if (k =? k')%nat
                                    then (if (r =? r')%nat then val 0 (fst e2) [k; c] else 0) else 0)).
    + rewrite (sumN_single q k' (fun k => if (r =? r')%nat then val 0 (fst e2) [k; c] else 0) Hk'). reflexivity.
    + intros k _. rewrite idx_eqb2, (Nat.eqb_sym k' k).
      destruct (r =? r')%nat; destruct (k =? k')%nat; reflexivity.
  - intros i j Hi Hj. rewrite Hd2 in Hi. rewrite Hdn in Hj.
    apply valid2d_inv in Hi as (k' & c & -> & Hk' & Hc). apply valid2d_inv in Hj as (r & c' & -> & Hr & Hc').
    cbn [nth]. rewrite HD2.
    rewrite (sumN_ext q _ (fun k => if (k =? k')%nat
                                    then (if (c =? c')%nat then val 0 (fst e1) [r; k] else 0) else 0)).
    + rewrite (sumN_single q k' (fun k => if (c =? c')%nat then val 0 (fst e1) [r; k] else 0) Hk'). reflexivity.
    + intros k _. rewrite idx_eqb2, (Nat.eqb_sym k' k).
      destruct (c =? c')%nat; destruct (k =? k')%nat; reflexivity.
  - intros t j Hj. rewrite Hdn in Hj. apply valid2d_inv in Hj as (r & c & -> & Hr & Hc).
    cbn [nth]. apply Hv; assumption.
Qed.

(* [chain_hyp] for a whole graph from a per-node case analysis *)
(* the constructors are the premises of the node lemmas (without the operand hypothesis [ops_diff],
   which [chain_hyp] supplies) *)
Inductive node_ok (n : nat) : Prop :=
| ok_linear (e : nat * @rule R) (k : assignment) :
    edgesOf h n = [e] -> trackedOf h (fst e) = true ->
    (forall t j, validIdx (dimsOf h n) j ->
       val t n j = sumIdx (dimsOf h (fst e)) (fun i => D n e i j * val t (fst e) i) + k j) ->
    node_ok n
| ok_linear_multi (k : assignment) :
    (forall t j, validIdx (dimsOf h n) j ->
       val t n j = lsum (edgesOf h n)
                     (fun e => if trackedOf h (fst e)
                               then sumIdx (dimsOf h (fst e)) (fun i => D n e i j * val t (fst e) i)
                               else 0) + k j) ->
    node_ok n
| ok_pointwise (e : nat * @rule R) (f : R -> R) (d : assignment) :
    edgesOf h n = [e] -> trackedOf h (fst e) = true -> dimsOf h (fst e) = dimsOf h n ->
    (forall i j, D n e i j = if idx_eqb i j then d j else 0) ->
    (forall t j, validIdx (dimsOf h n) j -> val t n j = f (val t (fst e) j)) ->
    (forall j, validIdx (dimsOf h n) j -> is_derive f (val 0 (fst e) j) (d j)) ->
    node_ok n
| ok_pointwise2 (e1 e2 : nat * @rule R) (f : R -> R -> R) (d1 d2 : assignment) :
    edgesOf h n = [e1; e2] ->
    dimsOf h (fst e1) = dimsOf h n -> dimsOf h (fst e2) = dimsOf h n ->
    (forall i j, D n e1 i j = if idx_eqb i j then d1 j else 0) ->
    (forall i j, D n e2 i j = if idx_eqb i j then d2 j else 0) ->
    (forall t j, validIdx (dimsOf h n) j -> val t n j = f (val t (fst e1) j) (val t (fst e2) j)) ->
    (forall j, validIdx (dimsOf h n) j ->
       curve_diff2 f (val 0 (fst e1) j) (val 0 (fst e2) j) (d1 j) (d2 j)) ->
    (trackedOf h (fst e1) = false -> frozen (fst e1)) ->
    (trackedOf h (fst e2) = false -> frozen (fst e2)) ->
    node_ok n
| ok_mul (e1 e2 : nat * @rule R) :
    edgesOf h n = [e1; e2] ->
    dimsOf h (fst e1) = dimsOf h n -> dimsOf h (fst e2) = dimsOf h n ->
    (forall i j, D n e1 i j = if idx_eqb i j then val 0 (fst e2) j else 0) ->
    (forall i j, D n e2 i j = if idx_eqb i j then val 0 (fst e1) j else 0) ->
    (forall t j, validIdx (dimsOf h n) j -> val t n j = val t (fst e1) j * val t (fst e2) j) ->
    (trackedOf h (fst e1) = false -> frozen (fst e1)) ->
    (trackedOf h (fst e2) = false -> frozen (fst e2)) ->
    node_ok n
| ok_div (e1 e2 : nat * @rule R) :
    edgesOf h n = [e1; e2] ->
    dimsOf h (fst e1) = dimsOf h n -> dimsOf h (fst e2) = dimsOf h n ->
    (forall i j, D n e1 i j = if idx_eqb i j then / val 0 (fst e2) j else 0) ->
    (forall i j, D n e2 i j = if idx_eqb i j then - val 0 (fst e1) j / val 0 (fst e2) j ^ 2 else 0) ->
    (forall t j, validIdx (dimsOf h n) j -> val t n j = val t (fst e1) j / val t (fst e2) j) ->
    (forall j, validIdx (dimsOf h n) j -> val 0 (fst e2) j <> 0) ->
    (trackedOf h (fst e1) = false -> frozen (fst e1)) ->
    (trackedOf h (fst e2) = false -> frozen (fst e2)) ->
    node_ok n
| ok_bilinear (e1 e2 : nat * @rule R) (K : nat) (al be : list nat -> nat -> list nat) :
    edgesOf h n = [e1; e2] ->
    (forall j k, validIdx (dimsOf h n) j -> (k < K)%nat -> validIdx (dimsOf h (fst e1)) (al j k)) ->
    (forall j k, validIdx (dimsOf h n) j -> (k < K)%nat -> validIdx (dimsOf h (fst e2)) (be j k)) ->
    (forall i j, validIdx (dimsOf h (fst e1)) i -> validIdx (dimsOf h n) j ->
       D n e1 i j = sumN K (fun k => if idx_eqb i (al j k) then val 0 (fst e2) (be j k) else 0)) ->
    (forall i j, validIdx (dimsOf h (fst e2)) i -> validIdx (dimsOf h n) j ->
       D n e2 i j = sumN K (fun k => if idx_eqb i (be j k) then val 0 (fst e1) (al j k) else 0)) ->
    (forall t j, validIdx (dimsOf h n) j ->
       val t n j = sumN K (fun k => val t (fst e1) (al j k) * val t (fst e2) (be j k))) ->
    (trackedOf h (fst e1) = false -> frozen (fst e1)) ->
    (trackedOf h (fst e2) = false -> frozen (fst e2)) ->
    node_ok n
| ok_matmul2 (e1 e2 : nat * @rule R) (m q p : nat) :
    edgesOf h n = [e1; e2] ->
    dimsOf h (fst e1) = [m; q] -> dimsOf h (fst e2) = [q; p] -> dimsOf h n = [m; p] ->
    (forall r k r' c, D n e1 [r; k] [r'; c] = if (r =? r')%nat then val 0 (fst e2) [k; c] else 0) ->
    (forall k c r c', D n e2 [k; c] [r; c'] = if (c =? c')%nat then val 0 (fst e1) [r; k] else 0) ->
    (forall t r c, (r < m)%nat -> (c < p)%nat ->
       val t n [r; c] = sumN q (fun k => val t (fst e1) [r; k] * val t (fst e2) [k; c])) ->
    (trackedOf h (fst e1) = false -> frozen (fst e1)) ->
    (trackedOf h (fst e2) = false -> frozen (fst e2)) ->
    node_ok n.

(* every ok node obeys the chain rule, for any tangent assignment of its operands *)
Lemma node_ok_chain (dm : nat -> assignment) n :
  node_ok n -> ops_diff dm n ->
  forall j, validIdx (dimsOf h n) j -> is_derive (fun t => val t n j) 0 (Jt h D dm n j).
Proof.
  intros Hok Hd.
  destruct Hok as [e k He Ht Hv | k Hv | e f d He Ht Hdim HD Hv Hf
                  | e1 e2 f d1 d2 He Hd1 Hd2 HD1 HD2 Hv Hf Hz1 Hz2
                  | e1 e2 He Hd1 Hd2 HD1 HD2 Hv Hz1 Hz2
                  | e1 e2 He Hd1 Hd2 HD1 HD2 Hv Hnz Hz1 Hz2
                  | e1 e2 K al be He Ha Hb HD1 HD2 Hv Hz1 Hz2
                  | e1 e2 m q p He Hd1 Hd2 Hdn HD1 HD2 Hv Hz1 Hz2].
  - apply (chain_node_linear h D val dm n e k He Ht Hv).
    intros i Hi. apply (Hd e); [rewrite He; left; reflexivity|exact Ht|exact Hi].
  - apply (chain_node_linear_multi dm n k Hv Hd).
  - apply (chain_node_pointwise h D val dm n e f d He Ht Hdim HD Hv Hf).
    intros i Hi. apply (Hd e); [rewrite He; left; reflexivity|exact Ht|exact Hi].
  - apply (chain_node_pointwise2 dm n e1 e2 f d1 d2 He Hd1 Hd2 HD1 HD2 Hv Hf Hz1 Hz2 Hd).
  - apply (chain_node_mul dm n e1 e2 He Hd1 Hd2 HD1 HD2 Hv Hz1 Hz2 Hd).
  - apply (chain_node_div dm n e1 e2 He Hd1 Hd2 HD1 HD2 Hv Hnz Hz1 Hz2 Hd).
  - apply (chain_node_bilinear dm n e1 e2 K al be He Ha Hb HD1 HD2 Hv Hz1 Hz2 Hd).
  - apply (chain_node_matmul2 dm n e1 e2 m q p He Hd1 Hd2 Hdn HD1 HD2 Hv Hz1 Hz2 Hd).
Qed.

Theorem chain_hyp_of_nodes (root x : nat) (dl : assignment) :
  (forall n, In n (topoOrder h root) -> (x < n)%nat -> node_ok n) ->
  chain_hyp h root D x dl val.
Proof.
  intros Hok n Hn Hgt Hop. apply (node_ok_chain (tang h D x dl) n (Hok n Hn Hgt)). exact Hop.
Qed.

End Chain2.

(* examples: nodes with two back edges, the two paths meeting again in x *)
Module TotalDeriv2Example.
Section Ex.
Variables (thr : R) (draw : bool -> nat -> R).
Local Hint Extern 0 (Scalar R) => exact (R_scalar thr draw) : typeclass_instances.
Variable rd : bred.
Variables x0 x1 : R.

Definition vec2 (a b : R) : tensor R := mkT [2%nat] (Vec [Sc a; Sc b]).
Definition ids : option nat -> tensor R -> tensor R := fun _ g => g.

Definition xv : tensor R := vec2 x0 x1.

(* a rule that hands the upstream gradient through: the identity as Jacobian block, in the form of
   the rule lemmas of VjpElemP.v *)
Lemma through (hh : @heap R) (r : @rule R) (gc : tensor R) ds :
  eval_rule rd hh r = Ok gc -> wf gc -> dims gc = ds ->
  exists g, eval_rule rd hh r = Ok g /\ dims g = ds /\ wf g /\
    forall i, validIdx ds i -> elt g i = elt gc i * 1.
Proof. intros E W Dd. exists gc. repeat (split; [assumption|]). intros i _. ring. Qed.

(* the back edge of a same-shape Broadcast hands the upstream gradient through (either reduction) *)
Lemma bcast_same_eval (hh : @heap R) (y x : nat) (gc v : tensor R) :
  gradOf hh y = Some gc -> valOf hh x = Some v -> valOf hh y = Some v ->
  eval_rule rd hh (RBroadcast y x) = Ok gc.
Proof.
  intros Hg Hx Hy. unfold eval_rule, gy_of, val_of. rewrite Hg, Hx, Hy. cbn [of_opt res_bind].
  unfold bcastBack. rewrite Nat.sub_diag. cbn [bcLead res_bind skipn].
  generalize 0%nat. induction (dims v) as [|d ds IH]; intros k; cbn [bcDims]; [reflexivity|].
  rewrite Nat.eqb_refl. cbn [res_bind]. apply IH.
Qed.

(* the diamond  m = x.Scale(2); y = m.Add(m)  — the graph on which the pinned library's walk
       left 6 instead of 4 on x (finding D1).  h_arith first makes two same-shape Broadcast nodes
       of m, then the Add node with one back edge to each. *)
Definition mv : tensor R := vec2 (2 * x0) (2 * x1).
Definition yv : tensor R := vec2 (2 * x0 + 2 * x0) (2 * x1 + 2 * x1).

Definition hD : @heap R :=
  [mkNode xv true false None [] None;
   mkNode mv true false None [(0%nat, RScale 1 2)] None;
   mkNode mv true false None [(1%nat, RBroadcast 2 1)] None;
   mkNode mv true false None [(1%nat, RBroadcast 3 1)] None;
   mkNode yv true false None [(2%nat, RId 4); (3%nat, RId 4)] None].

(* hD is the heap the tracked API builds *)
Example hD_built :
  let '(h0, x) := leaf [] xv true None in
  match h_scale h0 x 2 None with
  | (h1, Ok m) => h_arith h1 BiAdd m m None = (hD, Ok 4%nat)
  | _ => False
  end.
Proof. vm_compute. reflexivity. Qed.

Example hD_order : topoOrder hD 4 = [4; 3; 2; 1; 0]%nat.
Proof. reflexivity. Qed.

Example hD_run : exists h' lg, bp_topo rd ids hD 4 = (h', lg, Ok tt).
Proof. apply bp_topo_runs. reflexivity. Qed.

Lemma hD_rules_own : rules_own hD.
Proof. apply edges_okb_spec. reflexivity. Qed.

Lemma hD_wf_heap : wf_heap hD.
Proof. apply edges_okb_spec. reflexivity. Qed.

(* the local Jacobians: every operation is element-wise, so every block is diagonal:
   2 for the Scale edge, 1 for the Broadcast (same shape) and Add edges *)
Definition DD (c : nat) (e : nat * @rule R) (i j : list nat) : R :=
  if idx_eqb i j then (if (c =? 1)%nat then 2 else 1) else 0.

Lemma DD_jvp c e (v : assignment) j : validIdx [2%nat] j ->
  sumIdx [2%nat] (fun i => DD c e i j * v i) = (if (c =? 1)%nat then 2 else 1) * v j.
Proof.
  intros Hj. unfold DD. apply (sumIdx_diag_l [2%nat] (fun _ => if (c =? 1)%nat then 2 else 1) v j Hj).
Qed.

Lemma hD_jac : jac_hyp thr draw rd hD 4 DD.
Proof.
  intros c e Hc He Ht hh gc Hv Hg Wg Dg. rewrite hD_order in Hc.
  destruct Hc as [<-|[<-|[<-|[<-|[<-|[]]]]]].
  - (* Add: both edges carry RId *)
    destruct He as [<-|[<-|[]]];
      (apply (jac_diag thr draw rd hD DD (fun _ => 1)); [reflexivity|intros i j; reflexivity|];
       apply through; [apply (rid_eval thr draw rd hh 4%nat gc Hg)|exact Wg|exact Dg]).
  - (* Broadcast b2 of m *)
    destruct He as [<-|[]].
    apply (jac_diag thr draw rd hD DD (fun _ => 1)); [reflexivity|intros i j; reflexivity|].
    apply through; [|exact Wg|exact Dg].
    apply (bcast_same_eval hh 3%nat 1%nat gc mv Hg); rewrite Hv; reflexivity.
  - (* Broadcast b1 of m *)
    destruct He as [<-|[]].
    apply (jac_diag thr draw rd hD DD (fun _ => 1)); [reflexivity|intros i j; reflexivity|].
    apply through; [|exact Wg|exact Dg].
    apply (bcast_same_eval hh 2%nat 1%nat gc mv Hg); rewrite Hv; reflexivity.
  - (* Scale by 2 *)
    destruct He as [<-|[]].
    apply (jac_diag thr draw rd hD DD (fun _ => 2)); [reflexivity|intros i j; reflexivity|].
    rewrite <- Dg. apply (rscale_eval thr draw rd hh 1%nat 2 gc Hg Wg).
  - destruct He.
Qed.

(* the graph re-evaluated at x + t dl *)
Definition valD (dl : assignment) (t : R) (n : nat) : assignment :=
  fun i => match n with
           | 0%nat => elt xv i + t * dl i
           | 1%nat | 2%nat | 3%nat => 2 * (elt xv i + t * dl i)
           | _ => 2 * (elt xv i + t * dl i) + 2 * (elt xv i + t * dl i)
           end.

Lemma hD_nodes (dl : assignment) n :
  In n (topoOrder hD 4) -> (0 < n)%nat -> node_ok hD DD (valD dl) n.
Proof.
  intros Hn Hgt. rewrite hD_order in Hn. destruct Hn as [<-|[<-|[<-|[<-|[<-|[]]]]]]; [| | | |lia].
  - (* the Add node is affine in its TWO tracked operands *)
    apply (ok_linear_multi hD DD (valD dl) _ (fun _ => 0)); intros t j Hj.
    cbv [edgesOf hD nth_error nedges lsum map fold_right trackedOf ntracked fst].
    change (dimsOf hD 2) with [2%nat]. change (dimsOf hD 3) with [2%nat].
    rewrite !DD_jvp by exact Hj. cbn [Nat.eqb valD]. ring.
  - apply (ok_pointwise hD DD (valD dl) 3 (1%nat, RBroadcast 3 1) (fun v => v) (fun _ => 1)); try reflexivity.
    intros j _. apply (is_derive_id (K:=R_AbsRing)).
  - apply (ok_pointwise hD DD (valD dl) 2 (1%nat, RBroadcast 2 1) (fun v => v) (fun _ => 1)); try reflexivity.
    intros j _. apply (is_derive_id (K:=R_AbsRing)).
  - apply (ok_pointwise hD DD (valD dl) 1 (0%nat, RScale 1 2) (fun v => 2 * v) (fun _ => 2)); try reflexivity.
    intros j _. auto_derive; [exact I|ring].
Qed.

(* the gradient back-propagation leaves on x is 4 in every component, and it is the derivative of
   Σ_k y_k = Σ_k (2 x_k + 2 x_k)  along every direction dl *)
Theorem diamond_gradient :
  exists h' lg gx, bp_topo rd ids hD 4 = (h', lg, Ok tt) /\ gradOf h' 0 = Some gx /\
    elt gx [0%nat] = 4 /\ elt gx [1%nat] = 4 /\
    forall dl : assignment,
      is_derive (fun t => (2 * (x0 + t * dl [0%nat]) + 2 * (x0 + t * dl [0%nat])) +
                          (2 * (x1 + t * dl [1%nat]) + 2 * (x1 + t * dl [1%nat]))) 0
                (elt gx [0%nat] * dl [0%nat] + elt gx [1%nat] * dl [1%nat]).
Proof.
  destruct (bp_grad_exists rd hD 4 0 hD_rules_own hD_wf_heap eq_refl) as (h' & lg & gx & E & Egx);
    [rewrite hD_order; do 4 right; left; reflexivity|exact hD_run|].
  exists h', lg, gx. split; [exact E|]. split; [exact Egx|].
  apply (pairing2_unique _ [0%nat] [1%nat]); [reflexivity| |].
  - intros dl. auto_derive; [exact I|ring].
  - (* every hypothesis of bp_total_derivative holds *)
    intros dl.
    apply (is_derive_eq (fun t => sumIdx [2%nat] (valD dl t 4)) _ 0 (sumIdx [2%nat] (fun i => elt gx i * dl i)));
      [intros t; apply sumIdx2|apply sumIdx2|].
    apply (bp_total_derivative thr draw rd hD 4%nat h' lg DD 0%nat dl gx (valD dl)
             hD_rules_own hD_wf_heap eq_refl E).
    + intros n _. apply gradOf_fresh. repeat constructor.
    + intros rv Hrv. injection Hrv as <-. apply wf_vec2.
    + exact hD_jac.
    + rewrite hD_order. do 4 right. left. reflexivity.
    + exact Egx.
    + intros n _ Hlt. lia.
    + intros t i. unfold valD. ring.
    + apply chain_hyp_of_nodes. apply hD_nodes.
Qed.

(* y = x.Mul(x)  (element-wise): both back edges of the Mul node lead, through two same-shape
       Broadcast nodes, to the SAME leaf; derivative 2 x *)
Definition sv : tensor R := vec2 (x0 * x0) (x1 * x1).

Definition hM : @heap R :=
  [mkNode xv true false None [] None;
   mkNode xv true false None [(0%nat, RBroadcast 1 0)] None;
   mkNode xv true false None [(0%nat, RBroadcast 2 0)] None;
   mkNode sv true false None [(1%nat, RMul 3 2); (2%nat, RMul 3 1)] None].

Example hM_built :
  let '(h0, x) := leaf [] xv true None in h_arith h0 BiMul x x None = (hM, Ok 3%nat).
Proof. vm_compute. reflexivity. Qed.

Example hM_order : topoOrder hM 3 = [3; 2; 1; 0]%nat.
Proof. reflexivity. Qed.

Example hM_run : exists h' lg, bp_topo rd ids hM 3 = (h', lg, Ok tt).
Proof. apply bp_topo_runs. reflexivity. Qed.

Lemma hM_rules_own : rules_own hM.
Proof. apply edges_okb_spec. reflexivity. Qed.

Lemma hM_wf_heap : wf_heap hM.
Proof. apply edges_okb_spec. reflexivity. Qed.

(* diagonal blocks: the other operand's value for the two Mul edges, 1 for the Broadcast edges *)
Definition DM (c : nat) (e : nat * @rule R) (i j : list nat) : R :=
  if idx_eqb i j then (if (c =? 3)%nat then elt xv j else 1) else 0.

Lemma hM_jac : jac_hyp thr draw rd hM 3 DM.
Proof.
  intros c e Hc He Ht hh gc Hv Hg Wg Dg. rewrite hM_order in Hc.
  destruct Hc as [<-|[<-|[<-|[<-|[]]]]].
  - (* Mul: RMul 3 o with o the OTHER broadcast node; both hold the value of x *)
    destruct He as [<-|[<-|[]]];
      (apply (jac_diag thr draw rd hM DM (elt xv)); [reflexivity|intros i j; reflexivity|];
       apply (rmul_eval thr draw rd hh 3%nat _ xv gc);
         [rewrite Hv; reflexivity|exact Hg|apply wf_vec2|exact Wg|exact Dg]).
  - destruct He as [<-|[]].
    apply (jac_diag thr draw rd hM DM (fun _ => 1)); [reflexivity|intros i j; reflexivity|].
    apply through; [|exact Wg|exact Dg].
    apply (bcast_same_eval hh 2%nat 0%nat gc xv Hg); rewrite Hv; reflexivity.
  - destruct He as [<-|[]].
    apply (jac_diag thr draw rd hM DM (fun _ => 1)); [reflexivity|intros i j; reflexivity|].
    apply through; [|exact Wg|exact Dg].
    apply (bcast_same_eval hh 1%nat 0%nat gc xv Hg); rewrite Hv; reflexivity.
  - destruct He.
Qed.

Definition valM (dl : assignment) (t : R) (n : nat) : assignment :=
  fun i => match n with
           | 0%nat | 1%nat | 2%nat => elt xv i + t * dl i
           | _ => (elt xv i + t * dl i) * (elt xv i + t * dl i)
           end.

Lemma hM_nodes (dl : assignment) n :
  In n (topoOrder hM 3) -> (0 < n)%nat -> node_ok hM DM (valM dl) n.
Proof.
  intros Hn Hgt. rewrite hM_order in Hn. destruct Hn as [<-|[<-|[<-|[<-|[]]]]]; [| | |lia].
  - (* the Mul node: the product rule *)
    apply (ok_mul hM DM (valM dl) 3 (1%nat, RMul 3 2) (2%nat, RMul 3 1)); try reflexivity.
    + intros i j. unfold DM, valM. cbn [Nat.eqb fst]. destruct (idx_eqb i j); [ring|reflexivity].
    + intros i j. unfold DM, valM. cbn [Nat.eqb fst]. destruct (idx_eqb i j); [ring|reflexivity].
    + intros Hf. cbv in Hf. discriminate Hf.
    + intros Hf. cbv in Hf. discriminate Hf.
  - apply (ok_pointwise hM DM (valM dl) 2 (0%nat, RBroadcast 2 0) (fun v => v) (fun _ => 1)); try reflexivity.
    intros j _. apply (is_derive_id (K:=R_AbsRing)).
  - apply (ok_pointwise hM DM (valM dl) 1 (0%nat, RBroadcast 1 0) (fun v => v) (fun _ => 1)); try reflexivity.
    intros j _. apply (is_derive_id (K:=R_AbsRing)).
Qed.

(* the gradient of  Σ_k x_k * x_k  left on x is 2 x *)
Theorem square_gradient :
  exists h' lg gx, bp_topo rd ids hM 3 = (h', lg, Ok tt) /\ gradOf h' 0 = Some gx /\
    elt gx [0%nat] = 2 * x0 /\ elt gx [1%nat] = 2 * x1 /\
    forall dl : assignment,
      is_derive (fun t => (x0 + t * dl [0%nat]) * (x0 + t * dl [0%nat]) +
                          (x1 + t * dl [1%nat]) * (x1 + t * dl [1%nat])) 0
                (elt gx [0%nat] * dl [0%nat] + elt gx [1%nat] * dl [1%nat]).
Proof.
  destruct (bp_grad_exists rd hM 3 0 hM_rules_own hM_wf_heap eq_refl) as (h' & lg & gx & E & Egx);
    [rewrite hM_order; do 3 right; left; reflexivity|exact hM_run|].
  exists h', lg, gx. split; [exact E|]. split; [exact Egx|].
  apply (pairing2_unique _ [0%nat] [1%nat]); [reflexivity| |].
  - intros dl. auto_derive; [exact I|ring].
  - (* every hypothesis of bp_total_derivative holds *)
    intros dl.
    apply (is_derive_eq (fun t => sumIdx [2%nat] (valM dl t 3)) _ 0 (sumIdx [2%nat] (fun i => elt gx i * dl i)));
      [intros t; apply sumIdx2|apply sumIdx2|].
    apply (bp_total_derivative thr draw rd hM 3%nat h' lg DM 0%nat dl gx (valM dl)
             hM_rules_own hM_wf_heap eq_refl E).
    + intros n _. apply gradOf_fresh. repeat constructor.
    + intros rv Hrv. injection Hrv as <-. apply wf_vec2.
    + exact hM_jac.
    + rewrite hM_order. do 3 right. left. reflexivity.
    + exact Egx.
    + intros n _ Hlt. lia.
    + intros t i. unfold valM. ring.
    + apply chain_hyp_of_nodes. apply hM_nodes.
Qed.

(* y = c.Div(x)  with c an UNTRACKED leaf: the Div node has one back edge to an untracked
       target (frozen operand, no Jacobian block needed) and one to a tracked one *)
Section Quot.
Variables c0 c1 : R.
Hypotheses (Hx0 : x0 <> 0) (Hx1 : x1 <> 0).

Definition cv : tensor R := vec2 c0 c1.
Definition qv : tensor R := vec2 (c0 / x0) (c1 / x1).

Definition hQ : @heap R :=
  [mkNode xv true false None [] None;
   mkNode cv false false None [] None;
   mkNode cv false false None [] None;
   mkNode xv true false None [(0%nat, RBroadcast 3 0)] None;
   mkNode qv true false None [(2%nat, RDivA 4 3); (3%nat, RDivB 4 2 3)] None].

Example hQ_built :
  let '(h0, x) := leaf [] xv true None in
  let '(h1, c) := leaf h0 cv false None in
  h_arith h1 BiDiv c x None = (hQ, Ok 4%nat).
Proof. vm_compute. reflexivity. Qed.

Example hQ_order : topoOrder hQ 4 = [4; 3; 0]%nat.
Proof. reflexivity. Qed.

Example hQ_run : exists h' lg, bp_topo rd ids hQ 4 = (h', lg, Ok tt).
Proof. apply bp_topo_runs. reflexivity. Qed.

Lemma hQ_rules_own : rules_own hQ.
Proof. apply edges_okb_spec. reflexivity. Qed.

Lemma hQ_wf_heap : wf_heap hQ.
Proof. apply edges_okb_spec. reflexivity. Qed.

Definition dQ (c : nat) (e : nat * @rule R) (j : list nat) : R :=
  if (c =? 4)%nat then (if (fst e =? 2)%nat then / elt xv j else - elt cv j / elt xv j ^ 2) else 1.
Definition DQ (c : nat) (e : nat * @rule R) (i j : list nat) : R :=
  if idx_eqb i j then dQ c e j else 0.

Lemma hQ_jac : jac_hyp thr draw rd hQ 4 DQ.
Proof.
  intros c e Hc He Ht hh gc Hv Hg Wg Dg. rewrite hQ_order in Hc.
  destruct Hc as [<-|[<-|[<-|[]]]].
  - destruct He as [<-|[<-|[]]].
    + (* the edge to the untracked broadcast of c is never evaluated *)
      cbv in Ht. discriminate Ht.
    + apply (jac_diag thr draw rd hQ DQ (fun j => - elt cv j / elt xv j ^ 2));
        [reflexivity|intros i j; reflexivity|].
      apply (rdivb_eval thr draw rd hh 4%nat 2%nat 3%nat cv xv gc);
        [rewrite Hv; reflexivity|rewrite Hv; reflexivity|exact Hg|apply wf_vec2|apply wf_vec2|exact Wg|exact Dg|reflexivity].
  - destruct He as [<-|[]].
    apply (jac_diag thr draw rd hQ DQ (fun _ => 1)); [reflexivity|intros i j; reflexivity|].
    apply through; [|exact Wg|exact Dg].
    apply (bcast_same_eval hh 3%nat 0%nat gc xv Hg); rewrite Hv; reflexivity.
  - destruct He.
Qed.

Definition valQ (dl : assignment) (t : R) (n : nat) : assignment :=
  fun i => match n with
           | 0%nat | 3%nat => elt xv i + t * dl i
           | 1%nat | 2%nat => elt cv i
           | _ => elt cv i / (elt xv i + t * dl i)
           end.

Lemma hQ_nodes (dl : assignment) n :
  In n (topoOrder hQ 4) -> (0 < n)%nat -> node_ok hQ DQ (valQ dl) n.
Proof.
  intros Hn Hgt. rewrite hQ_order in Hn. destruct Hn as [<-|[<-|[<-|[]]]]; [| |lia].
  - (* the Div node: the quotient rule; the numerator is frozen *)
    apply (ok_div hQ DQ (valQ dl) 4 (2%nat, RDivA 4 3) (3%nat, RDivB 4 2 3)); try reflexivity.
    + intros i j. unfold DQ, dQ, valQ. cbn [Nat.eqb fst]. destruct (idx_eqb i j); [|reflexivity].
      f_equal. ring.
    + intros i j. unfold DQ, dQ, valQ. cbn [Nat.eqb fst]. destruct (idx_eqb i j); [|reflexivity].
      replace (elt xv j + 0 * dl j) with (elt xv j) by ring. reflexivity.
    + intros j Hj. destruct (valid2 j Hj) as [-> | ->]; unfold valQ; cbn [fst].
      * change (elt xv [0%nat]) with x0. intros H. apply Hx0. lra.
      * change (elt xv [1%nat]) with x1. intros H. apply Hx1. lra.
    + intros _ t i _. reflexivity.
    + intros Hf. cbv in Hf. discriminate Hf.
  - apply (ok_pointwise hQ DQ (valQ dl) 3 (0%nat, RBroadcast 3 0) (fun v => v) (fun _ => 1)); try reflexivity.
    intros j _. apply (is_derive_id (K:=R_AbsRing)).
Qed.

(* the gradient of  Σ_k c_k / x_k  left on x is  - c / x² *)
Theorem quot_gradient :
  exists h' lg gx, bp_topo rd ids hQ 4 = (h', lg, Ok tt) /\ gradOf h' 0 = Some gx /\
    elt gx [0%nat] = - c0 / x0 ^ 2 /\ elt gx [1%nat] = - c1 / x1 ^ 2 /\
    forall dl : assignment,
      is_derive (fun t => c0 / (x0 + t * dl [0%nat]) + c1 / (x1 + t * dl [1%nat])) 0
                (elt gx [0%nat] * dl [0%nat] + elt gx [1%nat] * dl [1%nat]).
Proof.
  destruct (bp_grad_exists rd hQ 4 0 hQ_rules_own hQ_wf_heap eq_refl) as (h' & lg & gx & E & Egx);
    [rewrite hQ_order; do 2 right; left; reflexivity|exact hQ_run|].
  exists h', lg, gx. split; [exact E|]. split; [exact Egx|].
  apply (pairing2_unique _ [0%nat] [1%nat]); [reflexivity| |].
  - intros dl. auto_derive; [repeat split; lra|field; lra].
  - (* every hypothesis of bp_total_derivative holds *)
    intros dl.
    apply (is_derive_eq (fun t => sumIdx [2%nat] (valQ dl t 4)) _ 0 (sumIdx [2%nat] (fun i => elt gx i * dl i)));
      [intros t; apply sumIdx2|apply sumIdx2|].
    apply (bp_total_derivative thr draw rd hQ 4%nat h' lg DQ 0%nat dl gx (valQ dl)
             hQ_rules_own hQ_wf_heap eq_refl E).
    + intros n _. apply gradOf_fresh. repeat constructor.
    + intros rv Hrv. injection Hrv as <-. apply wf_vec2.
    + exact hQ_jac.
    + rewrite hQ_order. do 2 right. left. reflexivity.
    + exact Egx.
    + intros n _ Hlt. lia.
    + intros t i. unfold valQ. ring.
    + apply chain_hyp_of_nodes. apply hQ_nodes.
Qed.

End Quot.

(* y = x.MatMul(x.Transpose())  for a row vector x : [1,2]  (y = [[x0² + x1²]]): the MatMul node
       has two tracked operands that both depend on x, one of them through a Transpose (a linear
       gather node); derivative 2 x *)
Section MM.

Definition xr : tensor R := mkT [1%nat; 2%nat] (Vec [Vec [Sc x0; Sc x1]]).
Definition xc : tensor R := mkT [2%nat; 1%nat] (Vec [Vec [Sc x0]; Vec [Sc x1]]).
Definition pv : tensor R := mkT [1%nat; 1%nat] (Vec [Vec [Sc (0 + x0 * x0 + x1 * x1)]]).

Definition hT : @heap R :=
  [mkNode xr true false None [] None;
   mkNode xc true false None [(0%nat, RTranspose 1)] None;
   mkNode xr true false None [(0%nat, RBroadcast 2 0)] None;
   mkNode xc true false None [(1%nat, RBroadcast 3 1)] None;
   mkNode pv true false None [(2%nat, RMatMulA 4 3); (3%nat, RMatMulB 4 2)] None].

Example hT_built :
  let '(h0, x) := leaf [] xr true None in
  match h_transpose h0 x None with
  | (h1, Ok c) => h_matmul h1 x c None = (hT, Ok 4%nat)
  | _ => False
  end.
Proof. vm_compute. reflexivity. Qed.

Example hT_order : topoOrder hT 4 = [4; 3; 1; 2; 0]%nat.
Proof. reflexivity. Qed.

Example hT_run : exists h' lg, bp_topo rd ids hT 4 = (h', lg, Ok tt).
Proof. apply bp_topo_runs. reflexivity. Qed.

Lemma wf_xr : wf xr.  Proof. split; cbn; repeat constructor. Qed.
Lemma wf_xc : wf xc.  Proof. split; cbn; repeat constructor. Qed.
Lemma wf_pv : wf pv.  Proof. split; cbn; repeat constructor. Qed.

Lemma hT_rules_own : rules_own hT.
Proof. apply edges_okb_spec. reflexivity. Qed.

Lemma hT_wf_heap : wf_heap hT.
Proof. apply edges_okb_spec. reflexivity. Qed.

Definition sw (i : list nat) : list nat := [nth 1 i 0%nat; nth 0 i 0%nat].

(* MatMul blocks in the closed form of [chain_node_matmul2]; Transpose: a permutation matrix;
   same-shape Broadcast: the identity *)
Definition DT (c : nat) (e : nat * @rule R) (i j : list nat) : R :=
  match c with
  | 4%nat => if (fst e =? 2)%nat
             then (if (nth 0 i 0 =? nth 0 j 0)%nat then elt xc [nth 1 i 0%nat; nth 1 j 0%nat] else 0)
             else (if (nth 1 i 0 =? nth 1 j 0)%nat then elt xr [nth 0 j 0%nat; nth 0 i 0%nat] else 0)
  | 1%nat => if idx_eqb j (sw i) then 1 else 0
  | _ => if idx_eqb i j then 1 else 0
  end.

Lemma sumIdx11 (f : assignment) : sumIdx [1%nat; 1%nat] f = f [0%nat; 0%nat].
Proof. unfold sumIdx. cbn. ring. Qed.
Lemma sumIdx12 (f : assignment) : sumIdx [1%nat; 2%nat] f = f [0%nat; 0%nat] + f [0%nat; 1%nat].
Proof. unfold sumIdx. cbn. ring. Qed.
Lemma sumIdx21 (f : assignment) : sumIdx [2%nat; 1%nat] f = f [0%nat; 0%nat] + f [1%nat; 0%nat].
Proof. unfold sumIdx. cbn. ring. Qed.

Lemma hT_jac : jac_hyp thr draw rd hT 4 DT.
Proof.
  intros c e Hc He Ht hh gc Hv Hg Wg Dg. rewrite hT_order in Hc.
  destruct Hc as [<-|[<-|[<-|[<-|[<-|[]]]]]].
  - destruct He as [<-|[<-|[]]]; cbn [fst snd].
    + (* RMatMulA: gy · (x^T)^T *)
      assert (Hb : valOf hh 3 = Some xc) by (rewrite Hv; reflexivity).
      destruct (VjpLinalgP.rmatmula_eval thr draw rd hh 4%nat 3%nat xc gc [] 1%nat 2%nat 1%nat Hb Hg wf_xc Wg eq_refl Dg)
        as (g & Eg & Dgg & Wgg & Gg).
      exists g. split; [exact Eg|]. split; [exact Dgg|]. split; [exact Wgg|].
      intros i Hi. change (dimsOf hT 2) with [1%nat; 2%nat] in Hi.
      apply valid2d_inv in Hi as (r & k & -> & Hr & Hk).
      pose proof (Gg [] r k (Forall2_nil _) Hr Hk) as G1. cbn [app] in G1. rewrite G1.
      change (dimsOf hT 4) with [1%nat; 1%nat]. rewrite sumIdx11.
      unfold VjpLinalgP.sumN, DT. cbn [seq map fold_right fst Nat.eqb nth].
      assert (r = 0%nat) by lia. subst r. cbn [Nat.eqb]. ring.
    + (* RMatMulB: x^T · gy *)
      assert (Ha : valOf hh 2 = Some xr) by (rewrite Hv; reflexivity).
      destruct (VjpLinalgP.rmatmulb_eval thr draw rd hh 4%nat 2%nat xr gc [] 1%nat 2%nat 1%nat Ha Hg wf_xr Wg eq_refl Dg)
        as (g & Eg & Dgg & Wgg & Gg).
      exists g. split; [exact Eg|]. split; [exact Dgg|]. split; [exact Wgg|].
      intros i Hi. change (dimsOf hT 3) with [2%nat; 1%nat] in Hi.
      apply valid2d_inv in Hi as (k & c & -> & Hk & Hc).
      pose proof (Gg [] k c (Forall2_nil _) Hk Hc) as G1. cbn [app] in G1. rewrite G1.
      change (dimsOf hT 4) with [1%nat; 1%nat]. rewrite sumIdx11.
      unfold VjpLinalgP.sumN, DT. cbn [seq map fold_right fst Nat.eqb nth].
      assert (c = 0%nat) by lia. subst c. cbn [Nat.eqb]. ring.
  - destruct He as [<-|[]].
    apply (jac_diag thr draw rd hT DT (fun _ => 1)); [reflexivity|intros i j; reflexivity|].
    apply through; [|exact Wg|exact Dg].
    apply (bcast_same_eval hh 3%nat 1%nat gc xc Hg); rewrite Hv; reflexivity.
  - (* RTranspose *)
    destruct He as [<-|[]]. cbn [fst snd].
    destruct (VjpLinalgP.rtranspose_eval thr draw rd hh 1%nat gc [] 1%nat 2%nat Hg Wg Dg)
      as (g & Eg & Dgg & Wgg & Gg).
    exists g. split; [exact Eg|]. split; [exact Dgg|]. split; [exact Wgg|].
    intros i Hi. change (dimsOf hT 0) with [1%nat; 2%nat] in Hi.
    apply valid2d_inv in Hi as (r & k & -> & Hr & Hk).
    pose proof (Gg [] r k (Forall2_nil _) Hr Hk) as G1. cbn [app] in G1. rewrite G1.
    unfold DT, sw. cbn [nth].
    rewrite (sumIdx_ext (dimsOf hT 1) _ (fun j => if idx_eqb j [k; r] then elt gc j else 0)).
    2:{ intros j _. destruct (idx_eqb j [k; r]); ring. }
    symmetry. apply (sumIdx_single (dimsOf hT 1) [k; r] (elt gc)). apply valid2d_intro; assumption.
  - destruct He as [<-|[]].
    apply (jac_diag thr draw rd hT DT (fun _ => 1)); [reflexivity|intros i j; reflexivity|].
    apply through; [|exact Wg|exact Dg].
    apply (bcast_same_eval hh 2%nat 0%nat gc xr Hg); rewrite Hv; reflexivity.
  - destruct He.
Qed.

Definition valT (dl : assignment) (t : R) (n : nat) : assignment :=
  fun i => match n with
           | 0%nat | 2%nat => elt xr i + t * dl i
           | 1%nat | 3%nat => elt xc i + t * dl (sw i)
           | _ => sumN 2 (fun k => (elt xr [nth 0 i 0%nat; k] + t * dl [nth 0 i 0%nat; k]) *
                                   (elt xc [k; nth 1 i 0%nat] + t * dl [nth 1 i 0%nat; k]))
           end.

Lemma hT_nodes (dl : assignment) n :
  In n (topoOrder hT 4) -> (0 < n)%nat -> node_ok hT DT (valT dl) n.
Proof.
  intros Hn Hgt. rewrite hT_order in Hn. destruct Hn as [<-|[<-|[<-|[<-|[<-|[]]]]]]; [| | | |lia].
  - (* the MatMul node *)
    apply (ok_matmul2 hT DT (valT dl) 4 (2%nat, RMatMulA 4 3) (3%nat, RMatMulB 4 2) 1 2 1); try reflexivity.
    + intros r k r' c. unfold DT, valT. cbn [fst Nat.eqb nth]. destruct (r =? r')%nat; [ring|reflexivity].
    + intros k c r c'. unfold DT, valT. cbn [fst Nat.eqb nth]. destruct (c =? c')%nat; [ring|reflexivity].
    + intros Hf. cbv in Hf. discriminate Hf.
    + intros Hf. cbv in Hf. discriminate Hf.
  - (* Broadcast (same shape) of x^T *)
    apply (ok_pointwise hT DT (valT dl) 3 (1%nat, RBroadcast 3 1) (fun v => v) (fun _ => 1)); try reflexivity.
    intros j _. apply (is_derive_id (K:=R_AbsRing)).
  - (* Transpose: a single-edge gather node *)
    apply (ok_linear hT DT (valT dl) 1 (0%nat, RTranspose 1) (fun _ => 0)); try reflexivity.
    intros t j Hj. change (dimsOf hT 1) with [2%nat; 1%nat] in Hj.
    apply valid2d_inv in Hj as (k & c & -> & Hk & Hc). assert (c = 0%nat) by lia. subst c.
    cbn [fst]. change (dimsOf hT 0) with [1%nat; 2%nat]. rewrite sumIdx12.
    unfold DT, sw. cbn [nth]. rewrite !idx_eqb2.
    destruct k as [|[|k]]; [| |lia]; cbn [Nat.eqb andb]; unfold valT, sw, elt; cbn; ring.
  - (* Broadcast (same shape) of x *)
    apply (ok_pointwise hT DT (valT dl) 2 (0%nat, RBroadcast 2 0) (fun v => v) (fun _ => 1)); try reflexivity.
    intros j _. apply (is_derive_id (K:=R_AbsRing)).
Qed.

(* the gradient of  x·xᵀ = x0² + x1²  left on x is 2 x *)
Theorem gram_gradient :
  exists h' lg gx, bp_topo rd ids hT 4 = (h', lg, Ok tt) /\ gradOf h' 0 = Some gx /\
    elt gx [0%nat; 0%nat] = 2 * x0 /\ elt gx [0%nat; 1%nat] = 2 * x1 /\
    forall dl : assignment,
      is_derive (fun t => (x0 + t * dl [0%nat; 0%nat]) * (x0 + t * dl [0%nat; 0%nat]) +
                          (x1 + t * dl [0%nat; 1%nat]) * (x1 + t * dl [0%nat; 1%nat])) 0
                (elt gx [0%nat; 0%nat] * dl [0%nat; 0%nat] + elt gx [0%nat; 1%nat] * dl [0%nat; 1%nat]).
Proof.
  destruct (bp_grad_exists rd hT 4 0 hT_rules_own hT_wf_heap eq_refl) as (h' & lg & gx & E & Egx);
    [rewrite hT_order; do 4 right; left; reflexivity|exact hT_run|].
  exists h', lg, gx. split; [exact E|]. split; [exact Egx|].
  apply (pairing2_unique _ [0%nat; 0%nat] [0%nat; 1%nat]); [reflexivity| |].
  - intros dl. auto_derive; [exact I|ring].
  - (* every hypothesis of bp_total_derivative holds *)
    intros dl.
    apply (is_derive_eq (fun t => sumIdx [1%nat; 1%nat] (valT dl t 4)) _ 0 (sumIdx [1%nat; 2%nat] (fun i => elt gx i * dl i)));
      [intros t; rewrite sumIdx11; unfold valT, sumN, lsum, elt; cbn; ring|apply sumIdx12|].
    apply (bp_total_derivative thr draw rd hT 4%nat h' lg DT 0%nat dl gx (valT dl)
             hT_rules_own hT_wf_heap eq_refl E).
    + intros n _. apply gradOf_fresh. repeat constructor.
    + intros rv Hrv. injection Hrv as <-. apply wf_pv.
    + exact hT_jac.
    + rewrite hT_order. do 4 right. left. reflexivity.
    + exact Egx.
    + intros n _ Hlt. lia.
    + intros t i. unfold valT. ring.
    + apply chain_hyp_of_nodes. apply hT_nodes.
Qed.

End MM.

End Ex.
End TotalDeriv2Example.

Print Assumptions curve_diff2_of_filterdiff.
Print Assumptions curve_diff2_of_partials.
Print Assumptions chain_node_linear_multi.
Print Assumptions chain_node_pointwise2.
Print Assumptions chain_node_mul.
Print Assumptions chain_node_div.
Print Assumptions chain_node_bilinear.
Print Assumptions chain_node_matmul2.
Print Assumptions chain_hyp_of_nodes.
Print Assumptions TotalDeriv2Example.diamond_gradient.
Print Assumptions TotalDeriv2Example.square_gradient.
Print Assumptions TotalDeriv2Example.quot_gradient.
Print Assumptions TotalDeriv2Example.gram_gradient.
