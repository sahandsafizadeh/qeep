(* TotalDeriv3P.v — the chain-rule step ([chain_hyp] of TotalDerivP.v, per node as in TotalDeriv2P.v)
   for the node kinds TotalDeriv2P.v leaves open.
   1. ElMax / ElMin away from ties: [curve_diff2_max_gt/_lt], [curve_diff2_min_lt/_gt] (Rmax / Rmin is
      locally a projection along any pair of curves that are differentiable, hence continuous, at 0),
      [chain_node_elmax], [chain_node_elmin]; the guard is necessary: [curve_diff2_max_tie_refuted],
      [curve_diff2_min_tie_refuted].
   2. Pow: [chain_node_pow_pos] (base > 0, any real exponent), [chain_node_pow_nat] (natural exponent
      >= 1, any base), [chain_node_pow_zero] (exponent 0, the rule that returns zeros).
   3. reductions along a dimension: [curve_diffN] (differentiability of a function of N values along
      families of curves), [curve_diffN_ext] (max / min with a unique strict extremum), [curve_diffN_var],
      [curve_diffN_std] (variance > 0); [chain_node_fibrewise] (a node whose elements are functions of
      gathered operand elements, gather-form Jacobian), [chain_node_along] (fibres along [dim], Jacobian
      in the closed form  [del dim i = j] * cc i  the rules use), [chain_node_varAlong],
      [chain_node_stdAlong], [chain_node_extAlong] (MaxAlong / MinAlong).
   [node_ok3] / [node_ok3_chain] / [chain_hyp_of_nodes3]: the per-node case analysis of TotalDeriv2P.v
   extended by these constructors.
   Module [TotalDeriv3Example]: heaps built by the model's own h_* functions, all hypotheses of
   bp_total_derivative discharged:  y = x.ElMax(c), c untracked ([elmax_gradient]: [c < x]);
   y = x.Pow(a) ([pow_gradient]; [cube_gradient]: 3 x² at any x; [rpower_gradient]: a x^(a-1), x > 0);
   y = x.VarAlong(0) ([var_gradient]: (x0 - x1, x1 - x0));  y = x.MaxAlong(0) ([maxalong_gradient]: (1, 0)). *)
From Coq Require Import List Arith ZArith Bool Lia Reals Lra.
From Coquelicot Require Import Coquelicot.
From Qeep Require Import Model.Scalar Model.Nd Model.Fill Model.Data Model.Valid Model.Api Model.Grad Model.Backprop.
From Qeep Require Import Proofs.NdP Proofs.ElemP Proofs.ArithP Proofs.BackpropP.
From Qeep Require Import Spec.RScalar Spec.ScalarDeriv Spec.VjpSpec.
From Qeep Require Import Proofs.VjpGatherP Proofs.VjpElemP Proofs.TotalDerivP Proofs.TotalDeriv2P.
From Qeep Require Proofs.ReduceP Proofs.ReduceRP Proofs.VjpReduceP.   (* not imported: VjpReduceP has its own (convertible) sumN *)
Import ListNotations.
Local Open Scope R_scope.

(* two curves that are differentiable at 0 and ordered there stay ordered near 0 *)
Lemma curves_lt_locally (u v : R -> R) (du dv : R) :
  is_derive u 0 du -> is_derive v 0 dv -> u 0 < v 0 -> locally 0 (fun t => u t < v t).
Proof.
  intros Du Dv Hlt.
  assert (Cu : continuous u 0)
    by (apply (ex_derive_continuous (K:=R_AbsRing) (V:=R_NormedModule) u 0); exists du; exact Du).
  assert (Cv : continuous v 0)
    by (apply (ex_derive_continuous (K:=R_AbsRing) (V:=R_NormedModule) v 0); exists dv; exact Dv).
  pose proof (continuous_minus (K:=R_AbsRing) (V:=R_NormedModule) v u 0 Cv Cu) as Cm.
  assert (H0 : 0 < minus (v 0) (u 0)) by (unfold minus, plus, opp; cbn; lra).
  pose proof (Cm (fun y => 0 < y) (locally_open (fun y => 0 < y) (fun y => 0 < y) (open_gt 0)
                                     (fun y Hy => Hy) _ H0)) as HL.
  unfold filtermap in HL.
  apply (filter_imp (fun t => 0 < minus (v t) (u t))); [|exact HL].
  intros t Ht. unfold minus, plus, opp in Ht; cbn in Ht. lra.
Qed.

(* a function that returns one of its arguments wherever they are ordered like a0 < b0 is, along
   curves through (a0, b0), locally that argument *)
Lemma curve_diff2_pick (f : R -> R -> R) (first : bool) a0 b0 :
  a0 < b0 -> (forall a b, a < b -> f a b = if first then a else b) ->
  curve_diff2 f a0 b0 (if first then 1 else 0) (if first then 0 else 1).
Proof.
  intros Hlt Hf u v du dv Hu Hv Du Dv.
  apply (is_derive_ext_loc (fun t => if first then u t else v t)).
  - apply (filter_imp (fun t => u t < v t)); [intros t Ht; symmetry; apply Hf; exact Ht|].
    apply (curves_lt_locally u v du dv Du Dv). rewrite Hu, Hv. exact Hlt.
  - destruct first; [replace (1 * du + 0 * dv) with du by ring|replace (0 * du + 1 * dv) with dv by ring];
      assumption.
Qed.

Lemma curve_diff2_swap (f : R -> R -> R) a0 b0 d1 d2 :
  curve_diff2 (fun a b => f b a) b0 a0 d2 d1 -> curve_diff2 f a0 b0 d1 d2.
Proof. intros H u v du dv Hu Hv Du Dv. rewrite Rplus_comm. exact (H v u dv du Hv Hu Dv Du). Qed.

Lemma curve_diff2_max_lt a0 b0 : a0 < b0 -> curve_diff2 Rmax a0 b0 0 1.
Proof. intros Hlt. apply (curve_diff2_pick Rmax false a0 b0 Hlt). intros a b H. apply Rmax_right. lra. Qed.

Lemma curve_diff2_min_lt a0 b0 : a0 < b0 -> curve_diff2 Rmin a0 b0 1 0.
Proof. intros Hlt. apply (curve_diff2_pick Rmin true a0 b0 Hlt). intros a b H. apply Rmin_left. lra. Qed.

Lemma curve_diff2_max_gt a0 b0 : b0 < a0 -> curve_diff2 Rmax a0 b0 1 0.
Proof.
  intros Hlt. apply curve_diff2_swap, (curve_diff2_pick (fun a b => Rmax b a) false b0 a0 Hlt).
  intros a b H. apply Rmax_left. lra.
Qed.

Lemma curve_diff2_min_gt a0 b0 : b0 < a0 -> curve_diff2 Rmin a0 b0 0 1.
Proof.
  intros Hlt. apply curve_diff2_swap, (curve_diff2_pick (fun a b => Rmin b a) true b0 a0 Hlt).
  intros a b H. apply Rmin_right. lra.
Qed.

(* the partial derivatives in the form the back edges carry them: [other < this] *)
Definition selgt (a b : R) : R := if Rlt_dec b a then 1 else 0.

Lemma curve_diff2_max a0 b0 : a0 <> b0 -> curve_diff2 Rmax a0 b0 (selgt a0 b0) (selgt b0 a0).
Proof.
  intros Hne. unfold selgt. destruct (Rlt_dec b0 a0) as [L|N]; destruct (Rlt_dec a0 b0) as [L'|N'].
  - lra.
  - apply curve_diff2_max_gt. exact L.
  - apply curve_diff2_max_lt. exact L'.
  - exfalso. apply Hne. lra.
Qed.

Lemma curve_diff2_min a0 b0 : a0 <> b0 -> curve_diff2 Rmin a0 b0 (selgt b0 a0) (selgt a0 b0).
Proof.
  intros Hne. unfold selgt. destruct (Rlt_dec b0 a0) as [L|N]; destruct (Rlt_dec a0 b0) as [L'|N'].
  - lra.
  - apply curve_diff2_min_gt. exact L.
  - apply curve_diff2_min_lt. exact L'.
  - exfalso. apply Hne. lra.
Qed.

(* the guard is necessary: at a tie no pair (d1, d2) works *)
Lemma abs_not_derivable (c l : R) : ~ is_derive (fun t => c + Rabs t) 0 l.
Proof.
  intros H. apply is_derive_Reals in H. destruct (H (/ 2) ltac:(lra)) as (delta & Hd).
  assert (Hp : 0 < delta / 2) by (pose proof (cond_pos delta); lra).
  assert (Hlt : Rabs (delta / 2) < delta)
    by (rewrite Rabs_right by lra; pose proof (cond_pos delta); lra).
  pose proof (Hd (delta / 2) ltac:(lra) Hlt) as H1.
  assert (Hlt' : Rabs (- (delta / 2)) < delta) by (rewrite Rabs_Ropp; exact Hlt).
  pose proof (Hd (- (delta / 2)) ltac:(lra) Hlt') as H2.
  rewrite !Rplus_0_l, Rabs_R0 in H1, H2.
  rewrite Rabs_Ropp in H2. rewrite (Rabs_right (delta / 2)) in H1, H2 by lra.
  replace ((c + delta / 2 - (c + 0)) / (delta / 2) - l) with (1 - l) in H1 by (field; lra).
  replace ((c + delta / 2 - (c + 0)) / - (delta / 2) - l) with (- 1 - l) in H2 by (field; lra).
  apply Rabs_def2 in H1. apply Rabs_def2 in H2. lra.
Qed.

Theorem curve_diff2_max_tie_refuted a d1 d2 : ~ curve_diff2 Rmax a a d1 d2.
Proof.
  intros H.
  assert (Du : is_derive (fun t : R => a + t) 0 1) by (auto_derive; [exact I|ring]).
  assert (Dv : is_derive (fun t : R => a - t) 0 (-1)) by (auto_derive; [exact I|ring]).
  pose proof (H (fun t => a + t) (fun t => a - t) 1 (-1) ltac:(cbv beta; ring) ltac:(cbv beta; ring) Du Dv) as Hm.
  apply (abs_not_derivable a (d1 * 1 + d2 * -1)).
  apply (is_derive_ext (fun t => Rmax (a + t) (a - t))); [|exact Hm].
  intros t. unfold Rmax, Rabs. destruct (Rle_dec (a + t) (a - t)); destruct (Rcase_abs t); lra.
Qed.

Theorem curve_diff2_min_tie_refuted a d1 d2 : ~ curve_diff2 Rmin a a d1 d2.
Proof.
  intros H.
  assert (Du : is_derive (fun t : R => a - t) 0 (-1)) by (auto_derive; [exact I|ring]).
  assert (Dv : is_derive (fun t : R => a + t) 0 1) by (auto_derive; [exact I|ring]).
  pose proof (H (fun t => a - t) (fun t => a + t) (-1) 1 ltac:(cbv beta; ring) ltac:(cbv beta; ring) Du Dv) as Hm.
  apply (abs_not_derivable (- a) (- (d1 * -1 + d2 * 1))).
  apply (is_derive_ext (fun t => opp (Rmin (a - t) (a + t)))).
  - intros t. unfold opp; cbn. unfold Rmin, Rabs.
    destruct (Rle_dec (a - t) (a + t)); destruct (Rcase_abs t); lra.
  - apply (is_derive_opp (fun t => Rmin (a - t) (a + t)) 0 (d1 * -1 + d2 * 1) Hm).
Qed.

Section Chain3.
Variable h : @heap R.
Variable D : nat -> nat * @rule R -> list nat -> list nat -> R.
Variable val : R -> nat -> assignment.

(* y = ElMax(a, b): the back edges are (a, RElSel y a b), (b, RElSel y b a); away from the equality
   threshold the rule hands gy to the larger operand:  D n e1 = diag [b < a],  D n e2 = diag [a < b].
   Guard: the two operands differ at every position (at t = 0). *)
Theorem chain_node_elmax (dm : nat -> assignment) n e1 e2 :
  edgesOf h n = [e1; e2] ->
  dimsOf h (fst e1) = dimsOf h n -> dimsOf h (fst e2) = dimsOf h n ->
  (forall i j, D n e1 i j = if idx_eqb i j then selgt (val 0 (fst e1) j) (val 0 (fst e2) j) else 0) ->
  (forall i j, D n e2 i j = if idx_eqb i j then selgt (val 0 (fst e2) j) (val 0 (fst e1) j) else 0) ->
  (forall t j, validIdx (dimsOf h n) j -> val t n j = Rmax (val t (fst e1) j) (val t (fst e2) j)) ->
  (forall j, validIdx (dimsOf h n) j -> val 0 (fst e1) j <> val 0 (fst e2) j) ->
  (trackedOf h (fst e1) = false -> frozen h val (fst e1)) ->
  (trackedOf h (fst e2) = false -> frozen h val (fst e2)) ->
  ops_diff h val dm n ->
  forall j, validIdx (dimsOf h n) j -> is_derive (fun t => val t n j) 0 (Jt h D dm n j).
Proof.
  intros He Hd1 Hd2 HD1 HD2 Hv Hne.
  apply (chain_node_pointwise2 h D val dm n e1 e2 Rmax
           (fun j => selgt (val 0 (fst e1) j) (val 0 (fst e2) j))
           (fun j => selgt (val 0 (fst e2) j) (val 0 (fst e1) j)) He Hd1 Hd2 HD1 HD2 Hv).
  intros j Hj. apply curve_diff2_max. apply Hne. exact Hj.
Qed.

(* y = ElMin(a, b): gy goes to the smaller operand:  D n e1 = diag [a < b],  D n e2 = diag [b < a] *)
Theorem chain_node_elmin (dm : nat -> assignment) n e1 e2 :
  edgesOf h n = [e1; e2] ->
  dimsOf h (fst e1) = dimsOf h n -> dimsOf h (fst e2) = dimsOf h n ->
  (forall i j, D n e1 i j = if idx_eqb i j then selgt (val 0 (fst e2) j) (val 0 (fst e1) j) else 0) ->
  (forall i j, D n e2 i j = if idx_eqb i j then selgt (val 0 (fst e1) j) (val 0 (fst e2) j) else 0) ->
  (forall t j, validIdx (dimsOf h n) j -> val t n j = Rmin (val t (fst e1) j) (val t (fst e2) j)) ->
  (forall j, validIdx (dimsOf h n) j -> val 0 (fst e1) j <> val 0 (fst e2) j) ->
  (trackedOf h (fst e1) = false -> frozen h val (fst e1)) ->
  (trackedOf h (fst e2) = false -> frozen h val (fst e2)) ->
  ops_diff h val dm n ->
  forall j, validIdx (dimsOf h n) j -> is_derive (fun t => val t n j) 0 (Jt h D dm n j).
Proof.
  intros He Hd1 Hd2 HD1 HD2 Hv Hne.
  apply (chain_node_pointwise2 h D val dm n e1 e2 Rmin
           (fun j => selgt (val 0 (fst e2) j) (val 0 (fst e1) j))
           (fun j => selgt (val 0 (fst e1) j) (val 0 (fst e2) j)) He Hd1 Hd2 HD1 HD2 Hv).
  intros j Hj. apply curve_diff2_min. apply Hne. exact Hj.
Qed.

(* y = x.Pow(a): one back edge (x, RPow y x a azero).  With azero = false the rule computes
   gy * (a * x^(a-1)) with the model's power [Rpow] (rpow_eval), so  D n e = diag (a * Rpow x (a-1)). *)

(* the operand hypothesis of the single-edge lemmas of TotalDerivP.v from [ops_diff] *)
Lemma ops_diff_single (dm : nat -> assignment) n e :
  edgesOf h n = [e] -> trackedOf h (fst e) = true -> ops_diff h val dm n ->
  forall i, validIdx (dimsOf h (fst e)) i -> is_derive (fun t => val t (fst e) i) 0 (dm (fst e) i).
Proof.
  intros He Ht Hd i Hi. apply (Hd e); [rewrite He; left; reflexivity|exact Ht|exact Hi].
Qed.

(* Pow: every element of the base positive, arbitrary real exponent *)
Theorem chain_node_pow_pos (dm : nat -> assignment) n e (a : R) :
  edgesOf h n = [e] -> trackedOf h (fst e) = true -> dimsOf h (fst e) = dimsOf h n ->
  (forall i j, D n e i j = if idx_eqb i j then a * Rpow (val 0 (fst e) j) (a - 1) else 0) ->
  (forall t j, validIdx (dimsOf h n) j -> val t n j = Rpow (val t (fst e) j) a) ->
  (forall j, validIdx (dimsOf h n) j -> 0 < val 0 (fst e) j) ->
  ops_diff h val dm n ->
  forall j, validIdx (dimsOf h n) j -> is_derive (fun t => val t n j) 0 (Jt h D dm n j).
Proof.
  intros He Ht Hdim HD Hv Hpos Hd.
  apply (chain_node_pointwise h D val dm n e (fun v => Rpow v a)
           (fun j => a * Rpow (val 0 (fst e) j) (a - 1)) He Ht Hdim HD Hv).
  - intros j Hj. rewrite (Rpow_pos _ (a - 1) (Hpos j Hj)). apply d_Rpow_pos. apply Hpos. exact Hj.
  - apply (ops_diff_single dm n e He Ht Hd).
Qed.

(* Pow: natural exponent k >= 1, at EVERY base (zero and negative elements included) *)
Theorem chain_node_pow_nat (dm : nat -> assignment) n e (a : R) (k : nat) :
  a = INR k -> (1 <= k)%nat ->
  edgesOf h n = [e] -> trackedOf h (fst e) = true -> dimsOf h (fst e) = dimsOf h n ->
  (forall i j, D n e i j = if idx_eqb i j then a * Rpow (val 0 (fst e) j) (a - 1) else 0) ->
  (forall t j, validIdx (dimsOf h n) j -> val t n j = Rpow (val t (fst e) j) a) ->
  ops_diff h val dm n ->
  forall j, validIdx (dimsOf h n) j -> is_derive (fun t => val t n j) 0 (Jt h D dm n j).
Proof.
  intros Ea Hk He Ht Hdim HD Hv Hd. subst a.
  apply (chain_node_pointwise h D val dm n e (fun v => Rpow v (INR k))
           (fun j => INR k * Rpow (val 0 (fst e) j) (INR k - 1)) He Ht Hdim HD Hv).
  - intros j Hj. rewrite (INR_pred k Hk), Rpow_INR. apply d_Rpow_nat.
  - apply (ops_diff_single dm n e He Ht Hd).
Qed.

(* Pow: exponent 0 (azero = true: the rule returns zeros): x^0 = 1 everywhere, D n e = 0 *)
Theorem chain_node_pow_zero (dm : nat -> assignment) n e :
  edgesOf h n = [e] -> trackedOf h (fst e) = true -> dimsOf h (fst e) = dimsOf h n ->
  (forall i j, D n e i j = 0) ->
  (forall t j, validIdx (dimsOf h n) j -> val t n j = Rpow (val t (fst e) j) 0) ->
  ops_diff h val dm n ->
  forall j, validIdx (dimsOf h n) j -> is_derive (fun t => val t n j) 0 (Jt h D dm n j).
Proof.
  intros He Ht Hdim HD Hv Hd.
  apply (chain_node_pointwise h D val dm n e (fun v => Rpow v 0) (fun _ => 0) He Ht Hdim).
  - intros i j. rewrite HD. destruct (idx_eqb i j); reflexivity.
  - exact Hv.
  - intros j _. apply d_Rpow_0.
  - apply (ops_diff_single dm n e He Ht Hd).
Qed.

End Chain3.

Module VR := Qeep.Proofs.VjpReduceP.
Module RP := Qeep.Proofs.ReduceP.

(* phi : (nat -> R) -> R, a function of the first N values, is differentiable at w0 with partial
   derivatives c, in the form the node lemma uses: along every family of curves through w0 *)
Definition curve_diffN (N : nat) (phi : (nat -> R) -> R) (w0 c : nat -> R) : Prop :=
  forall (w : R -> nat -> R) (dw : nat -> R),
    (forall k, w 0 k = w0 k) ->
    (forall k, (k < N)%nat -> is_derive (fun t => w t k) 0 (dw k)) ->
    is_derive (fun t => phi (w t)) 0 (sumN N (fun k => c k * dw k)).

Lemma locally_forall_lt (N : nat) (P : nat -> R -> Prop) (x : R) :
  (forall k, (k < N)%nat -> locally x (P k)) ->
  locally x (fun t => forall k, (k < N)%nat -> P k t).
Proof.
  induction N as [|N IH]; intros H.
  - apply filter_forall. intros t k Hk. lia.
  - apply (filter_imp (fun t => (forall k, (k < N)%nat -> P k t) /\ P N t)).
    + intros t [H1 H2] k Hk. destruct (Nat.eq_dec k N) as [->|Ne]; [exact H2|apply H1; lia].
    + apply filter_and; [apply IH; intros k Hk; apply H; lia|apply H; lia].
Qed.

(* maximum (sg = 1) / minimum (sg = -1) with a unique strict extremum at ks: locally the coordinate ks *)
Lemma curve_diffN_ext sg N M w0 ks : sg = 1 \/ sg = -1 -> VR.is_ext sg N M -> (ks < N)%nat ->
  (forall k, (k < N)%nat -> k <> ks -> sg * w0 k < sg * w0 ks) ->
  curve_diffN N M w0 (fun k => if (k =? ks)%nat then 1 else 0).
Proof.
  intros Hs HM Hks Hst w dw Hw0 Hd.
  rewrite (sumN_ext N _ (fun k => if (k =? ks)%nat then dw k else 0))
    by (intros k _; destruct (k =? ks)%nat; ring).
  rewrite (sumN_single N ks dw Hks).
  apply (is_derive_ext_loc (fun t => w t ks)); [|apply Hd; exact Hks].
  apply (filter_imp (fun t => forall k, (k < N)%nat -> k <> ks -> sg * w t k < sg * w t ks)).
  { intros t Ht. symmetry. apply (VR.ext_unique sg N M (w t) ks HM Hks Ht). }
  apply (locally_forall_lt N (fun k t => k <> ks -> sg * w t k < sg * w t ks)). intros k Hk.
  destruct (Nat.eq_dec k ks) as [->|Ne].
  - apply filter_forall. intros t N0. contradiction.
  - apply (filter_imp (fun t => sg * w t k < sg * w t ks)); [intros t Ht _; exact Ht|].
    apply (curves_lt_locally (fun t => sg * w t k) (fun t => sg * w t ks) (sg * dw k) (sg * dw ks)).
    + apply is_derive_scal. apply Hd. exact Hk.
    + apply is_derive_scal. apply Hd. exact Hks.
    + cbv beta. rewrite !Hw0. apply Hst; assumption.
Qed.

Lemma curve_mean_derive N (w : R -> nat -> R) (dw : nat -> R) :
  (forall k, (k < N)%nat -> is_derive (fun t => w t k) 0 (dw k)) ->
  is_derive (fun t => VR.meanN N (w t)) 0 (lsum (seq 0 N) dw / INR N).
Proof.
  intros Hd.
  apply (is_derive_ext (fun t => / INR N * lsum (seq 0 N) (w t))).
  { intros t. unfold VR.meanN, Rdiv. rewrite Rmult_comm. reflexivity. }
  replace (lsum (seq 0 N) dw / INR N) with (/ INR N * lsum (seq 0 N) dw) by (unfold Rdiv; ring).
  apply is_derive_scal.
  apply (is_derive_lsum (seq 0 N) (fun t k => w t k) dw 0).
  intros k Hk. apply in_seq in Hk. apply Hd. lia.
Qed.

(* the unbiased sample variance: a polynomial; partial derivatives 2 (w_k - mean) / (N - 1) *)
Lemma curve_diffN_var N w0 :
  curve_diffN N (VR.varN N) w0
    (fun k => if (1 <? N)%nat then 2 * (w0 k - VR.meanN N w0) / (INR N - 1) else 0).
Proof.
  intros w dw Hw0 Hd. unfold VR.varN. destruct (1 <? N)%nat eqn:E1.
  2:{ rewrite (sumN_ext N _ (fun _ => 0)) by (intros; ring). unfold sumN. rewrite lsum_zero.
      apply (is_derive_const 0 0). }
  apply Nat.ltb_lt in E1.
  assert (Hn1 : INR N - 1 <> 0) by (rewrite <- VR.INR_minus1 by lia; apply not_0_INR; lia).
  set (dmu := lsum (seq 0 N) dw / INR N).
  pose proof (curve_mean_derive N w dw Hd) as Dm. fold dmu in Dm.
  set (a := fun k : nat => w 0 k - VR.meanN N (w 0)).
  assert (DS : is_derive (fun t => lsum (seq 0 N)
                 (fun k => (w t k - VR.meanN N (w t)) * (w t k - VR.meanN N (w t)))) 0
                 (lsum (seq 0 N) (fun k => a k * (dw k - dmu) + a k * (dw k - dmu)))).
  { apply (is_derive_lsum (seq 0 N)
             (fun t k => (w t k - VR.meanN N (w t)) * (w t k - VR.meanN N (w t)))).
    intros k Hk. apply in_seq in Hk.
    assert (Dg : is_derive (fun t => w t k - VR.meanN N (w t)) 0 (dw k - dmu)).
    { apply (is_derive_minus (fun t => w t k) (fun t => VR.meanN N (w t)) 0 (dw k) dmu);
        [apply Hd; lia|exact Dm]. }
    apply (curve_diff2_mult (a k) (a k) (fun t => w t k - VR.meanN N (w t))
             (fun t => w t k - VR.meanN N (w t)) (dw k - dmu) (dw k - dmu)); try reflexivity; exact Dg. }
  apply (is_derive_ext (fun t => / (INR N - 1) * lsum (seq 0 N)
           (fun k => (w t k - VR.meanN N (w t)) * (w t k - VR.meanN N (w t))))).
  { intros t. unfold Rdiv. rewrite Rmult_comm. reflexivity. }
  assert (Ez : lsum (seq 0 N) a = 0) by (apply (VR.sum_dev_zero N (w 0)); lia).
  assert (Es : sumN N (fun k => 2 * (w0 k - VR.meanN N w0) / (INR N - 1) * dw k) =
               / (INR N - 1) * lsum (seq 0 N) (fun k => a k * (dw k - dmu) + a k * (dw k - dmu))).
  { rewrite <- (VR.meanN_ext N (w 0) w0 Hw0).
    rewrite (lsum_ext_in (seq 0 N) (fun k => a k * (dw k - dmu) + a k * (dw k - dmu))
               (fun k => 2 * (a k * dw k) + (-2 * dmu) * a k)) by (intros k _; ring).
    rewrite lsum_plus, !lsum_scal_l, Ez. unfold sumN.
    rewrite (lsum_ext_in (seq 0 N) _ (fun k => (2 / (INR N - 1)) * (a k * dw k))).
    - rewrite lsum_scal_l. field. exact Hn1.
    - intros k _. rewrite <- (Hw0 k). unfold a. field. exact Hn1. }
  rewrite Es. apply is_derive_scal. exact DS.
Qed.

(* the standard deviation, where the variance is positive *)
Lemma curve_diffN_std N w0 : ((1 < N)%nat -> 0 < VR.varN N w0) ->
  curve_diffN N (fun v => sqrt (VR.varN N v)) w0
    (fun k => if (1 <? N)%nat
              then (w0 k - VR.meanN N w0) / ((INR N - 1) * sqrt (VR.varN N w0)) else 0).
Proof.
  intros Hpos w dw Hw0 Hd. pose proof (curve_diffN_var N w0 w dw Hw0 Hd) as Hv.
  destruct (1 <? N)%nat eqn:E1.
  - apply Nat.ltb_lt in E1. specialize (Hpos E1).
    assert (Hn1 : INR N - 1 <> 0) by (rewrite <- VR.INR_minus1 by lia; apply not_0_INR; lia).
    assert (Hsq : sqrt (VR.varN N w0) <> 0) by (apply Rgt_not_eq, sqrt_lt_R0, Hpos).
    assert (Hs : is_derive sqrt (VR.varN N (w 0)) (/ (2 * sqrt (VR.varN N w0)))).
    { rewrite (VR.varN_ext N (w 0) w0 Hw0). auto_derive; [exact Hpos|field; exact Hsq]. }
    pose proof (is_derive_comp sqrt (fun t => VR.varN N (w t)) 0 _ _ Hs Hv) as Hc.
    unfold scal in Hc; cbn in Hc. unfold mult in Hc; cbn in Hc.
    rewrite (sumN_ext N (fun k => (w0 k - VR.meanN N w0) / ((INR N - 1) * sqrt (VR.varN N w0)) * dw k)
               (fun k => 2 * (w0 k - VR.meanN N w0) / (INR N - 1) * dw k * / (2 * sqrt (VR.varN N w0)))).
    + unfold sumN. rewrite lsum_scal_r. exact Hc.
    + intros k _. field. split; assumption.
  - rewrite (sumN_ext N _ (fun _ => 0)) by (intros; ring). unfold sumN. rewrite lsum_zero.
    apply (is_derive_ext (fun _ => sqrt 0)); [|apply (is_derive_const (sqrt 0) 0)].
    intros t. unfold VR.varN. rewrite E1. reflexivity.
Qed.

Section Chain4.
Variable h : @heap R.
Variable D : nat -> nat * @rule R -> list nat -> list nat -> R.
Variable val : R -> nat -> assignment.

(* a node whose element j is a function phi_j of N gathered operand elements
   s j 0 .. s j (N-1); Jacobian entries in the gather form of TotalDeriv2P.v *)
Theorem chain_node_fibrewise (dm : nat -> assignment) n e (N : nat)
        (s : list nat -> nat -> list nat) (phi : list nat -> (nat -> R) -> R) (c : list nat -> nat -> R) :
  edgesOf h n = [e] -> trackedOf h (fst e) = true ->
  (forall j k, validIdx (dimsOf h n) j -> (k < N)%nat -> validIdx (dimsOf h (fst e)) (s j k)) ->
  (forall i j, validIdx (dimsOf h (fst e)) i -> validIdx (dimsOf h n) j ->
     D n e i j = sumN N (fun k => if idx_eqb i (s j k) then c j k else 0)) ->
  (forall t j, validIdx (dimsOf h n) j -> val t n j = phi j (fun k => val t (fst e) (s j k))) ->
  (forall j, validIdx (dimsOf h n) j ->
     curve_diffN N (phi j) (fun k => val 0 (fst e) (s j k)) (c j)) ->
  ops_diff h val dm n ->
  forall j, validIdx (dimsOf h n) j -> is_derive (fun t => val t n j) 0 (Jt h D dm n j).
Proof.
  intros He Ht Hs HD Hv Hphi Hd j Hj.
  rewrite (Jt_Jterm h D dm n j), He, lsum_cons, lsum_nil, Rplus_0_r.
  rewrite (Jterm_gather h D dm n e N (s j) (c j) j).
  2:{ intros k Hk. apply Hs; assumption. }
  2:{ intros i Hi. apply HD; assumption. }
  apply (is_derive_ext (fun t => phi j (fun k => val t (fst e) (s j k)))).
  { intros t. symmetry. apply Hv. exact Hj. }
  rewrite (sumN_ext N _ (fun k => c j k * dm (fst e) (s j k))).
  2:{ intros k _. unfold dop. rewrite Ht. reflexivity. }
  apply (Hphi j Hj (fun t k => val t (fst e) (s j k)) (fun k => dm (fst e) (s j k))).
  - intros k. reflexivity.
  - intros k Hk. apply (Hd e); [rewrite He; left; reflexivity|exact Ht|apply Hs; assumption].
Qed.

(* reductions along dimension [dim]: element j of the result is a function of the
   fibre  k |-> operand (ins dim k j);  the rules hand  gy (del dim i) * cc i  to position i *)
Lemma gather_ins_closed ds dim i j (c : nat -> R) :
  (dim < length ds)%nat -> validIdx ds i -> validIdx (RP.del dim ds) j ->
  sumN (nth dim ds 0%nat) (fun k => if idx_eqb i (RP.ins dim k j) then c k else 0) =
  if idx_eqb (RP.del dim i) j then c (nth dim i 0%nat) else 0.
Proof.
  intros Hl Hi Hj.
  pose proof (validIdx_length _ _ Hi) as Li. pose proof (validIdx_length _ _ Hj) as Lj.
  rewrite RP.del_length in Lj by exact Hl.
  assert (Hiff : forall k, RP.ins dim k j = i <-> RP.del dim i = j /\ nth dim i 0%nat = k)
    by (intros k; apply VR.ins_eq_iff; lia).
  destruct (idx_eqb (RP.del dim i) j) eqn:E.
  - apply idx_eqb_eq in E.
    rewrite (sumN_ext _ _ (fun k => if (k =? nth dim i 0)%nat then c k else 0)).
    + apply sumN_single. apply (VR.vi_nth dim ds i Hi Hl).
    + intros k _. destruct (Nat.eqb_spec k (nth dim i 0%nat)) as [Ek|Ek].
      * assert (E2 : i = RP.ins dim k j) by (symmetry; apply Hiff; split; [exact E|symmetry; exact Ek]).
        rewrite (proj2 (idx_eqb_eq _ _) E2). reflexivity.
      * destruct (idx_eqb i (RP.ins dim k j)) eqn:E3; [|reflexivity].
        apply idx_eqb_eq in E3. symmetry in E3. apply Hiff in E3 as [_ E4]. exfalso. apply Ek. symmetry. exact E4.
  - rewrite (sumN_ext _ _ (fun _ => 0)); [unfold sumN; apply lsum_zero|].
    intros k _. destruct (idx_eqb i (RP.ins dim k j)) eqn:E3; [|reflexivity].
    apply idx_eqb_eq in E3. symmetry in E3. apply Hiff in E3 as [E4 _].
    apply idx_eqb_eq in E4. rewrite E4 in E. discriminate.
Qed.

Theorem chain_node_along (dm : nat -> assignment) n e (dim : nat)
        (phi : (nat -> R) -> R) (cc : list nat -> R) (c : list nat -> nat -> R) :
  edgesOf h n = [e] -> trackedOf h (fst e) = true ->
  (dim < length (dimsOf h (fst e)))%nat -> dimsOf h n = RP.del dim (dimsOf h (fst e)) ->
  (forall i j, validIdx (dimsOf h (fst e)) i -> validIdx (dimsOf h n) j ->
     D n e i j = if idx_eqb (RP.del dim i) j then cc i else 0) ->
  (forall j k, validIdx (dimsOf h n) j -> (k < nth dim (dimsOf h (fst e)) 0)%nat ->
     cc (RP.ins dim k j) = c j k) ->
  (forall t j, validIdx (dimsOf h n) j -> val t n j = phi (VR.fib (val t (fst e)) dim j)) ->
  (forall j, validIdx (dimsOf h n) j ->
     curve_diffN (nth dim (dimsOf h (fst e)) 0%nat) phi (VR.fib (val 0 (fst e)) dim j) (c j)) ->
  ops_diff h val dm n ->
  forall j, validIdx (dimsOf h n) j -> is_derive (fun t => val t n j) 0 (Jt h D dm n j).
Proof.
  intros He Ht Hl Hdn HD Hcc Hv Hphi Hd.
  apply (chain_node_fibrewise dm n e (nth dim (dimsOf h (fst e)) 0%nat)
           (fun j k => RP.ins dim k j) (fun _ => phi) c He Ht); [| |exact Hv|exact Hphi|exact Hd].
  - intros j k Hj Hk. rewrite Hdn in Hj. apply (VR.vi_ins dim _ j k Hl Hj Hk).
  - intros i j Hi Hj. rewrite (HD i j Hi Hj).
    pose proof Hj as Hj'. rewrite Hdn in Hj'.
    rewrite (sumN_ext _ _ (fun k => if idx_eqb i (RP.ins dim k j) then cc i else 0)).
    + rewrite (gather_ins_closed (dimsOf h (fst e)) dim i j (fun _ => cc i) Hl Hi Hj'). reflexivity.
    + intros k Hk. destruct (idx_eqb i (RP.ins dim k j)) eqn:E; [|reflexivity].
      apply idx_eqb_eq in E. rewrite E. symmetry. apply Hcc; assumption.
Qed.

Local Notation nOfE e dim := (nth dim (dimsOf h (fst e)) 0%nat).

(* VarAlong: the rule's coefficient (rvar_eval) is  2 / (N - 1) * (x_i - mean of the fibre of i) *)
Theorem chain_node_varAlong (dm : nat -> assignment) n e (dim : nat) :
  edgesOf h n = [e] -> trackedOf h (fst e) = true ->
  (dim < length (dimsOf h (fst e)))%nat -> dimsOf h n = RP.del dim (dimsOf h (fst e)) ->
  (forall i j, validIdx (dimsOf h (fst e)) i -> validIdx (dimsOf h n) j ->
     D n e i j = if idx_eqb (RP.del dim i) j
                 then (if (nOfE e dim =? 1)%nat then 0
                       else 2 / INR (nOfE e dim - 1) *
                            (val 0 (fst e) i - VR.meanN (nOfE e dim) (VR.fib (val 0 (fst e)) dim (RP.del dim i))))
                 else 0) ->
  (forall t j, validIdx (dimsOf h n) j ->
     val t n j = VR.varN (nOfE e dim) (VR.fib (val t (fst e)) dim j)) ->
  ops_diff h val dm n ->
  forall j, validIdx (dimsOf h n) j -> is_derive (fun t => val t n j) 0 (Jt h D dm n j).
Proof.
  intros He Ht Hl Hdn HD Hv Hd.
  apply (chain_node_along dm n e dim (VR.varN (nOfE e dim)) _
           (fun j k => if (1 <? nOfE e dim)%nat
                       then 2 * (VR.fib (val 0 (fst e)) dim j k
                                 - VR.meanN (nOfE e dim) (VR.fib (val 0 (fst e)) dim j)) / (INR (nOfE e dim) - 1)
                       else 0) He Ht Hl Hdn HD); [|exact Hv| |exact Hd].
  - intros j k Hj Hk. cbv beta.
    pose proof (validIdx_length _ _ Hj) as Lj. rewrite Hdn, RP.del_length in Lj by exact Hl.
    rewrite RP.del_ins by lia. unfold VR.fib at 2.
    destruct (Nat.eqb_spec (nOfE e dim) 1) as [E1|E1]; destruct (Nat.ltb_spec 1 (nOfE e dim)) as [E2|E2]; try lia.
    + reflexivity.
    + rewrite VR.INR_minus1 by lia. field. rewrite <- VR.INR_minus1 by lia. apply not_0_INR. lia.
  - intros j Hj. apply curve_diffN_var.
Qed.

(* StdAlong (rstd_eval):  1 / (N - 1) * ((x_i - mean) / y_(del dim i)),  y the node's own value;
   guard: every fibre has positive variance *)
Theorem chain_node_stdAlong (dm : nat -> assignment) n e (dim : nat) :
  edgesOf h n = [e] -> trackedOf h (fst e) = true ->
  (dim < length (dimsOf h (fst e)))%nat -> dimsOf h n = RP.del dim (dimsOf h (fst e)) ->
  (forall i j, validIdx (dimsOf h (fst e)) i -> validIdx (dimsOf h n) j ->
     D n e i j = if idx_eqb (RP.del dim i) j
                 then (if (nOfE e dim =? 1)%nat then 0
                       else 1 / INR (nOfE e dim - 1) *
                            ((val 0 (fst e) i - VR.meanN (nOfE e dim) (VR.fib (val 0 (fst e)) dim (RP.del dim i)))
                             / val 0 n (RP.del dim i)))
                 else 0) ->
  (forall t j, validIdx (dimsOf h n) j ->
     val t n j = sqrt (VR.varN (nOfE e dim) (VR.fib (val t (fst e)) dim j))) ->
  ((1 < nOfE e dim)%nat -> forall j, validIdx (dimsOf h n) j ->
     0 < VR.varN (nOfE e dim) (VR.fib (val 0 (fst e)) dim j)) ->
  ops_diff h val dm n ->
  forall j, validIdx (dimsOf h n) j -> is_derive (fun t => val t n j) 0 (Jt h D dm n j).
Proof.
  intros He Ht Hl Hdn HD Hv Hpos Hd.
  apply (chain_node_along dm n e dim (fun v => sqrt (VR.varN (nOfE e dim) v)) _
           (fun j k => if (1 <? nOfE e dim)%nat
                       then (VR.fib (val 0 (fst e)) dim j k
                             - VR.meanN (nOfE e dim) (VR.fib (val 0 (fst e)) dim j))
                            / ((INR (nOfE e dim) - 1) * sqrt (VR.varN (nOfE e dim) (VR.fib (val 0 (fst e)) dim j)))
                       else 0) He Ht Hl Hdn HD); [|exact Hv| |exact Hd].
  - intros j k Hj Hk. cbv beta.
    pose proof (validIdx_length _ _ Hj) as Lj. rewrite Hdn, RP.del_length in Lj by exact Hl.
    rewrite RP.del_ins by lia. unfold VR.fib at 2.
    destruct (Nat.eqb_spec (nOfE e dim) 1) as [E1|E1]; destruct (Nat.ltb_spec 1 (nOfE e dim)) as [E2|E2]; try lia.
    + reflexivity.
    + rewrite (Hv 0 j Hj). specialize (Hpos E2 j Hj).
      rewrite VR.INR_minus1 by lia. field. split.
      * apply Rgt_not_eq, sqrt_lt_R0, Hpos.
      * rewrite <- VR.INR_minus1 by lia. apply not_0_INR. lia.
  - intros j Hj. apply curve_diffN_std. intros H1. apply (Hpos H1 j Hj).
Qed.

(* MaxAlong (sg = 1) / MinAlong (sg = -1): where every fibre has a unique strict extremum, at
   position ks j, the rule hands gy to that position only *)
Theorem chain_node_extAlong (dm : nat -> assignment) n e (dim : nat)
        (sg : R) (M : (nat -> R) -> R) (ks : list nat -> nat) :
  sg = 1 \/ sg = -1 -> VR.is_ext sg (nOfE e dim) M ->
  edgesOf h n = [e] -> trackedOf h (fst e) = true ->
  (dim < length (dimsOf h (fst e)))%nat -> dimsOf h n = RP.del dim (dimsOf h (fst e)) ->
  (forall i j, validIdx (dimsOf h (fst e)) i -> validIdx (dimsOf h n) j ->
     D n e i j = if idx_eqb (RP.del dim i) j
                 then (if (nth dim i 0 =? ks (RP.del dim i))%nat then 1 else 0) else 0) ->
  (forall t j, validIdx (dimsOf h n) j -> val t n j = M (VR.fib (val t (fst e)) dim j)) ->
  (forall j, validIdx (dimsOf h n) j -> (ks j < nOfE e dim)%nat /\
     forall k, (k < nOfE e dim)%nat -> k <> ks j ->
       sg * val 0 (fst e) (RP.ins dim k j) < sg * val 0 (fst e) (RP.ins dim (ks j) j)) ->
  ops_diff h val dm n ->
  forall j, validIdx (dimsOf h n) j -> is_derive (fun t => val t n j) 0 (Jt h D dm n j).
Proof.
  intros Hs HM He Ht Hl Hdn HD Hv Hguard Hd.
  apply (chain_node_along dm n e dim M _
           (fun j k => if (k =? ks j)%nat then 1 else 0) He Ht Hl Hdn HD); [|exact Hv| |exact Hd].
  - intros j k Hj Hk. cbv beta.
    pose proof (validIdx_length _ _ Hj) as Lj. rewrite Hdn, RP.del_length in Lj by exact Hl.
    rewrite RP.del_ins, RP.nth_ins by lia. reflexivity.
  - intros j Hj. destruct (Hguard j Hj) as [Hks Hst].
    apply (curve_diffN_ext sg _ M _ (ks j) Hs HM Hks). exact Hst.
Qed.

(* [chain_hyp] for a whole graph: the case analysis of TotalDeriv2P.v extended *)
Inductive node_ok3 (n : nat) : Prop :=
| ok3_base : node_ok h D val n -> node_ok3 n
| ok3_elmax (e1 e2 : nat * @rule R) :
    edgesOf h n = [e1; e2] ->
    dimsOf h (fst e1) = dimsOf h n -> dimsOf h (fst e2) = dimsOf h n ->
    (forall i j, D n e1 i j = if idx_eqb i j then selgt (val 0 (fst e1) j) (val 0 (fst e2) j) else 0) ->
    (forall i j, D n e2 i j = if idx_eqb i j then selgt (val 0 (fst e2) j) (val 0 (fst e1) j) else 0) ->
    (forall t j, validIdx (dimsOf h n) j -> val t n j = Rmax (val t (fst e1) j) (val t (fst e2) j)) ->
    (forall j, validIdx (dimsOf h n) j -> val 0 (fst e1) j <> val 0 (fst e2) j) ->
    (trackedOf h (fst e1) = false -> frozen h val (fst e1)) ->
    (trackedOf h (fst e2) = false -> frozen h val (fst e2)) ->
    node_ok3 n
| ok3_elmin (e1 e2 : nat * @rule R) :
    edgesOf h n = [e1; e2] ->
    dimsOf h (fst e1) = dimsOf h n -> dimsOf h (fst e2) = dimsOf h n ->
    (forall i j, D n e1 i j = if idx_eqb i j then selgt (val 0 (fst e2) j) (val 0 (fst e1) j) else 0) ->
    (forall i j, D n e2 i j = if idx_eqb i j then selgt (val 0 (fst e1) j) (val 0 (fst e2) j) else 0) ->
    (forall t j, validIdx (dimsOf h n) j -> val t n j = Rmin (val t (fst e1) j) (val t (fst e2) j)) ->
    (forall j, validIdx (dimsOf h n) j -> val 0 (fst e1) j <> val 0 (fst e2) j) ->
    (trackedOf h (fst e1) = false -> frozen h val (fst e1)) ->
    (trackedOf h (fst e2) = false -> frozen h val (fst e2)) ->
    node_ok3 n
| ok3_pow_pos (e : nat * @rule R) (a : R) :
    edgesOf h n = [e] -> trackedOf h (fst e) = true -> dimsOf h (fst e) = dimsOf h n ->
    (forall i j, D n e i j = if idx_eqb i j then a * Rpow (val 0 (fst e) j) (a - 1) else 0) ->
    (forall t j, validIdx (dimsOf h n) j -> val t n j = Rpow (val t (fst e) j) a) ->
    (forall j, validIdx (dimsOf h n) j -> 0 < val 0 (fst e) j) ->
    node_ok3 n
| ok3_pow_nat (e : nat * @rule R) (a : R) (k : nat) :
    a = INR k -> (1 <= k)%nat ->
    edgesOf h n = [e] -> trackedOf h (fst e) = true -> dimsOf h (fst e) = dimsOf h n ->
    (forall i j, D n e i j = if idx_eqb i j then a * Rpow (val 0 (fst e) j) (a - 1) else 0) ->
    (forall t j, validIdx (dimsOf h n) j -> val t n j = Rpow (val t (fst e) j) a) ->
    node_ok3 n
| ok3_pow_zero (e : nat * @rule R) :
    edgesOf h n = [e] -> trackedOf h (fst e) = true -> dimsOf h (fst e) = dimsOf h n ->
    (forall i j, D n e i j = 0) ->
    (forall t j, validIdx (dimsOf h n) j -> val t n j = Rpow (val t (fst e) j) 0) ->
    node_ok3 n
| ok3_fibrewise (e : nat * @rule R) (N : nat)
        (s : list nat -> nat -> list nat) (phi : list nat -> (nat -> R) -> R) (c : list nat -> nat -> R) :
    edgesOf h n = [e] -> trackedOf h (fst e) = true ->
    (forall j k, validIdx (dimsOf h n) j -> (k < N)%nat -> validIdx (dimsOf h (fst e)) (s j k)) ->
    (forall i j, validIdx (dimsOf h (fst e)) i -> validIdx (dimsOf h n) j ->
       D n e i j = sumN N (fun k => if idx_eqb i (s j k) then c j k else 0)) ->
    (forall t j, validIdx (dimsOf h n) j -> val t n j = phi j (fun k => val t (fst e) (s j k))) ->
    (forall j, validIdx (dimsOf h n) j ->
       curve_diffN N (phi j) (fun k => val 0 (fst e) (s j k)) (c j)) ->
    node_ok3 n
| ok3_varAlong (e : nat * @rule R) (dim : nat) :
    edgesOf h n = [e] -> trackedOf h (fst e) = true ->
    (dim < length (dimsOf h (fst e)))%nat -> dimsOf h n = RP.del dim (dimsOf h (fst e)) ->
    (forall i j, validIdx (dimsOf h (fst e)) i -> validIdx (dimsOf h n) j ->
       D n e i j = if idx_eqb (RP.del dim i) j
                   then (if (nOfE e dim =? 1)%nat then 0
                         else 2 / INR (nOfE e dim - 1) *
                              (val 0 (fst e) i - VR.meanN (nOfE e dim) (VR.fib (val 0 (fst e)) dim (RP.del dim i))))
                   else 0) ->
    (forall t j, validIdx (dimsOf h n) j ->
       val t n j = VR.varN (nOfE e dim) (VR.fib (val t (fst e)) dim j)) ->
    node_ok3 n
| ok3_stdAlong (e : nat * @rule R) (dim : nat) :
    edgesOf h n = [e] -> trackedOf h (fst e) = true ->
    (dim < length (dimsOf h (fst e)))%nat -> dimsOf h n = RP.del dim (dimsOf h (fst e)) ->
    (forall i j, validIdx (dimsOf h (fst e)) i -> validIdx (dimsOf h n) j ->
       D n e i j = if idx_eqb (RP.del dim i) j
                   then (if (nOfE e dim =? 1)%nat then 0
                         else 1 / INR (nOfE e dim - 1) *
                              ((val 0 (fst e) i - VR.meanN (nOfE e dim) (VR.fib (val 0 (fst e)) dim (RP.del dim i)))
                               / val 0 n (RP.del dim i)))
                   else 0) ->
    (forall t j, validIdx (dimsOf h n) j ->
       val t n j = sqrt (VR.varN (nOfE e dim) (VR.fib (val t (fst e)) dim j))) ->
    ((1 < nOfE e dim)%nat -> forall j, validIdx (dimsOf h n) j ->
       0 < VR.varN (nOfE e dim) (VR.fib (val 0 (fst e)) dim j)) ->
    node_ok3 n
| ok3_extAlong (e : nat * @rule R) (dim : nat) (sg : R) (M : (nat -> R) -> R) (ks : list nat -> nat) :
    sg = 1 \/ sg = -1 -> VR.is_ext sg (nOfE e dim) M ->
    edgesOf h n = [e] -> trackedOf h (fst e) = true ->
    (dim < length (dimsOf h (fst e)))%nat -> dimsOf h n = RP.del dim (dimsOf h (fst e)) ->
    (forall i j, validIdx (dimsOf h (fst e)) i -> validIdx (dimsOf h n) j ->
       D n e i j = if idx_eqb (RP.del dim i) j
                   then (if (nth dim i 0 =? ks (RP.del dim i))%nat then 1 else 0) else 0) ->
    (forall t j, validIdx (dimsOf h n) j -> val t n j = M (VR.fib (val t (fst e)) dim j)) ->
    (forall j, validIdx (dimsOf h n) j -> (ks j < nOfE e dim)%nat /\
       forall k, (k < nOfE e dim)%nat -> k <> ks j ->
         sg * val 0 (fst e) (RP.ins dim k j) < sg * val 0 (fst e) (RP.ins dim (ks j) j)) ->
    node_ok3 n.

Lemma node_ok3_chain (dm : nat -> assignment) n :
  node_ok3 n -> ops_diff h val dm n ->
  forall j, validIdx (dimsOf h n) j -> is_derive (fun t => val t n j) 0 (Jt h D dm n j).
Proof.
  intros Hok Hd.
  destruct Hok as [Hb
                  | e1 e2 He Hd1 Hd2 HD1 HD2 Hv Hne Hz1 Hz2
                  | e1 e2 He Hd1 Hd2 HD1 HD2 Hv Hne Hz1 Hz2
                  | e a He Ht Hdim HD Hv Hpos
                  | e a k Ea Hk He Ht Hdim HD Hv
                  | e He Ht Hdim HD Hv
                  | e N s phi c He Ht Hs HD Hv Hphi
                  | e dim He Ht Hl Hdn HD Hv
                  | e dim He Ht Hl Hdn HD Hv Hpos
                  | e dim sg M ks Hsg HM He Ht Hl Hdn HD Hv Hguard].
  - apply (node_ok_chain h D val dm n Hb Hd).
  - apply (chain_node_elmax h D val dm n e1 e2 He Hd1 Hd2 HD1 HD2 Hv Hne Hz1 Hz2 Hd).
  - apply (chain_node_elmin h D val dm n e1 e2 He Hd1 Hd2 HD1 HD2 Hv Hne Hz1 Hz2 Hd).
  - apply (chain_node_pow_pos h D val dm n e a He Ht Hdim HD Hv Hpos Hd).
  - apply (chain_node_pow_nat h D val dm n e a k Ea Hk He Ht Hdim HD Hv Hd).
  - apply (chain_node_pow_zero h D val dm n e He Ht Hdim HD Hv Hd).
  - apply (chain_node_fibrewise dm n e N s phi c He Ht Hs HD Hv Hphi Hd).
  - apply (chain_node_varAlong dm n e dim He Ht Hl Hdn HD Hv Hd).
  - apply (chain_node_stdAlong dm n e dim He Ht Hl Hdn HD Hv Hpos Hd).
  - apply (chain_node_extAlong dm n e dim sg M ks Hsg HM He Ht Hl Hdn HD Hv Hguard Hd).
Qed.

Theorem chain_hyp_of_nodes3 (root x : nat) (dl : assignment) :
  (forall n, In n (topoOrder h root) -> (x < n)%nat -> node_ok3 n) ->
  chain_hyp h root D x dl val.
Proof.
  intros Hok n Hn Hgt Hop. apply (node_ok3_chain (tang h D x dl) n (Hok n Hn Hgt)). exact Hop.
Qed.

End Chain4.

Module TotalDeriv3Example.
Section Ex.
Variables (thr : R) (draw : bool -> nat -> R).
Local Hint Extern 0 (Scalar R) => exact (R_scalar thr draw) : typeclass_instances.
Variable rd : bred.
Variables x0 x1 : R.

Definition vec2 (a b : R) : tensor R := mkT [2%nat] (Vec [Sc a; Sc b]).
Definition ids : option nat -> tensor R -> tensor R := fun _ g => g.

Definition xv : tensor R := vec2 x0 x1.

(* y = x.ElMax(c)  with c an UNTRACKED leaf, x and c apart by more than the library's equality
   threshold at both positions: the gradient left on x is the indicator [c < x] *)
Section Sel.
Variables c0 c1 : R.
Hypotheses (Hthr : 0 <= thr) (Hf0 : thr < Rabs (x0 - c0)) (Hf1 : thr < Rabs (x1 - c1)).

Definition cv : tensor R := vec2 c0 c1.
Definition mv : tensor R := vec2 (Rmax x0 c0) (Rmax x1 c1).

Definition hX : @heap R :=
  [mkNode xv true false None [] None;
   mkNode cv false false None [] None;
   mkNode mv true false None [(0%nat, RElSel 2 0 1); (1%nat, RElSel 2 1 0)] None].

Example hX_built :
  let '(h0, x) := leaf [] xv true None in
  let '(h1, c) := leaf h0 cv false None in
  h_elsel h1 BiElMax x c None = (hX, Ok 2%nat).
Proof. vm_compute. reflexivity. Qed.

Example hX_order : topoOrder hX 2 = [2; 0]%nat.
Proof. reflexivity. Qed.

Example hX_run : exists h' lg, bp_topo rd ids hX 2 = (h', lg, Ok tt).
Proof. apply bp_topo_runs. reflexivity. Qed.

Lemma hX_rules_own : rules_own hX.
Proof. apply edges_okb_spec. reflexivity. Qed.

Lemma hX_wf_heap : wf_heap hX.
Proof. apply edges_okb_spec. reflexivity. Qed.

Lemma x_ne_c j : validIdx [2%nat] j -> thr < Rabs (elt xv j - elt cv j).
Proof. intros Hj. destruct (valid2 j Hj) as [-> | ->]; [exact Hf0|exact Hf1]. Qed.

Lemma far_ne a b : thr < Rabs (a - b) -> a <> b.
Proof.
  intros Hf E. rewrite E in Hf. replace (b - b) with 0 in Hf by ring. rewrite Rabs_R0 in Hf. lra.
Qed.

(* what the RElSel rule multiplies gy by, away from the threshold: the indicator [b < a] *)
Lemma elsel_factor_max a b : thr < Rabs (a - b) ->
  eqt thr (Rmax a b) a - / 2 * eqt thr a b = selgt a b.
Proof.
  intros Hf. pose proof (far_ne a b Hf) as Hne. rewrite (eqt_far thr a b Hf). unfold selgt.
  destruct (Rlt_dec b a) as [L|N].
  - rewrite Rmax_left by lra. rewrite (eqt_same thr a Hthr). ring.
  - rewrite Rmax_right by lra. rewrite eqt_far by (rewrite Rabs_minus_sym; exact Hf). ring.
Qed.

Definition dX (e : nat * @rule R) (j : list nat) : R :=
  if (fst e =? 0)%nat then selgt (elt xv j) (elt cv j) else selgt (elt cv j) (elt xv j).
Definition DX (c : nat) (e : nat * @rule R) (i j : list nat) : R :=
  if idx_eqb i j then dX e j else 0.

Lemma hX_jac : jac_hyp thr draw rd hX 2 DX.
Proof.
  intros c e Hc He Ht hh gc Hv Hg Wg Dg. rewrite hX_order in Hc.
  destruct Hc as [<-|[<-|[]]].
  - destruct He as [<-|[<-|[]]].
    + apply (jac_diag thr draw rd hX DX (fun j => selgt (elt xv j) (elt cv j)));
        [reflexivity|intros i j; reflexivity|].
      destruct (relsel_eval thr draw rd hh 2%nat 0%nat 1%nat mv xv cv gc) as (g & Eg & Dgg & Wgg & Gg);
        [rewrite Hv; reflexivity|rewrite Hv; reflexivity|rewrite Hv; reflexivity|exact Hg
        |apply wf_vec2|apply wf_vec2|apply wf_vec2|exact Wg|reflexivity|reflexivity|exact Dg|].
      exists g. repeat (split; [assumption|]). intros i Hi. rewrite (Gg i Hi). f_equal.
      pose proof (x_ne_c i Hi) as Hf.
      destruct (valid2 i Hi) as [-> | ->]; apply (elsel_factor_max _ _ Hf).
    + (* the edge to the untracked operand is never evaluated *)
      cbv in Ht. discriminate Ht.
  - destruct He.
Qed.

Definition valX (dl : assignment) (t : R) (n : nat) : assignment :=
  fun i => match n with
           | 0%nat => elt xv i + t * dl i
           | 1%nat => elt cv i
           | _ => Rmax (elt xv i + t * dl i) (elt cv i)
           end.

Lemma hX_nodes (dl : assignment) n :
  In n (topoOrder hX 2) -> (0 < n)%nat -> node_ok3 hX DX (valX dl) n.
Proof.
  intros Hn Hgt. rewrite hX_order in Hn. destruct Hn as [<-|[<-|[]]]; [|lia].
  apply (ok3_elmax hX DX (valX dl) 2 (0%nat, RElSel 2 0 1) (1%nat, RElSel 2 1 0)); try reflexivity.
  - intros i j. unfold DX, dX, valX. cbn [Nat.eqb fst]. destruct (idx_eqb i j); [|reflexivity].
    replace (elt xv j + 0 * dl j) with (elt xv j) by ring. reflexivity.
  - intros i j. unfold DX, dX, valX. cbn [Nat.eqb fst]. destruct (idx_eqb i j); [|reflexivity].
    replace (elt xv j + 0 * dl j) with (elt xv j) by ring. reflexivity.
  - intros j Hj. unfold valX. cbn [fst].
    replace (elt xv j + 0 * dl j) with (elt xv j) by ring. apply far_ne. apply x_ne_c. exact Hj.
  - intros Hf. cbv in Hf. discriminate Hf.
  - intros _ t i _. reflexivity.
Qed.

(* the same derivative by hand, to read off the gradient *)
Lemma elmax_sum_derive (d0 d1 : R) :
  is_derive (fun t => Rmax (x0 + t * d0) c0 + Rmax (x1 + t * d1) c1) 0
            (selgt x0 c0 * d0 + selgt x1 c1 * d1).
Proof.
  assert (P : forall x c d, thr < Rabs (x - c) ->
            is_derive (fun t => Rmax (x + t * d) c) 0 (selgt x c * d)).
  { intros x c d Hf.
    replace (selgt x c * d) with (selgt x c * d + selgt c x * 0) by ring.
    apply (curve_diff2_max x c (far_ne x c Hf) (fun t => x + t * d) (fun _ => c)).
    - ring.
    + reflexivity.
    - auto_derive; [exact I|ring].
    - apply (is_derive_const c 0). }
  apply (is_derive_plus (fun t => Rmax (x0 + t * d0) c0) (fun t => Rmax (x1 + t * d1) c1) 0).
  - apply P. exact Hf0.
  - apply P. exact Hf1.
Qed.

(* the gradient of  Σ_k max(x_k, c_k)  left on x is the indicator [c_k < x_k] *)
Theorem elmax_gradient :
  exists h' lg gx, bp_topo rd ids hX 2 = (h', lg, Ok tt) /\ gradOf h' 0 = Some gx /\
    elt gx [0%nat] = selgt x0 c0 /\ elt gx [1%nat] = selgt x1 c1 /\
    forall dl : assignment,
      is_derive (fun t => Rmax (x0 + t * dl [0%nat]) c0 + Rmax (x1 + t * dl [1%nat]) c1) 0
                (elt gx [0%nat] * dl [0%nat] + elt gx [1%nat] * dl [1%nat]).
Proof.
  destruct (bp_grad_exists rd hX 2 0 hX_rules_own hX_wf_heap eq_refl) as (h' & lg & gx & E & Egx);
    [rewrite hX_order; right; left; reflexivity|exact hX_run|].
  exists h', lg, gx. split; [exact E|]. split; [exact Egx|].
  apply (pairing2_unique _ [0%nat] [1%nat]); [reflexivity| |].
  - intros dl. apply elmax_sum_derive.
  - (* every hypothesis of bp_total_derivative holds *)
    intros dl.
    apply (is_derive_eq (fun t => sumIdx [2%nat] (valX dl t 2)) _ 0 (sumIdx [2%nat] (fun i => elt gx i * dl i)));
      [intros t; apply sumIdx2|apply sumIdx2|].
    apply (bp_total_derivative thr draw rd hX 2%nat h' lg DX 0%nat dl gx (valX dl)
             hX_rules_own hX_wf_heap eq_refl E).
    + intros n _. apply gradOf_fresh. repeat constructor.
    + intros rv Hrv. injection Hrv as <-. apply wf_vec2.
    + exact hX_jac.
    + rewrite hX_order. right. left. reflexivity.
    + exact Egx.
    + intros n _ Hlt. lia.
    + intros t i. unfold valX. ring.
    + apply chain_hyp_of_nodes3. apply hX_nodes.
Qed.

End Sel.

(* y = x.Pow(a): either both elements of x positive (any real a), or a a natural number >= 1
   (any x, zero and negative elements included); gradient  a * x^(a-1) *)
Section Pw.
Variable a : R.
Hypothesis Guard : (0 < x0 /\ 0 < x1) \/ (exists k, a = INR k /\ (1 <= k)%nat).

Definition pw : tensor R := vec2 (Rpow x0 a) (Rpow x1 a).

Definition hP : @heap R :=
  [mkNode xv true false None [] None;
   mkNode pw true false None [(0%nat, RPow 1 0 a false)] None].

Example hP_built :
  let '(h0, x) := leaf [] xv true None in h_pow h0 x a false None = (hP, Ok 1%nat).
Proof. reflexivity. Qed.

Example hP_order : topoOrder hP 1 = [1; 0]%nat.
Proof. reflexivity. Qed.

Example hP_run : exists h' lg, bp_topo rd ids hP 1 = (h', lg, Ok tt).
Proof. apply bp_topo_runs. reflexivity. Qed.

Lemma hP_rules_own : rules_own hP.
Proof. apply edges_okb_spec. reflexivity. Qed.

Lemma hP_wf_heap : wf_heap hP.
Proof. apply edges_okb_spec. reflexivity. Qed.

Definition DP (c : nat) (e : nat * @rule R) (i j : list nat) : R :=
  if idx_eqb i j then a * Rpow (elt xv j) (a - 1) else 0.

Lemma hP_jac : jac_hyp thr draw rd hP 1 DP.
Proof.
  intros c e Hc He Ht hh gc Hv Hg Wg Dg. rewrite hP_order in Hc.
  destruct Hc as [<-|[<-|[]]].
  - destruct He as [<-|[]].
    apply (jac_diag thr draw rd hP DP (fun j => a * Rpow (elt xv j) (a - 1)));
      [reflexivity|intros i j; reflexivity|].
    apply (rpow_eval thr draw rd hh 1%nat 0%nat a xv gc);
      [rewrite Hv; reflexivity|exact Hg|apply wf_vec2|exact Wg|exact Dg].
  - destruct He.
Qed.

Definition valP (dl : assignment) (t : R) (n : nat) : assignment :=
  fun i => match n with
           | 0%nat => elt xv i + t * dl i
           | _ => Rpow (elt xv i + t * dl i) a
           end.

Lemma hP_nodes (dl : assignment) n :
  In n (topoOrder hP 1) -> (0 < n)%nat -> node_ok3 hP DP (valP dl) n.
Proof.
  intros Hn Hgt. rewrite hP_order in Hn. destruct Hn as [<-|[<-|[]]]; [|lia].
  assert (HD : forall i j, DP 1 (0%nat, RPow 1 0 a false) i j =
             if idx_eqb i j then a * Rpow (valP dl 0 (fst (0%nat, @RPow R 1 0 a false)) j) (a - 1) else 0).
  { intros i j. unfold DP, valP. cbn [fst]. destruct (idx_eqb i j); [|reflexivity].
    replace (elt xv j + 0 * dl j) with (elt xv j) by ring. reflexivity. }
  destruct Guard as [[Hp0 Hp1] | (k & Ea & Hk)].
  - apply (ok3_pow_pos hP DP (valP dl) 1 (0%nat, RPow 1 0 a false) a); try reflexivity.
    + exact HD.
    + intros j Hj. unfold valP. cbn [fst]. replace (elt xv j + 0 * dl j) with (elt xv j) by ring.
      destruct (valid2 j Hj) as [-> | ->]; [exact Hp0|exact Hp1].
  - apply (ok3_pow_nat hP DP (valP dl) 1 (0%nat, RPow 1 0 a false) a k Ea Hk); try reflexivity.
    exact HD.
Qed.

(* the scalar derivative under the guard, to read off the gradient *)
Lemma d_Rpow_guard x : (0 < x \/ exists k, a = INR k /\ (1 <= k)%nat) ->
  is_derive (fun v => Rpow v a) x (a * Rpow x (a - 1)).
Proof.
  intros [Hp | (k & Ea & Hk)].
  - rewrite (Rpow_pos x (a - 1) Hp). apply d_Rpow_pos. exact Hp.
  - subst a. rewrite (INR_pred k Hk), Rpow_INR. apply d_Rpow_nat.
Qed.

Lemma pow_sum_derive (d0 d1 : R) :
  is_derive (fun t => Rpow (x0 + t * d0) a + Rpow (x1 + t * d1) a) 0
            (a * Rpow x0 (a - 1) * d0 + a * Rpow x1 (a - 1) * d1).
Proof.
  assert (P : forall x d, (0 < x \/ exists k, a = INR k /\ (1 <= k)%nat) ->
            is_derive (fun t => Rpow (x + t * d) a) 0 (a * Rpow x (a - 1) * d)).
  { intros x d G.
    replace (a * Rpow x (a - 1) * d) with (scal d (a * Rpow x (a - 1)))
      by (unfold scal; cbn; unfold mult; cbn; ring).
    apply (is_derive_comp (fun v => Rpow v a) (fun t => x + t * d) 0).
    - replace (x + 0 * d) with x by ring. apply d_Rpow_guard. exact G.
    - auto_derive; [exact I|ring]. }
  apply (is_derive_plus (fun t => Rpow (x0 + t * d0) a) (fun t => Rpow (x1 + t * d1) a) 0).
  - apply P. destruct Guard as [[Hp0 _] | G]; [left; exact Hp0|right; exact G].
  - apply P. destruct Guard as [[_ Hp1] | G]; [left; exact Hp1|right; exact G].
Qed.

(* the gradient of  Σ_k x_k^a  left on x is  a * x^(a-1) *)
Theorem pow_gradient :
  exists h' lg gx, bp_topo rd ids hP 1 = (h', lg, Ok tt) /\ gradOf h' 0 = Some gx /\
    elt gx [0%nat] = a * Rpow x0 (a - 1) /\ elt gx [1%nat] = a * Rpow x1 (a - 1) /\
    forall dl : assignment,
      is_derive (fun t => Rpow (x0 + t * dl [0%nat]) a + Rpow (x1 + t * dl [1%nat]) a) 0
                (elt gx [0%nat] * dl [0%nat] + elt gx [1%nat] * dl [1%nat]).
Proof.
  destruct (bp_grad_exists rd hP 1 0 hP_rules_own hP_wf_heap eq_refl) as (h' & lg & gx & E & Egx);
    [rewrite hP_order; right; left; reflexivity|exact hP_run|].
  exists h', lg, gx. split; [exact E|]. split; [exact Egx|].
  apply (pairing2_unique _ [0%nat] [1%nat]); [reflexivity| |].
  - intros dl. apply pow_sum_derive.
  - (* every hypothesis of bp_total_derivative holds *)
    intros dl.
    apply (is_derive_eq (fun t => sumIdx [2%nat] (valP dl t 1)) _ 0 (sumIdx [2%nat] (fun i => elt gx i * dl i)));
      [intros t; apply sumIdx2|apply sumIdx2|].
    apply (bp_total_derivative thr draw rd hP 1%nat h' lg DP 0%nat dl gx (valP dl)
             hP_rules_own hP_wf_heap eq_refl E).
    + intros n _. apply gradOf_fresh. repeat constructor.
    + intros rv Hrv. injection Hrv as <-. apply wf_vec2.
    + exact hP_jac.
    + rewrite hP_order. right. left. reflexivity.
    + exact Egx.
    + intros n _ Hlt. lia.
    + intros t i. unfold valP. ring.
    + apply chain_hyp_of_nodes3. apply hP_nodes.
Qed.

End Pw.

(* y = x.Pow(3) at arbitrary x (no sign condition): gradient 3 x² *)
Theorem cube_gradient :
  exists h' lg gx, bp_topo rd ids (hP 3) 1 = (h', lg, Ok tt) /\ gradOf h' 0 = Some gx /\
    elt gx [0%nat] = 3 * x0 ^ 2 /\ elt gx [1%nat] = 3 * x1 ^ 2 /\
    forall dl : assignment,
      is_derive (fun t => (x0 + t * dl [0%nat]) ^ 3 + (x1 + t * dl [1%nat]) ^ 3) 0
                (elt gx [0%nat] * dl [0%nat] + elt gx [1%nat] * dl [1%nat]).
Proof.
  assert (G : (0 < x0 /\ 0 < x1) \/ (exists k, 3 = INR k /\ (1 <= k)%nat)).
  { right. exists 3%nat. split; [simpl; ring|lia]. }
  destruct (pow_gradient 3 G) as (h' & lg & gx & E & Egx & G0 & G1 & Hd).
  assert (P3 : forall v, Rpow v 3 = v ^ 3) by (intros v; apply (Rpow_IZR v 3)).
  assert (P2 : forall v, Rpow v (3 - 1) = v ^ 2)
    by (intros v; replace (3 - 1) with 2 by ring; apply (Rpow_IZR v 2)).
  exists h', lg, gx. split; [exact E|]. split; [exact Egx|].
  split; [rewrite G0, P2; reflexivity|]. split; [rewrite G1, P2; reflexivity|].
  intros dl. apply (is_derive_ext (fun t => Rpow (x0 + t * dl [0%nat]) 3 + Rpow (x1 + t * dl [1%nat]) 3)).
  - intros t. rewrite !P3. reflexivity.
  - apply Hd.
Qed.

(* y = x.Pow(a) at positive x, arbitrary real exponent: gradient a x^(a-1) as a real power *)
Theorem rpower_gradient (a : R) : 0 < x0 -> 0 < x1 ->
  exists h' lg gx, bp_topo rd ids (hP a) 1 = (h', lg, Ok tt) /\ gradOf h' 0 = Some gx /\
    elt gx [0%nat] = a * Rpower x0 (a - 1) /\ elt gx [1%nat] = a * Rpower x1 (a - 1) /\
    forall dl : assignment,
      is_derive (fun t => Rpow (x0 + t * dl [0%nat]) a + Rpow (x1 + t * dl [1%nat]) a) 0
                (elt gx [0%nat] * dl [0%nat] + elt gx [1%nat] * dl [1%nat]).
Proof.
  intros Hp0 Hp1.
  destruct (pow_gradient a (or_introl (conj Hp0 Hp1))) as (h' & lg & gx & E & Egx & G0 & G1 & Hd).
  exists h', lg, gx. split; [exact E|]. split; [exact Egx|].
  split; [rewrite G0, (Rpow_pos _ _ Hp0); reflexivity|].
  split; [rewrite G1, (Rpow_pos _ _ Hp1); reflexivity|]. exact Hd.
Qed.

(* y = x.VarAlong(0)  for x : [2]  (y a scalar: the unbiased sample variance (x0 - x1)² / 2);
   gradient (x0 - x1, x1 - x0) *)
Section Var.

Definition vv : tensor R := mkT [] (Sc (RP.varL [x0; x1])).

Definition hV : @heap R :=
  [mkNode xv true false None [] None;
   mkNode vv true false None [(0%nat, RVarAlong 1 0 0)] None].

Example hV_built :
  let '(h0, x) := leaf [] xv true None in h_reduceAlong h0 RdVar x 0%Z None = (hV, Ok 1%nat).
Proof. reflexivity. Qed.

Example hV_order : topoOrder hV 1 = [1; 0]%nat.
Proof. reflexivity. Qed.

Example hV_run : exists h' lg, bp_topo rd ids hV 1 = (h', lg, Ok tt).
Proof. apply bp_topo_runs. reflexivity. Qed.

Lemma hV_rules_own : rules_own hV.
Proof. apply edges_okb_spec. reflexivity. Qed.

Lemma hV_wf_heap : wf_heap hV.
Proof. apply edges_okb_spec. reflexivity. Qed.

Lemma sumIdx0 (f : assignment) : sumIdx [] f = f [].
Proof. unfold sumIdx. cbn. ring. Qed.

Lemma wf_vv : wf vv.
Proof. split; cbn; [exact I|constructor]. Qed.

(* the coefficient of the RVarAlong rule (rvar_eval), N = 2 *)
Definition cV (x : assignment) (i : list nat) : R :=
  if (2 =? 1)%nat then 0
  else 2 / INR (2 - 1) * (x i - VR.meanN 2 (VR.fib x 0 (RP.del 0 i))).
Definition DV (c : nat) (e : nat * @rule R) (i j : list nat) : R :=
  if idx_eqb (RP.del 0 i) j then cV (elt xv) i else 0.

Lemma hV_jac : jac_hyp thr draw rd hV 1 DV.
Proof.
  intros c e Hc He Ht hh gc Hv Hg Wg Dg. rewrite hV_order in Hc.
  destruct Hc as [<-|[<-|[]]].
  - destruct He as [<-|[]]. cbn [fst snd].
    assert (Hx : valOf hh 0 = Some xv) by (rewrite Hv; reflexivity).
    destruct (VR.rvar_eval thr draw rd hh 1%nat 0%nat 0%nat xv gc Hx Hg (wf_vec2 _ _) Wg
                ltac:(cbn; lia) Dg) as (g & Eg & Dgg & Wgg & Gg).
    exists g. split; [exact Eg|]. split; [exact Dgg|]. split; [exact Wgg|].
    intros i Hi. rewrite (Gg i Hi). change (dimsOf hV 1) with (@nil nat). rewrite sumIdx0.
    change (dimsOf hV 0) with [2%nat] in Hi. unfold DV, cV.
    destruct (valid2 i Hi) as [-> | ->]; reflexivity.
  - destruct He.
Qed.

Definition valV (dl : assignment) (t : R) (n : nat) : assignment :=
  match n with
  | 0%nat => fun i => elt xv i + t * dl i
  | _ => fun j => VR.varN 2 (VR.fib (fun i => elt xv i + t * dl i) 0 j)
  end.

Lemma hV_nodes (dl : assignment) n :
  In n (topoOrder hV 1) -> (0 < n)%nat -> node_ok3 hV DV (valV dl) n.
Proof.
  intros Hn Hgt. rewrite hV_order in Hn. destruct Hn as [<-|[<-|[]]]; [|lia].
  apply (ok3_varAlong hV DV (valV dl) 1 (0%nat, RVarAlong 1 0 0) 0%nat); try reflexivity.
  - cbn. lia.
  - intros i j _ _. cbn [fst]. change (nth 0 (dimsOf hV 0) 0%nat) with 2%nat.
    unfold DV, cV. destruct (idx_eqb (RP.del 0 i) j); [|reflexivity].
    cbn [Nat.eqb]. f_equal.
    rewrite (VR.meanN_ext 2 (VR.fib (valV dl 0 0) 0 (RP.del 0 i)) (VR.fib (elt xv) 0 (RP.del 0 i)))
      by (intros k; unfold VR.fib, valV; ring).
    unfold valV. ring.
Qed.

Lemma varN2 (v : nat -> R) : VR.varN 2 v = (v 0%nat - v 1%nat) ^ 2 / 2.
Proof. unfold VR.varN, VR.meanN, VR.sumN, Qeep.Proofs.ReduceRP.Rsum. cbn. field. Qed.

(* the gradient of the sample variance of (x0, x1) left on x is (x0 - x1, x1 - x0) *)
Theorem var_gradient :
  exists h' lg gx, bp_topo rd ids hV 1 = (h', lg, Ok tt) /\ gradOf h' 0 = Some gx /\
    elt gx [0%nat] = x0 - x1 /\ elt gx [1%nat] = x1 - x0 /\
    forall dl : assignment,
      is_derive (fun t => ((x0 + t * dl [0%nat]) - (x1 + t * dl [1%nat])) ^ 2 / 2) 0
                (elt gx [0%nat] * dl [0%nat] + elt gx [1%nat] * dl [1%nat]).
Proof.
  destruct (bp_grad_exists rd hV 1 0 hV_rules_own hV_wf_heap eq_refl) as (h' & lg & gx & E & Egx);
    [rewrite hV_order; right; left; reflexivity|exact hV_run|].
  exists h', lg, gx. split; [exact E|]. split; [exact Egx|].
  apply (pairing2_unique _ [0%nat] [1%nat]); [reflexivity| |].
  - intros dl. auto_derive; [exact I|field].
  - (* every hypothesis of bp_total_derivative holds *)
    intros dl.
    apply (is_derive_eq (fun t => sumIdx [] (valV dl t 1)) _ 0 (sumIdx [2%nat] (fun i => elt gx i * dl i)));
      [intros t; rewrite sumIdx0; unfold valV; rewrite varN2; reflexivity|apply sumIdx2|].
    apply (bp_total_derivative thr draw rd hV 1%nat h' lg DV 0%nat dl gx (valV dl)
             hV_rules_own hV_wf_heap eq_refl E).
    + intros n _. apply gradOf_fresh. repeat constructor.
    + intros rv Hrv. injection Hrv as <-. apply wf_vv.
    + exact hV_jac.
    + rewrite hV_order. right. left. reflexivity.
    + exact Egx.
    + intros n _ Hlt. lia.
    + intros t i. unfold valV. ring.
    + apply chain_hyp_of_nodes3. apply hV_nodes.
Qed.

End Var.

(* y = x.MaxAlong(0)  for x : [2]  with x0 the unique maximum, ahead of x1 by more than the
   equality threshold; gradient (1, 0).  (0 <= x0 because the real instance of the model starts
   the running maximum from the placeholder 0 instead of -Inf, see Spec/RScalar.v) *)
Section Mx.
Hypotheses (Hthr : 0 <= thr) (Hsep : thr < x0 - x1) (Hnn : 0 <= x0).

Definition xmv : tensor R := mkT [] (Sc (RP.maxL [x0; x1])).

Definition hA : @heap R :=
  [mkNode xv true false None [] None;
   mkNode xmv true false None [(0%nat, RExtAlong 1 0 0)] None].

Example hA_built :
  let '(h0, x) := leaf [] xv true None in h_reduceAlong h0 RdMax x 0%Z None = (hA, Ok 1%nat).
Proof. reflexivity. Qed.

Example hA_order : topoOrder hA 1 = [1; 0]%nat.
Proof. reflexivity. Qed.

Example hA_run : exists h' lg, bp_topo rd ids hA 1 = (h', lg, Ok tt).
Proof. apply bp_topo_runs. reflexivity. Qed.

Lemma hA_rules_own : rules_own hA.
Proof. apply edges_okb_spec. reflexivity. Qed.

Lemma hA_wf_heap : wf_heap hA.
Proof. apply edges_okb_spec. reflexivity. Qed.

Lemma wf_xmv : wf xmv.
Proof. split; cbn; [exact I|constructor]. Qed.

(* the stored forward value is x0 *)
Lemma xmv_val : elt xmv [] = x0.
Proof.
  unfold elt, xmv, RP.maxL. cbn.
  destruct (Rgt_dec 0 x0) as [G1|G1]; [lra|]. destruct (Rgt_dec x0 x1) as [G2|G2]; [reflexivity|].
  exfalso. apply G2. unfold Rgt. lra.
Qed.

Definition DA (c : nat) (e : nat * @rule R) (i j : list nat) : R :=
  if idx_eqb (RP.del 0 i) j then (if (nth 0 i 0 =? 0)%nat then 1 else 0) else 0.

Lemma hA_jac : jac_hyp thr draw rd hA 1 DA.
Proof.
  intros c e Hc He Ht hh gc Hv Hg Wg Dg. rewrite hA_order in Hc.
  destruct Hc as [<-|[<-|[]]].
  - destruct He as [<-|[]]. cbn [fst snd].
    assert (Hx : valOf hh 0 = Some xv) by (rewrite Hv; reflexivity).
    assert (Hy : valOf hh 1 = Some xmv) by (rewrite Hv; reflexivity).
    destruct (VR.rext_eval thr draw rd hh 1%nat 0%nat 0%nat xv xmv gc Hx Hy Hg (wf_vec2 _ _) wf_xmv Wg
                ltac:(cbn; lia) eq_refl Dg) as (g & Eg & Dgg & Wgg & Gg).
    exists g. split; [exact Eg|]. split; [exact Dgg|]. split; [exact Wgg|].
    intros i Hi. rewrite (Gg i Hi). change (dimsOf hA 1) with (@nil nat). rewrite sumIdx0.
    change (dimsOf hA 0) with [2%nat] in Hi. unfold DA.
    destruct (valid2 i Hi) as [-> | ->]; change (RP.del 0 [0%nat]) with (@nil nat);
      change (RP.del 0 [1%nat]) with (@nil nat); rewrite xmv_val;
      change (idx_eqb [] []) with true; cbn [nth Nat.eqb]; f_equal.
    + change (elt xv [0%nat]) with x0. apply eqt_same. exact Hthr.
    + change (elt xv [1%nat]) with x1. apply eqt_far.
      rewrite Rabs_left by lra. lra.
  - destruct He.
Qed.

Definition valA (dl : assignment) (t : R) (n : nat) : assignment :=
  match n with
  | 0%nat => fun i => elt xv i + t * dl i
  | _ => fun j => VR.maxN 2 (VR.fib (fun i => elt xv i + t * dl i) 0 j)
  end.

Lemma hA_nodes (dl : assignment) n :
  In n (topoOrder hA 1) -> (0 < n)%nat -> node_ok3 hA DA (valA dl) n.
Proof.
  intros Hn Hgt. rewrite hA_order in Hn. destruct Hn as [<-|[<-|[]]]; [|lia].
  apply (ok3_extAlong hA DA (valA dl) 1 (0%nat, RExtAlong 1 0 0) 0%nat 1 (VR.maxN 2) (fun _ => 0%nat));
    try reflexivity.
  - left. reflexivity.
  - apply VR.is_maxN_ext. apply VR.maxN_is_max. cbn. lia.
  - cbn. lia.
  - intros j Hj. change (dimsOf hA 1) with (@nil nat) in Hj. apply validIdx_nil in Hj. subst j.
    cbn [fst]. change (nth 0 (dimsOf hA 0) 0%nat) with 2%nat. split; [lia|].
    intros k Hk Hne. assert (k = 1%nat) by lia. subst k.
    unfold valA. change (RP.ins 0 1%nat []) with [1%nat]. change (RP.ins 0 0%nat []) with [0%nat].
    change (elt xv [0%nat]) with x0. change (elt xv [1%nat]) with x1. lra.
Qed.

(* the gradient of  max(x0, x1)  left on x is (1, 0) *)
Theorem maxalong_gradient :
  exists h' lg gx, bp_topo rd ids hA 1 = (h', lg, Ok tt) /\ gradOf h' 0 = Some gx /\
    elt gx [0%nat] = 1 /\ elt gx [1%nat] = 0 /\
    forall dl : assignment,
      is_derive (fun t => Rmax (x0 + t * dl [0%nat]) (x1 + t * dl [1%nat])) 0
                (elt gx [0%nat] * dl [0%nat] + elt gx [1%nat] * dl [1%nat]).
Proof.
  destruct (bp_grad_exists rd hA 1 0 hA_rules_own hA_wf_heap eq_refl) as (h' & lg & gx & E & Egx);
    [rewrite hA_order; right; left; reflexivity|exact hA_run|].
  exists h', lg, gx. split; [exact E|]. split; [exact Egx|].
  apply (pairing2_unique _ [0%nat] [1%nat]); [reflexivity| |].
  - intros dl. assert (Hlt : x1 < x0) by lra.
    apply (curve_diff2_max_gt x0 x1 Hlt (fun t => x0 + t * dl [0%nat]) (fun t => x1 + t * dl [1%nat]));
      [ring|ring|auto_derive; [exact I|ring]|auto_derive; [exact I|ring]].
  - (* every hypothesis of bp_total_derivative holds *)
    intros dl.
    apply (is_derive_eq (fun t => sumIdx [] (valA dl t 1)) _ 0 (sumIdx [2%nat] (fun i => elt gx i * dl i)));
      [intros t; apply sumIdx0|apply sumIdx2|].
    apply (bp_total_derivative thr draw rd hA 1%nat h' lg DA 0%nat dl gx (valA dl)
             hA_rules_own hA_wf_heap eq_refl E).
    + intros n _. apply gradOf_fresh. repeat constructor.
    + intros rv Hrv. injection Hrv as <-. apply wf_xmv.
    + exact hA_jac.
    + rewrite hA_order. right. left. reflexivity.
    + exact Egx.
    + intros n _ Hlt. lia.
    + intros t i. unfold valA. ring.
    + apply chain_hyp_of_nodes3. apply hA_nodes.
Qed.

End Mx.

End Ex.
End TotalDeriv3Example.

Print Assumptions curve_diff2_max.
Print Assumptions curve_diff2_min.
Print Assumptions curve_diff2_max_tie_refuted.
Print Assumptions curve_diff2_min_tie_refuted.
Print Assumptions chain_node_elmax.
Print Assumptions chain_node_elmin.
Print Assumptions chain_node_pow_pos.
Print Assumptions chain_node_pow_nat.
Print Assumptions chain_node_pow_zero.
Print Assumptions chain_hyp_of_nodes3.
Print Assumptions curve_diffN_ext.
Print Assumptions curve_diffN_var.
Print Assumptions curve_diffN_std.
Print Assumptions chain_node_fibrewise.
Print Assumptions chain_node_along.
Print Assumptions chain_node_varAlong.
Print Assumptions chain_node_stdAlong.
Print Assumptions chain_node_extAlong.
Print Assumptions TotalDeriv3Example.elmax_gradient.
Print Assumptions TotalDeriv3Example.pow_gradient.
Print Assumptions TotalDeriv3Example.cube_gradient.
Print Assumptions TotalDeriv3Example.rpower_gradient.
Print Assumptions TotalDeriv3Example.var_gradient.
Print Assumptions TotalDeriv3Example.maxalong_gradient.
