(* TotalDerivP.v — the analytic half of property C01: reverse-mode accumulation (bp_topo) equals
   forward-mode (tangent) propagation.
   [bp_duality]: on a fresh graph, the gradient that back-propagation from [root] leaves on a tracked
   node [x], paired with an arbitrary direction [dl], equals the sum over the root's elements of the
   forward-mode tangent of the root in direction [dl], where tangents are propagated through the graph
   with the local Jacobians [D c e] of the back-edge rules (hypothesis [jac_hyp]: each rule is linear in
   the upstream gradient with coefficients [D c e] — what the C02/C07 theorems provide rule by rule).
   [bp_total_derivative]: if the re-evaluated node values obey the chain rule at every node above [x]
   (hypothesis [chain_hyp], a statement of calculus about the operations), that number IS the
   derivative at 0 of  t |-> Σ_k root_k (x + t dl);  [bp_partial_derivative]: with [dl] the indicator
   of position i, the gradient element i is the partial derivative of the sum of the root's elements.
   [chain_node_linear], [chain_node_pointwise] (through [Jt_single], from the scalar facts
   [chain_linear], [chain_pointwise]) discharge the chain-rule hypothesis for linear/gather nodes
   and element-wise unary nodes; Module [TotalDerivExample] instantiates everything
   on  y = sin x; z = 2 y.  Instance: the reals, [R_scalar thr draw] for arbitrary thr, draw. *)
From Coq Require Import List Arith ZArith Bool Lia Reals Lra.
From Coquelicot Require Import Coquelicot.
From Qeep Require Import Model.Scalar Model.Nd Model.Fill Model.Data Model.Valid Model.Api Model.Grad Model.Backprop.
From Qeep Require Import Proofs.NdP Proofs.ElemP Proofs.ArithP Proofs.BackpropP.
From Qeep Require Import Spec.RScalar Spec.ScalarDeriv Spec.VjpSpec.
From Qeep Require Import Proofs.VjpGatherP Proofs.VjpElemP.
Import ListNotations.
Local Open Scope R_scope.

(* finite sums over lists ([lsum] of VjpGatherP) and over index sets *)

Lemma lsum_nil {X} (f : X -> R) : lsum [] f = 0.
Proof. reflexivity. Qed.

Lemma lsum_cons {X} (a : X) l (f : X -> R) : lsum (a :: l) f = f a + lsum l f.
Proof. reflexivity. Qed.

Lemma lsum_flat_map {X Y} (F : X -> list Y) (l : list X) (f : Y -> R) :
  lsum (flat_map F l) f = lsum l (fun c => lsum (F c) f).
Proof.
  induction l as [|a l IH]; [reflexivity|]. cbn [flat_map]. rewrite lsum_app, lsum_cons, IH. reflexivity.
Qed.

Lemma lsum_scal_l {X} (l : list X) a (f : X -> R) : lsum l (fun k => a * f k) = a * lsum l f.
Proof. induction l as [|b l IH]; [rewrite !lsum_nil; ring|]. rewrite !lsum_cons, IH. ring. Qed.

Lemma lsum_scal_r {X} (l : list X) a (f : X -> R) : lsum l (fun k => f k * a) = lsum l f * a.
Proof. induction l as [|b l IH]; [rewrite !lsum_nil; ring|]. rewrite !lsum_cons, IH. ring. Qed.

Lemma lsum_pick (l : list nat) a (c : nat -> R) : NoDup l -> In a l ->
  lsum l (fun k => if (a =? k)%nat then c k else 0) = c a.
Proof.
  intros Hnd Hin. rewrite <- (lsum_single_nat l a c Hnd Hin). apply lsum_ext_in. intros k _.
  rewrite Nat.eqb_sym. reflexivity.
Qed.

Lemma lsum_pick_none (l : list nat) a (c : nat -> R) : ~ In a l ->
  lsum l (fun k => if (a =? k)%nat then c k else 0) = 0.
Proof.
  intros Hn. transitivity (lsum l (fun _ : nat => 0)); [|apply lsum_zero]. apply lsum_ext_in. intros k Hk.
  destruct (Nat.eqb_spec a k) as [->|_]; [contradiction|reflexivity].
Qed.

Lemma lsum_swap3 {X Y} (l : list X) (E : X -> list Y) (G : X -> X -> Y -> R) :
  lsum l (fun n => lsum l (fun c => lsum (E c) (fun e => G n c e))) =
  lsum l (fun c => lsum (E c) (fun e => lsum l (fun n => G n c e))).
Proof.
  rewrite lsum_swap. apply lsum_ext_in. intros c _. apply lsum_swap.
Qed.

Lemma sumIdx_lsum ds {X} (l : list X) (F : X -> list nat -> R) :
  sumIdx ds (fun i => lsum l (fun e => F e i)) = lsum l (fun e => sumIdx ds (fun i => F e i)).
Proof. symmetry. apply (lsum_swap l (allIdx ds)). Qed.

Lemma sumIdx_scal_r ds c f : sumIdx ds (fun i => f i * c) = sumIdx ds f * c.
Proof. rewrite Rmult_comm, <- sumIdx_scal. apply sumIdx_ext. intros i _. ring. Qed.

Lemma sumIdx_mult0_r ds f : sumIdx ds (fun i => f i * 0) = 0.
Proof. rewrite sumIdx_scal_r. ring. Qed.

(* two readings of a diagonal Jacobian block: applied to a tangent, and to an upstream gradient *)
Lemma sumIdx_diag_l ds (d v : assignment) j : validIdx ds j ->
  sumIdx ds (fun i => (if idx_eqb i j then d j else 0) * v i) = d j * v j.
Proof.
  intros Hj. rewrite (sumIdx_ext ds _ (fun i => if idx_eqb i j then d j * v i else 0)).
  - apply (sumIdx_single ds j (fun i => d j * v i) Hj).
  - intros i _. destruct (idx_eqb i j); ring.
Qed.

Lemma sumIdx_diag_r ds (gc d : assignment) i : validIdx ds i ->
  sumIdx ds (fun j => gc j * (if idx_eqb i j then d j else 0)) = gc i * d i.
Proof.
  intros Hi. rewrite (sumIdx_ext ds _ (fun j => if idx_eqb j i then gc j * d j else 0)).
  - apply (sumIdx_single ds i (fun j => gc j * d j) Hi).
  - intros j _. rewrite (idx_eqb_sym i j). destruct (idx_eqb j i); ring.
Qed.

Lemma sumIdx_lsum2 ds {X Y} (l1 : list X) (l2 : X -> list Y) (F : X -> Y -> list nat -> R) (t : list nat -> R) :
  sumIdx ds (fun i => lsum l1 (fun c => lsum (l2 c) (fun e => F c e i)) * t i) =
  lsum l1 (fun c => lsum (l2 c) (fun e => sumIdx ds (fun i => F c e i * t i))).
Proof.
  rewrite (sumIdx_ext ds _ (fun i => lsum l1 (fun c => lsum (l2 c) (fun e => F c e i * t i)))).
  - rewrite sumIdx_lsum. apply lsum_ext_in. intros c _. apply sumIdx_lsum.
  - intros i _. rewrite <- lsum_scal_r. apply lsum_ext_in. intros c _. rewrite lsum_scal_r. reflexivity.
Qed.

Lemma is_derive_lsum {X} (l : list X) (f : R -> X -> R) (d : X -> R) (a : R) :
  (forall k, In k l -> is_derive (fun t => f t k) a (d k)) ->
  is_derive (fun t => lsum l (f t)) a (lsum l d).
Proof.
  induction l as [|b l IH]; intros H.
  - apply (is_derive_const 0 a).
  - apply (is_derive_ext (fun t => plus (f t b) (lsum l (f t)))); [intros t; reflexivity|].
    rewrite lsum_cons. apply (is_derive_plus (fun t => f t b) (fun t => lsum l (f t)) a (d b) (lsum l d)).
    + apply H. left. reflexivity.
    + apply IH. intros k Hk. apply H. right. exact Hk.
Qed.

Lemma is_derive_sumIdx ds (f : R -> list nat -> R) (d : list nat -> R) (a : R) :
  (forall k, validIdx ds k -> is_derive (fun t => f t k) a (d k)) ->
  is_derive (fun t => sumIdx ds (f t)) a (sumIdx ds d).
Proof.
  intros H. apply (is_derive_lsum (allIdx ds) f d a). intros k Hk. apply H. apply allIdx_spec. exact Hk.
Qed.

Lemma is_derive_eq (f g : R -> R) (a l l' : R) :
  (forall t, f t = g t) -> l = l' -> is_derive f a l -> is_derive g a l'.
Proof. intros Hf <-. apply is_derive_ext. exact Hf. Qed.


(* the chain rule for the two simplest node classes, on scalars *)
Lemma chain_linear ds (Dm : list nat -> R) (k : R) (vm : R -> list nat -> R) (vn : R -> R) (dm : list nat -> R) :
  (forall t, vn t = sumIdx ds (fun i => Dm i * vm t i) + k) ->
  (forall i, validIdx ds i -> is_derive (fun t => vm t i) 0 (dm i)) ->
  is_derive vn 0 (sumIdx ds (fun i => Dm i * dm i)).
Proof.
  intros Hv Hd.
  apply (is_derive_eq (fun t => sumIdx ds (fun i => Dm i * vm t i) + k) _ 0 (sumIdx ds (fun i => Dm i * dm i) + 0));
    [intros t; symmetry; apply Hv|ring|].
  apply (is_derive_plus (fun t => sumIdx ds (fun i => Dm i * vm t i)) (fun _ => k)); [|apply (is_derive_const k 0)].
  apply (is_derive_sumIdx ds (fun t i => Dm i * vm t i)). intros i Hi. apply is_derive_scal, Hd, Hi.
Qed.

Lemma chain_pointwise (f : R -> R) (vm vn : R -> R) (d dm : R) :
  (forall t, vn t = f (vm t)) -> is_derive f (vm 0) d -> is_derive vm 0 dm ->
  is_derive vn 0 (d * dm).
Proof.
  intros Hv Hf Hm.
  apply (is_derive_ext (fun t => f (vm t))); [intros t; symmetry; apply Hv|].
  replace (d * dm) with (scal dm d) by (unfold scal; cbn; unfold mult; cbn; ring).
  apply (is_derive_comp f vm 0 d dm Hf Hm).
Qed.

Section Pass.
Context {A : Type} {SA : Scalar A}.

Lemma bp_topo_runs rd sealg (h : @heap A) root :
  snd (bp_topo rd sealg h root) = Ok tt -> exists h' lg, bp_topo rd sealg h root = (h', lg, Ok tt).
Proof. destruct (bp_topo rd sealg h root) as [[h' lg] r]. cbn [snd]. intros ->. eauto. Qed.

Lemma bp_grad_exists rd (h : @heap A) root x :
  rules_own h -> wf_heap h -> trackedOf h root = true -> In x (topoOrder h root) ->
  (exists h' lg, bp_topo rd (fun _ g => g) h root = (h', lg, Ok tt)) ->
  exists h' lg gx, bp_topo rd (fun _ g => g) h root = (h', lg, Ok tt) /\ gradOf h' x = Some gx.
Proof.
  intros Hown Hwf Hroot Hx (h' & lg & E).
  destruct (bp_topo_correct rd h root h' lg Hown Hwf Hroot E) as (_ & _ & _ & _ & _ & _ & _ & _ & C7 & _).
  destruct (gradOf h' x) as [gx|] eqn:Eg; [|destruct (C7 x Hx Eg)].
  exists h', lg, gx. auto.
Qed.

Lemma gradOf_fresh (h : @heap A) : List.Forall (fun nd => ngrad nd = None) h -> forall n, gradOf h n = None.
Proof.
  intros HF n. unfold gradOf. destruct (nth_error h n) as [nd|] eqn:E; [|reflexivity].
  exact (proj1 (Forall_forall _ _) HF nd (nth_error_In _ _ E)).
Qed.

(* [rules_own] and [wf_heap] of a heap given as a list of nodes: node number c, counted from [c0] *)
Fixpoint edges_okb (c0 : nat) (h : @heap A) : bool :=
  match h with
  | [] => true
  | n :: h' => forallb (fun e => (rule_y (snd e) =? c0)%nat && (fst e <? c0)%nat) (nedges n) && edges_okb (S c0) h'
  end.

Lemma edges_okb_spec (h : @heap A) : edges_okb 0 h = true -> rules_own h /\ wf_heap h.
Proof.
  assert (H : forall (h0 : @heap A) c0, edges_okb c0 h0 = true ->
            forall i n e, nth_error h0 i = Some n -> In e (nedges n) ->
            rule_y (snd e) = (c0 + i)%nat /\ (fst e < c0 + i)%nat).
  { induction h0 as [|m h0 IH]; intros c0 Hb i n e Hn He; [destruct i; discriminate|].
    cbn [edges_okb] in Hb. apply andb_prop in Hb as [Hm Hb]. destruct i as [|i]; cbn [nth_error] in Hn.
    - injection Hn as <-. rewrite forallb_forall in Hm. apply Hm, andb_prop in He as [H1 H2].
      apply Nat.eqb_eq in H1. apply Nat.ltb_lt in H2. rewrite Nat.add_0_r. auto.
    - rewrite <- Nat.add_succ_comm. apply (IH (S c0) Hb i n e Hn He). }
  intros Hb. split; intros c n e Hn He; apply (H h 0%nat Hb c n e Hn He).
Qed.

End Pass.

(* accumulation of same-shape real tensors is element-wise addition *)
Section TotalDeriv.
Variables (thr : R) (draw : bool -> nat -> R).
Local Hint Extern 0 (Scalar R) => exact (R_scalar thr draw) : typeclass_instances.
Notation T := (tensor R).
Notation heap := (@heap R).
Notation rule := (@rule R).

Definition oelt (o : option T) : assignment := match o with Some g => elt g | None => fun _ => 0 end.

Lemma accAll_Some_elt ds : forall (l : list T) (g0 : T) o,
  wf g0 -> dims g0 = ds -> List.Forall (fun t : T => wf t /\ dims t = ds) l ->
  accAll (Some g0) l = Some o ->
  exists g, o = Some g /\ wf g /\ dims g = ds /\
    forall idx, validIdx ds idx -> elt g idx = elt g0 idx + lsum l (fun t => elt t idx).
Proof.
  induction l as [|t l IH]; intros g0 o W0 D0 HF E.
  - cbn [accAll] in E. inversion E; subst o. exists g0. repeat (split; [auto|]).
    intros idx _. rewrite lsum_nil. ring.
  - inversion HF as [|? ? [Wt Dt] HF']; subst.
    cbn [accAll acc1] in E.
    destruct (ar_elt thr draw BiAdd g0 t W0 Wt (eq_sym Dt)) as (s & Es & Ds & Ws & Gs).
    rewrite Es in E.
    destruct (IH s o Ws Ds HF' E) as (g & Eo & Wg & Dg & Gg).
    exists g. split; [exact Eo|]. split; [exact Wg|]. split; [exact Dg|].
    intros idx Hv. rewrite (Gg idx Hv), (Gs idx Hv), lsum_cons.
    change (binaryF BiAdd (elt g0 idx) (elt t idx)) with (elt g0 idx + elt t idx). ring.
Qed.

Lemma accAll_None_elt ds (l : list T) o :
  List.Forall (fun t : T => wf t /\ dims t = ds) l -> accAll None l = Some o ->
  (forall g, o = Some g -> wf g /\ dims g = ds) /\
  forall idx, validIdx ds idx -> oelt o idx = lsum l (fun t => elt t idx).
Proof.
  intros HF E. destruct l as [|t l].
  - cbn [accAll] in E. inversion E; subst o. split; [intros g Hg; discriminate|]. intros idx _. reflexivity.
  - inversion HF as [|? ? [Wt Dt] HF']; subst. cbn [accAll acc1] in E.
    destruct (accAll_Some_elt (dims t) l t o Wt eq_refl HF' E) as (g & Eo & Wg & Dg & Gg). subst o.
    split; [intros g' Hg'; inversion Hg'; subst g'; auto|].
    intros idx Hv. cbn [oelt]. rewrite (Gg idx Hv), lsum_cons. reflexivity.
Qed.

Section Setting.
Variable rd : bred.
Variable h : heap.
Variable root : nat.

Definition dimsOf (n : nat) : list nat := match valOf h n with Some v => dims v | None => [] end.

(* D c e i j : entry (position i of the target [fst e], position j of the consumer c) of the
   Jacobian of consumer c with respect to the operand behind its back edge e *)
Variable D : nat -> nat * rule -> list nat -> list nat -> R.

(* (HJ) every back edge of the graph is linear in the upstream gradient, with coefficients D *)
Definition jac_hyp : Prop :=
  forall c e, In c (topoOrder h root) -> In e (edgesOf h c) -> trackedOf h (fst e) = true ->
  forall (hh : heap) (gc : T),
    (forall i, valOf hh i = valOf h i) -> gradOf hh c = Some gc -> wf gc -> dims gc = dimsOf c ->
    exists g, eval_rule rd hh (snd e) = Ok g /\ dims g = dimsOf (fst e) /\ wf g /\
      forall i, validIdx (dimsOf (fst e)) i ->
        elt g i = sumIdx (dimsOf c) (fun j => elt gc j * D c e i j).

(* an edge whose rule multiplies the upstream gradient element-wise by d: a diagonal block *)
Lemma jac_diag (d : assignment) c e (hh : heap) (gc : T) :
  dimsOf (fst e) = dimsOf c ->
  (forall i j, D c e i j = if idx_eqb i j then d j else 0) ->
  (exists g, eval_rule rd hh (snd e) = Ok g /\ dims g = dimsOf c /\ wf g /\
     forall i, validIdx (dimsOf c) i -> elt g i = elt gc i * d i) ->
  exists g, eval_rule rd hh (snd e) = Ok g /\ dims g = dimsOf (fst e) /\ wf g /\
    forall i, validIdx (dimsOf (fst e)) i -> elt g i = sumIdx (dimsOf c) (fun j => elt gc j * D c e i j).
Proof.
  intros Hdim HD (g & Eg & Dg & Wg & Gg). rewrite Hdim. exists g. repeat (split; [assumption|]).
  intros i Hi. rewrite (Gg i Hi), <- (sumIdx_diag_r (dimsOf c) (elt gc) d i Hi).
  apply sumIdx_ext. intros j _. rewrite HD. reflexivity.
Qed.

Variable x : nat.
Variable dl : assignment.

(* one forward step: the tangent of node n from the tangents [tn] of its tracked operands *)
Definition Jt (tn : nat -> assignment) (n : nat) : assignment :=
  fun j => lsum (edgesOf h n)
             (fun e => if trackedOf h (fst e)
                       then sumIdx (dimsOf (fst e)) (fun i => D n e i j * tn (fst e) i) else 0).

Fixpoint tangF (fuel n : nat) : assignment :=
  match fuel with
  | O => fun _ => 0
  | S f => if (n <? x)%nat then fun _ => 0 else if (n =? x)%nat then dl else Jt (tangF f) n
  end.

(* the forward-mode tangent of node n in direction dl at x *)
Definition tang (n : nat) : assignment := tangF (S n) n.

Lemma Jt_ext (t1 t2 : nat -> assignment) n :
  (forall e, In e (edgesOf h n) -> forall i, t1 (fst e) i = t2 (fst e) i) ->
  forall j, Jt t1 n j = Jt t2 n j.
Proof.
  intros H j. unfold Jt. apply lsum_ext_in. intros e He. destruct (trackedOf h (fst e)); [|reflexivity].
  apply sumIdx_ext. intros i _. rewrite (H e He i). reflexivity.
Qed.

Hypothesis Hwf : wf_heap h.

Lemma tangF_fuel : forall f1 f2 n, (n < f1)%nat -> (n < f2)%nat -> forall j, tangF f1 n j = tangF f2 n j.
Proof.
  induction f1 as [|f1 IH]; intros f2 n H1 H2 j; [lia|]. destruct f2 as [|f2]; [lia|].
  cbn [tangF]. destruct (n <? x)%nat; [reflexivity|]. destruct (n =? x)%nat; [reflexivity|].
  apply Jt_ext. intros e He i. pose proof (wf_heap_edgesOf h Hwf n e He) as Hlt. apply IH; lia.
Qed.

Lemma tang_lt n : (n < x)%nat -> forall j, tang n j = 0.
Proof. intros Hn j. unfold tang. cbn [tangF]. apply Nat.ltb_lt in Hn. rewrite Hn. reflexivity. Qed.

Lemma tang_x : forall j, tang x j = dl j.
Proof. intros j. unfold tang. cbn [tangF]. rewrite Nat.ltb_irrefl, Nat.eqb_refl. reflexivity. Qed.

Lemma tang_gt n : (x < n)%nat -> forall j, tang n j = Jt tang n j.
Proof.
  intros Hn j. unfold tang at 1. cbn [tangF].
  assert (E1 : (n <? x)%nat = false) by (apply Nat.ltb_ge; lia).
  assert (E2 : (n =? x)%nat = false) by (apply Nat.eqb_neq; lia).
  rewrite E1, E2. apply Jt_ext. intros e He i. pose proof (wf_heap_edgesOf h Hwf n e He) as Hlt.
  unfold tang. apply tangF_fuel; lia.
Qed.

Lemma Jt_tang_zero n : (n <= x)%nat -> forall j, Jt tang n j = 0.
Proof.
  intros Hn j. unfold Jt.
  transitivity (lsum (edgesOf h n) (fun _ => 0)); [|apply lsum_zero]. apply lsum_ext_in. intros e He.
  destruct (trackedOf h (fst e)); [|reflexivity].
  pose proof (wf_heap_edgesOf h Hwf n e He) as Hlt.
  transitivity (sumIdx (dimsOf (fst e)) (fun _ => 0)); [|apply sumIdx_zero]. apply sumIdx_ext. intros i _.
  rewrite tang_lt by lia. ring.
Qed.

Section Core.
Variable h' : heap.
Variable ones : T.
Notation order := (topoOrder h root).

Hypothesis Ond : NoDup order.
Hypothesis Otr : forall c, In c order -> trackedOf h c = true.
Hypothesis Oord : ordered h order.
Hypothesis Oroot : In root order.
Hypothesis Ole : forall c, In c order -> (c <= root)%nat.
Hypothesis Vsame : forall i, valOf h' i = valOf h i.
Hypothesis Wones : wf ones.
Hypothesis Dones : dims ones = dimsOf root.
Hypothesis Eones : forall i, validIdx (dimsOf root) i -> elt ones i = 1.
Hypothesis Cacc : forall n, In n order ->
  accAll None ((if (n =? root)%nat then [ones] else []) ++ contributions rd h' h order n) = Some (gradOf h' n).
Hypothesis Cgr : forall c, In c order -> gradOf h' c <> None.
Hypothesis HJ : jac_hyp.

Definition Sg (n : nat) : assignment := oelt (gradOf h' n).
Definition shaped (n : nat) : Prop := exists g, gradOf h' n = Some g /\ wf g /\ dims g = dimsOf n.
(* the vector-Jacobian product along edge e of consumer c, at the final gradient of c *)
Definition Vc (c : nat) (e : nat * rule) : assignment :=
  fun i => sumIdx (dimsOf c) (fun j => Sg c j * D c e i j).

Lemma node_step n : In n order -> (forall c, In c order -> (n < c)%nat -> shaped c) ->
  shaped n /\
  forall i, validIdx (dimsOf n) i ->
    Sg n i = (if (n =? root)%nat then 1 else 0) +
             lsum order (fun c => lsum (edgesOf h c) (fun e => if (fst e =? n)%nat then Vc c e i else 0)).
Proof.
  intros Hn Hup.
  (* what one contributing edge evaluates to *)
  assert (Hedge : forall c e, In c order -> In e (edgesOf h c) -> fst e = n ->
            exists g, eval_rule rd h' (snd e) = Ok g /\ dims g = dimsOf n /\ wf g /\
              forall i, validIdx (dimsOf n) i -> elt g i = Vc c e i).
  { intros c e Hc He Hf. pose proof (wf_heap_edgesOf h Hwf c e He) as Hlt. rewrite Hf in Hlt.
    destruct (Hup c Hc Hlt) as (gc & Egc & Wgc & Dgc).
    assert (Ht : trackedOf h (fst e) = true) by (rewrite Hf; apply Otr; exact Hn).
    destruct (HJ c e Hc He Ht h' gc Vsame Egc Wgc Dgc) as (g & Eg & Dg & Wg & Gg).
    rewrite Hf in Dg, Gg. exists g. split; [exact Eg|]. split; [exact Dg|]. split; [exact Wg|].
    intros i Hi. rewrite (Gg i Hi). unfold Vc, Sg. rewrite Egc. reflexivity. }
  pose proof (Cacc n Hn) as E.
  assert (HF : List.Forall (fun t : T => wf t /\ dims t = dimsOf n)
                 ((if (n =? root)%nat then [ones] else []) ++ contributions rd h' h order n)).
  { apply Forall_forall. intros t Ht. apply in_app_or in Ht as [Ht|Ht].
    - destruct (Nat.eqb_spec n root) as [->|_]; [|destruct Ht].
      destruct Ht as [<-|[]]. split; [exact Wones|exact Dones].
    - unfold contributions in Ht. apply in_flat_map in Ht as (c & Hc & Ht).
      apply in_flat_map in Ht as (e & He & Ht). unfold contrib_e in Ht.
      destruct (Nat.eqb_spec (fst e) n) as [Hf|_]; [|destruct Ht].
      destruct (Hedge c e Hc He Hf) as (g & Eg & Dg & Wg & _). rewrite Eg in Ht.
      destruct Ht as [<-|[]]. split; [exact Wg|exact Dg]. }
  destruct (accAll_None_elt (dimsOf n) _ _ HF E) as [Hsh Hel]. split.
  - destruct (gradOf h' n) as [g|] eqn:Eg; [|exfalso; exact (Cgr n Hn Eg)].
    exists g. destruct (Hsh g eq_refl) as [Wg Dg]. auto.
  - intros i Hi. unfold Sg. rewrite (Hel i Hi), lsum_app. f_equal.
    + destruct (Nat.eqb_spec n root) as [->|_]; [|reflexivity].
      rewrite lsum_cons, lsum_nil, (Eones i Hi). ring.
    + unfold contributions. rewrite lsum_flat_map. apply lsum_ext_in. intros c Hc.
      rewrite lsum_flat_map. apply lsum_ext_in. intros e He. unfold contrib_e.
      destruct (Nat.eqb_spec (fst e) n) as [Hf|_]; [|reflexivity].
      destruct (Hedge c e Hc He Hf) as (g & Eg & _ & _ & Gg). rewrite Eg.
      rewrite lsum_cons, lsum_nil, (Gg i Hi). ring.
Qed.

Lemma all_shaped : forall n, In n order -> shaped n.
Proof.
  assert (H : forall k n, In n order -> (root - n <= k)%nat -> shaped n).
  { induction k as [|k IH]; intros n Hn Hk.
    - apply (node_step n Hn). intros c Hc Hlt. pose proof (Ole c Hc). pose proof (Ole n Hn). lia.
    - apply (node_step n Hn). intros c Hc Hlt. apply IH; [exact Hc|]. pose proof (Ole c Hc). lia. }
  intros n Hn. apply (H (root - n)%nat n Hn). lia.
Qed.

Lemma adjoint_elt n : In n order -> forall i, validIdx (dimsOf n) i ->
  Sg n i = (if (n =? root)%nat then 1 else 0) +
           lsum order (fun c => lsum (edgesOf h c) (fun e => if (fst e =? n)%nat then Vc c e i else 0)).
Proof. intros Hn. apply (node_step n Hn). intros c Hc _. apply all_shaped. exact Hc. Qed.

Definition pr (n : nat) (a b : assignment) : R := sumIdx (dimsOf n) (fun i => a i * b i).

(* <V_e (S c), t> = <S c, J_e t> : swapping the two finite sums *)
Lemma vjp_jvp_swap c e (t : assignment) :
  sumIdx (dimsOf (fst e)) (fun i => Vc c e i * t i) =
  sumIdx (dimsOf c) (fun j => Sg c j * sumIdx (dimsOf (fst e)) (fun i => D c e i j * t i)).
Proof.
  unfold Vc.
  rewrite (sumIdx_ext (dimsOf (fst e)) _
             (fun i => sumIdx (dimsOf c) (fun j => Sg c j * D c e i j * t i))).
  2:{ intros i _. rewrite <- sumIdx_scal_r. reflexivity. }
  rewrite sumIdx_swap. apply sumIdx_ext. intros j _. rewrite <- sumIdx_scal.
  apply sumIdx_ext. intros i _. ring.
Qed.

Hypothesis Hx : In x order.

Theorem duality_core :
  pr x (Sg x) dl = sumIdx (dimsOf root) (fun k => tang root k).
Proof.
  set (A := lsum order (fun n => pr n (Sg n) (tang n))).
  set (R1 := sumIdx (dimsOf root) (fun k => tang root k)).
  (* step 1: insert the adjoint equations *)
  assert (S1 : A = R1 + lsum order (fun n => lsum order (fun c => lsum (edgesOf h c)
                 (fun e => if (fst e =? n)%nat
                           then sumIdx (dimsOf n) (fun i => Vc c e i * tang n i) else 0)))).
  { unfold A.
    rewrite (lsum_ext_in order _
      (fun n => (if (root =? n)%nat then R1 else 0) +
                lsum order (fun c => lsum (edgesOf h c)
                 (fun e => if (fst e =? n)%nat
                           then sumIdx (dimsOf n) (fun i => Vc c e i * tang n i) else 0)))).
    - rewrite lsum_plus. f_equal. apply (lsum_pick order root (fun _ => R1) Ond Oroot).
    - intros n Hn. unfold pr.
      rewrite (sumIdx_ext (dimsOf n) _
        (fun i => (if (n =? root)%nat then 1 else 0) * tang n i +
                  lsum order (fun c => lsum (edgesOf h c)
                    (fun e => if (fst e =? n)%nat then Vc c e i else 0)) * tang n i)).
      2:{ intros i Hi. rewrite (adjoint_elt n Hn i Hi). ring. }
      rewrite sumIdx_plus. f_equal.
      + rewrite (Nat.eqb_sym root n). destruct (Nat.eqb_spec n root) as [->|_].
        * unfold R1. apply sumIdx_ext. intros i _. ring.
        * transitivity (sumIdx (dimsOf n) (fun _ => 0)); [|apply sumIdx_zero].
          apply sumIdx_ext. intros i _. ring.
      + rewrite sumIdx_lsum2. apply lsum_ext_in. intros c _. apply lsum_ext_in. intros e _.
        destruct (fst e =? n)%nat; [reflexivity|].
        transitivity (sumIdx (dimsOf n) (fun _ => 0)); [|apply sumIdx_zero].
        apply sumIdx_ext. intros i _. ring. }
  (* step 2: exchange the sums; each tracked edge target is met exactly once *)
  assert (S2 : lsum order (fun n => lsum order (fun c => lsum (edgesOf h c)
                 (fun e => if (fst e =? n)%nat
                           then sumIdx (dimsOf n) (fun i => Vc c e i * tang n i) else 0)))
               = lsum order (fun c => pr c (Sg c) (Jt tang c))).
  { rewrite lsum_swap3. apply lsum_ext_in. intros c Hc.
    rewrite (lsum_ext_in (edgesOf h c) _
      (fun e => if trackedOf h (fst e)
                then sumIdx (dimsOf c) (fun j => Sg c j *
                       sumIdx (dimsOf (fst e)) (fun i => D c e i j * tang (fst e) i)) else 0)).
    - unfold pr, Jt.
      rewrite (sumIdx_ext (dimsOf c) _
        (fun j => lsum (edgesOf h c) (fun e => if trackedOf h (fst e)
           then Sg c j * sumIdx (dimsOf (fst e)) (fun i => D c e i j * tang (fst e) i) else 0))).
      2:{ intros j _. rewrite <- lsum_scal_l. apply lsum_ext_in. intros e _.
          destruct (trackedOf h (fst e)); ring. }
      rewrite sumIdx_lsum. apply lsum_ext_in. intros e _.
      destruct (trackedOf h (fst e)); [reflexivity|]. symmetry. apply sumIdx_zero.
    - intros e He. destruct (trackedOf h (fst e)) eqn:Et.
      + rewrite (lsum_pick order (fst e)
                   (fun n => sumIdx (dimsOf n) (fun i => Vc c e i * tang n i)) Ond).
        * apply vjp_jvp_swap.
        * apply (ordered_in h order Oord c e Hc He Et).
      + apply lsum_pick_none. intros Hin. rewrite (Otr _ Hin) in Et. discriminate. }
  (* step 3: the tangent equations *)
  assert (S3 : lsum order (fun c => pr c (Sg c) (Jt tang c)) = A + - pr x (Sg x) dl).
  { unfold A.
    rewrite (lsum_ext_in order _
      (fun c => pr c (Sg c) (tang c) + (if (x =? c)%nat then - pr x (Sg x) dl else 0))).
    - rewrite lsum_plus. f_equal. apply (lsum_pick order x (fun _ => - pr x (Sg x) dl) Ond Hx).
    - intros c _. unfold pr. destruct (Nat.eqb_spec x c) as [<-|Hne].
      + rewrite (sumIdx_ext (dimsOf x) (fun i => Sg x i * Jt tang x i) (fun i => Sg x i * 0)).
        2:{ intros i _. rewrite Jt_tang_zero by lia. reflexivity. }
        rewrite sumIdx_mult0_r.
        rewrite (sumIdx_ext (dimsOf x) (fun i => Sg x i * tang x i) (fun i => Sg x i * dl i)).
        2:{ intros i _. rewrite tang_x. reflexivity. }
        ring.
      + rewrite Rplus_0_r. apply sumIdx_ext. intros j _. f_equal.
        destruct (Nat.lt_ge_cases c x) as [Hlt|Hge].
        * rewrite Jt_tang_zero by lia. rewrite tang_lt by lia. reflexivity.
        * symmetry. apply tang_gt. lia. }
  rewrite S2, S3 in S1. fold R1. lra.
Qed.

End Core.

(* discharging the hypotheses of [Core] from bp_topo_correct / topoOrder_facts *)
Theorem bp_duality_sec (h' : heap) (lg : list (nat * T)) (gx : T) :
  rules_own h -> trackedOf h root = true ->
  bp_topo rd (fun _ g => g) h root = (h', lg, Ok tt) ->
  (forall n, In n (topoOrder h root) -> gradOf h n = None) ->
  (forall rv, valOf h root = Some rv -> wf rv) ->
  jac_hyp ->
  In x (topoOrder h root) -> gradOf h' x = Some gx ->
  sumIdx (dimsOf x) (fun i => elt gx i * dl i) = sumIdx (dimsOf root) (fun k => tang root k).
Proof.
  intros Hown Hroot Hrun Hfresh Hrw HJ Hx Hgx.
  destruct (topoOrder_facts h root Hwf Hroot) as (F1 & F2 & F3 & _ & F5 & F6 & _ & _).
  destruct (bp_topo_correct rd h root h' lg Hown Hwf Hroot Hrun)
    as (rv & ones & C1 & C2 & _ & C4 & _ & C6 & C7 & _).
  assert (Wrv : wf rv) by (apply Hrw; exact C1).
  assert (Edr : dimsOf root = dims rv) by (unfold dimsOf; rewrite C1; reflexivity).
  destruct (un_elt thr draw (UPow (sconst 0 0)) rv Wrv) as (r & Er & Dr & Wr & Gr).
  assert (Eor : ones = r).
  { unfold toOnes in C2. rewrite Er in C2. inversion C2. reflexivity. }
  subst r.
  pose proof (duality_core h' ones F1 F2 F3 F5 F6 (fun i => proj1 (C4 i)) Wr) as Hcore.
  unfold pr, Sg in Hcore. rewrite Hgx in Hcore. cbn [oelt] in Hcore. apply Hcore.
  - rewrite Edr. exact Dr.
  - intros i Hi. rewrite Edr in Hi. rewrite (Gr i Hi).
    change (unaryF (UPow (sconst 0 0)) (elt rv i)) with (Rpow (elt rv i) (dec2R 0 0)).
    rewrite dec2R_0. apply Rpow_0.
  - intros n Hn. rewrite <- (Hfresh n Hn). apply C6. exact Hn.
  - exact C7.
  - exact HJ.
  - exact Hx.
Qed.

(* val t n : the value of node n when the graph is re-evaluated with x replaced by x + t dl *)
Variable val : R -> nat -> assignment.

(* (HC) the chain rule at the nodes above x *)
Definition chain_hyp : Prop :=
  forall n, In n (topoOrder h root) -> (x < n)%nat ->
    (forall e, In e (edgesOf h n) -> trackedOf h (fst e) = true ->
       forall i, validIdx (dimsOf (fst e)) i -> is_derive (fun t => val t (fst e) i) 0 (tang (fst e) i)) ->
    forall j, validIdx (dimsOf n) j -> is_derive (fun t => val t n j) 0 (Jt tang n j).

Lemma tangent_is_derivative :
  trackedOf h root = true ->
  (forall n, In n (topoOrder h root) -> (n < x)%nat -> forall t j, val t n j = val 0 n j) ->
  (forall t i, val t x i = val 0 x i + t * dl i) ->
  chain_hyp ->
  forall n, In n (topoOrder h root) -> forall j, validIdx (dimsOf n) j ->
    is_derive (fun t => val t n j) 0 (tang n j).
Proof.
  intros Hroot Hbelow Hat HC.
  destruct (topoOrder_facts h root Hwf Hroot) as (_ & _ & F3 & _).
  intros n. induction n as [n IH] using lt_wf_ind. intros Hn j Hj.
  destruct (lt_eq_lt_dec n x) as [[Hlt|Heq]|Hgt].
  - rewrite tang_lt by exact Hlt.
    apply (is_derive_ext (fun _ => val 0 n j)); [intros t; symmetry; apply Hbelow; assumption|].
    apply (is_derive_const (val 0 n j) 0).
  - subst n. rewrite tang_x.
    apply (is_derive_ext (fun t => val 0 x j + t * dl j)); [intros t; symmetry; apply Hat|].
    auto_derive; [exact I|ring].
  - rewrite tang_gt by exact Hgt. apply (HC n Hn Hgt); [|exact Hj].
    intros e He Ht i Hi. apply IH.
    + apply (wf_heap_edgesOf h Hwf n e He).
    + apply (ordered_in h _ F3 n e Hn He Ht).
    + exact Hi.
Qed.

Theorem bp_total_derivative_sec (h' : heap) (lg : list (nat * T)) (gx : T) :
  rules_own h -> trackedOf h root = true ->
  bp_topo rd (fun _ g => g) h root = (h', lg, Ok tt) ->
  (forall n, In n (topoOrder h root) -> gradOf h n = None) ->
  (forall rv, valOf h root = Some rv -> wf rv) ->
  jac_hyp ->
  In x (topoOrder h root) -> gradOf h' x = Some gx ->
  (forall n, In n (topoOrder h root) -> (n < x)%nat -> forall t j, val t n j = val 0 n j) ->
  (forall t i, val t x i = val 0 x i + t * dl i) ->
  chain_hyp ->
  is_derive (fun t => sumIdx (dimsOf root) (fun k => val t root k)) 0
            (sumIdx (dimsOf x) (fun i => elt gx i * dl i)).
Proof.
  intros Hown Hroot Hrun Hfresh Hrw HJ Hx Hgx Hbelow Hat HC.
  rewrite (bp_duality_sec h' lg gx Hown Hroot Hrun Hfresh Hrw HJ Hx Hgx).
  apply is_derive_sumIdx. intros k Hk.
  apply (tangent_is_derivative Hroot Hbelow Hat HC); [|exact Hk].
  apply (topoOrder_facts h root Hwf Hroot).
Qed.

Lemma Jt_single (dm : nat -> assignment) n e j :
  edgesOf h n = [e] -> trackedOf h (fst e) = true ->
  Jt dm n j = sumIdx (dimsOf (fst e)) (fun i => D n e i j * dm (fst e) i).
Proof. intros He Ht. unfold Jt. rewrite He, lsum_cons, lsum_nil, Ht. ring. Qed.

(* a node that is a linear (gather, scale, matmul by a constant ...) map of its operand *)
Lemma chain_node_linear (dm : nat -> assignment) n e (k : assignment) :
  edgesOf h n = [e] -> trackedOf h (fst e) = true ->
  (forall t j, validIdx (dimsOf n) j ->
     val t n j = sumIdx (dimsOf (fst e)) (fun i => D n e i j * val t (fst e) i) + k j) ->
  (forall i, validIdx (dimsOf (fst e)) i -> is_derive (fun t => val t (fst e) i) 0 (dm (fst e) i)) ->
  forall j, validIdx (dimsOf n) j -> is_derive (fun t => val t n j) 0 (Jt dm n j).
Proof.
  intros He Ht Hv Hd j Hj. rewrite (Jt_single dm n e j He Ht).
  apply (chain_linear (dimsOf (fst e)) (fun i => D n e i j) (k j) (fun t => val t (fst e))).
  - intros t. apply Hv. exact Hj.
  - exact Hd.
Qed.

(* an element-wise unary node  val n j = f (val m j),  Jacobian diag (f' (val m j)) *)
Lemma chain_node_pointwise (dm : nat -> assignment) n e (f : R -> R) (d : assignment) :
  edgesOf h n = [e] -> trackedOf h (fst e) = true -> dimsOf (fst e) = dimsOf n ->
  (forall i j, D n e i j = if idx_eqb i j then d j else 0) ->
  (forall t j, validIdx (dimsOf n) j -> val t n j = f (val t (fst e) j)) ->
  (forall j, validIdx (dimsOf n) j -> is_derive f (val 0 (fst e) j) (d j)) ->
  (forall i, validIdx (dimsOf (fst e)) i -> is_derive (fun t => val t (fst e) i) 0 (dm (fst e) i)) ->
  forall j, validIdx (dimsOf n) j -> is_derive (fun t => val t n j) 0 (Jt dm n j).
Proof.
  intros He Ht Hdim HD Hv Hf Hd j Hj. rewrite (Jt_single dm n e j He Ht).
  rewrite (sumIdx_ext (dimsOf (fst e)) _ (fun i => (if idx_eqb i j then d j else 0) * dm (fst e) i))
    by (intros i _; rewrite HD; reflexivity).
  rewrite (sumIdx_diag_l (dimsOf (fst e)) d) by (rewrite Hdim; exact Hj).
  apply (chain_pointwise f (fun t => val t (fst e) j)).
  - intros t. apply Hv. exact Hj.
  - apply Hf. exact Hj.
  - apply Hd. rewrite Hdim. exact Hj.
Qed.

End Setting.

(* the duality identity: <gradient left on x, dl> = Σ_k (forward tangent of root element k) *)
Theorem bp_duality rd (h : heap) root (h' : heap) (lg : list (nat * T))
        (D : nat -> nat * rule -> list nat -> list nat -> R) x (dl : assignment) (gx : T) :
  rules_own h -> wf_heap h -> trackedOf h root = true ->
  bp_topo rd (fun _ g => g) h root = (h', lg, Ok tt) ->
  (forall n, In n (topoOrder h root) -> gradOf h n = None) ->
  (forall rv, valOf h root = Some rv -> wf rv) ->
  jac_hyp rd h root D ->
  In x (topoOrder h root) -> gradOf h' x = Some gx ->
  sumIdx (dimsOf h x) (fun i => elt gx i * dl i) =
  sumIdx (dimsOf h root) (fun k => tang h D x dl root k).
Proof. intros Hown Hwf. apply bp_duality_sec; assumption. Qed.

(* the gradient left on x, paired with dl, is the derivative at 0 of  t |-> Σ_k root_k (x + t dl) *)
Theorem bp_total_derivative rd (h : heap) root (h' : heap) (lg : list (nat * T))
        (D : nat -> nat * rule -> list nat -> list nat -> R) x (dl : assignment) (gx : T)
        (val : R -> nat -> assignment) :
  rules_own h -> wf_heap h -> trackedOf h root = true ->
  bp_topo rd (fun _ g => g) h root = (h', lg, Ok tt) ->
  (forall n, In n (topoOrder h root) -> gradOf h n = None) ->
  (forall rv, valOf h root = Some rv -> wf rv) ->
  jac_hyp rd h root D ->
  In x (topoOrder h root) -> gradOf h' x = Some gx ->
  (forall n, In n (topoOrder h root) -> (n < x)%nat -> forall t j, val t n j = val 0 n j) ->
  (forall t i, val t x i = val 0 x i + t * dl i) ->
  chain_hyp h root D x dl val ->
  is_derive (fun t => sumIdx (dimsOf h root) (fun k => val t root k)) 0
            (sumIdx (dimsOf h x) (fun i => elt gx i * dl i)).
Proof. intros Hown Hwf. apply bp_total_derivative_sec; assumption. Qed.

(* dl = the indicator of position i: element i of the gradient IS the partial derivative of the
   sum of the root's elements with respect to x_i *)
Definition indic (i : list nat) : assignment := fun k => if idx_eqb k i then 1 else 0.

Theorem bp_partial_derivative rd (h : heap) root (h' : heap) (lg : list (nat * T))
        (D : nat -> nat * rule -> list nat -> list nat -> R) x (i : list nat) (gx : T)
        (val : R -> nat -> assignment) :
  rules_own h -> wf_heap h -> trackedOf h root = true ->
  bp_topo rd (fun _ g => g) h root = (h', lg, Ok tt) ->
  (forall n, In n (topoOrder h root) -> gradOf h n = None) ->
  (forall rv, valOf h root = Some rv -> wf rv) ->
  jac_hyp rd h root D ->
  In x (topoOrder h root) -> gradOf h' x = Some gx -> validIdx (dimsOf h x) i ->
  (forall n, In n (topoOrder h root) -> (n < x)%nat -> forall t j, val t n j = val 0 n j) ->
  (forall t k, val t x k = perturb (val 0 x) i t k) ->
  chain_hyp h root D x (indic i) val ->
  is_derive (fun t => sumIdx (dimsOf h root) (fun k => val t root k)) 0 (elt gx i).
Proof.
  intros Hown Hwf Hroot Hrun Hfresh Hrw HJ Hx Hgx Hi Hbelow Hat HC.
  rewrite <- (sumIdx_single (dimsOf h x) i (elt gx) Hi).
  rewrite (sumIdx_ext (dimsOf h x) _ (fun k => elt gx k * indic i k)).
  2:{ intros k _. unfold indic. destruct (idx_eqb k i); ring. }
  apply (bp_total_derivative rd h root h' lg D x (indic i) gx val); try assumption.
  intros t k. rewrite Hat. unfold perturb, indic. destruct (idx_eqb k i); ring.
Qed.

End TotalDeriv.

(* a linear form in two coordinates of the direction is determined by the derivatives it equals: the
   coefficients that back-propagation left are those found by hand *)
Lemma pairing2_unique (F : assignment -> R -> R) (i0 i1 : list nat) (a0 a1 b0 b1 : R) :
  idx_eqb i0 i1 = false ->
  (forall dl, is_derive (F dl) 0 (b0 * dl i0 + b1 * dl i1)) ->
  (forall dl, is_derive (F dl) 0 (a0 * dl i0 + a1 * dl i1)) ->
  a0 = b0 /\ a1 = b1 /\ forall dl, is_derive (F dl) 0 (a0 * dl i0 + a1 * dl i1).
Proof.
  intros Hne Hb Ha.
  assert (E : forall dl, a0 * dl i0 + a1 * dl i1 = b0 * dl i0 + b1 * dl i1).
  { intros dl. rewrite <- (is_derive_unique _ _ _ (Ha dl)). apply is_derive_unique, Hb. }
  pose proof (E (indic i0)) as E0. pose proof (E (indic i1)) as E1. unfold indic in E0, E1.
  rewrite (idx_eqb_sym i1 i0), Hne, VjpGatherP.idx_eqb_refl in E0.
  rewrite Hne, VjpGatherP.idx_eqb_refl in E1. split; [lra|]. split; [lra|exact Ha].
Qed.

Lemma wf_vec2 (a b : R) : wf (mkT [2%nat] (Vec [Sc a; Sc b])).
Proof. split; cbn; repeat constructor. Qed.

Lemma sumIdx2 (f : assignment) : sumIdx [2%nat] f = f [0%nat] + f [1%nat].
Proof. unfold sumIdx. cbn. ring. Qed.

Lemma valid2 idx : validIdx [2%nat] idx -> idx = [0%nat] \/ idx = [1%nat].
Proof.
  intros H. apply validIdx_cons in H as (i & r & -> & Hi & Hr). apply validIdx_nil in Hr. subst r.
  destruct i as [|[|i]]; [left; reflexivity|right; reflexivity|lia].
Qed.

(* example: all hypotheses are satisfiable —  x = [1;2] (tracked leaf), y = sin x, z = 2 y *)
Module TotalDerivExample.
Section Ex.
Variables (thr : R) (draw : bool -> nat -> R).
Local Hint Extern 0 (Scalar R) => exact (R_scalar thr draw) : typeclass_instances.
Variable rd : bred.

Definition xv : tensor R := mkT [2%nat] (Vec [Sc 1; Sc 2]).
Definition yv : tensor R := mkT [2%nat] (Vec [Sc (sin 1); Sc (sin 2)]).
Definition zv : tensor R := mkT [2%nat] (Vec [Sc (2 * sin 1); Sc (2 * sin 2)]).

Definition hE : @heap R :=
  [mkNode xv true false None [] None;
   mkNode yv true false None [(0%nat, RSin 1 0)] None;
   mkNode zv true false None [(1%nat, RScale 2 2)] None].

(* hE is the heap the tracked API builds *)
Example hE_built :
  let '(h0, x) := leaf [] xv true None in
  match h_math h0 FSin x None with
  | (h1, Ok y) => h_scale h1 y 2 None = (hE, Ok 2%nat)
  | _ => False
  end.
Proof. reflexivity. Qed.

Example hE_order : topoOrder hE 2 = [2; 1; 0]%nat.
Proof. reflexivity. Qed.

Definition ids : option nat -> tensor R -> tensor R := fun _ g => g.

Example hE_run : exists h' lg, bp_topo rd ids hE 2 = (h', lg, Ok tt).
Proof. apply bp_topo_runs. reflexivity. Qed.

Lemma hE_rules_own : rules_own hE.
Proof. apply edges_okb_spec. reflexivity. Qed.

Lemma hE_wf_heap : wf_heap hE.
Proof. apply edges_okb_spec. reflexivity. Qed.

(* the local Jacobians: both operations are element-wise, so both matrices are diagonal *)
Definition DE (c : nat) (e : nat * @rule R) (i j : list nat) : R :=
  if idx_eqb i j then (if (c =? 2)%nat then 2 else cos (elt xv j)) else 0.

Lemma hE_jac : jac_hyp thr draw rd hE 2 DE.
Proof.
  intros c e Hc He Ht hh gc Hv Hg Wg Dg. rewrite hE_order in Hc.
  destruct Hc as [<-|[<-|[<-|[]]]].
  - destruct He as [<-|[]].
    apply (jac_diag thr draw rd hE DE (fun _ => 2)); [reflexivity|intros i j; reflexivity|].
    rewrite <- Dg. apply (rscale_eval thr draw rd hh 2%nat 2 gc Hg Wg).
  - destruct He as [<-|[]].
    apply (jac_diag thr draw rd hE DE (fun j => cos (elt xv j))); [reflexivity|intros i j; reflexivity|].
    apply (rsin_eval thr draw rd hh 1%nat 0%nat xv gc); [rewrite Hv; reflexivity|exact Hg|apply wf_vec2|exact Wg|exact Dg].
  - destruct He.
Qed.

(* the graph re-evaluated at x + t dl *)
Definition valE (dl : assignment) (t : R) (n : nat) : assignment :=
  fun i => match n with
           | O => elt xv i + t * dl i
           | S O => sin (elt xv i + t * dl i)
           | _ => 2 * sin (elt xv i + t * dl i)
           end.

Lemma hE_chain (dl : assignment) : chain_hyp hE 2 DE 0 dl (valE dl).
Proof.
  intros n Hn Hgt Hop j Hj. rewrite hE_order in Hn. destruct Hn as [<-|[<-|[<-|[]]]]; [| |lia].
  - (* z = 2 y : a linear node *)
    apply (chain_node_linear hE DE (valE dl) (tang hE DE 0 dl) 2 (1%nat, RScale 2 2) (fun _ => 0));
      [reflexivity|reflexivity| | |exact Hj].
    + intros t k Hk. unfold DE. cbn [fst Nat.eqb].
      rewrite (sumIdx_diag_l (dimsOf hE 1) (fun _ => 2) (valE dl t 1) k Hk). unfold valE. ring.
    + intros i Hi. apply (Hop (1%nat, RScale 2 2)); [left; reflexivity|reflexivity|exact Hi].
  - (* y = sin x : an element-wise node *)
    apply (chain_node_pointwise hE DE (valE dl) (tang hE DE 0 dl) 1 (0%nat, RSin 1 0) sin (fun k => cos (elt xv k)));
      try reflexivity; [| |exact Hj].
    + intros k _. cbn [fst valE].
      replace (cos (elt xv k)) with (cos (elt xv k + 0 * dl k)) by (f_equal; ring). apply d_sin.
    + intros i Hi. apply (Hop (0%nat, RSin 1 0)); [left; reflexivity|reflexivity|exact Hi].
Qed.

(* every hypothesis of bp_total_derivative holds on hE *)
Lemma hE_total_derivative (h' : @heap R) lg gx (dl : assignment) :
  bp_topo rd ids hE 2 = (h', lg, Ok tt) -> gradOf h' 0 = Some gx ->
  is_derive (fun t => 2 * sin (1 + t * dl [0%nat]) + 2 * sin (2 + t * dl [1%nat])) 0
            (elt gx [0%nat] * dl [0%nat] + elt gx [1%nat] * dl [1%nat]).
Proof.
  intros E Egx.
  apply (is_derive_eq (fun t => sumIdx [2%nat] (valE dl t 2)) _ 0 (sumIdx [2%nat] (fun i => elt gx i * dl i)));
    [intros t; apply sumIdx2|apply sumIdx2|].
  apply (bp_total_derivative thr draw rd hE 2%nat h' lg DE 0%nat dl gx (valE dl)
           hE_rules_own hE_wf_heap eq_refl E).
  - intros n _. apply gradOf_fresh. repeat constructor.
  - intros rv Hrv. injection Hrv as <-. apply wf_vec2.
  - exact hE_jac.
  - rewrite hE_order. do 2 right. left. reflexivity.
  - exact Egx.
  - intros n _ Hlt. lia.
  - intros t i. unfold valE. ring.
  - apply hE_chain.
Qed.

Lemma hE_grad_exists :
  exists h' lg gx, bp_topo rd ids hE 2 = (h', lg, Ok tt) /\ gradOf h' 0 = Some gx.
Proof.
  apply (bp_grad_exists rd hE 2 0 hE_rules_own hE_wf_heap eq_refl); [|exact hE_run].
  rewrite hE_order. do 2 right. left. reflexivity.
Qed.

(* the gradient left on x is the derivative of  t |-> 2 sin (1 + t dl_0) + 2 sin (2 + t dl_1) *)
Example ex_total_derivative (dl : assignment) :
  exists h' lg gx, bp_topo rd ids hE 2 = (h', lg, Ok tt) /\ gradOf h' 0 = Some gx /\
    is_derive (fun t => 2 * sin (1 + t * dl [0%nat]) + 2 * sin (2 + t * dl [1%nat])) 0
              (elt gx [0%nat] * dl [0%nat] + elt gx [1%nat] * dl [1%nat]).
Proof.
  destruct hE_grad_exists as (h' & lg & gx & E & Egx).
  exists h', lg, gx. split; [exact E|]. split; [exact Egx|]. apply (hE_total_derivative h' lg gx dl E Egx).
Qed.

(* the conclusion is not trivial: it pins the gradient down to  dz/dx = 2 cos x *)
Example ex_gradient_value :
  exists h' lg gx, bp_topo rd ids hE 2 = (h', lg, Ok tt) /\ gradOf h' 0 = Some gx /\
    elt gx [0%nat] = 2 * cos 1 /\ elt gx [1%nat] = 2 * cos 2.
Proof.
  destruct hE_grad_exists as (h' & lg & gx & E & Egx).
  exists h', lg, gx. split; [exact E|]. split; [exact Egx|].
  assert (Hand : forall dl : assignment,
            is_derive (fun t => 2 * sin (1 + t * dl [0%nat]) + 2 * sin (2 + t * dl [1%nat])) 0
                      (2 * cos 1 * dl [0%nat] + 2 * cos 2 * dl [1%nat])).
  { intros dl. auto_derive; [exact I|]. replace (1 + 0 * dl [0%nat]) with 1 by ring.
    replace (2 + 0 * dl [1%nat]) with 2 by ring. ring. }
  destruct (pairing2_unique _ [0%nat] [1%nat] _ _ _ _ eq_refl Hand (fun dl => hE_total_derivative h' lg gx dl E Egx))
    as (G0 & G1 & _). auto.
Qed.

End Ex.
End TotalDerivExample.

Print Assumptions bp_duality.
Print Assumptions bp_total_derivative.
Print Assumptions bp_partial_derivative.
Print Assumptions chain_node_linear.
Print Assumptions chain_node_pointwise.
Print Assumptions TotalDerivExample.ex_total_derivative.
Print Assumptions TotalDerivExample.ex_gradient_value.
