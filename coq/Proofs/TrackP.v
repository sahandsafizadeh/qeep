(* TrackP.v — gradient-tracking bookkeeping of the tracked public methods (C08/C10):
   allocation / frame ([frame_ok]), the tracking rule ([tracks]), forward values ignore tracking,
   ResetGradContext, back-propagation from an untracked root.
   (The order and the flags of a back-propagation are in DfsP.v / BpFlagsP.v.) *)
From Coq Require Import List Arith ZArith Bool Lia.
From Qeep Require Import Model.Scalar Model.Nd Model.Fill Model.Data Model.Valid Model.Api Model.Grad Model.Backprop.
From Qeep Require Import Proofs.NdP.
Import ListNotations.

Lemma combine_seq_nth {X} (l : list X) : forall s j,
  nth_error (combine (seq s (length l)) l) j = option_map (fun x => (s + j, x)) (nth_error l j).
Proof.
  induction l as [|a l IH]; intros s j; cbn.
  - destruct j; reflexivity.
  - destruct j as [|j]; cbn.
    + rewrite Nat.add_0_r. reflexivity.
    + rewrite IH. rewrite Nat.add_succ_r. reflexivity.
Qed.

Lemma mapi_nth {X Y} (F : nat * X -> Y) (l : list X) j :
  nth_error (map F (combine (seq 0 (length l)) l)) j = option_map (fun x => F (j, x)) (nth_error l j).
Proof. rewrite nth_error_map, combine_seq_nth. destruct (nth_error l j); reflexivity. Qed.

Lemma mapi_length {X Y} (F : nat * X -> Y) (l : list X) :
  length (map F (combine (seq 0 (length l)) l)) = length l.
Proof. rewrite map_length, combine_length, seq_length. lia. Qed.

Lemma nth_error_snoc_old {X} (l : list X) a i x : nth_error l i = Some x -> nth_error (l ++ a) i = Some x.
Proof.
  intros H. rewrite nth_error_app1; [exact H|]. apply nth_error_Some. congruence.
Qed.

Lemma nth_error_snoc_new {X} (l : list X) a : nth_error (l ++ [a]) (length l) = Some a.
Proof. rewrite nth_error_app2 by lia. rewrite Nat.sub_diag. reflexivity. Qed.

Lemma memb_in n l : memb n l = true <-> In n l.
Proof.
  unfold memb. rewrite existsb_exists. split.
  - intros (x & Hx & E). apply Nat.eqb_eq in E. subst. exact Hx.
  - intros H. exists n. split; [exact H|apply Nat.eqb_refl].
Qed.

Lemma memb_false n l : memb n l = false <-> ~ In n l.
Proof.
  rewrite <- memb_in. destruct (memb n l).
  - split; [discriminate|intros H; exfalso; apply H; reflexivity].
  - split; [intros _ X; discriminate|reflexivity].
Qed.

Section TrackP.
Context {A : Type} {SA : Scalar A}.
Notation T := (tensor A).
Notation heap := (@heap A).
Notation node := (@node A).
Notation rule := (@rule A).
Notation hres := (@hres A).

Definition extends (h h' : heap) : Prop := exists l, h' = h ++ l.

(* every back edge points at an older tensor *)
Definition wf_heap (h : heap) : Prop :=
  forall i n, nth_error h i = Some n -> Forall (fun e : nat * rule => fst e < i) (nedges n).

(* forward content of a heap *)
Definition erase (h : heap) : list T := map (@nval A) h.

(* what a tracked method may do to the heap *)
Definition frame_ok (h : heap) (hr : hres) : Prop :=
  extends h (fst hr) /\
  (forall i n, nth_error h i = Some n -> nth_error (fst hr) i = Some n) /\
  (forall id, snd hr = Ok id -> length h <= id /\ id < length (fst hr) /\ S id = length (fst hr)) /\
  (snd hr = Err \/ snd hr = Panic -> fst hr = h).

(* the three-way rule for the context of a result computed from [ops] *)
Definition ctx_rule (h : heap) (ops : list nat) (n : node) : Prop :=
  ntracked n = existsb (trackedOf h) ops && negb (existsb (dirtyOf h) ops) /\
  ndirty n = existsb (dirtyOf h) ops /\
  (ntracked n = false -> nedges n = []) /\
  ngrad n = None.

(* the node [alloc] appends *)
Definition ctxNode (v : T) (ctx : bool * bool * list (nat * rule)) (name : option nat) : node :=
  mkNode v (fst (fst ctx)) (snd (fst ctx)) None (snd ctx) name.

Lemma extends_refl h : extends h h.
Proof. exists []. rewrite app_nil_r. reflexivity. Qed.

Lemma extends_trans h1 h2 h3 : extends h1 h2 -> extends h2 h3 -> extends h1 h3.
Proof. intros [l1 ->] [l2 ->]. exists (l1 ++ l2). rewrite app_assoc. reflexivity. Qed.

Lemma extends_nth h h' : extends h h' -> forall i n, nth_error h i = Some n -> nth_error h' i = Some n.
Proof. intros [l ->] i n H. apply nth_error_snoc_old. exact H. Qed.

Lemma extends_length h h' : extends h h' -> length h <= length h'.
Proof. intros [l ->]. rewrite app_length. lia. Qed.

Lemma extends_iff_nth h h' :
  extends h h' <-> (forall i n, nth_error h i = Some n -> nth_error h' i = Some n).
Proof.
  split; [apply extends_nth|].
  revert h'. induction h as [|a h IH]; intros h' H.
  - exists h'. reflexivity.
  - destruct h' as [|b h']; [specialize (H 0 a eq_refl); discriminate|].
    assert (E : b = a) by (specialize (H 0 a eq_refl); cbn in H; congruence). subst b.
    destruct (IH h') as [l ->].
    + intros i n Hi. apply (H (S i) n Hi).
    + exists l. reflexivity.
Qed.

(* [valOf gradOf trackedOf dirtyOf edgesOf] of Model.Grad are all, by conversion, [getN f d] for a
   field [f] and a default [d]: a fact about [getN] is a fact about each of them. *)
Definition getN {X} (f : node -> X) (d : X) (h : heap) (i : nat) : X :=
  match nth_error h i with Some n => f n | None => d end.

Lemma getN_lt {X} (f : node -> X) d (h : heap) i x : getN f d h i = x -> x <> d -> i < length h.
Proof. unfold getN. intros H Hx. apply nth_error_Some. destruct (nth_error h i); congruence. Qed.

Lemma getN_app {X} (f : node -> X) d (h l : heap) i : i < length h -> getN f d (h ++ l) i = getN f d h i.
Proof. intros H. unfold getN. rewrite nth_error_app1 by exact H. reflexivity. Qed.

Lemma getN_new {X} (f : node -> X) d (h : heap) n : getN f d (h ++ [n]) (length h) = f n.
Proof. unfold getN. rewrite nth_error_snoc_new. reflexivity. Qed.

Lemma valOf_nth (h : heap) i : valOf h i = option_map (@nval A) (nth_error h i).
Proof. unfold valOf. destruct (nth_error h i); reflexivity. Qed.

Lemma valOf_erase (h : heap) i : valOf h i = nth_error (erase h) i.
Proof. unfold erase. rewrite nth_error_map. apply valOf_nth. Qed.

Lemma valOf_some_lt (h : heap) i v : valOf h i = Some v -> i < length h.
Proof. intros H. apply (getN_lt (fun n => Some (nval n)) None h i _ H). discriminate. Qed.

Lemma trackedOf_true_lt (h : heap) i : trackedOf h i = true -> i < length h.
Proof. intros H. apply (getN_lt (@ntracked A) false h i _ H). discriminate. Qed.

Lemma dirtyOf_true_lt (h : heap) i : dirtyOf h i = true -> i < length h.
Proof. intros H. apply (getN_lt (@ndirty A) false h i _ H). discriminate. Qed.

Lemma lt_nth_some (h : heap) i : i < length h -> exists n, nth_error h i = Some n.
Proof.
  intros H. destruct (nth_error h i) as [n|] eqn:E; [exists n; reflexivity|].
  apply nth_error_None in E. lia.
Qed.

Lemma trackedOf_app (h l : heap) i : i < length h -> trackedOf (h ++ l) i = trackedOf h i.
Proof. apply (getN_app (@ntracked A)). Qed.

Lemma dirtyOf_app (h l : heap) i : i < length h -> dirtyOf (h ++ l) i = dirtyOf h i.
Proof. apply (getN_app (@ndirty A)). Qed.

Lemma valOf_app (h l : heap) i : i < length h -> valOf (h ++ l) i = valOf h i.
Proof. apply (getN_app (fun n => Some (nval n))). Qed.

Lemma trackedOf_new (h : heap) n : trackedOf (h ++ [n]) (length h) = ntracked n.
Proof. apply (getN_new (@ntracked A)). Qed.

Lemma dirtyOf_new (h : heap) n : dirtyOf (h ++ [n]) (length h) = ndirty n.
Proof. apply (getN_new (@ndirty A)). Qed.

Lemma valOf_new (h : heap) n : valOf (h ++ [n]) (length h) = Some (nval n).
Proof. apply (getN_new (fun n => Some (nval n))). Qed.

Lemma erase_length (h : heap) : length (erase h) = length h.
Proof. apply map_length. Qed.

Lemma erase_eq_length (h1 h2 : heap) : erase h1 = erase h2 -> length h1 = length h2.
Proof. intros E. rewrite <- (erase_length h1), <- (erase_length h2), E. reflexivity. Qed.

Lemma valOf_erase_eq (h1 h2 : heap) : erase h1 = erase h2 -> forall i, valOf h1 i = valOf h2 i.
Proof. intros E i. rewrite !valOf_erase, E. reflexivity. Qed.

Lemma updNode_nth (h : heap) i f j :
  nth_error (updNode h i f) j = option_map (fun n => if j =? i then f n else n) (nth_error h j).
Proof. unfold updNode. rewrite mapi_nth. reflexivity. Qed.

Lemma updNode_length (h : heap) i f : length (updNode h i f) = length h.
Proof. unfold updNode. apply mapi_length. Qed.

Lemma updNode_nth_other (h : heap) i f j : j <> i -> nth_error (updNode h i f) j = nth_error h j.
Proof.
  intros H. rewrite updNode_nth. apply Nat.eqb_neq in H. rewrite H. destruct (nth_error h j); reflexivity.
Qed.

Lemma updNode_nth_same (h : heap) i f : nth_error (updNode h i f) i = option_map f (nth_error h i).
Proof. rewrite updNode_nth, Nat.eqb_refl. reflexivity. Qed.

Definition dirtied (n : node) : node := mkNode (nval n) (ntracked n) true (ngrad n) (nedges n) (nname n).

Lemma markDirty_nth (h : heap) l j :
  nth_error (markDirty h l) j = option_map (fun n => if memb j l then dirtied n else n) (nth_error h j).
Proof. unfold markDirty. rewrite mapi_nth. reflexivity. Qed.

Lemma markDirty_length (h : heap) l : length (markDirty h l) = length h.
Proof. unfold markDirty. apply mapi_length. Qed.

Definition withGrad (g : option T) (n : node) : node :=
  mkNode (nval n) (ntracked n) (ndirty n) g (nedges n) (nname n).

Lemma setGrad_nth (h : heap) i g j :
  nth_error (setGrad h i g) j = option_map (fun n => if j =? i then withGrad g n else n) (nth_error h j).
Proof. unfold setGrad. rewrite updNode_nth. reflexivity. Qed.

Lemma setGrad_length (h : heap) i g : length (setGrad h i g) = length h.
Proof. apply updNode_length. Qed.

(* a field the update leaves alone reads the same afterwards *)
Lemma getN_updNode_inv {X} (f : node -> X) d (h : heap) i g j :
  (forall n, f (g n) = f n) -> getN f d (updNode h i g) j = getN f d h j.
Proof.
  intros H. unfold getN. rewrite updNode_nth. destruct (nth_error h j) as [n|]; [|reflexivity].
  cbn [option_map]. destruct (j =? i); [apply H|reflexivity].
Qed.

Lemma getN_updNode_other {X} (f : node -> X) d (h : heap) i g j : j <> i -> getN f d (updNode h i g) j = getN f d h j.
Proof. intros H. unfold getN. rewrite updNode_nth_other by exact H. reflexivity. Qed.

Lemma getN_markDirty_inv {X} (f : node -> X) d (h : heap) l j :
  (forall n, f (dirtied n) = f n) -> getN f d (markDirty h l) j = getN f d h j.
Proof.
  intros H. unfold getN. rewrite markDirty_nth. destruct (nth_error h j) as [n|]; [|reflexivity].
  cbn [option_map]. destruct (memb j l); [apply H|reflexivity].
Qed.

Lemma alloc_eq (h : heap) v ctx name : alloc h v ctx name = (h ++ [ctxNode v ctx name], length h).
Proof. destruct ctx as [[tr di] es]. reflexivity. Qed.

Lemma leaf_eq (h : heap) v tracked name :
  leaf h v tracked name = (h ++ [mkNode v tracked false None [] name], length h).
Proof. reflexivity. Qed.

Lemma ctxNode_val v ctx name : nval (ctxNode v ctx name) = v.
Proof. reflexivity. Qed.

Lemma mkCtx_cases (h : heap) ops es :
  (existsb (dirtyOf h) ops = true /\ mkCtx h ops es = (false, true, [])) \/
  (existsb (dirtyOf h) ops = false /\ existsb (trackedOf h) ops = false /\ mkCtx h ops es = (false, false, [])) \/
  (existsb (dirtyOf h) ops = false /\ existsb (trackedOf h) ops = true /\ mkCtx h ops es = (true, false, es)).
Proof.
  unfold mkCtx. destruct (existsb (dirtyOf h) ops); [left; auto|].
  destruct (existsb (trackedOf h) ops); cbn; [right; right; auto|right; left; auto].
Qed.

Lemma ctxNode_rule (h : heap) ops es v name : ctx_rule h ops (ctxNode v (mkCtx h ops es) name).
Proof.
  unfold ctx_rule.
  destruct (mkCtx_cases h ops es) as [(Ed & E)|[(Ed & Et & E)|(Ed & Et & E)]]; rewrite E; cbn [ctxNode ntracked ndirty nedges ngrad fst snd].
  - rewrite Ed. rewrite andb_false_r. repeat split; reflexivity.
  - rewrite Ed, Et. repeat split; reflexivity.
  - rewrite Ed, Et. repeat split; try reflexivity. intros X; discriminate.
Qed.

Lemma ctxNode_edges_tracked (h : heap) ops es v name :
  ntracked (ctxNode v (mkCtx h ops es) name) = true -> nedges (ctxNode v (mkCtx h ops es) name) = es.
Proof.
  destruct (mkCtx_cases h ops es) as [(Ed & E)|[(Ed & Et & E)|(Ed & Et & E)]]; rewrite E; cbn; intros H;
    try discriminate; reflexivity.
Qed.

Lemma ctxNode_edges_incl (h : heap) ops es v name e :
  In e (nedges (ctxNode v (mkCtx h ops es) name)) -> In e es.
Proof.
  destruct (mkCtx_cases h ops es) as [(Ed & E)|[(Ed & Et & E)|(Ed & Et & E)]]; rewrite E; cbn; intros H;
    try contradiction; exact H.
Qed.

Lemma ctxNode_edges_Forall (P : nat * rule -> Prop) (h : heap) ops es v name :
  Forall P es -> Forall P (nedges (ctxNode v (mkCtx h ops es) name)).
Proof.
  intros H. apply Forall_forall. intros e He. apply ctxNode_edges_incl in He.
  rewrite Forall_forall in H. apply H. exact He.
Qed.

(* an invariant of the back edges, node by node *)
Definition edges_all (P : nat -> nat * rule -> Prop) (h : heap) : Prop :=
  forall c n e, nth_error h c = Some n -> In e (nedges n) -> P c e.

Lemma wf_heap_all (h : heap) : wf_heap h <-> edges_all (fun c e => fst e < c) h.
Proof.
  split.
  - intros W c n e Hn He. specialize (W c n Hn). rewrite Forall_forall in W. apply W. exact He.
  - intros W i n Hn. apply Forall_forall. intros e He. eapply W; eauto.
Qed.

Lemma edges_all_edgesOf (P : nat -> nat * rule -> Prop) (h : heap) :
  edges_all P h -> forall c e, In e (edgesOf h c) -> P c e.
Proof.
  intros H c e He. unfold edgesOf in He. destruct (nth_error h c) as [n|] eqn:En; [|destruct He].
  eapply H; eauto.
Qed.

Lemma edges_all_nil (P : nat -> nat * rule -> Prop) : edges_all P [].
Proof. intros c n e Hn. destruct c; discriminate. Qed.

Lemma edges_all_snoc (P : nat -> nat * rule -> Prop) (h : heap) n :
  edges_all P h -> (forall e, In e (nedges n) -> P (length h) e) -> edges_all P (h ++ [n]).
Proof.
  intros H Hn c m e Hc He. destruct (Nat.lt_ge_cases c (length h)) as [Hlt|Hge].
  - rewrite nth_error_app1 in Hc by exact Hlt. eapply H; eauto.
  - assert (Hl : c < length (h ++ [n])) by (apply nth_error_Some; congruence).
    rewrite app_length in Hl. cbn [length] in Hl. assert (c = length h) by lia. subst c.
    rewrite nth_error_snoc_new in Hc. inversion Hc; subst m. apply Hn. exact He.
Qed.

Lemma edges_all_leaf (P : nat -> nat * rule -> Prop) (h : heap) v tracked name : edges_all P h -> edges_all P (fst (leaf h v tracked name)).
Proof. intros H. rewrite leaf_eq. apply edges_all_snoc; [exact H|intros e []]. Qed.

Lemma edges_all_updNode (P : nat -> nat * rule -> Prop) (h : heap) i f :
  (forall n e, In e (nedges (f n)) -> In e (nedges n)) -> edges_all P h -> edges_all P (updNode h i f).
Proof.
  intros Hf H c n e Hn He. rewrite updNode_nth in Hn. destruct (nth_error h c) as [n0|] eqn:E0; [|discriminate].
  inversion Hn; subst n. destruct (c =? i); [apply Hf in He|]; eapply H; eauto.
Qed.

Lemma edges_all_markDirty (P : nat -> nat * rule -> Prop) (h : heap) l : edges_all P h -> edges_all P (markDirty h l).
Proof.
  intros H c n e Hn He. rewrite markDirty_nth in Hn. destruct (nth_error h c) as [n0|] eqn:E0; [|discriminate].
  inversion Hn; subst n. destruct (memb c l); eapply H; eauto.
Qed.

Lemma wf_heap_nil : wf_heap [].
Proof. apply wf_heap_all, edges_all_nil. Qed.

(* h_op1, h_cmp, h_elsel, h_patch and h_concat compute a value and, if there is one, append the
   one node that carries it: what they do to the heap is said once, about [h_ret] *)
Definition h_ret (h : heap) (r : res T) (ctx : bool * bool * list (nat * rule)) (name : option nat) : hres :=
  match r with
  | Ok v => (h ++ [ctxNode v ctx name], Ok (length h))
  | Err => (h, Err)
  | Panic => (h, Panic)
  end.

Lemma h_op1_ret (h : heap) x f mk name :
  h_op1 h x f mk name = h_ret h (dor xv <- val_of h x; f xv) (mkCtx h [x] [(x, mk (length h))]) name.
Proof.
  unfold h_op1, val_of. destruct (valOf h x) as [xv|]; [|reflexivity]. cbn [of_opt res_bind].
  destruct (f xv); [rewrite alloc_eq|..]; reflexivity.
Qed.

Lemma h_cmp_ret (h : heap) b x u name :
  h_cmp h b x u name = h_ret h (dor xv <- val_of h x; dor uv <- val_of h u; v_same b xv uv) (false, false, []) name.
Proof.
  unfold h_cmp, val_of. destruct (valOf h x) as [xv|]; [|reflexivity]. destruct (valOf h u) as [uv|]; [|reflexivity].
  cbn [of_opt res_bind]. destruct (v_same b xv uv); reflexivity.
Qed.

Lemma h_elsel_ret (h : heap) b x u name :
  h_elsel h b x u name = h_ret h (dor xv <- val_of h x; dor uv <- val_of h u; v_same b xv uv)
    (mkCtx h [x; u] [(x, RElSel (length h) x u); (u, RElSel (length h) u x)]) name.
Proof.
  unfold h_elsel, val_of. destruct (valOf h x) as [xv|]; [|reflexivity]. destruct (valOf h u) as [uv|]; [|reflexivity].
  cbn [of_opt res_bind]. destruct (v_same b xv uv); [rewrite alloc_eq|..]; reflexivity.
Qed.

Lemma h_patch_ret (h : heap) x index p name :
  h_patch h x index p name = h_ret h (dor xv <- val_of h x; dor pv <- val_of h p; v_patch xv index pv)
    (mkCtx h [x; p] [(x, RPatchX (length h) p index); (p, RPatchP (length h) p index)]) name.
Proof.
  unfold h_patch, val_of. destruct (valOf h x) as [xv|]; [|reflexivity]. destruct (valOf h p) as [pv|]; [|reflexivity].
  cbn [of_opt res_bind]. destruct (v_patch xv index pv); [rewrite alloc_eq|..]; reflexivity.
Qed.

(* the context of a Concat result depends on the operand values *)
Lemma h_concat_ret (h : heap) xs dim name :
  h_concat h xs dim name =
  match mapM (valOf h) xs with
  | Some vs => h_ret h (v_concat vs dim) (mkCtx h xs (concatEdges (length h) (Z.to_nat dim) (combine xs vs) 0%Z)) name
  | None => (h, Panic)
  end.
Proof.
  unfold h_concat. destruct (mapM (valOf h) xs) as [vs|]; [|reflexivity].
  destruct (v_concat vs dim); [rewrite alloc_eq|..]; reflexivity.
Qed.

Lemma val_of_ok (h : heap) x (k : T -> res T) v :
  (dor xv <- val_of h x; k xv) = Ok v -> exists xv, valOf h x = Some xv /\ k xv = Ok v.
Proof. unfold val_of. destruct (valOf h x) as [xv|]; [|discriminate]. exists xv. auto. Qed.

Lemma h_ret_inv (h : heap) r ctx name h' r' : h_ret h r ctx name = (h', r') ->
  match r' with
  | Ok id => exists v, r = Ok v /\ id = length h /\ h' = h ++ [ctxNode v ctx name]
  | _ => h' = h
  end.
Proof. destruct r as [v| |]; intros E; inversion E; [exists v; auto|reflexivity|reflexivity]. Qed.

Lemma edges_all_ret (P : nat -> nat * rule -> Prop) (h : heap) r ops es name :
  edges_all P h -> (forall v, r = Ok v -> forall e, In e es -> P (length h) e) ->
  edges_all P (fst (h_ret h r (mkCtx h ops es) name)).
Proof.
  intros H He. destruct r as [v| |]; cbn [h_ret fst]; [|exact H|exact H].
  apply edges_all_snoc; [exact H|]. intros e Hin. apply ctxNode_edges_incl in Hin. eapply He; eauto.
Qed.

(* inversion: the exact shape of every method's outcome *)

Lemma h_op1_inv (h : heap) x f mk name h' r : h_op1 h x f mk name = (h', r) ->
  match r with
  | Ok id => exists xv v, valOf h x = Some xv /\ f xv = Ok v /\ id = length h /\
               h' = h ++ [ctxNode v (mkCtx h [x] [(x, mk (length h))]) name]
  | _ => h' = h
  end.
Proof.
  rewrite h_op1_ret. intros E. apply h_ret_inv in E. destruct r as [id| |]; [|exact E|exact E].
  destruct E as (v & Hv & -> & ->). apply val_of_ok in Hv as (xv & Hx & Hf). exists xv, v. auto.
Qed.

Lemma h_cmp_inv (h : heap) b x u name h' r : h_cmp h b x u name = (h', r) ->
  match r with
  | Ok id => exists xv uv v, valOf h x = Some xv /\ valOf h u = Some uv /\ v_same b xv uv = Ok v /\ id = length h /\
               h' = h ++ [mkNode v false false None [] name]
  | _ => h' = h
  end.
Proof.
  rewrite h_cmp_ret. intros E. apply h_ret_inv in E. destruct r as [id| |]; [|exact E|exact E].
  destruct E as (v & Hv & -> & ->). apply val_of_ok in Hv as (xv & Hx & Hv). apply val_of_ok in Hv as (uv & Hu & Hf).
  exists xv, uv, v. auto.
Qed.

Lemma h_elsel_inv (h : heap) b x u name h' r : h_elsel h b x u name = (h', r) ->
  match r with
  | Ok id => exists xv uv v, valOf h x = Some xv /\ valOf h u = Some uv /\ v_same b xv uv = Ok v /\ id = length h /\
               h' = h ++ [ctxNode v (mkCtx h [x; u] [(x, RElSel (length h) x u); (u, RElSel (length h) u x)]) name]
  | _ => h' = h
  end.
Proof.
  rewrite h_elsel_ret. intros E. apply h_ret_inv in E. destruct r as [id| |]; [|exact E|exact E].
  destruct E as (v & Hv & -> & ->). apply val_of_ok in Hv as (xv & Hx & Hv). apply val_of_ok in Hv as (uv & Hu & Hf).
  exists xv, uv, v. auto.
Qed.

Lemma h_patch_inv (h : heap) x index p name h' r : h_patch h x index p name = (h', r) ->
  match r with
  | Ok id => exists xv pv v, valOf h x = Some xv /\ valOf h p = Some pv /\ v_patch xv index pv = Ok v /\ id = length h /\
               h' = h ++ [ctxNode v (mkCtx h [x; p] [(x, RPatchX (length h) p index); (p, RPatchP (length h) p index)]) name]
  | _ => h' = h
  end.
Proof.
  rewrite h_patch_ret. intros E. apply h_ret_inv in E. destruct r as [id| |]; [|exact E|exact E].
  destruct E as (v & Hv & -> & ->). apply val_of_ok in Hv as (xv & Hx & Hv). apply val_of_ok in Hv as (pv & Hp & Hf).
  exists xv, pv, v. auto.
Qed.

Lemma h_concat_inv (h : heap) xs dim name h' r : h_concat h xs dim name = (h', r) ->
  match r with
  | Ok id => exists vs v, mapM (valOf h) xs = Some vs /\ v_concat vs dim = Ok v /\ id = length h /\
               h' = h ++ [ctxNode v (mkCtx h xs (concatEdges (length h) (Z.to_nat dim) (combine xs vs) 0%Z)) name]
  | _ => h' = h
  end.
Proof.
  rewrite h_concat_ret. destruct (mapM (valOf h) xs) as [vs|]; [|intros E; inversion E; reflexivity].
  intros E. apply h_ret_inv in E. destruct r as [id| |]; [|exact E|exact E].
  destruct E as (v & Hv & -> & ->). exists vs, v. auto.
Qed.

(* the two internal Broadcast nodes of a binary operator *)
Definition bnode1 (h : heap) (x : nat) (v1 : T) : node :=
  ctxNode v1 (mkCtx h [x] [(x, RBroadcast (length h) x)]) None.
Definition bnode2 (h : heap) (x u : nat) (v1 v2 : T) : node :=
  ctxNode v2 (mkCtx (h ++ [bnode1 h x v1]) [u] [(u, RBroadcast (S (length h)) u)]) None.

Lemma h_bcast2_inv (h : heap) x u s1 s2 h2 r : h_bcast2 h x u s1 s2 = (h2, r) ->
  match r with
  | Ok (b1, b2) => exists xv uv v1 v2,
      valOf h x = Some xv /\ v_broadcast xv s1 = Ok v1 /\
      valOf (h ++ [bnode1 h x v1]) u = Some uv /\ v_broadcast uv s2 = Ok v2 /\
      b1 = length h /\ b2 = S (length h) /\
      h2 = h ++ [bnode1 h x v1] ++ [bnode2 h x u v1 v2]
  | _ => h2 = h
  end.
Proof.
  unfold h_bcast2, h_broadcast.
  destruct (h_op1 h x (fun v => v_broadcast v s1) (fun y => RBroadcast y x) None) as [h1 r1] eqn:E1.
  apply h_op1_inv in E1. destruct r1 as [b1| |].
  - destruct E1 as (xv & v1 & Hx & Hv1 & -> & ->).
    destruct (h_op1 _ u (fun v => v_broadcast v s2) (fun y => RBroadcast y u) None) as [h2' r2] eqn:E2.
    apply h_op1_inv in E2. destruct r2 as [b2| |].
    + destruct E2 as (uv & v2 & Hu & Hv2 & -> & ->). intros E. inversion E; subst.
      exists xv, uv, v1, v2. repeat split; auto.
      * rewrite app_length. cbn. lia.
      * unfold bnode2, bnode1. rewrite app_length. cbn [length]. rewrite Nat.add_1_r.
        rewrite <- app_assoc. reflexivity.
    + intros E. inversion E; reflexivity.
    + intros E. inversion E; reflexivity.
  - intros E. inversion E; reflexivity.
  - intros E. inversion E; reflexivity.
Qed.

Definition rnode (h : heap) (x u : nat) (v1 v2 v : T) (edges : nat -> nat -> nat -> list (nat * rule)) name : node :=
  let h2 := h ++ [bnode1 h x v1] ++ [bnode2 h x u v1 v2] in
  ctxNode v (mkCtx h2 [length h; S (length h)] (edges (S (S (length h))) (length h) (S (length h)))) name.

Lemma h_binop_inv (h : heap) x u s1 s2 f edges name h3 r : h_binop h x u s1 s2 f edges name = (h3, r) ->
  match r with
  | Ok id => exists xv uv v1 v2 v,
      valOf h x = Some xv /\ v_broadcast xv s1 = Ok v1 /\
      valOf (h ++ [bnode1 h x v1]) u = Some uv /\ v_broadcast uv s2 = Ok v2 /\
      f v1 v2 = Some v /\ id = S (S (length h)) /\
      h3 = h ++ [bnode1 h x v1; bnode2 h x u v1 v2; rnode h x u v1 v2 v edges name]
  | _ => h3 = h
  end.
Proof.
  unfold h_binop. destruct (h_bcast2 h x u s1 s2) as [h2 r2] eqn:E2.
  apply h_bcast2_inv in E2. destruct r2 as [[b1 b2]| |].
  - destruct E2 as (xv & uv & v1 & v2 & Hx & Hv1 & Hu & Hv2 & -> & -> & ->).
    assert (L2 : length (h ++ [bnode1 h x v1] ++ [bnode2 h x u v1 v2]) = S (S (length h))).
    { rewrite !app_length. cbn. lia. }
    assert (V1 : valOf (h ++ [bnode1 h x v1] ++ [bnode2 h x u v1 v2]) (length h) = Some v1).
    { rewrite app_assoc. rewrite valOf_app by (rewrite app_length; cbn; lia). rewrite valOf_new. reflexivity. }
    assert (V2 : valOf (h ++ [bnode1 h x v1] ++ [bnode2 h x u v1 v2]) (S (length h)) = Some v2).
    { rewrite app_assoc. replace (S (length h)) with (length (h ++ [bnode1 h x v1])) by (rewrite app_length; cbn; lia).
      rewrite valOf_new. reflexivity. }
    rewrite V1, V2. destruct (f v1 v2) as [v|] eqn:Ef.
    + rewrite alloc_eq. rewrite L2. intros E. inversion E; subst.
      exists xv, uv, v1, v2, v. repeat split; auto.
      unfold rnode. rewrite <- !app_assoc. reflexivity.
    + intros E. inversion E; reflexivity.
  - intros E. inversion E; reflexivity.
  - intros E. inversion E; reflexivity.
Qed.

Lemma frame_ok_same (h : heap) (r : res nat) : (forall id, r <> Ok id) -> frame_ok h (h, r).
Proof.
  intros Hr. unfold frame_ok; cbn [fst snd]. split; [apply extends_refl|]. split; [auto|]. split.
  - intros id E. exfalso. apply (Hr id E).
  - reflexivity.
Qed.

Lemma frame_ok_app (h l : heap) id :
  length h <= id -> S id = length (h ++ l) -> frame_ok h (h ++ l, Ok id).
Proof.
  intros H1 H2. unfold frame_ok; cbn [fst snd]. split; [exists l; reflexivity|]. split.
  - intros i n Hi. apply nth_error_snoc_old. exact Hi.
  - split.
    + intros id' E. inversion E; subst id'. lia.
    + intros [E|E]; discriminate.
Qed.

Lemma h_ret_frame (h : heap) r ctx name : frame_ok h (h_ret h r ctx name).
Proof.
  destruct r; cbn [h_ret]; [apply frame_ok_app; [lia|rewrite app_length; cbn; lia]| |];
    apply frame_ok_same; intros id; discriminate.
Qed.

Theorem h_op1_frame (h : heap) x f mk name : frame_ok h (h_op1 h x f mk name).
Proof. rewrite h_op1_ret. apply h_ret_frame. Qed.

Theorem h_cmp_frame (h : heap) b x u name : frame_ok h (h_cmp h b x u name).
Proof. rewrite h_cmp_ret. apply h_ret_frame. Qed.

Theorem h_elsel_frame (h : heap) b x u name : frame_ok h (h_elsel h b x u name).
Proof. rewrite h_elsel_ret. apply h_ret_frame. Qed.

Theorem h_patch_frame (h : heap) x index p name : frame_ok h (h_patch h x index p name).
Proof. rewrite h_patch_ret. apply h_ret_frame. Qed.

Theorem h_concat_frame (h : heap) xs dim name : frame_ok h (h_concat h xs dim name).
Proof.
  rewrite h_concat_ret. destruct (mapM (valOf h) xs); [apply h_ret_frame|].
  apply frame_ok_same. intros id; discriminate.
Qed.

(* broadcastForBinaryOp: two appended nodes, ids are the next two positions *)
Theorem h_bcast2_frame (h : heap) x u s1 s2 :
  let hr := h_bcast2 h x u s1 s2 in
  extends h (fst hr) /\
  (forall b1 b2, snd hr = Ok (b1, b2) -> b1 = length h /\ b2 = S (length h) /\ length (fst hr) = S (S (length h))) /\
  (snd hr = Err \/ snd hr = Panic -> fst hr = h).
Proof.
  cbn zeta. destruct (h_bcast2 h x u s1 s2) as [h2 r] eqn:E. apply h_bcast2_inv in E. cbn [fst snd].
  destruct r as [[b1 b2]| |].
  - destruct E as (xv & uv & v1 & v2 & _ & _ & _ & _ & -> & -> & ->). split; [eexists; reflexivity|]. split.
    + intros b1 b2 Eb. inversion Eb; subst. rewrite !app_length. cbn. repeat split; lia.
    + intros [X|X]; discriminate.
  - subst h2. split; [apply extends_refl|]. split; [intros b1 b2 X; discriminate|reflexivity].
  - subst h2. split; [apply extends_refl|]. split; [intros b1 b2 X; discriminate|reflexivity].
Qed.

Theorem h_binop_frame (h : heap) x u s1 s2 f edges name : frame_ok h (h_binop h x u s1 s2 f edges name).
Proof.
  destruct (h_binop h x u s1 s2 f edges name) as [h' r] eqn:E. apply h_binop_inv in E. destruct r as [id| |].
  - destruct E as (xv & uv & v1 & v2 & v & _ & _ & _ & _ & _ & -> & ->).
    apply frame_ok_app; [lia|]. rewrite app_length. cbn. lia.
  - subst h'. apply frame_ok_same. intros id; discriminate.
  - subst h'. apply frame_ok_same. intros id; discriminate.
Qed.

Theorem h_arith_frame (h : heap) b x u name : frame_ok h (h_arith h b x u name).
Proof.
  unfold h_arith. destruct (valOf h x) as [xv|]; [destruct (valOf h u) as [uv|]|].
  - apply h_binop_frame.
  - apply frame_ok_same. intros id; discriminate.
  - apply frame_ok_same. intros id; discriminate.
Qed.

Theorem h_dot_frame (h : heap) x u name : frame_ok h (h_dot h x u name).
Proof.
  unfold h_dot. destruct (valOf h x) as [xv|]; [destruct (valOf h u) as [uv|]|].
  - destruct (validateDotProductDims (zdims xv) (zdims uv)).
    + apply h_binop_frame.
    + apply frame_ok_same. intros id; discriminate.
  - apply frame_ok_same. intros id; discriminate.
  - apply frame_ok_same. intros id; discriminate.
Qed.

Theorem h_matmul_frame (h : heap) x u name : frame_ok h (h_matmul h x u name).
Proof.
  unfold h_matmul. destruct (valOf h x) as [xv|]; [destruct (valOf h u) as [uv|]|].
  - destruct (validateMatMulDims (zdims xv) (zdims uv)).
    + apply h_binop_frame.
    + apply frame_ok_same. intros id; discriminate.
  - apply frame_ok_same. intros id; discriminate.
  - apply frame_ok_same. intros id; discriminate.
Qed.

Corollary h_slice_frame (h : heap) x index name : frame_ok h (h_slice h x index name).
Proof. apply h_op1_frame. Qed.
Corollary h_transpose_frame (h : heap) x name : frame_ok h (h_transpose h x name).
Proof. apply h_op1_frame. Qed.
Corollary h_reshape_frame (h : heap) x shape name : frame_ok h (h_reshape h x shape name).
Proof. apply h_op1_frame. Qed.
Corollary h_unsqueeze_frame (h : heap) x dim name : frame_ok h (h_unsqueeze h x dim name).
Proof. apply h_op1_frame. Qed.
Corollary h_squeeze_frame (h : heap) x dim name : frame_ok h (h_squeeze h x dim name).
Proof. apply h_op1_frame. Qed.
Corollary h_flatten_frame (h : heap) x dim name : frame_ok h (h_flatten h x dim name).
Proof. apply h_op1_frame. Qed.
Corollary h_broadcast_frame (h : heap) x shape name : frame_ok h (h_broadcast h x shape name).
Proof. apply h_op1_frame. Qed.
Corollary h_reduceAlong_frame (h : heap) r x dim name : frame_ok h (h_reduceAlong h r x dim name).
Proof. apply h_op1_frame. Qed.
Corollary h_scale_frame (h : heap) x a name : frame_ok h (h_scale h x a name).
Proof. apply h_op1_frame. Qed.
Corollary h_pow_frame (h : heap) x a az name : frame_ok h (h_pow h x a az name).
Proof. apply h_op1_frame. Qed.
Corollary h_math_frame (h : heap) fn x name : frame_ok h (h_math h fn x name).
Proof. apply h_op1_frame. Qed.

Lemma leaf_frame (h : heap) v tracked name :
  leaf h v tracked name = (h ++ [mkNode v tracked false None [] name], length h).
Proof. apply leaf_eq. Qed.

Lemma ctx_rule1 (h : heap) x n : ctx_rule h [x] n ->
  ntracked n = trackedOf h x && negb (dirtyOf h x) /\ ndirty n = dirtyOf h x.
Proof.
  intros (Ht & Hd & _ & _). cbn [existsb] in Ht, Hd. rewrite !orb_false_r in Ht. rewrite !orb_false_r in Hd. split; assumption.
Qed.

Lemma ctx_rule2 (h : heap) x u n : ctx_rule h [x; u] n ->
  ntracked n = (trackedOf h x || trackedOf h u) && negb (dirtyOf h x) && negb (dirtyOf h u) /\
  ndirty n = dirtyOf h x || dirtyOf h u.
Proof.
  intros (Ht & Hd & _ & _). cbn [existsb] in Ht, Hd. rewrite !orb_false_r in Ht. rewrite !orb_false_r in Hd. split; [|assumption].
  rewrite Ht. rewrite negb_orb. rewrite andb_assoc. reflexivity.
Qed.

(* any operand spent -> result untracked, spent, without edges *)
Lemma ctx_rule_dirty (h : heap) ops n x : ctx_rule h ops n -> In x ops -> dirtyOf h x = true ->
  ntracked n = false /\ ndirty n = true /\ nedges n = [].
Proof.
  intros (Ht & Hd & He & _) Hx Hdx.
  assert (E : existsb (dirtyOf h) ops = true) by (apply existsb_exists; exists x; auto).
  rewrite E in Ht, Hd. rewrite andb_false_r in Ht. auto.
Qed.

(* no operand tracked -> result untracked *)
Lemma ctx_rule_untracked (h : heap) ops n : ctx_rule h ops n ->
  (forall x, In x ops -> trackedOf h x = false) -> ntracked n = false /\ nedges n = [].
Proof.
  intros (Ht & Hd & He & _) Hx.
  assert (E : existsb (trackedOf h) ops = false).
  { destruct (existsb (trackedOf h) ops) eqn:E; [|reflexivity].
    apply existsb_exists in E as (x & Hin & Hxt). rewrite (Hx x Hin) in Hxt. discriminate. }
  rewrite E in Ht. cbn in Ht. auto.
Qed.

(* tracked exactly when some operand is tracked and none is spent *)
Lemma ctx_rule_tracked_iff (h : heap) ops n : ctx_rule h ops n ->
  (ntracked n = true <-> (exists x, In x ops /\ trackedOf h x = true) /\ (forall x, In x ops -> dirtyOf h x = false)).
Proof.
  intros (Ht & _). rewrite Ht, andb_true_iff, negb_true_iff, existsb_exists. split.
  - intros [H1 H2]. split; [exact H1|]. intros x Hx. destruct (dirtyOf h x) eqn:E; [|reflexivity].
    assert (X : existsb (dirtyOf h) ops = true) by (apply existsb_exists; exists x; auto). congruence.
  - intros [H1 H2]. split; [exact H1|]. destruct (existsb (dirtyOf h) ops) eqn:E; [|reflexivity].
    apply existsb_exists in E as (x & Hin & Hxd). rewrite (H2 x Hin) in Hxd. discriminate.
Qed.

Theorem h_op1_track (h : heap) x f mk name h' id : h_op1 h x f mk name = (h', Ok id) ->
  exists n, nth_error h' id = Some n /\ ctx_rule h [x] n /\ nname n = name /\
    (exists xv, valOf h x = Some xv /\ f xv = Ok (nval n)) /\
    (ntracked n = true -> nedges n = [(x, mk id)]) /\
    Forall (fun e : nat * rule => fst e < id) (nedges n).
Proof.
  intros E. apply h_op1_inv in E. destruct E as (xv & v & Hx & Hf & -> & ->).
  eexists. split; [apply nth_error_snoc_new|]. split; [apply ctxNode_rule|]. split; [reflexivity|].
  split; [exists xv; auto|]. split; [apply ctxNode_edges_tracked|].
  apply ctxNode_edges_Forall. constructor; [|constructor]. cbn. eapply valOf_some_lt; eauto.
Qed.

Theorem h_cmp_track (h : heap) b x u name h' id : h_cmp h b x u name = (h', Ok id) ->
  exists n, nth_error h' id = Some n /\
    ntracked n = false /\ ndirty n = false /\ nedges n = [] /\ ngrad n = None /\ nname n = name /\
    (exists xv uv, valOf h x = Some xv /\ valOf h u = Some uv /\ v_same b xv uv = Ok (nval n)).
Proof.
  intros E. apply h_cmp_inv in E. destruct E as (xv & uv & v & Hx & Hu & Hf & -> & ->).
  eexists. split; [apply nth_error_snoc_new|]. cbn. repeat split. exists xv, uv. auto.
Qed.

Theorem h_elsel_track (h : heap) b x u name h' id : h_elsel h b x u name = (h', Ok id) ->
  exists n, nth_error h' id = Some n /\ ctx_rule h [x; u] n /\ nname n = name /\
    (exists xv uv, valOf h x = Some xv /\ valOf h u = Some uv /\ v_same b xv uv = Ok (nval n)) /\
    (ntracked n = true -> nedges n = [(x, RElSel id x u); (u, RElSel id u x)]) /\
    Forall (fun e : nat * rule => fst e < id) (nedges n).
Proof.
  intros E. apply h_elsel_inv in E. destruct E as (xv & uv & v & Hx & Hu & Hf & -> & ->).
  eexists. split; [apply nth_error_snoc_new|]. split; [apply ctxNode_rule|]. split; [reflexivity|].
  split; [exists xv, uv; auto|]. split; [apply ctxNode_edges_tracked|].
  apply ctxNode_edges_Forall. repeat constructor; cbn; eapply valOf_some_lt; eauto.
Qed.

Theorem h_patch_track (h : heap) x index p name h' id : h_patch h x index p name = (h', Ok id) ->
  exists n, nth_error h' id = Some n /\ ctx_rule h [x; p] n /\ nname n = name /\
    (exists xv pv, valOf h x = Some xv /\ valOf h p = Some pv /\ v_patch xv index pv = Ok (nval n)) /\
    (ntracked n = true -> nedges n = [(x, RPatchX id p index); (p, RPatchP id p index)]) /\
    Forall (fun e : nat * rule => fst e < id) (nedges n).
Proof.
  intros E. apply h_patch_inv in E. destruct E as (xv & pv & v & Hx & Hp & Hf & -> & ->).
  eexists. split; [apply nth_error_snoc_new|]. split; [apply ctxNode_rule|]. split; [reflexivity|].
  split; [exists xv, pv; auto|]. split; [apply ctxNode_edges_tracked|].
  apply ctxNode_edges_Forall. repeat constructor; cbn; eapply valOf_some_lt; eauto.
Qed.

Lemma concatEdges_targets y dim : forall (xs : list (nat * T)) base e,
  In e (concatEdges y dim xs base) -> In (fst e) (map fst xs).
Proof.
  induction xs as [|[x xv] xs IH]; intros base e He; cbn in He; [contradiction|].
  destruct He as [<-|He]; [left; reflexivity|]. right. eapply IH; eauto.
Qed.

Lemma concatEdges_rule y dim : forall (xs : list (nat * T)) base e,
  In e (concatEdges y dim xs base) -> exists index, snd e = RConcat y index.
Proof.
  induction xs as [|[x xv] xs IH]; intros base e He; cbn in He; [contradiction|].
  destruct He as [<-|He]; [eexists; reflexivity|]. eapply IH; eauto.
Qed.

Lemma concatEdges_map_fst y dim : forall (xs : list (nat * T)) base,
  map fst (concatEdges y dim xs base) = map fst xs.
Proof.
  induction xs as [|[x xv] xs IH]; intros base; cbn; [reflexivity|]. rewrite IH. reflexivity.
Qed.

Lemma mapM_valOf_lt (h : heap) xs vs : mapM (valOf h) xs = Some vs -> forall x, In x xs -> x < length h.
Proof.
  intros H x Hx. destruct (In_nth_error _ _ Hx) as [i Hi].
  destruct (mapM_nth _ _ _ H _ _ Hi) as (y & _ & Hy). eapply valOf_some_lt; eauto.
Qed.

Theorem h_concat_track (h : heap) xs dim name h' id : h_concat h xs dim name = (h', Ok id) ->
  exists n, nth_error h' id = Some n /\ ctx_rule h xs n /\ nname n = name /\
    (exists vs, mapM (valOf h) xs = Some vs /\ v_concat vs dim = Ok (nval n) /\
       (ntracked n = true -> map fst (nedges n) = xs)) /\
    Forall (fun e : nat * rule => fst e < id) (nedges n).
Proof.
  intros E. apply h_concat_inv in E. destruct E as (vs & v & Hx & Hf & -> & ->).
  eexists. split; [apply nth_error_snoc_new|]. split; [apply ctxNode_rule|]. split; [reflexivity|].
  split.
  - exists vs. split; [exact Hx|]. split; [exact Hf|]. intros Ht. rewrite (ctxNode_edges_tracked _ _ _ _ _ Ht).
    rewrite concatEdges_map_fst. apply NdP.mapM_length in Hx.
    clear -Hx. revert vs Hx. induction xs as [|x xs IH]; intros [|w vs] Hl; cbn in *; try discriminate; [reflexivity|].
    f_equal. apply IH. congruence.
  - apply ctxNode_edges_Forall. apply Forall_forall. intros e He.
    apply concatEdges_targets in He. apply in_map_iff in He as ([x0 v0] & Hfst & Hin). cbn in Hfst. subst x0.
    apply in_combine_l in Hin. eapply mapM_valOf_lt; eauto.
Qed.

(* binary operators: the flags pass through the two internal Broadcast results *)
Lemma bnode1_rule (h : heap) x v1 : ctx_rule h [x] (bnode1 h x v1).
Proof. apply ctxNode_rule. Qed.

Lemma bnode2_rule (h : heap) x u v1 v2 : u < length h -> ctx_rule h [u] (bnode2 h x u v1 v2).
Proof.
  intros Hu. pose proof (ctxNode_rule (h ++ [bnode1 h x v1]) [u] [(u, RBroadcast (S (length h)) u)] v2 None) as R.
  fold (bnode2 h x u v1 v2) in R. destruct R as (Rt & Rd & Re & Rg).
  cbn [existsb] in Rt, Rd. rewrite trackedOf_app in Rt by exact Hu. rewrite dirtyOf_app in Rt, Rd by exact Hu.
  unfold ctx_rule. cbn [existsb]. auto.
Qed.

Lemma rnode_rule (h : heap) x u v1 v2 v edges name :
  x < length h -> u < length h -> ctx_rule h [x; u] (rnode h x u v1 v2 v edges name).
Proof.
  intros Hx Hu.
  pose proof (ctxNode_rule (h ++ [bnode1 h x v1] ++ [bnode2 h x u v1 v2]) [length h; S (length h)]
                (edges (S (S (length h))) (length h) (S (length h))) v name) as R.
  fold (rnode h x u v1 v2 v edges name) in R. destruct R as (Rt & Rd & Re & Rg).
  assert (T1 : trackedOf (h ++ [bnode1 h x v1] ++ [bnode2 h x u v1 v2]) (length h) = ntracked (bnode1 h x v1)).
  { rewrite app_assoc. rewrite trackedOf_app by (rewrite app_length; cbn; lia). apply trackedOf_new. }
  assert (D1 : dirtyOf (h ++ [bnode1 h x v1] ++ [bnode2 h x u v1 v2]) (length h) = ndirty (bnode1 h x v1)).
  { rewrite app_assoc. rewrite dirtyOf_app by (rewrite app_length; cbn; lia). apply dirtyOf_new. }
  assert (T2 : trackedOf (h ++ [bnode1 h x v1] ++ [bnode2 h x u v1 v2]) (S (length h)) = ntracked (bnode2 h x u v1 v2)).
  { rewrite app_assoc. replace (S (length h)) with (length (h ++ [bnode1 h x v1])) by (rewrite app_length; cbn; lia).
    apply trackedOf_new. }
  assert (D2 : dirtyOf (h ++ [bnode1 h x v1] ++ [bnode2 h x u v1 v2]) (S (length h)) = ndirty (bnode2 h x u v1 v2)).
  { rewrite app_assoc. replace (S (length h)) with (length (h ++ [bnode1 h x v1])) by (rewrite app_length; cbn; lia).
    apply dirtyOf_new. }
  cbn [existsb] in Rt, Rd. rewrite T1, T2, D1, D2 in Rt. rewrite D1, D2 in Rd.
  destruct (ctx_rule1 _ _ _ (bnode1_rule h x v1)) as [B1t B1d].
  destruct (ctx_rule1 _ _ _ (bnode2_rule h x u v1 v2 Hu)) as [B2t B2d].
  rewrite B1t, B2t, B1d, B2d in Rt. rewrite B1d, B2d in Rd.
  unfold ctx_rule. cbn [existsb]. split; [|split; [exact Rd|split; [exact Re|exact Rg]]].
  rewrite Rt. destruct (trackedOf h x), (trackedOf h u), (dirtyOf h x), (dirtyOf h u); reflexivity.
Qed.

(* the composite rule for a binary operator whose operands exist in [h] *)
Theorem h_binop_track (h : heap) x u s1 s2 f edges name h' id :
  x < length h -> u < length h ->
  (forall y a1 a2 e, In e (edges y a1 a2) -> fst e = a1 \/ fst e = a2) ->
  h_binop h x u s1 s2 f edges name = (h', Ok id) ->
  exists n b1 b2, nth_error h' id = Some n /\ ctx_rule h [x; u] n /\ nname n = name /\
    id = S (S (length h)) /\
    nth_error h' (length h) = Some b1 /\ nth_error h' (S (length h)) = Some b2 /\
    ctx_rule h [x] b1 /\ ctx_rule h [u] b2 /\ nname b1 = None /\ nname b2 = None /\
    (ntracked b1 = true -> nedges b1 = [(x, RBroadcast (length h) x)]) /\
    (ntracked b2 = true -> nedges b2 = [(u, RBroadcast (S (length h)) u)]) /\
    (exists xv uv, valOf h x = Some xv /\ valOf h u = Some uv /\
        v_broadcast xv s1 = Ok (nval b1) /\ v_broadcast uv s2 = Ok (nval b2) /\ f (nval b1) (nval b2) = Some (nval n)) /\
    (ntracked n = true -> nedges n = edges id (length h) (S (length h))) /\
    Forall (fun e : nat * rule => fst e < id) (nedges n).
Proof.
  intros Hx Hu Hed E. apply h_binop_inv in E.
  destruct E as (xv & uv & v1 & v2 & v & Vx & B1 & Vu & B2 & Hf & -> & ->).
  rewrite valOf_app in Vu by exact Hu.
  exists (rnode h x u v1 v2 v edges name), (bnode1 h x v1), (bnode2 h x u v1 v2).
  split.
  { change (h ++ [bnode1 h x v1; bnode2 h x u v1 v2; rnode h x u v1 v2 v edges name])
      with (h ++ [bnode1 h x v1; bnode2 h x u v1 v2] ++ [rnode h x u v1 v2 v edges name]).
    rewrite app_assoc. replace (S (S (length h))) with (length (h ++ [bnode1 h x v1; bnode2 h x u v1 v2]))
      by (rewrite app_length; cbn; lia). apply nth_error_snoc_new. }
  split; [apply rnode_rule; assumption|]. split; [reflexivity|]. split; [reflexivity|].
  split; [rewrite nth_error_app2 by lia; rewrite Nat.sub_diag; reflexivity|].
  split; [rewrite nth_error_app2 by lia; replace (S (length h) - length h) with 1 by lia; reflexivity|].
  split; [apply bnode1_rule|]. split; [apply bnode2_rule; exact Hu|]. split; [reflexivity|]. split; [reflexivity|].
  split; [apply ctxNode_edges_tracked|]. split; [apply ctxNode_edges_tracked|].
  split; [exists xv, uv; auto|].
  split; [apply ctxNode_edges_tracked|].
  apply ctxNode_edges_Forall. apply Forall_forall. intros e He. destruct (Hed _ _ _ _ He) as [-> | ->]; lia.
Qed.

Lemma arithEdges_targets b y a1 a2 (e : nat * rule) : In e (arithEdges b y a1 a2) -> fst e = a1 \/ fst e = a2.
Proof.
  destruct b; cbn; intros H; try contradiction;
    (destruct H as [<-|[<-|[]]]; [left; reflexivity|right; reflexivity]).
Qed.

(* Add / Sub / Mul / Div: the context follows the rule on the ORIGINAL operands x, u; the two back edges lead to
   the internal Broadcast nodes of x and u *)
Theorem h_arith_track (h : heap) b x u name h' id : h_arith h b x u name = (h', Ok id) ->
  exists n, nth_error h' id = Some n /\ ctx_rule h [x; u] n /\ nname n = name /\ id = S (S (length h)) /\
    (exists xv uv, valOf h x = Some xv /\ valOf h u = Some uv /\ v_arith b xv uv = Ok (nval n)) /\
    (ntracked n = true -> nedges n = arithEdges b id (length h) (S (length h))) /\
    Forall (fun e : nat * rule => fst e < id) (nedges n).
Proof.
  unfold h_arith. destruct (valOf h x) as [xv|] eqn:Vx; [destruct (valOf h u) as [uv|] eqn:Vu|]; try discriminate.
  intros E. apply h_binop_track in E.
  - destruct E as (n & b1 & b2 & Hn & Hr & Hnm & Hid & _ & _ & _ & _ & _ & _ & _ & _ & Hv & He & Hf).
    exists n. repeat (split; [assumption|]). split; [|split; assumption].
    destruct Hv as (xv' & uv' & Vx' & Vu' & B1 & B2 & Hfv).
    exists xv, uv. split; [reflexivity|]. split; [reflexivity|].
    assert (xv' = xv) by congruence. assert (uv' = uv) by congruence. subst xv' uv'.
    unfold v_arith, v_bcast2. rewrite B1. cbn [res_bind]. rewrite B2. cbn [res_bind fst snd]. rewrite Hfv. reflexivity.
  - eapply valOf_some_lt; eauto.
  - eapply valOf_some_lt; eauto.
  - apply arithEdges_targets.
Qed.

Theorem h_dot_track (h : heap) x u name h' id : h_dot h x u name = (h', Ok id) ->
  exists n, nth_error h' id = Some n /\ ctx_rule h [x; u] n /\ nname n = name /\ id = S (S (length h)) /\
    (exists xv uv, valOf h x = Some xv /\ valOf h u = Some uv /\ v_dot xv uv = Ok (nval n)) /\
    (ntracked n = true -> nedges n = [(length h, RDot id (S (length h))); (S (length h), RDot id (length h))]) /\
    Forall (fun e : nat * rule => fst e < id) (nedges n).
Proof.
  unfold h_dot. destruct (valOf h x) as [xv|] eqn:Vx; [destruct (valOf h u) as [uv|] eqn:Vu|]; try discriminate.
  destruct (validateDotProductDims (zdims xv) (zdims uv)) eqn:Ev; [|discriminate].
  intros E. apply h_binop_track in E.
  - destruct E as (n & b1 & b2 & Hn & Hr & Hnm & Hid & _ & _ & _ & _ & _ & _ & _ & _ & Hv & He & Hf).
    exists n. repeat (split; [assumption|]). split; [|split; assumption].
    destruct Hv as (xv' & uv' & Vx' & Vu' & B1 & B2 & Hfv).
    exists xv, uv. split; [reflexivity|]. split; [reflexivity|].
    assert (xv' = xv) by congruence. assert (uv' = uv) by congruence. subst xv' uv'.
    unfold v_dot, v_bcast2. rewrite Ev, B1. cbn [res_bind]. rewrite B2. cbn [res_bind fst snd]. rewrite Hfv. reflexivity.
  - eapply valOf_some_lt; eauto.
  - eapply valOf_some_lt; eauto.
  - intros y a1 a2 e [<-|[<-|[]]]; [left|right]; reflexivity.
Qed.

Theorem h_matmul_track (h : heap) x u name h' id : h_matmul h x u name = (h', Ok id) ->
  exists n, nth_error h' id = Some n /\ ctx_rule h [x; u] n /\ nname n = name /\ id = S (S (length h)) /\
    (exists xv uv, valOf h x = Some xv /\ valOf h u = Some uv /\ v_matmul xv uv = Ok (nval n)) /\
    (ntracked n = true -> nedges n = [(length h, RMatMulA id (S (length h))); (S (length h), RMatMulB id (length h))]) /\
    Forall (fun e : nat * rule => fst e < id) (nedges n).
Proof.
  unfold h_matmul. destruct (valOf h x) as [xv|] eqn:Vx; [destruct (valOf h u) as [uv|] eqn:Vu|]; try discriminate.
  destruct (validateMatMulDims (zdims xv) (zdims uv)) eqn:Ev; [|discriminate].
  intros E. apply h_binop_track in E.
  - destruct E as (n & b1 & b2 & Hn & Hr & Hnm & Hid & _ & _ & _ & _ & _ & _ & _ & _ & Hv & He & Hf).
    exists n. repeat (split; [assumption|]). split; [|split; assumption].
    destruct Hv as (xv' & uv' & Vx' & Vu' & B1 & B2 & Hfv).
    exists xv, uv. split; [reflexivity|]. split; [reflexivity|].
    assert (xv' = xv) by congruence. assert (uv' = uv) by congruence. subst xv' uv'.
    unfold v_matmul, v_bcastMM. rewrite Ev, B1. cbn [res_bind]. rewrite B2. cbn [res_bind fst snd]. rewrite Hfv. reflexivity.
  - eapply valOf_some_lt; eauto.
  - eapply valOf_some_lt; eauto.
  - intros y a1 a2 e [<-|[<-|[]]]; [left|right]; reflexivity.
Qed.

(* every method preserves an invariant of the back edges that holds of the new ones *)
Lemma edges_all_op1 (P : nat -> nat * rule -> Prop) (h : heap) x f mk name :
  edges_all P h -> (x < length h -> P (length h) (x, mk (length h))) -> edges_all P (fst (h_op1 h x f mk name)).
Proof.
  intros H HP. rewrite h_op1_ret. apply edges_all_ret; [exact H|].
  intros v Hv e [<-|[]]. apply val_of_ok in Hv as (xv & Hx & _). apply HP. eapply valOf_some_lt; eauto.
Qed.

Lemma edges_all_cmp (P : nat -> nat * rule -> Prop) (h : heap) b x u name : edges_all P h -> edges_all P (fst (h_cmp h b x u name)).
Proof. intros H. rewrite h_cmp_ret. apply (edges_all_ret P h _ [] []); [exact H|]. intros v _ e []. Qed.

Lemma edges_all_elsel (P : nat -> nat * rule -> Prop) (h : heap) b x u name :
  edges_all P h ->
  (x < length h -> u < length h ->
   P (length h) (x, RElSel (length h) x u) /\ P (length h) (u, RElSel (length h) u x)) ->
  edges_all P (fst (h_elsel h b x u name)).
Proof.
  intros H HP. rewrite h_elsel_ret. apply edges_all_ret; [exact H|]. intros v Hv.
  apply val_of_ok in Hv as (xv & Hx & Hv). apply val_of_ok in Hv as (uv & Hu & _).
  destruct HP as [P1 P2]; [eapply valOf_some_lt; eauto|eapply valOf_some_lt; eauto|].
  intros e [<-|[<-|[]]]; assumption.
Qed.

Lemma edges_all_patch (P : nat -> nat * rule -> Prop) (h : heap) x index p name :
  edges_all P h ->
  (x < length h -> p < length h ->
   P (length h) (x, RPatchX (length h) p index) /\ P (length h) (p, RPatchP (length h) p index)) ->
  edges_all P (fst (h_patch h x index p name)).
Proof.
  intros H HP. rewrite h_patch_ret. apply edges_all_ret; [exact H|]. intros v Hv.
  apply val_of_ok in Hv as (xv & Hx & Hv). apply val_of_ok in Hv as (pv & Hp & _).
  destruct HP as [P1 P2]; [eapply valOf_some_lt; eauto|eapply valOf_some_lt; eauto|].
  intros e [<-|[<-|[]]]; assumption.
Qed.

Lemma edges_all_concat (P : nat -> nat * rule -> Prop) (h : heap) xs dim name :
  (forall y a index, a < y -> P y (a, RConcat y index)) ->
  edges_all P h -> edges_all P (fst (h_concat h xs dim name)).
Proof.
  intros HP H. rewrite h_concat_ret. destruct (mapM (valOf h) xs) as [vs|] eqn:Em; [|exact H].
  apply edges_all_ret; [exact H|]. intros _ _ [a r] He.
  destruct (concatEdges_rule _ _ _ _ _ He) as [index Hr]. cbn [snd] in Hr. subst r. apply HP.
  apply concatEdges_targets in He. apply in_map_iff in He as ([a' v'] & Ha & Hin). cbn [fst] in Ha. subst a'.
  apply in_combine_l in Hin. eapply mapM_valOf_lt; eauto.
Qed.

Lemma edges_all_binop (P : nat -> nat * rule -> Prop) (h : heap) x u s1 s2 f edges name :
  (forall y a, a < y -> P y (a, RBroadcast y a)) ->
  (forall y a1 a2 e, a1 < y -> a2 < y -> In e (edges y a1 a2) -> P y e) ->
  edges_all P h -> edges_all P (fst (h_binop h x u s1 s2 f edges name)).
Proof.
  intros Pbc Ped H. destruct (h_binop h x u s1 s2 f edges name) as [h' r] eqn:E. apply h_binop_inv in E. cbn [fst].
  destruct r as [id| |]; [|subst; exact H|subst; exact H].
  destruct E as (xv & uv & v1 & v2 & v & Vx & _ & Vu & _ & _ & _ & ->).
  apply valOf_some_lt in Vx. apply valOf_some_lt in Vu. rewrite app_length in Vu. cbn [length] in Vu.
  change (h ++ [bnode1 h x v1; bnode2 h x u v1 v2; rnode h x u v1 v2 v edges name])
    with (h ++ [bnode1 h x v1] ++ [bnode2 h x u v1 v2] ++ [rnode h x u v1 v2 v edges name]).
  rewrite !app_assoc. repeat apply edges_all_snoc; [exact H| | |]; intros e He; apply ctxNode_edges_incl in He.
  - destruct He as [<-|[]]. apply Pbc. exact Vx.
  - destruct He as [<-|[]]. rewrite app_length, Nat.add_1_r. apply Pbc. lia.
  - replace (length ((h ++ [bnode1 h x v1]) ++ [bnode2 h x u v1 v2])) with (S (S (length h)))
      by (rewrite !app_length; cbn; lia).
    apply (Ped _ (length h) (S (length h)) e); [lia|lia|exact He].
Qed.

Theorem h_op1_wf (h : heap) x f mk name : wf_heap h -> wf_heap (fst (h_op1 h x f mk name)).
Proof. intros W. apply wf_heap_all, edges_all_op1; [apply wf_heap_all, W|]. intros Hx. exact Hx. Qed.

Theorem h_cmp_wf (h : heap) b x u name : wf_heap h -> wf_heap (fst (h_cmp h b x u name)).
Proof. intros W. apply wf_heap_all, edges_all_cmp, wf_heap_all, W. Qed.

Theorem h_elsel_wf (h : heap) b x u name : wf_heap h -> wf_heap (fst (h_elsel h b x u name)).
Proof. intros W. apply wf_heap_all, edges_all_elsel; [apply wf_heap_all, W|]. intros Hx Hu. split; assumption. Qed.

Theorem h_patch_wf (h : heap) x index p name : wf_heap h -> wf_heap (fst (h_patch h x index p name)).
Proof. intros W. apply wf_heap_all, edges_all_patch; [apply wf_heap_all, W|]. intros Hx Hp. split; assumption. Qed.

Theorem h_concat_wf (h : heap) xs dim name : wf_heap h -> wf_heap (fst (h_concat h xs dim name)).
Proof. intros W. apply wf_heap_all, edges_all_concat; [|apply wf_heap_all, W]. intros y a index Ha. exact Ha. Qed.

Theorem h_binop_wf (h : heap) x u s1 s2 f edges name :
  (forall y a1 a2 e, In e (edges y a1 a2) -> fst e = a1 \/ fst e = a2) ->
  wf_heap h -> wf_heap (fst (h_binop h x u s1 s2 f edges name)).
Proof.
  intros Hed W. apply wf_heap_all, edges_all_binop; [|  |apply wf_heap_all, W].
  - intros y a Ha. exact Ha.
  - intros y a1 a2 e H1 H2 He. destruct (Hed _ _ _ _ He) as [-> | ->]; assumption.
Qed.

Theorem h_arith_wf (h : heap) b x u name : wf_heap h -> wf_heap (fst (h_arith h b x u name)).
Proof.
  intros W. unfold h_arith. destruct (valOf h x) as [xv|]; [destruct (valOf h u) as [uv|]|]; try exact W.
  apply h_binop_wf; [apply arithEdges_targets|exact W].
Qed.

Theorem h_dot_wf (h : heap) x u name : wf_heap h -> wf_heap (fst (h_dot h x u name)).
Proof.
  intros W. unfold h_dot. destruct (valOf h x) as [xv|]; [destruct (valOf h u) as [uv|]|]; try exact W.
  destruct (validateDotProductDims (zdims xv) (zdims uv)); [|exact W].
  apply h_binop_wf; [|exact W]. intros y a1 a2 e [<-|[<-|[]]]; [left|right]; reflexivity.
Qed.

Theorem h_matmul_wf (h : heap) x u name : wf_heap h -> wf_heap (fst (h_matmul h x u name)).
Proof.
  intros W. unfold h_matmul. destruct (valOf h x) as [xv|]; [destruct (valOf h u) as [uv|]|]; try exact W.
  destruct (validateMatMulDims (zdims xv) (zdims uv)); [|exact W].
  apply h_binop_wf; [|exact W]. intros y a1 a2 e [<-|[<-|[]]]; [left|right]; reflexivity.
Qed.

Lemma leaf_wf (h : heap) v tracked name : wf_heap h -> wf_heap (fst (leaf h v tracked name)).
Proof. intros W. apply wf_heap_all, edges_all_leaf, wf_heap_all, W. Qed.

Definition sim {X} (a b : heap * res X) : Prop := snd a = snd b /\ erase (fst a) = erase (fst b).

Lemma sim_same {X} (h1 h2 : heap) (r : res X) : erase h1 = erase h2 -> sim (h1, r) (h2, r).
Proof. intros E. split; [reflexivity|exact E]. Qed.

Lemma h_ret_values (h1 h2 : heap) r c1 c2 nm1 nm2 : erase h1 = erase h2 -> sim (h_ret h1 r c1 nm1) (h_ret h2 r c2 nm2).
Proof.
  intros E. destruct r as [v| |]; cbn [h_ret]; [|apply sim_same; exact E|apply sim_same; exact E].
  split; cbn [fst snd]; [rewrite (erase_eq_length _ _ E); reflexivity|].
  unfold erase. rewrite !map_app. fold (erase h1). fold (erase h2). rewrite E. reflexivity.
Qed.

Lemma sim_alloc (h1 h2 : heap) v c1 c2 nm1 nm2 : erase h1 = erase h2 ->
  sim (let '(h', id) := alloc h1 v c1 nm1 in (h', Ok id)) (let '(h', id) := alloc h2 v c2 nm2 in (h', Ok id)).
Proof. intros E. rewrite !alloc_eq. apply (h_ret_values h1 h2 (Ok v)), E. Qed.

Lemma val_of_erase_eq (h1 h2 : heap) : erase h1 = erase h2 -> forall x, val_of h1 x = val_of h2 x.
Proof. intros E x. unfold val_of. rewrite (valOf_erase_eq _ _ E x). reflexivity. Qed.

Theorem h_op1_values (h1 h2 : heap) x f mk1 mk2 nm1 nm2 : erase h1 = erase h2 ->
  sim (h_op1 h1 x f mk1 nm1) (h_op1 h2 x f mk2 nm2).
Proof. intros E. rewrite !h_op1_ret, (val_of_erase_eq _ _ E). apply h_ret_values, E. Qed.

Theorem h_cmp_values (h1 h2 : heap) b x u nm1 nm2 : erase h1 = erase h2 ->
  sim (h_cmp h1 b x u nm1) (h_cmp h2 b x u nm2).
Proof. intros E. rewrite !h_cmp_ret, !(val_of_erase_eq _ _ E). apply h_ret_values, E. Qed.

Theorem h_elsel_values (h1 h2 : heap) b x u nm1 nm2 : erase h1 = erase h2 ->
  sim (h_elsel h1 b x u nm1) (h_elsel h2 b x u nm2).
Proof. intros E. rewrite !h_elsel_ret, !(val_of_erase_eq _ _ E). apply h_ret_values, E. Qed.

Theorem h_patch_values (h1 h2 : heap) x index p nm1 nm2 : erase h1 = erase h2 ->
  sim (h_patch h1 x index p nm1) (h_patch h2 x index p nm2).
Proof. intros E. rewrite !h_patch_ret, !(val_of_erase_eq _ _ E). apply h_ret_values, E. Qed.

Theorem h_concat_values (h1 h2 : heap) xs dim nm1 nm2 : erase h1 = erase h2 ->
  sim (h_concat h1 xs dim nm1) (h_concat h2 xs dim nm2).
Proof.
  intros E. rewrite !h_concat_ret.
  rewrite (NdP.mapM_ext (valOf h1) (valOf h2) xs) by (intros x _; apply valOf_erase_eq; exact E).
  destruct (mapM (valOf h2) xs) as [vs|]; [apply h_ret_values, E|apply sim_same, E].
Qed.

Lemma h_bcast2_values (h1 h2 : heap) x u s1 s2 : erase h1 = erase h2 ->
  sim (h_bcast2 h1 x u s1 s2) (h_bcast2 h2 x u s1 s2).
Proof.
  intros E. unfold h_bcast2, h_broadcast.
  pose proof (h_op1_values h1 h2 x (fun v => v_broadcast v s1) (fun y => RBroadcast y x) (fun y => RBroadcast y x) None None E) as S1.
  destruct (h_op1 h1 x (fun v => v_broadcast v s1) (fun y => RBroadcast y x) None) as [k1 r1].
  destruct (h_op1 h2 x (fun v => v_broadcast v s1) (fun y => RBroadcast y x) None) as [k2 r2].
  destruct S1 as [Sr Se]. cbn [fst snd] in Sr, Se. subst r2.
  destruct r1 as [b1| |]; [|apply sim_same; exact E|apply sim_same; exact E].
  pose proof (h_op1_values k1 k2 u (fun v => v_broadcast v s2) (fun y => RBroadcast y u) (fun y => RBroadcast y u) None None Se) as S2.
  destruct (h_op1 k1 u (fun v => v_broadcast v s2) (fun y => RBroadcast y u) None) as [m1 q1].
  destruct (h_op1 k2 u (fun v => v_broadcast v s2) (fun y => RBroadcast y u) None) as [m2 q2].
  destruct S2 as [Tr Te]. cbn [fst snd] in Tr, Te. subst q2.
  destruct q1 as [b2| |]; [|apply sim_same; exact E|apply sim_same; exact E].
  split; [reflexivity|exact Te].
Qed.

Theorem h_binop_values (h1 h2 : heap) x u s1 s2 f ed1 ed2 nm1 nm2 : erase h1 = erase h2 ->
  sim (h_binop h1 x u s1 s2 f ed1 nm1) (h_binop h2 x u s1 s2 f ed2 nm2).
Proof.
  intros E. unfold h_binop. pose proof (h_bcast2_values h1 h2 x u s1 s2 E) as S1.
  destruct (h_bcast2 h1 x u s1 s2) as [k1 r1]. destruct (h_bcast2 h2 x u s1 s2) as [k2 r2].
  destruct S1 as [Sr Se]. cbn [fst snd] in Sr, Se. subst r2.
  destruct r1 as [[b1 b2]| |]; [|apply sim_same; exact E|apply sim_same; exact E].
  rewrite (valOf_erase_eq _ _ Se b1), (valOf_erase_eq _ _ Se b2).
  destruct (valOf k2 b1) as [v1|]; [|apply sim_same; exact E].
  destruct (valOf k2 b2) as [v2|]; [|apply sim_same; exact E].
  destruct (f v1 v2) as [v|]; [|apply sim_same; exact E].
  rewrite !alloc_eq. apply (h_ret_values k1 k2 (Ok v)), Se.
Qed.

Theorem h_arith_values (h1 h2 : heap) b x u nm1 nm2 : erase h1 = erase h2 ->
  sim (h_arith h1 b x u nm1) (h_arith h2 b x u nm2).
Proof.
  intros E. unfold h_arith. rewrite (valOf_erase_eq _ _ E x), (valOf_erase_eq _ _ E u).
  destruct (valOf h2 x) as [xv|]; [|apply sim_same; exact E].
  destruct (valOf h2 u) as [uv|]; [|apply sim_same; exact E].
  apply h_binop_values. exact E.
Qed.

Theorem h_dot_values (h1 h2 : heap) x u nm1 nm2 : erase h1 = erase h2 ->
  sim (h_dot h1 x u nm1) (h_dot h2 x u nm2).
Proof.
  intros E. unfold h_dot. rewrite (valOf_erase_eq _ _ E x), (valOf_erase_eq _ _ E u).
  destruct (valOf h2 x) as [xv|]; [|apply sim_same; exact E].
  destruct (valOf h2 u) as [uv|]; [|apply sim_same; exact E].
  destruct (validateDotProductDims (zdims xv) (zdims uv)); [|apply sim_same; exact E].
  apply h_binop_values. exact E.
Qed.

Theorem h_matmul_values (h1 h2 : heap) x u nm1 nm2 : erase h1 = erase h2 ->
  sim (h_matmul h1 x u nm1) (h_matmul h2 x u nm2).
Proof.
  intros E. unfold h_matmul. rewrite (valOf_erase_eq _ _ E x), (valOf_erase_eq _ _ E u).
  destruct (valOf h2 x) as [xv|]; [|apply sim_same; exact E].
  destruct (valOf h2 u) as [uv|]; [|apply sim_same; exact E].
  destruct (validateMatMulDims (zdims xv) (zdims uv)); [|apply sim_same; exact E].
  apply h_binop_values. exact E.
Qed.

(* resetting contexts / changing tracking flags never changes [erase] *)
Lemma erase_updNode (h : heap) i f : (forall n, nval (f n) = nval n) -> erase (updNode h i f) = erase h.
Proof.
  intros Hf. apply NdP.nth_error_ext_len.
  - rewrite !erase_length. apply updNode_length.
  - intros j _. unfold erase. rewrite !nth_error_map, updNode_nth.
    destruct (nth_error h j) as [n|]; [|reflexivity]. cbn. destruct (j =? i); [rewrite Hf|]; reflexivity.
Qed.

Theorem h_reset_spec (h : heap) x tracked :
  length (h_reset h x tracked) = length h /\
  (forall n, nth_error h x = Some n ->
     nth_error (h_reset h x tracked) x = Some (mkNode (nval n) tracked false None [] (nname n))) /\
  (forall j, j <> x -> nth_error (h_reset h x tracked) j = nth_error h j) /\
  erase (h_reset h x tracked) = erase h.
Proof.
  unfold h_reset. split; [apply updNode_length|]. split; [|split].
  - intros n Hn. rewrite updNode_nth_same, Hn. reflexivity.
  - intros j Hj. apply updNode_nth_other. exact Hj.
  - apply erase_updNode. reflexivity.
Qed.

Corollary h_reset_flags (h : heap) x tracked : x < length h ->
  trackedOf (h_reset h x tracked) x = tracked /\ dirtyOf (h_reset h x tracked) x = false /\
  gradOf (h_reset h x tracked) x = None /\ edgesOf (h_reset h x tracked) x = [] /\
  valOf (h_reset h x tracked) x = valOf h x.
Proof.
  intros Hx. destruct (lt_nth_some h x Hx) as [n Hn].
  destruct (h_reset_spec h x tracked) as (_ & Hs & _ & _). specialize (Hs n Hn).
  unfold trackedOf, dirtyOf, gradOf, edgesOf, valOf. rewrite Hs, Hn. cbn. auto.
Qed.

Theorem h_reset_wf (h : heap) x tracked : wf_heap h -> wf_heap (h_reset h x tracked).
Proof. intros W. apply wf_heap_all, edges_all_updNode; [intros n e []|apply wf_heap_all, W]. Qed.

Theorem bp_untracked_root rd sealg (h : heap) root :
  trackedOf h root = false -> bp_topo rd sealg h root = (h, [], Ok tt).
Proof. intros H. unfold bp_topo. rewrite H. reflexivity. Qed.

End TrackP.

(* the instances of [h_op1] inherit everything; the tracking rule spelled out for two of them *)
Corollary h_slice_track {A} {SA : Scalar A} (h : @heap A) x index name h' id : h_slice h x index name = (h', Ok id) ->
  exists n, nth_error h' id = Some n /\ ctx_rule h [x] n /\ nname n = name /\
    (exists xv, valOf h x = Some xv /\ v_slice xv index = Ok (nval n)) /\
    (ntracked n = true -> nedges n = [(x, RSliceX id x index)]) /\
    Forall (fun e => fst e < id) (nedges n).
Proof. exact (h_op1_track h x (fun v => v_slice v index) (fun y => RSliceX y x index) name h' id). Qed.

Corollary h_math_track {A} {SA : Scalar A} (h : @heap A) fn x name h' id : h_math h fn x name = (h', Ok id) ->
  exists n, nth_error h' id = Some n /\ ctx_rule h [x] n /\ nname n = name /\
    (exists xv, valOf h x = Some xv /\ v_unary (mathUnary fn) xv = Ok (nval n)) /\
    (ntracked n = true -> nedges n = [(x, mathRule fn id x)]) /\
    Forall (fun e => fst e < id) (nedges n).
Proof. exact (h_op1_track h x (v_unary (mathUnary fn)) (fun y => mathRule fn y x) name h' id). Qed.

Lemma wf_heap_iff {A} (h : @heap A) :
  wf_heap h <-> (forall c n e, nth_error h c = Some n -> In e (nedges n) -> fst e < c).
Proof. apply wf_heap_all. Qed.

Module TrackEx.
Local Open Scope Z_scope.

#[local] Instance Z_scalar : Scalar Z := {|
  s0 := 0; s1 := 1;
  sadd := Z.add; ssub := Z.sub; smul := Z.mul; sdiv := Z.div; spow := fun _ _ => 1;
  sexp := fun a => a; slog := fun a => a; ssin := fun a => a; scos := fun a => a; stan := fun a => a;
  ssinh := fun a => a; scosh := fun a => a; stanh := fun a => a; ssqrt := fun a => a;
  smax := Z.max; smin := Z.min; sselgt := Z.max; ssellt := Z.min;
  seqt := fun a b => if a =? b then 1 else 0; snet := fun a b => if a =? b then 0 else 1;
  sgt := fun a b => if a >? b then 1 else 0; sge := fun a b => if a >=? b then 1 else 0;
  slt := fun a b => if a <? b then 1 else 0; sle := fun a b => if a <=? b then 1 else 0;
  sgeb := fun a b => if a >=? b then 1 else 0; strunc := fun a => a;
  sofnat := Z.of_nat; sconst := fun m e => m * 10 ^ e;
  sneginf := -1000000; sposinf := 1000000; srnd := fun _ k => Z.of_nat k
|}.

Definition vec2 (a b : Z) : tensor Z := mkT [2%nat] (Vec [Sc a; Sc b]).

(* 0: x tracked leaf [3;5];  1: c untracked leaf [1;1];
   2: m = x.Scale(2);  3,4: internal Broadcasts;  5: y = m.Add(c);  6: q = (x > c);  7: z = c.Scale(3) *)
Definition e0 : @heap Z := fst (leaf [] (vec2 3 5) true (Some 0%nat)).
Definition e1 : @heap Z := fst (leaf e0 (vec2 1 1) false (Some 1%nat)).
Definition e2 : @heap Z := fst (h_scale e1 0 2 (Some 2%nat)).
Definition e3 : @heap Z := fst (h_arith e2 BiAdd 2 1 (Some 3%nat)).
Definition e4 : @heap Z := fst (h_cmp e3 BiGt 0 1 (Some 4%nat)).
Definition e5 : @heap Z := fst (h_scale e4 1 3 (Some 5%nat)).

Definition flags (h : @heap Z) := map (fun n => (ntracked n, ndirty n, map fst (nedges n))) h.

Example ex_results :
  snd (h_scale e1 0 2 (Some 2%nat)) = Ok 2%nat /\ snd (h_arith e2 BiAdd 2 1 (Some 3%nat)) = Ok 5%nat /\
  snd (h_cmp e3 BiGt 0 1 (Some 4%nat)) = Ok 6%nat /\ snd (h_scale e4 1 3 (Some 5%nat)) = Ok 7%nat /\
  flags e5 = [(true, false, []); (false, false, []); (true, false, [0]); (true, false, [2]); (false, false, []);
              (true, false, [3; 4]); (false, false, []); (false, false, [])]%nat /\
  erase e5 = [vec2 3 5; vec2 1 1; vec2 6 10; vec2 6 10; vec2 1 1; vec2 7 11; vec2 1 1; vec2 3 3].
Proof. vm_compute. repeat split. Qed.

Example ex_wf : wf_heap e5.
Proof.
  unfold e5, e4, e3, e2, e1, e0.
  apply h_op1_wf, h_cmp_wf, h_arith_wf, h_op1_wf, leaf_wf, leaf_wf, wf_heap_nil.
Qed.

(* the hypotheses of [h_arith_track] hold on the example and the conclusion determines the flags *)
Example ex_arith_track : exists n, nth_error e3 5 = Some n /\ ntracked n = true /\ ndirty n = false /\
  map fst (nedges n) = [3; 4]%nat.
Proof.
  destruct (h_arith_track e2 BiAdd 2 1 (Some 3%nat) e3 5) as (n & Hn & Hr & _ & _ & _ & He & _); [vm_compute; reflexivity|].
  exists n. split; [exact Hn|]. apply ctx_rule2 in Hr. destruct Hr as [Ht Hd].
  assert (T : ntracked n = true) by (rewrite Ht; vm_compute; reflexivity).
  split; [exact T|]. split; [rewrite Hd; vm_compute; reflexivity|]. rewrite (He T). reflexivity.
Qed.

(* C on the example: the same computation on a heap whose contexts were all reset to untracked *)
Definition e2' : @heap Z := h_reset (h_reset e2 0 false) 2 false.
Example ex_values : erase e2' = erase e2 /\ flags e2' <> flags e2 /\
  snd (h_arith e2' BiAdd 2 1 None) = snd (h_arith e2 BiAdd 2 1 (Some 3%nat)) /\
  erase (fst (h_arith e2' BiAdd 2 1 None)) = erase e3 /\
  flags (fst (h_arith e2' BiAdd 2 1 None)) <> flags e3.
Proof.
  assert (E : erase e2' = erase e2) by (vm_compute; reflexivity).
  destruct (h_arith_values e2' e2 BiAdd 2 1 None (Some 3%nat) E) as [Hs He].
  split; [exact E|]. split; [vm_compute; discriminate|]. split; [exact Hs|]. split; [exact He|].
  vm_compute; discriminate.
Qed.

(* D on the example *)
Example ex_reset : nth_error (h_reset e3 5 false) 5 = Some (mkNode (vec2 7 11) false false None [] (Some 3%nat)) /\
  nth_error (h_reset e3 5 false) 2 = nth_error e3 2.
Proof.
  destruct (h_reset_spec e3 5 false) as (_ & Hs & Ho & _). split.
  - apply (Hs (mkNode (vec2 7 11) true false None [(3, RId 5); (4, RId 5)]%nat (Some 3%nat))). vm_compute. reflexivity.
  - apply Ho. discriminate.
Qed.

(* the comparison result is an untracked root *)
Example ex_bp_untracked : bp_topo RedSum (fun _ g => g) e5 6 = (e5, [], Ok tt).
Proof. apply bp_untracked_root. vm_compute. reflexivity. Qed.

End TrackEx.

Print Assumptions h_op1_frame.
Print Assumptions h_cmp_frame.
Print Assumptions h_elsel_frame.
Print Assumptions h_arith_frame.
Print Assumptions h_dot_frame.
Print Assumptions h_matmul_frame.
Print Assumptions h_patch_frame.
Print Assumptions h_concat_frame.
Print Assumptions h_op1_track.
Print Assumptions h_cmp_track.
Print Assumptions h_elsel_track.
Print Assumptions h_arith_track.
Print Assumptions h_dot_track.
Print Assumptions h_matmul_track.
Print Assumptions h_patch_track.
Print Assumptions h_concat_track.
Print Assumptions h_arith_wf.
Print Assumptions h_concat_wf.
Print Assumptions h_op1_values.
Print Assumptions h_arith_values.
Print Assumptions h_dot_values.
Print Assumptions h_matmul_values.
Print Assumptions h_concat_values.
Print Assumptions h_reset_spec.
Print Assumptions h_reset_wf.
Print Assumptions bp_untracked_root.
