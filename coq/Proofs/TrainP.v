(* TrainP.v — property C11: the training loop as a state machine.

   The loop body [train_iter]: forward pass of the model  FC -> activation -> loss  ([forward_loss],
   5 activations x 3 losses; MSE/BCE see the [B,O] prediction through Flatten(0)), back-propagation
   [bp_topo] from the loss, SGD update of weight and bias, ResetGradContext(true) on the two new
   tensors.  [train] iterates it over a list of batches (node ids of input and target).

   Two invariants carry the file.  [hinv h] (StepP.v: back edges point at older tensors, every rule
   stored at node c reads the gradient of c) holds in every heap reachable by API calls
   ([StepP.reachable_hinv]) and is enough for the wiring: which tensors are fresh, spent or data
   after each call, and which gradient an update consumes.  [sinv rd h] adds shapes: values well
   formed, every back edge shape-sound ([edge_ok]), every gradient of the shape of its node; that a
   delivered gradient has the shape of its node is proved for every tracked method the loop uses,
   generically in the scalar type.  [sinv_nil], [sinv_leaf] and the
   [sinv_*] lemmas build [sinv] for heaps made of leaves and those methods.
   What the statements had to take into account:
   * [datum h x] needs [x < length h]: with the two flags alone an id that does not exist yet is a
     datum vacuously, and the iteration may allocate it as a tracked tensor.
   * no hypothesis "the loss is tracked" is needed: if it were not, back-propagation would be the
     identity, the fresh weight would have no gradient and the update would return Err.
   * weight and bias may be the same tensor (w = b); nothing above excludes it. *)
From Coq Require Import List Arith ZArith Bool Lia.
From Qeep Require Import Model.Scalar Model.Nd Model.Fill Model.Data Model.Valid Model.Api Model.Grad
     Model.Backprop Model.Components.
From Qeep Require Import Proofs.NdP Proofs.ElemP Proofs.ReshapeP Proofs.BroadcastP Proofs.ReduceP Proofs.ArithP
     Proofs.TransposeP Proofs.MatMulP Proofs.TrackP Proofs.DfsP Proofs.BpFlagsP Proofs.CompP Proofs.StepP.
From Qeep Require Proofs.BackpropP.
Import ListNotations.

Notation "'doh' ( h , x ) <- a ; b" := (hbind a (fun h x => b)) (at level 200, h name, x name, a at level 100, b at level 200).

Section ShapeV.
Context {A : Type} {SA : Scalar A}.
Notation T := (tensor A).

Definition shp (ds : list nat) (g : T) : Prop := wf g /\ dims g = ds.

Lemma shp_self (t : T) : wf t -> shp (dims t) t.
Proof. intros W. split; [exact W|reflexivity]. Qed.

(* the element-wise operations, equation first for proof search *)
Lemma un_shp u (t r : T) ds : v_unary u t = Ok r -> shp ds t -> shp ds r.
Proof.
  intros E [W D]. destruct (v_unary_spec u t W) as (r' & E' & D' & W' & _).
  rewrite E' in E. inversion E; subst r'. split; [exact W'|congruence].
Qed.

Lemma ar_shp b (t u r : T) ds : v_arith b t u = Ok r -> shp ds t -> shp ds u -> shp ds r.
Proof.
  intros E [Wt Dt] [Wu Du]. destruct (CompP.v_arith_same_dims b t u Wt Wu ltac:(congruence)) as (r' & E' & D' & W' & _).
  rewrite E' in E. inversion E; subst r'. split; [exact W'|congruence].
Qed.

Lemma same_shp b (t u r : T) ds : shp ds t -> wf u -> v_same b t u = Ok r -> shp ds r /\ dims u = ds.
Proof.
  intros [Wt Dt] Wu E. destruct (v_same_spec b t u Wt Wu) as [H1 H2].
  destruct (list_eq_dec Nat.eq_dec (dims t) (dims u)) as [Eq|Ne].
  - destruct (H1 Eq) as (r' & E' & D' & W' & _). rewrite E' in E. inversion E; subst r'.
    split; [split; [exact W'|congruence]|congruence].
  - rewrite (H2 Ne) in E. discriminate.
Qed.

Lemma same_shp' b (t u r : T) ds : v_same b t u = Ok r -> shp ds t -> shp ds u -> shp ds r.
Proof. intros E H1 [H2 _]. exact (proj1 (same_shp b t u r ds H1 H2 E)). Qed.

Lemma toZeros_shp (t r : T) ds : toZeros t = Ok r -> shp ds t -> shp ds r.
Proof. apply un_shp. Qed.

Lemma apply2_shp (f : A -> A -> A) (t u r : T) ds : shp ds t -> shp ds u -> apply2 f t u = Some r -> shp ds r.
Proof.
  intros [Wt Dt] [Wu Du] E. destruct (apply2_spec f t u Wt Wu ltac:(congruence)) as (r' & E' & D' & W' & _).
  rewrite E' in E. inversion E; subst r'. split; [exact W'|congruence].
Qed.

Lemma reshape_shp (t r : T) shape : wf t -> v_reshape t shape = Ok r -> shp (natsOf shape) r.
Proof.
  intros W E. destruct (v_reshape_spec A t shape W) as [H1 H2].
  destruct (validateInputDims shape && validateReshape (zdims t) shape).
  - destruct (H1 eq_refl) as (r' & E' & D' & W' & _). rewrite E' in E. inversion E; subst r'. split; assumption.
  - rewrite (H2 eq_refl) in E. discriminate.
Qed.

Lemma unsq_shp (t r : T) dim : wf t -> v_unsqueeze t dim = Ok r -> shp (unsqueezeDims (Z.to_nat dim) (dims t)) r.
Proof.
  intros W E. destruct (v_unsqueeze_spec A t dim W) as [H1 H2].
  destruct (validateUnSqueezeDim dim (zdims t)).
  - destruct (H1 eq_refl) as (r' & E' & D' & W' & _). rewrite E' in E. inversion E; subst r'. split; assumption.
  - rewrite (H2 eq_refl) in E. discriminate.
Qed.

Lemma flatten_shp (t r : T) dim : wf t -> v_flatten t dim = Ok r -> wf r.
Proof.
  intros W E. destruct (v_flatten_spec A t dim W) as [H1 H2].
  destruct (validateFlattenDim dim (zdims t)).
  - destruct (H1 eq_refl) as (r' & E' & D' & W' & _). rewrite E' in E. inversion E; subst r'. exact W'.
  - rewrite (H2 eq_refl) in E. discriminate.
Qed.

Lemma bc_shp (t r : T) shape : wf t -> v_broadcast t shape = Ok r ->
  shp (natsOf shape) r /\ bcompat (dims t) (natsOf shape).
Proof.
  intros W E. pose proof (v_broadcast_ok_inv t r shape W E) as (D & Wr & _).
  split; [split; assumption|].
  destruct (v_broadcast_spec A t shape W) as [H1 H2].
  destruct (validateInputDims shape && validateBroadcast (zdims t) shape) eqn:V.
  - apply validateBroadcast_shape_iff in V as (ns & -> & _ & Hc). rewrite natsOf_of_nat. exact Hc.
  - rewrite (H2 eq_refl) in E. discriminate.
Qed.

Lemma red_shp rd (t r : T) dim : wf t -> v_reduceAlong rd t dim = Ok r -> shp (squeezeDims (Z.to_nat dim) (dims t)) r.
Proof.
  intros W E. destruct (v_reduceAlong_spec rd t dim W) as [H1 H2].
  destruct (Z_le_dec 0 dim) as [Ha|Ha]; [destruct (Z_lt_dec dim (Z.of_nat (length (dims t)))) as [Hb|Hb]|].
  - destruct (H1 (conj Ha Hb)) as (r' & E' & _ & D' & W'). rewrite E' in E. inversion E; subst r'. split; assumption.
  - rewrite H2 in E by lia. discriminate.
  - rewrite H2 in E by lia. discriminate.
Qed.

Lemma tr_shp (t r : T) tb m n : shp (tb ++ [m; n]) t -> v_transpose t = Ok r -> shp (tb ++ [n; m]) r.
Proof.
  intros [W D] E. destruct (v_transpose_spec A t W) as [H1 H2].
  destruct (le_lt_dec 2 (length (dims t))) as [H|H]; [|rewrite (H2 H) in E; discriminate].
  destruct (H1 H) as (batch & m' & n' & r' & D0 & E' & D' & W' & _). rewrite E' in E. inversion E; subst r'.
  rewrite D in D0. apply snoc2_inj in D0 as (<- & <- & <-). split; assumption.
Qed.

Lemma mm_shp (t u r : T) tb m n k : shp (tb ++ [m; n]) t -> shp (tb ++ [n; k]) u -> v_matmul t u = Ok r ->
  shp (tb ++ [m; k]) r.
Proof.
  intros [Wt Dt] [Wu Du] E. destruct (v_matmul_spec t u Wt Wu) as (Hs & _).
  destruct (Hs tb tb m n k Dt Du (bcompat2_refl tb)) as (r' & E' & D' & W' & _).
  rewrite E' in E. inversion E; subst r'. rewrite targetBroadcastDims_same in D'. split; assumption.
Qed.

Lemma sq_at (pre : list nat) d l : squeezeDims (length pre) (pre ++ d :: l) = pre ++ l.
Proof. unfold squeezeDims. induction pre as [|a pre IH]; cbn; [reflexivity|]. f_equal. exact IH. Qed.
Lemma unsq_at (pre : list nat) l : unsqueezeDims (length pre) (pre ++ l) = pre ++ 1 :: l.
Proof. unfold unsqueezeDims. induction pre as [|a pre IH]; cbn; [destruct l; reflexivity|]. f_equal. exact IH. Qed.

Lemma redAlong_shp rd (gy g : T) dim ds : shp ds gy -> redAlong rd gy dim = Ok g -> shp (squeezeDims (Z.to_nat dim) ds) g.
Proof. intros [W <-] E. exact (red_shp _ gy g dim W E). Qed.

Lemma bcLead_shp rd : forall n (gy g : T) ds, shp ds gy -> bcLead rd n gy = Ok g -> shp (skipn n ds) g.
Proof.
  induction n as [|n IH]; intros gy g ds H E; cbn [bcLead] in E.
  - inversion E; subst. exact H.
  - destruct (redAlong rd gy 0%Z) as [g1| |] eqn:E1; cbn [res_bind] in E; try discriminate.
    pose proof (redAlong_shp rd gy g1 0%Z ds H E1) as H1. cbn in H1.
    pose proof (IH g1 g _ H1 E) as H2. unfold squeezeDims in H2. cbn [firstn app] in H2.
    replace (skipn (S n) ds) with (skipn n (skipn 1 ds)); [exact H2|].
    destruct ds as [|a l]; [destruct n; reflexivity|reflexivity].
Qed.

Lemma bcDims_shp rd : forall src dst, Forall2 (fun s d => s = d \/ s = 1) src dst ->
  forall j (gy g : T) pre, length pre = j -> shp (pre ++ dst) gy -> bcDims rd j src dst gy = Ok g -> shp (pre ++ src) g.
Proof.
  induction 1 as [|s d src dst Hsd F IH]; intros j gy g pre Hj H E; cbn [bcDims] in E.
  - inversion E; subst. exact H.
  - destruct (s =? d) eqn:Esd; cbn [res_bind] in E.
    + apply Nat.eqb_eq in Esd. subst d.
      replace (pre ++ s :: src) with ((pre ++ [s]) ++ src) by (rewrite <- app_assoc; reflexivity).
      apply (IH (S j) gy g (pre ++ [s])); [rewrite app_length; cbn; lia| |exact E].
      rewrite <- app_assoc. exact H.
    + apply Nat.eqb_neq in Esd. destruct Hsd as [Hsd|Hsd]; [contradiction|]. subst s.
      destruct (redAlong rd gy (Z.of_nat j)) as [g1| |] eqn:E1; cbn [res_bind] in E; try discriminate.
      destruct (v_unsqueeze g1 (Z.of_nat j)) as [g2| |] eqn:E2; cbn [res_bind] in E; try discriminate.
      destruct (redAlong_shp rd gy g1 (Z.of_nat j) _ H E1) as [W1 D1].
      rewrite Nat2Z.id in D1. subst j. rewrite sq_at in D1.
      destruct (unsq_shp g1 g2 _ W1 E2) as [W2 D2]. rewrite Nat2Z.id, D1, unsq_at in D2.
      replace (pre ++ 1 :: src) with ((pre ++ [1]) ++ src) by (rewrite <- app_assoc; reflexivity).
      apply (IH (S (length pre)) g2 g (pre ++ [1])); [rewrite app_length; cbn; lia| |exact E].
      rewrite <- app_assoc. split; assumption.
Qed.

(* the Broadcast back edge returns a tensor of the source shape *)
Lemma bcastBack_shp rd (gy g : T) src dst : shp dst gy -> bcompat src dst -> bcastBack rd gy src dst = Ok g -> shp src g.
Proof.
  intros H [Hl F] E. unfold bcastBack in E.
  destruct (bcLead rd (length dst - length src) gy) as [g1| |] eqn:E1; cbn [res_bind] in E; try discriminate.
  pose proof (bcLead_shp rd _ gy g1 dst H E1) as H1.
  apply (bcDims_shp rd src _ F 0 g1 g [] eq_refl H1 E).
Qed.

Lemma mmA_shp (gy bv bt g : T) tb m n k : shp (tb ++ [m; k]) gy -> shp (tb ++ [n; k]) bv ->
  v_transpose bv = Ok bt -> v_matmul gy bt = Ok g -> shp (tb ++ [m; n]) g.
Proof. intros Hg Hb Et. exact (mm_shp gy bt g tb m k n Hg (tr_shp bv bt tb n k Hb Et)). Qed.

Lemma mmB_shp (gy av at_ g : T) tb m n k : shp (tb ++ [m; k]) gy -> shp (tb ++ [m; n]) av ->
  v_transpose av = Ok at_ -> v_matmul at_ gy = Ok g -> shp (tb ++ [n; k]) g.
Proof. intros Hg Ha Et. exact (mm_shp at_ gy g tb n m k (tr_shp av at_ tb m n Ha Et) Hg). Qed.

(* the value of an optimizer step:  wv.Sub(g.Scale(lr)) *)
Definition sgd_val (lr : A) (wv g : T) : res T := dor delta <- v_unary (UScale lr) g; v_arith BiSub wv delta.

(* v = wv - lr * g, element by element, for a gradient of the shape of wv *)
Definition upd_elem (lr : A) (wv g v : T) : Prop :=
  shp (dims wv) g /\ shp (dims wv) v /\
  forall idx, validIdx (dims wv) idx ->
    exists a gx, get (data wv) idx = Some a /\ get (data g) idx = Some gx /\
                 get (data v) idx = Some (ssub a (smul lr gx)).

Lemma sgd_val_ok (lr : A) (wv g : T) : wf wv -> shp (dims wv) g -> exists v, sgd_val lr wv g = Ok v /\ upd_elem lr wv g v.
Proof.
  intros Wwv [Wg Ed]. unfold sgd_val.
  destruct (v_unary_spec (UScale lr) g Wg) as (delta & -> & Hdd & Wd & Hgd). cbn [res_bind].
  destruct (CompP.v_arith_same_dims BiSub wv delta Wwv Wd ltac:(congruence)) as (v & -> & Hdv & Wv & Hgv).
  exists v. split; [reflexivity|]. split; [split; assumption|]. split; [split; assumption|].
  intros idx Hv. destruct (get_wf A _ _ _ (proj1 Wwv) Hv) as (a & Ea).
  assert (Hv' : validIdx (dims g) idx) by (rewrite Ed; exact Hv).
  destruct (get_wf A _ _ _ (proj1 Wg) Hv') as (gx & Egx).
  exists a, gx. split; [exact Ea|]. split; [exact Egx|].
  rewrite Hgv by exact Hv. rewrite Hgd by exact Hv'. rewrite Ea, Egx. reflexivity.
Qed.

Lemma sgd_val_spec (lr : A) (wv g v : T) : wf wv -> shp (dims wv) g -> sgd_val lr wv g = Ok v -> upd_elem lr wv g v.
Proof. intros W S E. destruct (sgd_val_ok lr wv g W S) as (v' & E' & U). congruence. Qed.

End ShapeV.

Section Loop.
Context {A : Type} {SA : Scalar A}.
Notation T := (tensor A).
Notation heap := (@heap A).
Notation node := (@node A).
Notation hres := (@hres A).
Notation idseal := (fun (_ : option nat) (g : T) => g).

(* a trainable tensor ready for a forward pass *)
Definition fresh (h : heap) (w : nat) : Prop :=
  trackedOf h w = true /\ dirtyOf h w = false /\ gradOf h w = None /\ edgesOf h w = [].
(* what an optimizer update returns: computed from a (spent) gradient tensor *)
Definition spentN (h : heap) (w : nat) : Prop :=
  trackedOf h w = false /\ dirtyOf h w = true /\ gradOf h w = None /\ edgesOf h w = [].
(* an input / target tensor of the data set (an existing tensor: [x < length h] is needed,
   otherwise an id allocated later would be a datum vacuously) *)
Definition datum (h : heap) (x : nat) : Prop :=
  x < length h /\ trackedOf h x = false /\ dirtyOf h x = false.

Inductive actK := KRelu | KLeaky (m : A) | KSigmoid | KTanh | KSoftmax (dim : nat).
Inductive lossK := KMse | KBce | KCe.

Definition act_forward (ak : actK) (h : heap) (y : nat) : hres :=
  match ak with
  | KRelu => relu_forward h [Some y] None
  | KLeaky m => leaky_forward h m [Some y] None
  | KSigmoid => sigmoid_forward h [Some y] None
  | KTanh => tanh_forward h [Some y] None
  | KSoftmax d => softmax_forward h d [Some y] None
  end.

(* MSE and BCE take rank-1 arguments: the [B,O] prediction is flattened; CE takes it as it is *)
Definition loss_forward (eps ome : A) (lk : lossK) (h : heap) (p t : nat) : hres :=
  match lk with
  | KMse => doh (h1, pf) <- h_flatten h p 0%Z None; mse_compute h1 (Some pf) (Some t) None
  | KBce => doh (h1, pf) <- h_flatten h p 0%Z None; bce_compute eps ome h1 (Some pf) (Some t) None
  | KCe => ce_compute eps ome h (Some p) (Some t) None
  end.

Definition forward_loss (eps ome : A) (ak : actK) (lk : lossK) (h : heap) (w b x t : nat) : hres :=
  doh (h1, y) <- fc_forward h w b [Some x] None;
  doh (h2, a) <- act_forward ak h1 y;
  loss_forward eps ome lk h2 a t.

Definition train_iter (rd : bred) (eps ome lr : A) (ak : actK) (lk : lossK) (h : heap) (w b x t : nat)
  : heap * res (nat * nat) :=
  match forward_loss eps ome ak lk h w b x t with
  | (h1, Ok l) =>
      match bp_topo rd idseal h1 l with
      | (h2, _, Ok _) =>
          match sgd_update h2 lr (Some w) None with
          | (h3, Ok w') =>
              match sgd_update h3 lr (Some b) None with
              | (h4, Ok b') => (h_reset (h_reset h4 w' true) b' true, Ok (w', b'))
              | (h4, Err) => (h4, Err)
              | (h4, Panic) => (h4, Panic)
              end
          | (h3, Err) => (h3, Err)
          | (h3, Panic) => (h3, Panic)
          end
      | (h2, _, Err) => (h2, Err)
      | (h2, _, Panic) => (h2, Panic)
      end
  | (h1, Err) => (h1, Err)
  | (h1, Panic) => (h1, Panic)
  end.

(* the same loop body with the two ResetGradContext calls forgotten *)
Definition train_iter_noreset (rd : bred) (eps ome lr : A) (ak : actK) (lk : lossK) (h : heap) (w b x t : nat)
  : heap * res (nat * nat) :=
  match forward_loss eps ome ak lk h w b x t with
  | (h1, Ok l) =>
      match bp_topo rd idseal h1 l with
      | (h2, _, Ok _) =>
          match sgd_update h2 lr (Some w) None with
          | (h3, Ok w') =>
              match sgd_update h3 lr (Some b) None with
              | (h4, Ok b') => (h4, Ok (w', b'))
              | (h4, Err) => (h4, Err)
              | (h4, Panic) => (h4, Panic)
              end
          | (h3, Err) => (h3, Err)
          | (h3, Panic) => (h3, Panic)
          end
      | (h2, _, Err) => (h2, Err)
      | (h2, _, Panic) => (h2, Panic)
      end
  | (h1, Err) => (h1, Err)
  | (h1, Panic) => (h1, Panic)
  end.

Fixpoint train (rd : bred) (eps ome lr : A) (ak : actK) (lk : lossK) (h : heap) (w b : nat)
               (batches : list (nat * nat)) : heap * res (nat * nat) :=
  match batches with
  | [] => (h, Ok (w, b))
  | (x, t) :: rest =>
      match train_iter rd eps ome lr ak lk h w b x t with
      | (h', Ok (w', b')) => train rd eps ome lr ak lk h' w' b' rest
      | (h', Err) => (h', Err)
      | (h', Panic) => (h', Panic)
      end
  end.

(* the gradients the back-propagation of this iteration delivers to w and b *)
Definition delivers rd eps ome ak lk (h : heap) (w b x t : nat) (gW gB : T) : Prop :=
  exists h1 l h2 log, forward_loss eps ome ak lk h w b x t = (h1, Ok l) /\ trackedOf h1 l = true /\
     bp_topo rd idseal h1 l = (h2, log, Ok tt) /\ gradOf h2 w = Some gW /\ gradOf h2 b = Some gB.

(* [w'] in [h'] holds  (value of w in h) - lr * g *)
Definition sgd_step (lr : A) (h : heap) (w : nat) (g : T) (h' : heap) (w' : nat) : Prop :=
  exists wv v, valOf h w = Some wv /\ sgd_val lr wv g = Ok v /\ valOf h' w' = Some v.

(* consecutive (heap, weight, bias) triples, each obtained from the previous one by one iteration
   on the next batch:  w_{k+1} = w_k - lr * G_k  with G_k delivered by the back-propagation of
   step k on the loss of batch k built from w_k, b_k *)
Inductive Traj (rd : bred) (eps ome lr : A) (ak : actK) (lk : lossK)
  : heap -> nat -> nat -> list (nat * nat) -> heap -> nat -> nat -> Prop :=
| Traj_nil h w b : Traj rd eps ome lr ak lk h w b [] h w b
| Traj_cons h w b x t rest h1 w1 b1 hE wE bE gW gB :
    train_iter rd eps ome lr ak lk h w b x t = (h1, Ok (w1, b1)) ->
    delivers rd eps ome ak lk h w b x t gW gB ->
    sgd_step lr h w gW h1 w1 -> sgd_step lr h b gB h1 b1 ->
    Traj rd eps ome lr ak lk h1 w1 b1 rest hE wE bE ->
    Traj rd eps ome lr ak lk h w b ((x, t) :: rest) hE wE bE.

(* every observer of a node is a function of [nth_error]; [fresh] and [spentN] are properties of
   the node, so they move with it *)
Lemma acc_eq (h h' : heap) i j : nth_error h' j = nth_error h i ->
  valOf h' j = valOf h i /\ trackedOf h' j = trackedOf h i /\ dirtyOf h' j = dirtyOf h i /\
  gradOf h' j = gradOf h i /\ edgesOf h' j = edgesOf h i.
Proof. intros E. unfold valOf, trackedOf, dirtyOf, gradOf, edgesOf. rewrite E. repeat split. Qed.

Lemma fresh_eq (h h' : heap) i j : nth_error h' j = nth_error h i -> fresh h i -> fresh h' j.
Proof. intros E F. unfold fresh in *. destruct (acc_eq h h' i j E) as (_ & -> & -> & -> & ->). exact F. Qed.

Lemma spentN_eq (h h' : heap) i j : nth_error h' j = nth_error h i -> spentN h i -> spentN h' j.
Proof. intros E F. unfold spentN in *. destruct (acc_eq h h' i j E) as (_ & -> & -> & -> & ->). exact F. Qed.

Lemma ext_nth (h h' : heap) i : extends h h' -> i < length h -> nth_error h' i = nth_error h i.
Proof. intros [l ->] Hi. apply nth_error_app1. exact Hi. Qed.

Lemma nth_snoc_cases {X} (h : list X) n c n' : nth_error (h ++ [n]) c = Some n' ->
  (c < length h /\ nth_error h c = Some n') \/ (c = length h /\ n' = n).
Proof.
  intros E. destruct (Nat.lt_ge_cases c (length h)) as [Hlt|Hge].
  - left. split; [exact Hlt|]. rewrite nth_error_app1 in E by exact Hlt. exact E.
  - right. assert (c < length (h ++ [n])) by (apply nth_error_Some; congruence).
    rewrite app_length in H. cbn in H. assert (c = length h) by lia. subst c.
    rewrite nth_error_snoc_new in E. inversion E. auto.
Qed.

Lemma snoc2_nth {X} (h : list X) n1 n2 :
  (forall i, i < length h -> nth_error ((h ++ [n1]) ++ [n2]) i = nth_error h i) /\
  nth_error ((h ++ [n1]) ++ [n2]) (length h) = Some n1 /\
  nth_error ((h ++ [n1]) ++ [n2]) (S (length h)) = Some n2.
Proof.
  assert (L : length (h ++ [n1]) = S (length h)) by (rewrite app_length; cbn; lia).
  split; [|split].
  - intros i Hi. rewrite nth_error_app1 by lia. apply nth_error_app1. exact Hi.
  - rewrite nth_error_app1 by lia. apply nth_error_snoc_new.
  - rewrite <- L. apply nth_error_snoc_new.
Qed.

Lemma fresh_lt (h : heap) w : fresh h w -> w < length h.
Proof. intros [Ht _]. apply trackedOf_true_lt. exact Ht. Qed.

Lemma hinv_snoc (h : heap) v tr di nm : hinv h -> hinv (h ++ [mkNode v tr di None [] nm]).
Proof. exact (hinv_alloc_noedges h v tr di nm). Qed.

Lemma hinv_reset (h : heap) x tr : hinv h -> hinv (h_reset h x tr).
Proof. intros [W O]. split; [apply BackpropP.wf_heap_reset; exact W|apply BackpropP.rules_own_reset; exact O]. Qed.

Lemma hbind_ok (r : hres) (f : heap -> nat -> hres) h' id : hbind r f = (h', Ok id) ->
  exists h1 id1, r = (h1, Ok id1) /\ f h1 id1 = (h', Ok id).
Proof. destruct r as [h1 [id1| |]]; cbn [hbind]; intros E; [exists h1, id1; auto|discriminate|discriminate]. Qed.

Lemma atomically_ok (h0 : heap) (r : hres) h' id : atomically h0 r = (h', Ok id) -> r = (h', Ok id).
Proof. destruct r as [h1 [id1| |]]; cbn [atomically]; intros E; [exact E|discriminate|discriminate]. Qed.

Lemma okw_ok (h : heap) (hr : hres) h' r : okw h hr -> hr = (h', r) -> extends h h' /\ (hinv h -> hinv h').
Proof. intros (He & _ & Hi) ->. split; assumption. Qed.

(* a property of heaps that every successful call of a chain keeps; closed under the three ways
   the component entry points are put together *)
Definition keeps (I : heap -> Prop) (h : heap) (hr : hres) : Prop := forall h' id, hr = (h', Ok id) -> I h -> I h'.

Lemma keeps_bind I (h : heap) (r : hres) (f : heap -> nat -> hres) :
  keeps I h r -> (forall h1 id, keeps I h1 (f h1 id)) -> keeps I h (hbind r f).
Proof.
  intros H1 H2 h' id E S. apply hbind_ok in E as (h1 & id1 & E1 & E2).
  apply (H2 h1 id1 h' id E2). apply (H1 h1 id1 E1 S).
Qed.
Lemma keeps_atomically I (h0 h : heap) (r : hres) : keeps I h r -> keeps I h (atomically h0 r).
Proof. intros H h' id E. apply atomically_ok in E. exact (H h' id E). Qed.
Lemma keeps_err I (h0 h : heap) : keeps I h (h0, Err).
Proof. intros h' id E. discriminate E. Qed.

(* the three stages of a successful forward pass *)
Lemma forward_loss_inv eps ome ak lk (h : heap) w b x t h3 l :
  forward_loss eps ome ak lk h w b x t = (h3, Ok l) ->
  exists h1 y h2 a, fc_forward h w b [Some x] None = (h1, Ok y) /\ act_forward ak h1 y = (h2, Ok a) /\
                    loss_forward eps ome lk h2 a t = (h3, Ok l).
Proof.
  unfold forward_loss. intros E. apply hbind_ok in E as (h1 & y & E1 & E). apply hbind_ok in E as (h2 & a & E2 & E).
  exists h1, y, h2, a. auto.
Qed.

Lemma okw_act ak (h : heap) y : okw h (act_forward ak h y).
Proof.
  destruct ak; cbn [act_forward];
    [apply okw_relu|apply okw_leaky|apply okw_sigmoid|apply okw_tanh|apply okw_softmax].
Qed.

Lemma okw_loss eps ome lk (h : heap) p t : okw h (loss_forward eps ome lk h p t).
Proof.
  destruct lk; cbn [loss_forward].
  - apply okw_bind; [apply okw_flatten|]. intros h1 pf. apply okw_mse.
  - apply okw_bind; [apply okw_flatten|]. intros h1 pf. apply okw_bce.
  - apply okw_ce.
Qed.

Lemma forward_loss_okw eps ome ak lk (h : heap) w b x t : okw h (forward_loss eps ome ak lk h w b x t).
Proof.
  unfold forward_loss. apply okw_bind; [apply okw_fc_forward|]. intros h1 y.
  apply okw_bind; [apply okw_act|]. intros h2 a. apply okw_loss.
Qed.

End Loop.

Section Shape.
Context {A : Type} {SA : Scalar A}.
Notation T := (tensor A).
Notation heap := (@heap A).
Notation node := (@node A).
Notation rule := (@rule A).
Notation hres := (@hres A).
Notation idseal := (fun (_ : option nat) (g : T) => g).
Variable rd : bred.

Definition Dm (h : heap) (i : nat) : list nat := match valOf h i with Some v => dims v | None => [] end.

(* back edge e of node c is shape-sound: whenever the gradient of c (if any) has the shape of c,
   the rule, if it evaluates, returns a well-formed tensor of the shape of its target.  Only
   the values of nodes up to c matter. *)
Definition edge_ok (h : heap) (c : nat) (e : nat * rule) : Prop :=
  forall (hh : heap) g, (forall i, i <= c -> valOf hh i = valOf h i) ->
    (forall gy, gradOf hh c = Some gy -> shp (Dm h c) gy) ->
    eval_rule rd hh (snd e) = Ok g -> shp (Dm h (fst e)) g.

Definition sinv (h : heap) : Prop :=
  hinv h /\ (forall i v, valOf h i = Some v -> wf v) /\
  (forall c e, In e (edgesOf h c) -> edge_ok h c e) /\
  (forall i g, gradOf h i = Some g -> shp (Dm h i) g).

Lemma sinv_hinv (h : heap) : sinv h -> hinv h.
Proof. intros S. apply S. Qed.

Lemma sinv_wf (h : heap) i v : sinv h -> valOf h i = Some v -> wf v.
Proof. intros S. apply S. Qed.

Lemma Dm_val (h : heap) i v : valOf h i = Some v -> Dm h i = dims v.
Proof. intros E. unfold Dm. rewrite E. reflexivity. Qed.

Lemma Dm_app (h l : heap) i : i < length h -> Dm (h ++ l) i = Dm h i.
Proof. intros Hi. unfold Dm. rewrite valOf_app by exact Hi. reflexivity. Qed.

Lemma sinv_grad (h : heap) i v g : sinv h -> valOf h i = Some v -> gradOf h i = Some g -> shp (dims v) g.
Proof. intros S V G. rewrite <- (Dm_val h i v V). apply S, G. Qed.

(* [edge_ok] reads the heap only through the values up to c *)
Lemma edge_ok_vals (h h' : heap) c e : (forall i, i <= c -> valOf h' i = valOf h i) ->
  valOf h' (fst e) = valOf h (fst e) -> edge_ok h c e -> edge_ok h' c e.
Proof.
  intros V Ve H hh g Hv Hg Ev. unfold Dm in *. rewrite Ve. apply (H hh g); [| |exact Ev].
  - intros i Hi. rewrite Hv, V by exact Hi. reflexivity.
  - intros gy Hgy. unfold Dm. rewrite <- (V c (le_n c)). apply Hg, Hgy.
Qed.

Lemma sinv_snoc (h : heap) (n : node) : sinv h -> wf (nval n) -> ngrad n = None ->
  (forall e, In e (nedges n) ->
     fst e < length h /\ BackpropP.rule_y (snd e) = length h /\ edge_ok (h ++ [n]) (length h) e) ->
  sinv (h ++ [n]).
Proof.
  intros ([W O] & Vw & Ek & Gk) Wn Gn Hn. split; [split|split; [|split]].
  - intros c n' e Hc He. apply nth_snoc_cases in Hc as [[Hlt Hc]|[-> ->]].
    + eapply W; eauto.
    + apply (Hn e He).
  - intros c n' e Hc He. apply nth_snoc_cases in Hc as [[Hlt Hc]|[-> ->]].
    + eapply O; eauto.
    + apply (Hn e He).
  - intros i v Hv. unfold valOf in Hv. destruct (nth_error (h ++ [n]) i) as [n'|] eqn:En; [|discriminate].
    cbn in Hv. inversion Hv; subst v. apply nth_snoc_cases in En as [[Hlt Hc]|[-> ->]]; [|exact Wn].
    apply (Vw i). unfold valOf. rewrite Hc. reflexivity.
  - intros c e He. unfold edgesOf in He. destruct (nth_error (h ++ [n]) c) as [n'|] eqn:En; [|destruct He].
    apply nth_snoc_cases in En as [[Hlt Hc]|[-> ->]]; [|apply (Hn e He)].
    pose proof (W c n' e Hc He) as Lf.
    apply (edge_ok_vals h); [intros i Hi; apply valOf_app; lia|apply valOf_app; lia|].
    apply Ek. unfold edgesOf. rewrite Hc. exact He.
  - intros i g Hg. unfold gradOf in Hg. destruct (nth_error (h ++ [n]) i) as [n'|] eqn:En; [|discriminate].
    cbn in Hg. apply nth_snoc_cases in En as [[Hlt Hc]|[-> ->]]; [|congruence].
    rewrite Dm_app by exact Hlt. apply Gk. unfold gradOf. rewrite Hc. exact Hg.
Qed.

Lemma sinv_noedge (h : heap) v tr di nm : sinv h -> wf v -> sinv (h ++ [mkNode v tr di None [] nm]).
Proof. intros S W. apply sinv_snoc; [exact S|exact W|reflexivity|intros e []]. Qed.

Lemma sinv_nil : sinv [].
Proof.
  split; [apply hinv_nil|]. split; [|split].
  - intros i v H. destruct i; discriminate.
  - intros c e H. destruct c; destruct H.
  - intros i g H. destruct i; discriminate.
Qed.

Lemma sinv_leaf (h : heap) v tr nm : sinv h -> wf v -> sinv (fst (leaf h v tr nm)).
Proof. intros S W. rewrite leaf_eq. cbn [fst]. apply sinv_noedge; assumption. Qed.

(* hh has the values of h, no edge that h does not have, and every gradient it holds has the
   shape of its node: back-propagation moves within this set, and a reset stays in it *)
Definition Ginv (h hh : heap) : Prop :=
  (forall i, valOf hh i = valOf h i) /\ (forall c e, In e (edgesOf hh c) -> In e (edgesOf h c)) /\
  (forall i g, gradOf hh i = Some g -> shp (Dm h i) g).

Lemma Ginv_refl (h : heap) : sinv h -> Ginv h h.
Proof. intros (_ & _ & _ & Gk). split; [|split]; auto. Qed.

Lemma Ginv_sinv (h hh : heap) : sinv h -> hinv hh -> Ginv h hh -> sinv hh.
Proof.
  intros (_ & Vw & Ek & _) HI (V & Ed & G). split; [exact HI|]. split; [|split].
  - intros i v Hv. rewrite V in Hv. exact (Vw i v Hv).
  - intros c e He. apply (edge_ok_vals h); [intros i _; apply V|apply V|apply Ek, Ed, He].
  - intros i g Hg. unfold Dm. rewrite V. exact (G i g Hg).
Qed.

Lemma Ginv_setGrad (h hh : heap) i g : Ginv h hh -> shp (Dm h i) g -> Ginv h (setGrad hh i (Some g)).
Proof.
  intros (V & E & G) Hg. split; [|split].
  - intros j. rewrite BackpropP.valOf_setGrad. apply V.
  - intros j e. rewrite BackpropP.edgesOf_setGrad. apply E.
  - intros j g' Hj. rewrite BackpropP.gradOf_setGrad in Hj. destruct (j =? i) eqn:Eji.
    + apply Nat.eqb_eq in Eji. subst j. destruct (i <? length hh); [|discriminate]. inversion Hj; subst g'. exact Hg.
    + apply G. exact Hj.
Qed.

Lemma Ginv_accumulate (h hh : heap) i g hh' r : Ginv h hh -> shp (Dm h i) g ->
  accumulate hh i g = (hh', r) -> Ginv h hh'.
Proof.
  intros GI Hg E. unfold accumulate in E. destruct (gradOf hh i) as [g0|] eqn:E0.
  - destruct (v_arith BiAdd g0 g) as [s| |] eqn:Es; inversion E; subst; try exact GI.
    apply Ginv_setGrad; [exact GI|]. eapply ar_shp; [exact Es| |exact Hg]. destruct GI as (_ & _ & G). apply G. exact E0.
  - inversion E; subst. apply Ginv_setGrad; assumption.
Qed.

Lemma Ginv_edges (h : heap) c : (forall e, In e (edgesOf h c) -> edge_ok h c e) ->
  forall es, incl es (edgesOf h c) -> forall (hh : heap) r hh' r', Ginv h hh ->
  fold_left (process_edge rd c) es (hh, r) = (hh', r') -> Ginv h hh'.
Proof.
  intros Hok. induction es as [|e es IH]; intros Hin hh r hh' r' GI E; cbn [fold_left] in E.
  - inversion E; subst. exact GI.
  - destruct (process_edge rd c (hh, r) e) as [h1 r1] eqn:E1.
    apply (IH (fun x Hx => Hin x (or_intror Hx)) h1 r1 hh' r'); [|exact E].
    unfold process_edge in E1. destruct r as [u| |]; [|inversion E1; subst; exact GI|inversion E1; subst; exact GI].
    destruct (trackedOf hh (fst e)); [|inversion E1; subst; exact GI].
    destruct (eval_rule rd hh (snd e)) as [g| |] eqn:Ev; [|inversion E1; subst; exact GI|inversion E1; subst; exact GI].
    eapply Ginv_accumulate; [exact GI| |exact E1].
    destruct GI as (V & Ed & G). apply (Hok e (Hin e (or_introl eq_refl)) hh g).
    + intros i _. apply V.
    + intros gy Hgy. apply (G c gy Hgy).
    + exact Ev.
Qed.

Lemma Ginv_node (h : heap) : (forall c e, In e (edgesOf h c) -> edge_ok h c e) ->
  forall (hh : heap) log r c hh' log' r', Ginv h hh ->
  process_node rd idseal (hh, log, r) c = (hh', log', r') -> Ginv h hh'.
Proof.
  intros Hok hh log r c hh' log' r' GI E. unfold process_node in E.
  destruct r as [u| |]; [|inversion E; subst; exact GI|inversion E; subst; exact GI].
  destruct (nth_error hh c) as [n|] eqn:En; [|inversion E; subst; exact GI].
  destruct (ngrad n) as [g|] eqn:Eg; [|inversion E; subst; exact GI].
  destruct (fold_left (process_edge rd c) (nedges n) (setGrad hh c (Some g), Ok tt)) as [h2 r2] eqn:Ef.
  inversion E; subst hh' log' r'. clear E.
  assert (Hgc : gradOf hh c = Some g) by (unfold gradOf; rewrite En; exact Eg).
  pose proof GI as (V & Ed & G).
  eapply (Ginv_edges h c (Hok c) (nedges n)); [|apply Ginv_setGrad; [exact GI|apply (G c g Hgc)]|exact Ef].
  intros e He. apply Ed. unfold edgesOf. rewrite En. exact He.
Qed.

Lemma Ginv_nodes (h : heap) : (forall c e, In e (edgesOf h c) -> edge_ok h c e) ->
  forall l (hh : heap) log r hh' log' r', Ginv h hh ->
  fold_left (process_node rd idseal) l (hh, log, r) = (hh', log', r') -> Ginv h hh'.
Proof.
  intros Hok. induction l as [|c l IH]; intros hh log r hh' log' r' GI E; cbn [fold_left] in E.
  - inversion E; subst. exact GI.
  - destruct (process_node rd idseal (hh, log, r) c) as [[h1 log1] r1] eqn:E1.
    eapply IH; [|exact E]. eapply Ginv_node; eauto.
Qed.

(* back-propagation, whatever its outcome, keeps the shape invariant: in particular every
   gradient it delivers is a well-formed tensor of the shape of its node *)
Theorem bp_sinv (h : heap) root h' log r : sinv h -> bp_topo rd idseal h root = (h', log, r) -> sinv h'.
Proof.
  intros S E. apply (Ginv_sinv h); [exact S|eapply bp_hinv; [exact E|exact (sinv_hinv h S)]|].
  pose proof (Ginv_refl h S) as G0. pose proof S as (_ & Vw & Ek & Gk).
  unfold bp_topo in E. destruct (negb (trackedOf h root)); [inversion E; subst; exact G0|].
  set (order := topoOrder h root) in *. set (h1 := markDirty h order) in *.
  assert (G1 : Ginv h h1).
  { split; [|split].
    - intros i. apply BackpropP.valOf_markDirty.
    - intros i e. unfold h1. rewrite BackpropP.edgesOf_markDirty. auto.
    - intros i g Hg. unfold h1 in Hg. rewrite BackpropP.gradOf_markDirty in Hg. apply Gk. exact Hg. }
  destruct (valOf h1 root) as [rv|] eqn:Ev; [|inversion E; subst; exact G0].
  assert (Ev0 : valOf h root = Some rv) by (rewrite <- Ev; symmetry; apply (proj1 G1)).
  destruct (toOnes rv) as [ones| |] eqn:Eo; [|inversion E; subst; exact G1|inversion E; subst; exact G1].
  assert (So : shp (Dm h root) ones).
  { rewrite (Dm_val _ _ _ Ev0). eapply un_shp; [exact Eo|]. apply shp_self. eapply Vw; eauto. }
  destruct (accumulate h1 root ones) as [h2 r2] eqn:Ea.
  pose proof (Ginv_accumulate h h1 root ones h2 r2 G1 So Ea) as G2.
  destruct r2 as [u| |]; [|inversion E; subst; exact G2|inversion E; subst; exact G2].
  eapply Ginv_nodes; [exact Ek|exact G2|exact E].
Qed.

Lemma sinv_reset (h : heap) x tr : sinv h -> sinv (h_reset h x tr).
Proof.
  intros S. destruct (h_reset_spec h x tr) as (Hl & Hs & Ho & He).
  apply (Ginv_sinv h); [exact S|apply hinv_reset, sinv_hinv, S|].
  assert (Cases : forall i, nth_error (h_reset h x tr) i = nth_error h i \/
                            gradOf (h_reset h x tr) i = None /\ edgesOf (h_reset h x tr) i = []).
  { intros i. destruct (Nat.eq_dec i x) as [->|Hne]; [|left; apply Ho; exact Hne].
    destruct (nth_error h x) as [n|] eqn:En.
    - right. unfold gradOf, edgesOf. rewrite (Hs n eq_refl). auto.
    - left. apply nth_error_None. rewrite Hl. apply nth_error_None. exact En. }
  split; [|split].
  - intros i. apply valOf_erase_eq. exact He.
  - intros c e Hin. destruct (Cases c) as [E|[_ E]]; [|rewrite E in Hin; destruct Hin].
    destruct (acc_eq h _ c c E) as (_ & _ & _ & _ & <-). exact Hin.
  - intros i g Hg. destruct (Cases i) as [E|[E _]]; [|congruence].
    destruct (acc_eq h _ i i E) as (_ & _ & _ & Eg & _). rewrite Eg in Hg. apply S, Hg.
Qed.

Notation oks := (keeps sinv).

(* reading a rule evaluation backwards *)
Lemma gy_ok (hh : heap) y g : gy_of hh y = Ok g -> gradOf hh y = Some g.
Proof. unfold gy_of. destruct (gradOf hh y); cbn; intros E; inversion E; reflexivity. Qed.
Lemma val_ok (hh : heap) x v : val_of hh x = Ok v -> valOf hh x = Some v.
Proof. unfold val_of. destruct (valOf hh x); cbn; intros E; inversion E; reflexivity. Qed.

Ltac inv_res E :=
  repeat (cbn [res_bind] in E;
          match type of E with
          | res_bind ?r _ = Ok _ =>
              let t := fresh "t" in let Et := fresh "Et" in
              destruct r as [t| |] eqn:Et; [|discriminate E|discriminate E]
          end);
  cbn [res_bind] in E.

(* normalise [gy_of]/[val_of] equations against known values *)
Ltac norm_reads :=
  repeat match goal with
         | H : gy_of _ _ = Ok _ |- _ => apply gy_ok in H
         | H : val_of _ _ = Ok _ |- _ => apply val_ok in H
         end;
  repeat match goal with
         | H : valOf ?hh ?x = Some ?v, K : valOf ?hh ?x = Some ?w |- _ =>
             assert (v = w) by congruence; subst v; clear H
         end.

(* one-operand methods: the new value is well formed and the single back edge is shape-sound *)
Lemma sinv_op1 (h : heap) x f mk nm :
  BackpropP.rule_y (mk (length h)) = length h ->
  (forall xv v, valOf h x = Some xv -> wf xv -> f xv = Ok v ->
     wf v /\
     forall (hh : heap) g, valOf hh x = Some xv -> valOf hh (length h) = Some v ->
       (forall gy, gradOf hh (length h) = Some gy -> shp (dims v) gy) ->
       eval_rule rd hh (mk (length h)) = Ok g -> shp (dims xv) g) ->
  oks h (h_op1 h x f mk nm).
Proof.
  intros Hy Hf h' id E S. apply h_op1_inv in E as (xv & v & Hx & Hfv & -> & ->).
  pose proof (valOf_some_lt h x xv Hx) as Lx.
  destruct (Hf xv v Hx (sinv_wf h x xv S Hx) Hfv) as [Wv Hr].
  apply sinv_snoc; [exact S|exact Wv|reflexivity|].
  intros e He. apply ctxNode_edges_incl in He. destruct He as [<-|[]]. cbn [fst snd].
  split; [exact Lx|]. split; [exact Hy|].
  intros hh g Hv Hg Ev. cbn [fst snd] in *.
  set (n := ctxNode v (mkCtx h [x] [(x, mk (length h))]) nm) in *.
  assert (Vn : valOf (h ++ [n]) (length h) = Some v) by (rewrite valOf_new; reflexivity).
  assert (Vx : valOf (h ++ [n]) x = Some xv) by (rewrite valOf_app by exact Lx; exact Hx).
  rewrite (Dm_val _ _ _ Vx). apply (Hr hh g).
  - rewrite Hv by lia. exact Vx.
  - rewrite Hv by lia. exact Vn.
  - intros gy Hgy. rewrite <- (Dm_val _ _ _ Vn). apply Hg. exact Hgy.
  - exact Ev.
Qed.

(* shape soundness of the individual rules, on any heap [hh] *)
Lemma rreshape_ok (hh : heap) y x xv ds g : valOf hh x = Some xv ->
  (forall gy, gradOf hh y = Some gy -> shp ds gy) -> eval_rule rd hh (RReshape y x) = Ok g -> shp (dims xv) g.
Proof.
  intros Vx Hg Ev. cbn [eval_rule] in Ev. inv_res Ev. norm_reads.
  destruct (Hg _ Et) as [Wt _]. pose proof (reshape_shp _ _ _ Wt Ev) as H.
  unfold zdims in H. rewrite natsOf_of_nat in H. exact H.
Qed.

Lemma redB_shp (gy xv g : T) dim : wf gy -> reducerBroadcasted gy xv dim = Ok g -> shp (dims xv) g.
Proof.
  intros Wg E. unfold reducerBroadcasted in E. inv_res E.
  destruct (bc_shp t g _ (proj1 (unsq_shp gy t dim Wg Et)) E) as [H _].
  unfold zdims in H. rewrite natsOf_of_nat in H. exact H.
Qed.

Lemma rsum_ok (hh : heap) y x dim xv ds g : valOf hh x = Some xv ->
  (forall gy, gradOf hh y = Some gy -> shp ds gy) -> eval_rule rd hh (RSumAlong y x dim) = Ok g -> shp (dims xv) g.
Proof.
  intros Vx Hg Ev. cbn [eval_rule] in Ev. inv_res Ev. norm_reads.
  destruct (Hg _ Et) as [Wt _]. eapply redB_shp; eauto.
Qed.

Lemma ravg_ok (hh : heap) y x dim xv ds g : valOf hh x = Some xv ->
  (forall gy, gradOf hh y = Some gy -> shp ds gy) -> eval_rule rd hh (RAvgAlong y x dim) = Ok g -> shp (dims xv) g.
Proof.
  intros Vx Hg Ev. cbn [eval_rule] in Ev. inv_res Ev. norm_reads.
  destruct (Hg _ Et) as [Wt _]. eapply un_shp; [exact Ev|]. eapply redB_shp; eauto.
Qed.

Lemma sinv_unsqueeze (h : heap) x dim nm : oks h (h_unsqueeze h x dim nm).
Proof.
  apply sinv_op1; [reflexivity|].
  intros xv v Hx Wx Hf. split; [exact (proj1 (unsq_shp xv v dim Wx Hf))|].
  intros hh g Vx Vy Hg Ev. eapply rreshape_ok; eauto.
Qed.

Lemma sinv_flatten (h : heap) x dim nm : oks h (h_flatten h x dim nm).
Proof.
  apply sinv_op1; [reflexivity|].
  intros xv v Hx Wx Hf. split; [exact (flatten_shp xv v dim Wx Hf)|].
  intros hh g Vx Vy Hg Ev. eapply rreshape_ok; eauto.
Qed.

Lemma sinv_reduceAlong (h : heap) r x dim nm : r = RdSum \/ r = RdAvg \/ r = RdMean ->
  oks h (h_reduceAlong h r x dim nm).
Proof.
  intros Hr. apply sinv_op1; [destruct r; reflexivity|].
  intros xv v Hx Wx Hf. split; [exact (proj1 (red_shp r xv v dim Wx Hf))|].
  intros hh g Vx Vy Hg Ev.
  destruct Hr as [->|[->| ->]]; cbn [alongRule] in Ev; [eapply rsum_ok|eapply ravg_ok|eapply ravg_ok]; eauto.
Qed.

(* element-wise methods: every tensor in sight has the shape of the operand *)
Ltac elem := unfold toZeros, toOnes in *; eauto 12 using un_shp, ar_shp, same_shp'.

Lemma sinv_elem1 (h : heap) x (u : unary) mk nm :
  BackpropP.rule_y (mk (length h)) = length h ->
  (forall (hh : heap) xv v g, valOf hh x = Some xv -> valOf hh (length h) = Some v ->
     shp (dims xv) xv -> shp (dims xv) v ->
     (forall gy, gradOf hh (length h) = Some gy -> shp (dims xv) gy) ->
     eval_rule rd hh (mk (length h)) = Ok g -> shp (dims xv) g) ->
  oks h (h_op1 h x (v_unary u) mk nm).
Proof.
  intros Hy Hr. apply sinv_op1; [exact Hy|].
  intros xv v Hx Wx Hf. pose proof (un_shp u xv v _ Hf (shp_self xv Wx)) as [Wv Dv]. split; [exact Wv|].
  intros hh g Vx Vy Hg Ev. apply (Hr hh xv v g Vx Vy (shp_self xv Wx) (conj Wv Dv)); [|exact Ev].
  intros gy Hgy. rewrite <- Dv. apply Hg. exact Hgy.
Qed.

Lemma sinv_scale (h : heap) x a nm : oks h (h_scale h x a nm).
Proof.
  apply sinv_elem1; [reflexivity|].
  intros hh xv v g Vx Vy Sx Sv Hg Ev. cbn [eval_rule] in Ev. inv_res Ev. norm_reads. pose proof (Hg _ Et). elem.
Qed.

Lemma sinv_pow (h : heap) x a az nm : oks h (h_pow h x a az nm).
Proof.
  apply sinv_elem1; [reflexivity|].
  intros hh xv v g Vx Vy Sx Sv Hg Ev. cbn [eval_rule] in Ev. inv_res Ev. norm_reads. pose proof (Hg _ Et).
  destruct az; [elem|]. inv_res Ev. elem.
Qed.

Lemma sinv_math (h : heap) fn x nm : oks h (h_math h fn x nm).
Proof.
  apply sinv_elem1; [destruct fn; reflexivity|].
  intros hh xv v g Vx Vy Sx Sv Hg Ev.
  destruct fn; cbn [mathRule eval_rule] in Ev; inv_res Ev; norm_reads;
    match goal with Et : gradOf hh (length h) = Some _ |- _ => pose proof (Hg _ Et) end; elem.
Qed.

Lemma sinv_broadcast (h : heap) x shape nm : oks h (h_broadcast h x shape nm).
Proof.
  apply sinv_op1; [reflexivity|].
  intros xv v Hx Wx Hf. destruct (bc_shp xv v shape Wx Hf) as [[Wv Dv] Hc]. split; [exact Wv|].
  intros hh g Vx Vy Hg Ev. cbn [eval_rule] in Ev. inv_res Ev. norm_reads.
  eapply bcastBack_shp; [apply Hg; exact Et| |exact Ev]. rewrite Dv. exact Hc.
Qed.

(* two-operand nodes *)
Lemma sinv_op2 (h : heap) a1 a2 (v1 v2 v : T) es nm :
  sinv h -> valOf h a1 = Some v1 -> valOf h a2 = Some v2 -> wf v ->
  (forall e, In e es -> (fst e = a1 \/ fst e = a2) /\ BackpropP.rule_y (snd e) = length h /\
     forall (hh : heap) g, valOf hh a1 = Some v1 -> valOf hh a2 = Some v2 -> valOf hh (length h) = Some v ->
       (forall gy, gradOf hh (length h) = Some gy -> shp (dims v) gy) ->
       eval_rule rd hh (snd e) = Ok g -> shp (Dm h (fst e)) g) ->
  sinv (h ++ [ctxNode v (mkCtx h [a1; a2] es) nm]).
Proof.
  intros S V1 V2 Wv He.
  pose proof (valOf_some_lt h a1 v1 V1) as L1. pose proof (valOf_some_lt h a2 v2 V2) as L2.
  apply sinv_snoc; [exact S|exact Wv|reflexivity|].
  intros e Hin. apply ctxNode_edges_incl in Hin. destruct (He e Hin) as (Hf & Hy & Hr).
  assert (Lf : fst e < length h) by (destruct Hf as [-> | ->]; assumption).
  split; [exact Lf|]. split; [exact Hy|].
  set (n := ctxNode v (mkCtx h [a1; a2] es) nm).
  intros hh g Hv Hg Ev. rewrite Dm_app by exact Lf.
  assert (Vn : valOf (h ++ [n]) (length h) = Some v) by (rewrite valOf_new; reflexivity).
  apply (Hr hh g).
  - rewrite Hv by lia. rewrite valOf_app by exact L1. exact V1.
  - rewrite Hv by lia. rewrite valOf_app by exact L2. exact V2.
  - rewrite Hv by lia. exact Vn.
  - intros gy Hgy. rewrite <- (Dm_val _ _ _ Vn). apply Hg. exact Hgy.
  - exact Ev.
Qed.

Lemma sinv_elsel (h : heap) b x u nm : oks h (h_elsel h b x u nm).
Proof.
  intros h' id E S. apply h_elsel_inv in E as (xv & uv & v & Hx & Hu & Hf & -> & ->).
  pose proof (sinv_wf h x xv S Hx) as Wx. pose proof (sinv_wf h u uv S Hu) as Wu.
  destruct (same_shp b xv uv v _ (shp_self xv Wx) Wu Hf) as [Sv Du].
  assert (Sx : shp (dims xv) xv) by (apply shp_self; exact Wx).
  assert (Su : shp (dims xv) uv) by (split; assumption).
  apply (sinv_op2 h x u xv uv v); [exact S|exact Hx|exact Hu|exact (proj1 Sv)|].
  intros e [<-|[<-|[]]]; cbn [fst snd]; (split; [auto|]); (split; [reflexivity|]);
    intros hh g V1 V2 Vy Hg Ev; cbn [eval_rule] in Ev; inv_res Ev; norm_reads.
  - rewrite (Dm_val _ _ _ Hx). pose proof (Hg _ Et) as Sg. rewrite (proj2 Sv) in Sg. elem.
  - rewrite (Dm_val _ _ _ Hu), Du. pose proof (Hg _ Et) as Sg. rewrite (proj2 Sv) in Sg. elem.
Qed.

(* the two internal Broadcast nodes of a binary operator *)
Lemma bcast2_sinv (h : heap) x u xv uv s1 s2 h2 b1 b2 : sinv h -> valOf h x = Some xv -> valOf h u = Some uv ->
  h_bcast2 h x u s1 s2 = (h2, Ok (b1, b2)) ->
  sinv h2 /\ exists v1 v2, valOf h2 b1 = Some v1 /\ valOf h2 b2 = Some v2 /\ shp (natsOf s1) v1 /\ shp (natsOf s2) v2.
Proof.
  intros S Hx Hu E. unfold h_bcast2 in E.
  destruct (h_broadcast h x s1 None) as [h1 [c1| |]] eqn:E1; try discriminate.
  destruct (h_broadcast h1 u s2 None) as [h2' [c2| |]] eqn:E2; try discriminate.
  inversion E; subst h2' c1 c2. clear E.
  split; [exact (sinv_broadcast _ _ _ _ _ _ E2 (sinv_broadcast _ _ _ _ _ _ E1 S))|].
  apply h_op1_inv in E1 as (xv' & v1 & Hx' & Hv1 & -> & ->).
  apply h_op1_inv in E2 as (uv' & v2 & Hu' & Hv2 & -> & ->).
  rewrite valOf_app in Hu' by (eapply valOf_some_lt; exact Hu).
  assert (xv' = xv) by congruence. assert (uv' = uv) by congruence. subst xv' uv'.
  exists v1, v2.
  split; [rewrite valOf_app by (rewrite app_length; cbn; lia); rewrite valOf_new; reflexivity|].
  split; [rewrite valOf_new; reflexivity|].
  split; [exact (proj1 (bc_shp xv v1 s1 (sinv_wf h x xv S Hx) Hv1))|exact (proj1 (bc_shp uv v2 s2 (sinv_wf h u uv S Hu) Hv2))].
Qed.

Ltac grad_fact Hg Sg :=
  match goal with Eg : gradOf _ _ = Some ?gy |- _ => pose proof (Hg _ Eg) as Sg end.

Lemma sinv_arith (h : heap) b x u nm : oks h (h_arith h b x u nm).
Proof.
  intros h' id E S. unfold h_arith in E.
  destruct (valOf h x) as [xv|] eqn:Hx; [|discriminate]. destruct (valOf h u) as [uv|] eqn:Hu; [|discriminate].
  set (shape := map Z.of_nat (targetBroadcastDims (dims xv) (dims uv))) in E.
  unfold h_binop in E. destruct (h_bcast2 h x u shape shape) as [h2 [[b1 b2]| |]] eqn:EB; try discriminate.
  destruct (bcast2_sinv h x u xv uv shape shape h2 b1 b2 S Hx Hu EB) as (S2 & v1 & v2 & V1 & V2 & S1 & Sv2).
  rewrite V1, V2 in E. destruct (apply2 (binaryF b) v1 v2) as [v|] eqn:Ef; [|discriminate].
  rewrite alloc_eq in E. inversion E; subst h' id. clear E.
  pose proof (apply2_shp _ v1 v2 v _ S1 Sv2 Ef) as Sv.
  apply (sinv_op2 h2 b1 b2 v1 v2 v); [exact S2|exact V1|exact V2|exact (proj1 Sv)|].
  intros e He.
  destruct b; cbn [arithEdges] in He; try contradiction; destruct He as [<-|[<-|[]]]; cbn [fst snd];
    (split; [auto|]); (split; [reflexivity|]);
    intros hh g W1 W2 Vy Hg Ev; cbn [eval_rule] in Ev; inv_res Ev; norm_reads; grad_fact Hg Sg;
    rewrite (proj2 Sv) in Sg;
    first [rewrite (Dm_val _ _ _ V1), (proj2 S1)|rewrite (Dm_val _ _ _ V2), (proj2 Sv2)]; elem.
Qed.

Lemma mmShape_snoc2 (tb p : list nat) m k a b : mmShape (tb ++ [m; k]) (p ++ [a; b]) = tb ++ [a; b].
Proof.
  unfold mmShape. rewrite !app_length. cbn [length].
  replace (length tb + 2 - 2) with (length tb) by lia. replace (length p + 2 - 2) with (length p) by lia.
  rewrite firstn_length_app, skipn_length_app. reflexivity.
Qed.

Lemma sinv_matmul (h : heap) x u nm : oks h (h_matmul h x u nm).
Proof.
  intros h' id E S. unfold h_matmul in E.
  destruct (valOf h x) as [xv|] eqn:Hx; [|discriminate]. destruct (valOf h u) as [uv|] eqn:Hu; [|discriminate].
  destruct (validateMatMulDims (zdims xv) (zdims uv)) eqn:V; [|discriminate].
  unfold zdims in V. apply validateMatMul_nat in V as (p1 & p2 & m & n & k & D1 & D2).
  set (s1 := map Z.of_nat (mmShape (targetBroadcastDims (dims xv) (dims uv)) (dims xv))) in E.
  set (s2 := map Z.of_nat (mmShape (targetBroadcastDims (dims xv) (dims uv)) (dims uv))) in E.
  unfold h_binop in E. destruct (h_bcast2 h x u s1 s2) as [h2 [[b1 b2]| |]] eqn:EB; try discriminate.
  destruct (bcast2_sinv h x u xv uv s1 s2 h2 b1 b2 S Hx Hu EB) as (S2 & v1 & v2 & V1 & V2 & S1 & Sv2).
  rewrite V1, V2 in E. destruct (matMul v1 v2) as [v|] eqn:Ef; [|discriminate].
  rewrite alloc_eq in E. inversion E; subst h' id. clear E.
  set (tb := targetBroadcastDims p1 p2).
  unfold s1 in S1. unfold s2 in Sv2. rewrite natsOf_of_nat, D1, D2 in S1, Sv2.
  rewrite tbd_snoc2, mmShape_snoc2 in S1, Sv2. fold tb in S1, Sv2.
  destruct (matMul_spec v1 v2 tb m n k (proj1 S1) (proj1 Sv2) (proj2 S1) (proj2 Sv2)) as (r & Er & Dr & Wr & _).
  assert (r = v) by congruence. subst r.
  apply (sinv_op2 h2 b1 b2 v1 v2 v); [exact S2|exact V1|exact V2|exact Wr|].
  intros e [<-|[<-|[]]]; cbn [fst snd]; (split; [auto|]); (split; [reflexivity|]);
    intros hh g W1 W2 Vy Hg Ev; cbn [eval_rule] in Ev; inv_res Ev; norm_reads; grad_fact Hg Sg; rewrite Dr in Sg.
  - rewrite (Dm_val _ _ _ V1), (proj2 S1). eapply mmA_shp; eauto.
  - rewrite (Dm_val _ _ _ V2), (proj2 Sv2). eapply mmB_shp; eauto.
Qed.

Create HintDb oks.
Hint Resolve keeps_err sinv_unsqueeze sinv_flatten sinv_reduceAlong sinv_scale sinv_pow sinv_math sinv_elsel
  sinv_arith sinv_matmul : oks.

(* a guarded, atomic chain: every call is one of the methods above *)
Ltac schain := repeat first [apply keeps_atomically|apply keeps_bind; [|intros ? ?]]; auto with oks.

Lemma sinv_fc h w b x nm : oks h (fc_forward h w b [Some x] nm).
Proof. unfold fc_forward. cbn [oneInput]. destruct (negb (rankOf h x =? 2)); schain. Qed.

Lemma sinv_act ak h y : oks h (act_forward ak h y).
Proof.
  destruct ak as [|m| | |dim]; cbn [act_forward];
    unfold relu_forward, leaky_forward, sigmoid_forward, tanh_forward, softmax_forward; cbn [oneInput];
    try destruct (rankOf h y <=? dim); schain.
Qed.

Lemma sinv_clip h x l u : oks h (clip h x l u).
Proof. unfold clip. schain. Qed.
Hint Resolve sinv_clip : oks.

Lemma sinv_loss eps ome lk h p t : oks h (loss_forward eps ome lk h p t).
Proof.
  destruct lk; cbn [loss_forward]; [apply keeps_bind; [apply sinv_flatten|intros h1 pf]..|].
  - unfold mse_compute. destruct (lossArgs1 h1 (Some pf) (Some t)) as [[p' t']|]; schain.
  - unfold bce_compute. destruct (lossArgs1 h1 (Some pf) (Some t)) as [[p' t']|]; schain.
  - unfold ce_compute. match goal with |- context [if ?c then _ else _] => destruct c end; schain.
Qed.

Theorem forward_loss_sinv eps ome ak lk (h : heap) w b x t h1 l :
  sinv h -> forward_loss eps ome ak lk h w b x t = (h1, Ok l) -> sinv h1.
Proof.
  intros S E. revert h1 l E S. change (oks h (forward_loss eps ome ak lk h w b x t)).
  unfold forward_loss. apply keeps_bind; [apply sinv_fc|]. intros h1 y.
  apply keeps_bind; [apply sinv_act|]. intros h2 a. apply sinv_loss.
Qed.

End Shape.

Section TrainP.
Context {A : Type} {SA : Scalar A}.
Notation T := (tensor A).
Notation heap := (@heap A).
Notation node := (@node A).
Notation hres := (@hres A).
Notation idseal := (fun (_ : option nat) (g : T) => g).

(* a successful update, read backwards *)
Lemma sgd_ok_inv (h : heap) (lr : A) w nm h' id : sgd_update h lr (Some w) nm = (h', Ok id) ->
  exists wv g v, valOf h w = Some wv /\ gradOf h w = Some g /\ sgd_val lr wv g = Ok v /\
    h' = h ++ [mkNode v false true None [] nm] /\ id = length h.
Proof.
  unfold sgd_update, sgd_val. destruct (valOf h w) as [wv|]; [|discriminate].
  destruct (gradOf h w) as [g|]; [|discriminate].
  destruct (dor delta <- v_unary (UScale lr) g; v_arith BiSub wv delta) as [v| |] eqn:Ev; [|discriminate|discriminate].
  cbn [alloc]. intros E. inversion E; subst. exists wv, g, v. auto.
Qed.

Theorem sgd_update_spec (h : heap) (lr : A) (w : nat) nm (wv g : T) :
  valOf h w = Some wv -> wf wv -> gradOf h w = Some g -> wf g -> dims g = dims wv ->
  exists v, sgd_update h lr (Some w) nm = (h ++ [mkNode v false true None [] nm], Ok (length h)) /\
    sgd_val lr wv g = Ok v /\ dims v = dims wv /\ wf v /\
    forall idx, validIdx (dims wv) idx ->
      exists a gx, get (data wv) idx = Some a /\ get (data g) idx = Some gx /\
                   get (data v) idx = Some (ssub a (smul lr gx)).
Proof.
  intros Hw Wwv Hg Wg Ed. destruct (sgd_val_ok lr wv g Wwv (conj Wg Ed)) as (v & E & _ & [Wv Dv] & El).
  exists v. split; [|auto]. unfold sgd_update. unfold sgd_val in E. rewrite Hw, Hg, E. reflexivity.
Qed.

Theorem sgd_update_nograd (h : heap) (lr : A) w nm wv :
  gradOf h w = None -> valOf h w = Some wv -> sgd_update h lr (Some w) nm = (h, Err).
Proof. intros Hg Hw. unfold sgd_update. rewrite Hw, Hg. reflexivity. Qed.

Theorem sgd_update_nil (h : heap) (lr : A) nm : sgd_update h lr None nm = (h, Err).
Proof. reflexivity. Qed.

Lemma sgd_result_spent (h : heap) (lr : A) w nm h' id : sgd_update h lr (Some w) nm = (h', Ok id) ->
  spentN h' id /\ extends h h' /\ id = length h /\ length h' = S (length h).
Proof.
  intros E. apply sgd_ok_inv in E as (wv & g & v & _ & _ & _ & -> & ->).
  split; [|split; [eexists; reflexivity|split; [reflexivity|rewrite app_length; cbn; lia]]].
  unfold spentN, trackedOf, dirtyOf, gradOf, edgesOf. rewrite nth_error_snoc_new. cbn. auto.
Qed.

Theorem reset_fresh (h : heap) w : w < length h ->
  fresh (h_reset h w true) w /\
  length (h_reset h w true) = length h /\
  (forall i, valOf (h_reset h w true) i = valOf h i) /\
  (forall i, i <> w -> nth_error (h_reset h w true) i = nth_error h i).
Proof.
  intros Hw. destruct (h_reset_spec h w true) as (Hl & Hs & Ho & He).
  destruct (h_reset_flags h w true Hw) as (F1 & F2 & F3 & F4 & _).
  split; [unfold fresh; auto|]. split; [exact Hl|]. split; [|exact Ho].
  intros i. apply valOf_erase_eq. exact He.
Qed.

(* the heap after the two updates and the two resets *)
Lemma final_heap (h2 : heap) (nW nB : node) :
  let HF := h_reset (h_reset ((h2 ++ [nW]) ++ [nB]) (length h2) true) (S (length h2)) true in
  fresh HF (length h2) /\ fresh HF (S (length h2)) /\ length HF = S (S (length h2)) /\
  valOf HF (length h2) = Some (nval nW) /\ valOf HF (S (length h2)) = Some (nval nB) /\
  (forall i, i < length h2 -> nth_error HF i = nth_error h2 i).
Proof.
  intros HF. set (H4 := (h2 ++ [nW]) ++ [nB]) in *. set (H5 := h_reset H4 (length h2) true) in *.
  destruct (snoc2_nth h2 nW nB) as (Old & Nw & Nb). fold H4 in Old, Nw, Nb.
  assert (L4 : length H4 = S (S (length h2))) by (unfold H4; rewrite !app_length; cbn; lia).
  destruct (reset_fresh H4 (length h2) ltac:(lia)) as (F5 & L5 & V5 & O5). fold H5 in F5, L5, V5, O5.
  destruct (reset_fresh H5 (S (length h2)) ltac:(lia)) as (FF & LF & VF & OF). fold HF in FF, LF, VF, OF.
  split; [apply (fresh_eq H5 HF (length h2)); [apply OF; lia|exact F5]|]. split; [exact FF|]. split; [lia|].
  split; [rewrite VF, V5; unfold valOf; rewrite Nw; reflexivity|].
  split; [rewrite VF, V5; unfold valOf; rewrite Nb; reflexivity|].
  intros i Hi. rewrite (OF i), (O5 i) by lia. exact (Old i Hi).
Qed.

Lemma spent_ext (h h' : heap) i : extends h h' -> dirtyOf h i = true -> dirtyOf h' i = true.
Proof.
  intros X D. pose proof (dirtyOf_true_lt h i D) as Hi.
  destruct (acc_eq h h' i i (ext_nth h h' i X Hi)) as (_ & _ & E & _). rewrite E. exact D.
Qed.

(* a spent operand poisons everything computed from it: the result is spent and untracked *)
Definition poisoned (h : heap) (i : nat) : Prop := dirtyOf h i = true /\ trackedOf h i = false.

Lemma d_call (h : heap) (hr : hres) (P : Prop) h' id : frame_ok h hr -> (P -> hr = (h', Ok id) -> isolated h' id) ->
  hr = (h', Ok id) -> extends h h' /\ (P -> poisoned h' id).
Proof.
  intros (He & _) Sp E. split; [rewrite E in He; exact He|].
  intros D. destruct (isolated_flags h' id (Sp D E)) as (H1 & H2 & _). split; assumption.
Qed.

Lemma d_op1 (h : heap) x f mk nm h' id : h_op1 h x f mk nm = (h', Ok id) ->
  extends h h' /\ (dirtyOf h x = true -> poisoned h' id).
Proof. apply d_call; [apply h_op1_frame|apply spent_op1]. Qed.

Lemma d_elsel (h : heap) b x u nm h' id : h_elsel h b x u nm = (h', Ok id) ->
  extends h h' /\ (dirtyOf h x = true \/ dirtyOf h u = true -> poisoned h' id).
Proof. apply d_call; [apply h_elsel_frame|apply spent_elsel]. Qed.

Lemma d_arith (h : heap) b x u nm h' id : h_arith h b x u nm = (h', Ok id) ->
  extends h h' /\ (dirtyOf h x = true \/ dirtyOf h u = true -> poisoned h' id).
Proof. apply d_call; [apply h_arith_frame|apply spent_arith]. Qed.

Lemma d_matmul (h : heap) x u nm h' id : h_matmul h x u nm = (h', Ok id) ->
  extends h h' /\ (dirtyOf h x = true \/ dirtyOf h u = true -> poisoned h' id).
Proof. apply d_call; [apply h_matmul_frame|apply spent_matmul]. Qed.

(* Which results of a chain are spent depends on which operand feeds which call, so this is not an
   invariant that every call keeps: the chain is followed call by call.  Invert one [hbind] at a
   time, push every known spent flag to the newest heap, and derive the spent flag of the new
   result when an operand is spent. *)
Ltac dapply E :=
  first [ apply d_op1 in E | apply d_elsel in E | apply d_arith in E | apply d_matmul in E ].

Ltac dfact E :=
  dapply E;
  let X := fresh "X" in let D := fresh "D" in
  destruct E as [X D];
  try (match type of D with _ -> ?C => let N := fresh "N" in assert (N : C) by (apply D; auto); destruct N as [? ?] end);
  repeat match goal with F : dirtyOf ?h ?i = true |- _ =>
           match type of X with extends h _ => apply (spent_ext _ _ _ X) in F end end;
  clear D.

Ltac run E :=
  repeat (match type of E with hbind _ _ = _ => idtac end;
          let hh := fresh "hh" in let ii := fresh "ii" in let E1 := fresh "E" in
          apply hbind_ok in E; destruct E as (hh & ii & E1 & E); cbv beta in E; dfact E1);
  dfact E.

Lemma d_clip (h : heap) x lo up h' y : clip h x lo up = (h', Ok y) ->
  extends h h' /\ (dirtyOf h x = true -> poisoned h' y).
Proof.
  intros E. split; [exact (proj1 (okw_ok _ _ _ _ (okw_clip h x lo up) E))|].
  unfold clip in E. intros D. run E. split; assumption.
Qed.

Ltac dapply E ::=
  first [ apply d_op1 in E | apply d_elsel in E | apply d_arith in E | apply d_matmul in E | apply d_clip in E ].

Lemma d_fc (h : heap) w b x nm h' y : fc_forward h w b [Some x] nm = (h', Ok y) ->
  dirtyOf h w = true \/ dirtyOf h b = true -> poisoned h' y.
Proof.
  unfold fc_forward. cbn [oneInput]. destruct (negb (rankOf h x =? 2)); [discriminate|].
  intros E D. apply atomically_ok in E. destruct D; run E; split; assumption.
Qed.

Lemma d_act ak (h : heap) y h' a : act_forward ak h y = (h', Ok a) -> dirtyOf h y = true -> poisoned h' a.
Proof.
  intros E D. destruct ak as [|m| | |dim]; cbn [act_forward] in E;
    unfold relu_forward, leaky_forward, sigmoid_forward, tanh_forward, softmax_forward in E; cbn [oneInput] in E;
    try (destruct (rankOf h y <=? dim); [discriminate|]); try apply atomically_ok in E; run E; split; assumption.
Qed.

Lemma lossArgs1_inv (h : heap) p t p' t' : lossArgs1 h (Some p) (Some t) = Some (p', t') -> p' = p /\ t' = t.
Proof.
  unfold lossArgs1. destruct ((rankOf h p =? 1) && (rankOf h t =? 1) && (dim0Of h p =? dim0Of h t)); [|discriminate].
  intros E. inversion E. auto.
Qed.

Lemma d_loss eps ome lk (h : heap) p t h' l : loss_forward eps ome lk h p t = (h', Ok l) ->
  dirtyOf h p = true -> poisoned h' l.
Proof.
  intros E D. destruct lk; cbn [loss_forward] in E.
  - apply hbind_ok in E as (h1 & pf & E1 & E). dfact E1. unfold mse_compute in E.
    destruct (lossArgs1 h1 (Some pf) (Some t)) as [[p' t']|] eqn:EL; [|discriminate].
    apply lossArgs1_inv in EL as [-> ->]. apply atomically_ok in E. run E. split; assumption.
  - apply hbind_ok in E as (h1 & pf & E1 & E). dfact E1. unfold bce_compute in E.
    destruct (lossArgs1 h1 (Some pf) (Some t)) as [[p' t']|] eqn:EL; [|discriminate].
    apply lossArgs1_inv in EL as [-> ->]. apply atomically_ok in E. run E. split; assumption.
  - unfold ce_compute in E.
    destruct ((rankOf h p =? 2) && (rankOf h t =? 2) && (dim0Of h p =? dim0Of h t) && (dim1Of h p =? dim1Of h t)); [|discriminate].
    apply atomically_ok in E. run E. split; assumption.
Qed.

Theorem spent_forward_untracked eps ome ak lk (h : heap) w b x t h1 l :
  dirtyOf h w = true \/ dirtyOf h b = true ->
  forward_loss eps ome ak lk h w b x t = (h1, Ok l) ->
  trackedOf h1 l = false /\ dirtyOf h1 l = true /\
  forall rd sealg, bp_topo rd sealg h1 l = (h1, [], Ok tt).
Proof.
  intros D E. apply forward_loss_inv in E as (ha & y & hb & a & E1 & E2 & E3).
  destruct (d_fc _ _ _ _ _ _ _ E1 D) as [Dy _]. destruct (d_act _ _ _ _ _ E2 Dy) as [Da _].
  destruct (d_loss _ _ _ _ _ _ _ _ E3 Da) as [Dl Tl].
  split; [exact Tl|]. split; [exact Dl|]. intros rd sealg. apply bp_untracked_root. exact Tl.
Qed.

(* back-propagation, whatever its outcome, seen from the nodes it does not reach *)
Lemma bp_step rd sealg (h1 : heap) l h2 log r : hinv h1 -> bp_topo rd sealg h1 l = (h2, log, r) ->
  length h2 = length h1 /\ (forall i, valOf h2 i = valOf h1 i) /\ (forall i, trackedOf h2 i = trackedOf h1 i) /\
  (forall i, trackedOf h1 i = false -> dirtyOf h2 i = dirtyOf h1 i /\ gradOf h2 i = gradOf h1 i) /\
  hinv h2.
Proof.
  intros HI E. assert (HI2 : hinv h2) by (eapply bp_hinv; eauto).
  destruct (trackedOf h1 l) eqn:Tl.
  - pose proof (hinv_wf h1 HI) as W.
    destruct (bp_topo_frame rd sealg h1 l h2 log r W Tl E) as (L & _ & V & Tk & _ & D & G).
    repeat (split; [assumption|]). split; [|exact HI2]. intros i Hi.
    assert (Hn : ~ In i (topoOrder h1 l)).
    { intros X. apply (topoOrder_tracked h1 l i W) in X. congruence. }
    split; [|apply G; exact Hn]. rewrite D. apply memb_false in Hn. rewrite Hn. cbn. apply orb_false_r.
  - rewrite bp_untracked_root in E by exact Tl. inversion E; subst.
    repeat (split; [reflexivity|]). split; [|exact HI2]. intros i _. split; reflexivity.
Qed.

(* with a spent weight or bias, and no gradient on the weight, the iteration stops at the weight
   update with an error: nothing is trained, the heap is the one the forward pass left *)
Theorem train_iter_spent rd eps ome lr ak lk (h : heap) w b x t h1 l :
  dirtyOf h w = true \/ dirtyOf h b = true -> gradOf h w = None ->
  forward_loss eps ome ak lk h w b x t = (h1, Ok l) ->
  bp_topo rd idseal h1 l = (h1, [], Ok tt) /\ gradOf h1 w = None /\
  (forall lr' nm, sgd_update h1 lr' (Some w) nm = (h1, Err)) /\
  train_iter rd eps ome lr ak lk h w b x t = (h1, Err) /\
  train_iter_noreset rd eps ome lr ak lk h w b x t = (h1, Err).
Proof.
  intros D G E. destruct (spent_forward_untracked eps ome ak lk h w b x t h1 l D E) as (Tl & Dl & Hbp).
  destruct (okw_ok _ _ _ _ (forward_loss_okw eps ome ak lk h w b x t) E) as (X & _).
  pose proof (forward_loss_inv _ _ _ _ _ _ _ _ _ _ _ E) as (ha & y & hb & a & E1 & _ & _).
  assert (Hw : exists wv, valOf h w = Some wv).
  { unfold fc_forward in E1. cbn [oneInput] in E1. destruct (negb (rankOf h x =? 2)); [discriminate|].
    apply atomically_ok in E1. apply hbind_ok in E1 as (hh & w1 & E1 & _).
    apply h_op1_inv in E1 as (wv & v & Hv & _). exists wv. exact Hv. }
  destruct Hw as (wv & Hw). pose proof (valOf_some_lt h w wv Hw) as Lw.
  destruct (acc_eq h h1 w w (ext_nth h h1 w X Lw)) as (Vw & _ & _ & Gw & _).
  rewrite G in Gw. rewrite Hw in Vw.
  assert (S : forall lr' nm, sgd_update h1 lr' (Some w) nm = (h1, Err)).
  { intros lr' nm. eapply sgd_update_nograd; eauto. }
  split; [apply Hbp|]. split; [exact Gw|]. split; [exact S|].
  unfold train_iter, train_iter_noreset. rewrite E, Hbp, S. split; reflexivity.
Qed.

(* in the terms of the loop: [w'] is what an update returned and nobody reset it *)
Theorem missing_reset_errors rd eps ome lr lr' ak lk (h : heap) w nm h3 w' b x t :
  sgd_update h lr (Some w) nm = (h3, Ok w') ->
  spentN h3 w' /\
  forall h4 l, forward_loss eps ome ak lk h3 w' b x t = (h4, Ok l) ->
    trackedOf h4 l = false /\
    bp_topo rd idseal h4 l = (h4, [], Ok tt) /\ gradOf h4 w' = None /\
    (forall nm', sgd_update h4 lr' (Some w') nm' = (h4, Err)) /\
    train_iter rd eps ome lr' ak lk h3 w' b x t = (h4, Err).
Proof.
  intros E. destruct (sgd_result_spent h lr w nm h3 w' E) as (Sp & _). split; [exact Sp|].
  intros h4 l EF. destruct Sp as (_ & Dw & Gw & _).
  destruct (train_iter_spent rd eps ome lr' ak lk h3 w' b x t h4 l (or_introl Dw) Gw EF) as (B & G & S & TI & _).
  destruct (spent_forward_untracked eps ome ak lk h3 w' b x t h4 l (or_introl Dw) EF) as (Tl & _).
  split; [exact Tl|]. split; [exact B|]. split; [exact G|]. split; [intros nm'; apply S|exact TI].
Qed.

Lemma delivers_fun rd eps ome ak lk (h : heap) w b x t gW gB gW' gB' :
  delivers rd eps ome ak lk h w b x t gW gB -> delivers rd eps ome ak lk h w b x t gW' gB' -> gW' = gW /\ gB' = gB.
Proof.
  intros (h1 & l & h2 & log & E1 & _ & E2 & G1 & G2) (h1' & l' & h2' & log' & E1' & _ & E2' & G1' & G2').
  rewrite E1 in E1'. inversion E1'; subst h1' l'. rewrite E2 in E2'. inversion E2'; subst h2' log'.
  split; congruence.
Qed.

(* the four calls of a successful loop body, resets apart *)
Lemma noreset_ok_inv rd eps ome lr ak lk (h : heap) w b x t h4 w' b' :
  train_iter_noreset rd eps ome lr ak lk h w b x t = (h4, Ok (w', b')) ->
  exists h1 l h2 log h3, forward_loss eps ome ak lk h w b x t = (h1, Ok l) /\
    bp_topo rd idseal h1 l = (h2, log, Ok tt) /\
    sgd_update h2 lr (Some w) None = (h3, Ok w') /\ sgd_update h3 lr (Some b) None = (h4, Ok b').
Proof.
  unfold train_iter_noreset. intros E.
  destruct (forward_loss eps ome ak lk h w b x t) as [h1 [l| |]] eqn:EF; try discriminate.
  destruct (bp_topo rd idseal h1 l) as [[h2 log] [[]| |]] eqn:EB; try discriminate.
  destruct (sgd_update h2 lr (Some w) None) as [h3 [w1| |]] eqn:E1; try discriminate.
  destruct (sgd_update h3 lr (Some b) None) as [h4' [b1| |]] eqn:E2; try discriminate.
  inversion E; subst. exists h1, l, h2, log, h3. auto.
Qed.

Lemma train_iter_resets rd eps ome lr ak lk (h : heap) w b x t :
  train_iter rd eps ome lr ak lk h w b x t =
  match train_iter_noreset rd eps ome lr ak lk h w b x t with
  | (h4, Ok (w', b')) => (h_reset (h_reset h4 w' true) b' true, Ok (w', b'))
  | r => r
  end.
Proof.
  unfold train_iter, train_iter_noreset.
  destruct (forward_loss eps ome ak lk h w b x t) as [h1 [l| |]]; [|reflexivity|reflexivity].
  destruct (bp_topo rd idseal h1 l) as [[h2 log] [u| |]]; [|reflexivity|reflexivity].
  destruct (sgd_update h2 lr (Some w) None) as [h3 [w1| |]]; [|reflexivity|reflexivity].
  destruct (sgd_update h3 lr (Some b) None) as [h4 [b1| |]]; reflexivity.
Qed.

(* a successful iteration, read backwards: both updates read value and gradient in the heap
   back-propagation left, append a node each, and the two new nodes are reset *)
Lemma train_iter_ok_inv rd eps ome lr ak lk (h : heap) w b x t h' w' b' :
  train_iter rd eps ome lr ak lk h w b x t = (h', Ok (w', b')) ->
  exists h1 l h2 log wv gW vW bv gB vB,
    forward_loss eps ome ak lk h w b x t = (h1, Ok l) /\ bp_topo rd idseal h1 l = (h2, log, Ok tt) /\
    valOf h2 w = Some wv /\ gradOf h2 w = Some gW /\ sgd_val lr wv gW = Ok vW /\
    valOf h2 b = Some bv /\ gradOf h2 b = Some gB /\ sgd_val lr bv gB = Ok vB /\
    w' = length h2 /\ b' = S (length h2) /\
    h' = h_reset (h_reset ((h2 ++ [mkNode vW false true None [] None]) ++ [mkNode vB false true None [] None])
                          w' true) b' true.
Proof.
  rewrite train_iter_resets.
  destruct (train_iter_noreset rd eps ome lr ak lk h w b x t) as [h4 [[w1 b1]| |]] eqn:EN; intros E; inversion E; subst.
  apply noreset_ok_inv in EN as (h1 & l & h2 & log & h3 & EF & EB & E1 & E2).
  apply sgd_ok_inv in E1 as (wv & gW & vW & Vw & Gw & Sw & -> & ->).
  apply sgd_ok_inv in E2 as (bv & gB & vB & Vb & Gb & Sb & -> & ->).
  exists h1, l, h2, log, wv, gW, vW, bv, gB, vB.
  (* the first update appended a node without gradient, so b is an older one *)
  assert (B2 : valOf h2 b = Some bv /\ gradOf h2 b = Some gB).
  { unfold valOf, gradOf in *. destruct (nth_error (h2 ++ _) b) as [n|] eqn:En; [|discriminate].
    apply nth_snoc_cases in En as [[_ ->]|[_ ->]]; [auto|discriminate]. }
  rewrite app_length. cbn [length]. rewrite Nat.add_1_r. destruct B2. auto 12.
Qed.

(* forward pass, then back-propagation, seen from a node that existed before *)
Lemma fwd_bp_old rd (h : heap) (hr : hres) h1 l h2 log r : okw h hr -> hinv h ->
  hr = (h1, Ok l) -> bp_topo rd idseal h1 l = (h2, log, r) ->
  hinv h2 /\ length h <= length h2 /\
  forall i, i < length h ->
    valOf h2 i = valOf h i /\ trackedOf h2 i = trackedOf h i /\
    (trackedOf h i = false -> dirtyOf h2 i = dirtyOf h i) /\ gradOf h1 i = gradOf h i.
Proof.
  intros K HI EF EB. destruct (okw_ok _ _ _ _ K EF) as (X1 & HI1).
  destruct (bp_step rd idseal h1 l h2 log r (HI1 HI) EB) as (L2 & V2 & T2 & U2 & HI2).
  split; [exact HI2|]. split; [rewrite L2; apply extends_length, X1|].
  intros i Hi. destruct (acc_eq h h1 i i (ext_nth h h1 i X1 Hi)) as (V1 & T1 & D1 & G1 & _).
  rewrite V2, T2, V1, T1. repeat (split; [reflexivity|]). split; [|exact G1].
  intros Ti. rewrite <- T1 in Ti. rewrite (proj1 (U2 i Ti)). exact D1.
Qed.

Theorem iter_no_leak rd eps ome lr ak lk (h : heap) w b x t h' w' b' :
  hinv h -> fresh h w -> fresh h b ->
  train_iter rd eps ome lr ak lk h w b x t = (h', Ok (w', b')) ->
  (* the new weight and bias are clean trainable tensors, distinct, allocated by this iteration *)
  fresh h' w' /\ fresh h' b' /\ w' <> b' /\ length h <= w' /\ length h <= b' /\
  (* the heap invariant is kept *)
  hinv h' /\
  (* values never change *)
  (forall i, i < length h -> valOf h' i = valOf h i) /\
  (* data stay data *)
  (forall z, datum h z -> datum h' z) /\
  (* w' = w - lr * gW,  b' = b - lr * gB  for the gradients this back-propagation delivered *)
  exists gW gB, delivers rd eps ome ak lk h w b x t gW gB /\
                sgd_step lr h w gW h' w' /\ sgd_step lr h b gB h' b'.
Proof.
  intros HI Fw Fb E.
  apply train_iter_ok_inv in E
    as (h1 & l & h2 & log & wv & gW & vW & bv & gB & vB & EF & EB & Vw & Gw & Sw & Vb & Gb & Sb & -> & -> & ->).
  destruct (fwd_bp_old rd h _ h1 l h2 log (Ok tt) (forward_loss_okw eps ome ak lk h w b x t) HI EF EB) as (HI2 & L2 & Old).
  set (nW := mkNode vW false true None [] None). set (nB := mkNode vB false true None [] None).
  destruct (final_heap h2 nW nB) as (F1 & F2 & LF & VF1 & VF2 & OF).
  pose proof (fresh_lt h w Fw) as Lw. pose proof (fresh_lt h b Fb) as Lb.
  split; [exact F1|]. split; [exact F2|]. split; [lia|]. split; [lia|]. split; [lia|].
  split; [apply hinv_reset, hinv_reset, hinv_snoc, hinv_snoc, HI2|].
  set (HF := h_reset _ _ _) in *.
  split.
  { intros i Hi. rewrite (proj1 (acc_eq h2 HF i i (OF i (Nat.lt_le_trans _ _ _ Hi L2)))). apply (Old i Hi). }
  split.
  { intros z (Lz & Tz & Dz). destruct (Old z Lz) as (_ & T2 & D2 & _).
    destruct (acc_eq h2 HF z z (OF z (Nat.lt_le_trans _ _ _ Lz L2))) as (_ & TF & DF & _).
    split; [rewrite LF; clear - Lz L2; lia|]. split; [rewrite TF, T2; exact Tz|]. rewrite DF, (D2 Tz). exact Dz. }
  exists gW, gB. split.
  { exists h1, l, h2, log. split; [exact EF|]. split; [|auto].
    (* the weight had no gradient before: what it holds now was delivered by this back-propagation *)
    destruct (trackedOf h1 l) eqn:Tl; [reflexivity|exfalso].
    rewrite bp_untracked_root in EB by exact Tl. inversion EB; subst h2.
    destruct (Old w Lw) as (_ & _ & _ & G). destruct Fw as (_ & _ & G0 & _). congruence. }
  split.
  - exists wv, vW. split; [rewrite <- (proj1 (Old w Lw)); exact Vw|]. split; [exact Sw|exact VF1].
  - exists bv, vB. split; [rewrite <- (proj1 (Old b Lb)); exact Vb|]. split; [exact Sb|exact VF2].
Qed.

Corollary iter_no_leak_data rd eps ome lr ak lk (h : heap) w b x t h' w' b' :
  hinv h -> fresh h w -> fresh h b -> datum h x -> datum h t ->
  train_iter rd eps ome lr ak lk h w b x t = (h', Ok (w', b')) ->
  fresh h' w' /\ fresh h' b' /\ datum h' x /\ datum h' t /\
  (forall i, i < length h -> valOf h' i = valOf h i) /\
  exists gW gB, delivers rd eps ome ak lk h w b x t gW gB /\
                sgd_step lr h w gW h' w' /\ sgd_step lr h b gB h' b'.
Proof.
  intros HI Fw Fb Dx Dt E.
  destruct (iter_no_leak rd eps ome lr ak lk h w b x t h' w' b' HI Fw Fb E) as (F1 & F2 & _ & _ & _ & _ & V & D & G).
  auto 10.
Qed.

(* forgetting the resets: the loop body still returns two tensors, but they are spent, and the next
   iteration (with or without resets) is an error at its first update, whatever the data *)
Theorem noreset_next_errors rd eps ome lr ak lk (h : heap) w b x t h' w' b' :
  train_iter_noreset rd eps ome lr ak lk h w b x t = (h', Ok (w', b')) ->
  spentN h' w' /\ spentN h' b' /\
  forall x2 t2 h1 l, forward_loss eps ome ak lk h' w' b' x2 t2 = (h1, Ok l) ->
    train_iter rd eps ome lr ak lk h' w' b' x2 t2 = (h1, Err) /\
    train_iter_noreset rd eps ome lr ak lk h' w' b' x2 t2 = (h1, Err).
Proof.
  intros E. apply noreset_ok_inv in E as (h1 & l & h2 & log & h3 & _ & _ & ES1 & ES2).
  destruct (sgd_result_spent _ _ _ _ _ _ ES1) as (Sw & _ & Ew & L3).
  destruct (sgd_result_spent _ _ _ _ _ _ ES2) as (Sb & X4 & _).
  assert (Sw4 : spentN h' w') by (apply (spentN_eq h3 h' w'); [apply ext_nth; [exact X4|lia]|exact Sw]).
  split; [exact Sw4|]. split; [exact Sb|].
  intros x2 t2 h5 l2 EF2. destruct Sw4 as (_ & Dw & Gw & _).
  destruct (train_iter_spent rd eps ome lr ak lk h' w' b' x2 t2 h5 l2 (or_introl Dw) Gw EF2) as (_ & _ & _ & R1 & R2).
  split; assumption.
Qed.

Theorem train_trajectory rd eps ome lr ak lk batches : forall (h : heap) w b h' w' b',
  hinv h -> fresh h w -> fresh h b ->
  train rd eps ome lr ak lk h w b batches = (h', Ok (w', b')) ->
  Traj rd eps ome lr ak lk h w b batches h' w' b' /\
  fresh h' w' /\ fresh h' b' /\ hinv h' /\ length h <= length h' /\
  (forall i, i < length h -> valOf h' i = valOf h i) /\
  (forall z, datum h z -> datum h' z).
Proof.
  induction batches as [|[x t] rest IH]; intros h w b h' w' b' HI Fw Fb E.
  - cbn [train] in E. inversion E; subst. split; [constructor|]. repeat (split; [assumption|]).
    split; [lia|]. split; auto.
  - cbn [train] in E.
    destruct (train_iter rd eps ome lr ak lk h w b x t) as [h1 [[w1 b1]| |]] eqn:EI; try discriminate.
    destruct (iter_no_leak rd eps ome lr ak lk h w b x t h1 w1 b1 HI Fw Fb EI)
      as (F1 & F2 & _ & Lw1 & _ & HI1 & V1 & D1 & gW & gB & Dl & S1 & S2).
    destruct (IH h1 w1 b1 h' w' b' HI1 F1 F2 E) as (Tr & F1' & F2' & HI' & L' & V' & D').
    pose proof (fresh_lt h1 w1 F1) as Lw1'.
    split; [econstructor; eauto|]. repeat (split; [assumption|]).
    split; [lia|]. split.
    + intros i Hi. rewrite V' by lia. apply V1. exact Hi.
    + intros z Hz. apply D', D1, Hz.
Qed.

End TrainP.

Section ShapeLoop.
Context {A : Type} {SA : Scalar A}.
Notation T := (tensor A).
Notation heap := (@heap A).
Variable rd : bred.

Theorem iter_shapes eps ome lr ak lk (h : heap) w b x t h' w' b' :
  sinv rd h -> fresh h w -> fresh h b ->
  train_iter rd eps ome lr ak lk h w b x t = (h', Ok (w', b')) ->
  sinv rd h' /\
  exists wv bv gW gB vW vB,
    valOf h w = Some wv /\ valOf h b = Some bv /\
    delivers rd eps ome ak lk h w b x t gW gB /\
    valOf h' w' = Some vW /\ valOf h' b' = Some vB /\
    upd_elem lr wv gW vW /\ upd_elem lr bv gB vB.
Proof.
  intros S Fw Fb E. pose proof (sinv_hinv rd h S) as HI.
  destruct (iter_no_leak rd eps ome lr ak lk h w b x t h' w' b' HI Fw Fb E)
    as (_ & _ & _ & _ & _ & _ & _ & _ & gW & gB & Dl & (wv & vW & Vw & Sw & VW') & (bv & vB & Vb & Sb & VB')).
  pose proof Dl as (h1 & l & h2 & log & EF & _ & EB & Gw & Gb).
  pose proof (bp_sinv rd h1 l h2 log (Ok tt) (forward_loss_sinv rd eps ome ak lk h w b x t h1 l S EF) EB) as S2.
  destruct (fwd_bp_old rd h _ h1 l h2 log (Ok tt) (forward_loss_okw eps ome ak lk h w b x t) HI EF EB) as (_ & _ & Old).
  assert (Vw2 : valOf h2 w = Some wv) by (rewrite (proj1 (Old w (fresh_lt h w Fw))); exact Vw).
  assert (Vb2 : valOf h2 b = Some bv) by (rewrite (proj1 (Old b (fresh_lt h b Fb))); exact Vb).
  (* the delivered gradients have the shapes of weight and bias, hence so have the new values *)
  pose proof (sgd_val_spec lr wv gW vW (sinv_wf rd h2 w wv S2 Vw2) (sinv_grad rd h2 w wv gW S2 Vw2 Gw) Sw) as UW.
  pose proof (sgd_val_spec lr bv gB vB (sinv_wf rd h2 b bv S2 Vb2) (sinv_grad rd h2 b bv gB S2 Vb2 Gb) Sb) as UB.
  split; [|exists wv, bv, gW, gB, vW, vB; auto 10].
  apply train_iter_ok_inv in E as (h1' & l' & h2' & log' & wv' & gW' & vW' & bv' & gB' & vB' &
    EF' & EB' & Vw' & Gw' & Sw' & Vb' & Gb' & Sb' & _ & _ & ->).
  rewrite EF in EF'. inversion EF'; subst h1' l'. rewrite EB in EB'. inversion EB'; subst h2' log'.
  assert (vW' = vW) by congruence. assert (vB' = vB) by congruence. subst vW' vB'.
  apply sinv_reset, sinv_reset, sinv_noedge; [apply sinv_noedge; [exact S2|]|].
  - exact (proj1 (proj1 (proj2 UW))).
  - exact (proj1 (proj1 (proj2 UB))).
Qed.

Inductive TrajE (eps ome lr : A) (ak : actK) (lk : lossK)
  : heap -> nat -> nat -> list (nat * nat) -> heap -> nat -> nat -> Prop :=
| TrajE_nil h w b : TrajE eps ome lr ak lk h w b [] h w b
| TrajE_cons h w b x t rest h1 w1 b1 hE wE bE gW gB wv bv vW vB :
    train_iter rd eps ome lr ak lk h w b x t = (h1, Ok (w1, b1)) ->
    delivers rd eps ome ak lk h w b x t gW gB ->
    valOf h w = Some wv -> valOf h b = Some bv -> valOf h1 w1 = Some vW -> valOf h1 b1 = Some vB ->
    upd_elem lr wv gW vW -> upd_elem lr bv gB vB ->
    TrajE eps ome lr ak lk h1 w1 b1 rest hE wE bE ->
    TrajE eps ome lr ak lk h w b ((x, t) :: rest) hE wE bE.

Theorem train_trajectory_shapes eps ome lr ak lk batches : forall (h : heap) w b h' w' b',
  sinv rd h -> fresh h w -> fresh h b ->
  train rd eps ome lr ak lk h w b batches = (h', Ok (w', b')) ->
  TrajE eps ome lr ak lk h w b batches h' w' b' /\ sinv rd h' /\ fresh h' w' /\ fresh h' b' /\
  exists wv bv wvE bvE, valOf h w = Some wv /\ valOf h b = Some bv /\
    valOf h' w' = Some wvE /\ valOf h' b' = Some bvE /\
    wf wvE /\ wf bvE /\ dims wvE = dims wv /\ dims bvE = dims bv.
Proof.
  induction batches as [|[x t] rest IH]; intros h w b h' w' b' S Fw Fb E.
  - cbn [train] in E. inversion E as [[Eh Ew Eb]]. subst h' w' b'.
    split; [constructor|]. split; [exact S|]. split; [exact Fw|]. split; [exact Fb|].
    destruct (lt_nth_some h w (fresh_lt _ _ Fw)) as [nw Hnw]. destruct (lt_nth_some h b (fresh_lt _ _ Fb)) as [nb Hnb].
    assert (Vw : valOf h w = Some (nval nw)) by (unfold valOf; rewrite Hnw; reflexivity).
    assert (Vb : valOf h b = Some (nval nb)) by (unfold valOf; rewrite Hnb; reflexivity).
    destruct S as (_ & Vwf & _).
    exists (nval nw), (nval nb), (nval nw), (nval nb).
    split; [exact Vw|]. split; [exact Vb|]. split; [exact Vw|]. split; [exact Vb|].
    split; [eapply Vwf; exact Vw|]. split; [eapply Vwf; exact Vb|]. split; reflexivity.
  - cbn [train] in E.
    destruct (train_iter rd eps ome lr ak lk h w b x t) as [h1 [[w1 b1]| |]] eqn:EI; try discriminate.
    destruct (iter_shapes eps ome lr ak lk h w b x t h1 w1 b1 S Fw Fb EI)
      as (S1 & wv & bv & gW & gB & vW & vB & Vw & Vb & Dl & VW1 & VB1 & UW & UB).
    destruct (iter_no_leak rd eps ome lr ak lk h w b x t h1 w1 b1 (proj1 S) Fw Fb EI) as (F1 & F2 & _).
    destruct (IH h1 w1 b1 h' w' b' S1 F1 F2 E)
      as (Tr & S' & F1' & F2' & wv1 & bv1 & wvE & bvE & Vw1 & Vb1 & VwE & VbE & WwE & WbE & DwE & DbE).
    assert (wv1 = vW) by congruence. assert (bv1 = vB) by congruence. subst wv1 bv1.
    split; [econstructor; eauto|]. split; [exact S'|]. split; [exact F1'|]. split; [exact F2'|].
    exists wv, bv, wvE, bvE. repeat (split; [assumption|]).
    destruct UW as (_ & [_ DW] & _). destruct UB as (_ & [_ DB] & _). split; congruence.
Qed.

End ShapeLoop.

Module TrainExamples.
Import CompExamples.
Local Open Scope nat_scope.

Definition mk1 (l : list Z) : tensor Z := mkT [length l] (Vec (map Sc l)).
Definition tW : tensor Z := mk1 [2; 3]%Z.
Definition tB : tensor Z := mk1 [10; 20]%Z.
Definition tX : tensor Z := mkT [1%nat; 3%nat] (Vec [Vec [Sc 1; Sc 2; Sc 3]])%Z.
Definition tT : tensor Z := mk1 [5; 7]%Z.
Definition tW1 : tensor Z := mk1 [2]%Z.
Definition tB1 : tensor Z := mk1 [10]%Z.
Definition tT1 : tensor Z := mk1 [5]%Z.
Lemma wf_tW : wf tW. Proof. split; [apply wfndb_spec; reflexivity|repeat constructor]. Qed.
Lemma wf_tB : wf tB. Proof. split; [apply wfndb_spec; reflexivity|repeat constructor]. Qed.
Lemma wf_tX : wf tX. Proof. split; [apply wfndb_spec; reflexivity|repeat constructor]. Qed.
Lemma wf_tT : wf tT. Proof. split; [apply wfndb_spec; reflexivity|repeat constructor]. Qed.
Lemma wf_tW1 : wf tW1. Proof. split; [apply wfndb_spec; reflexivity|repeat constructor]. Qed.
Lemma wf_tB1 : wf tB1. Proof. split; [apply wfndb_spec; reflexivity|repeat constructor]. Qed.
Lemma wf_tT1 : wf tT1. Proof. split; [apply wfndb_spec; reflexivity|repeat constructor]. Qed.

(* weight 0 and bias 1 as the initializers return them (tracked leaves); input 2 and target 3 *)
Definition mkHeap (w b x t : tensor Z) : @heap Z :=
  fst (leaf (fst (leaf (fst (leaf (fst (leaf [] w true None)) b true None)) x false None)) t false None).
Definition h0 : @heap Z := mkHeap tW tB tX tT.        (* FC with O = 2, x : [1,3] *)
Definition g0 : @heap Z := mkHeap tW1 tB1 tX tT1.     (* FC with O = 1: a non-zero integer gradient *)

(* a heap built by API calls satisfies [sinv]; the roles of its four cells (fresh, fresh, datum, datum) are [mkHeap_roles] *)
Lemma mkHeap_sinv rd w b x t : wf w -> wf b -> wf x -> wf t -> sinv rd (mkHeap w b x t).
Proof. intros Hw Hb Hx Ht. unfold mkHeap. repeat (apply sinv_leaf; [|assumption]). apply sinv_nil. Qed.

Lemma mkHeap_roles w b x t :
  fresh (mkHeap w b x t) 0 /\ fresh (mkHeap w b x t) 1 /\ datum (mkHeap w b x t) 2 /\ datum (mkHeap w b x t) 3.
Proof. unfold fresh, datum. cbn. repeat split; lia. Qed.

Example ex_sinv rd : sinv rd h0.
Proof. apply mkHeap_sinv; [apply wf_tW|apply wf_tB|apply wf_tX|apply wf_tT]. Qed.

(* 1. one iteration of FC([2]) -> Tanh -> MSE on x : [1,3] succeeds and yields fresh weights *)
Definition it1 := train_iter RedSum 0%Z 1%Z 1%Z KTanh KMse h0 0 1 2 3.

Example ex_iter_run : snd it1 = Ok (20, 21) /\ length (fst it1) = 22.
Proof. vm_compute. auto. Qed.

Example ex_iter_thm :
  exists h', train_iter RedSum 0%Z 1%Z 1%Z KTanh KMse h0 0 1 2 3 = (h', Ok (20, 21)) /\
    fresh h' 20 /\ fresh h' 21 /\ datum h' 2 /\ datum h' 3 /\ sinv RedSum h' /\
    exists vW vB, valOf h' 20 = Some vW /\ valOf h' 21 = Some vB /\ dims vW = [2] /\ dims vB = [2].
Proof.
  exists (fst it1).
  assert (E : train_iter RedSum 0%Z 1%Z 1%Z KTanh KMse h0 0 1 2 3 = (fst it1, Ok (20, 21))) by (vm_compute; reflexivity).
  destruct (mkHeap_roles tW tB tX tT) as (F0 & F1 & D2 & D3). fold h0 in F0, F1, D2, D3.
  destruct (iter_no_leak RedSum 0%Z 1%Z 1%Z KTanh KMse h0 0 1 2 3 _ _ _ (proj1 (ex_sinv RedSum)) F0 F1 E)
    as (A1 & A2 & _ & _ & _ & _ & _ & AD & _).
  destruct (iter_shapes RedSum 0%Z 1%Z 1%Z KTanh KMse h0 0 1 2 3 _ _ _ (ex_sinv RedSum) F0 F1 E)
    as (S & wv & bv & gW & gB & vW & vB & Vw & Vb & _ & VW & VB & (_ & [_ DW] & _) & (_ & [_ DB] & _)).
  split; [exact E|]. split; [exact A1|]. split; [exact A2|]. split; [apply AD; exact D2|]. split; [apply AD; exact D3|].
  split; [exact S|]. exists vW, vB. split; [exact VW|]. split; [exact VB|].
  change (Some tW = Some wv) in Vw. change (Some tB = Some bv) in Vb. inversion Vw; subst wv. inversion Vb; subst bv.
  split; [exact DW|exact DB].
Qed.

(* 2. the update really is  w - lr * g : O = 1, Relu, MSE, lr = 3;  dLoss/dw = 204, dLoss/db = 34 *)
Definition it2 := train_iter RedSum 0%Z 1%Z 3%Z KRelu KMse g0 0 1 2 3.

Example ex_update :
  snd it2 = Ok (21, 22) /\
  valOf (fst it2) 21 = Some (mk1 [2 - 3 * 204]%Z) /\ valOf (fst it2) 22 = Some (mk1 [10 - 3 * 34]%Z) /\
  fresh (fst it2) 21 /\ fresh (fst it2) 22 /\
  (* the spent tensors of this step keep their gradients and flags; they are not used again *)
  gradOf (fst it2) 0 = Some (mk1 [204]%Z) /\ gradOf (fst it2) 1 = Some (mk1 [34]%Z) /\
  dirtyOf (fst it2) 0 = true /\ dirtyOf (fst it2) 1 = true /\
  (* the old values are still there *)
  valOf (fst it2) 0 = Some tW1 /\ valOf (fst it2) 1 = Some tB1.
Proof. vm_compute. repeat split. Qed.

(* 3. three steps: the trajectory theorem applies, shapes are kept *)
Example ex_train :
  exists h' w' b', train RedSum 0%Z 1%Z 3%Z KRelu KMse g0 0 1 [(2, 3); (2, 3); (2, 3)] = (h', Ok (w', b')) /\
    TrajE RedSum 0%Z 1%Z 3%Z KRelu KMse g0 0 1 [(2, 3); (2, 3); (2, 3)] h' w' b' /\
    fresh h' w' /\ fresh h' b' /\
    exists wvE bvE, valOf h' w' = Some wvE /\ valOf h' b' = Some bvE /\ dims wvE = [1] /\ dims bvE = [1].
Proof.
  assert (E : exists h' w' b', train RedSum 0%Z 1%Z 3%Z KRelu KMse g0 0 1 [(2, 3); (2, 3); (2, 3)] = (h', Ok (w', b')))
    by (vm_compute; eauto).
  destruct E as (h' & w' & b' & E). exists h', w', b'. split; [exact E|].
  destruct (mkHeap_roles tW1 tB1 tX tT1) as (F0 & F1 & _). fold g0 in F0, F1.
  assert (S : sinv RedSum g0) by (apply mkHeap_sinv; [apply wf_tW1|apply wf_tB1|apply wf_tX|apply wf_tT1]).
  destruct (train_trajectory_shapes RedSum 0%Z 1%Z 3%Z KRelu KMse _ g0 0 1 h' w' b' S F0 F1 E)
    as (Tr & _ & F0' & F1' & wv & bv & wvE & bvE & Vw & Vb & VwE & VbE & _ & _ & DW & DB).
  split; [exact Tr|]. split; [exact F0'|]. split; [exact F1'|].
  exists wvE, bvE. split; [exact VwE|]. split; [exact VbE|].
  change (Some tW1 = Some wv) in Vw. change (Some tB1 = Some bv) in Vb. inversion Vw; subst wv. inversion Vb; subst bv.
  split; [exact DW|exact DB].
Qed.

(* 4. the reset forgotten: the loop body returns spent tensors, the next iteration is an error
      raised by the update of the weight (the loss is untracked, back-propagation does nothing) *)
Definition nr := train_iter_noreset RedSum 0%Z 1%Z 3%Z KRelu KMse g0 0 1 2 3.

Example ex_noreset :
  snd nr = Ok (21, 22) /\ spentN (fst nr) 21 /\ spentN (fst nr) 22 /\
  snd (train_iter RedSum 0%Z 1%Z 3%Z KRelu KMse (fst nr) 21 22 2 3) = Err /\
  snd (train_iter_noreset RedSum 0%Z 1%Z 3%Z KRelu KMse (fst nr) 21 22 2 3) = Err /\
  exists h1 l, forward_loss 0%Z 1%Z KRelu KMse (fst nr) 21 22 2 3 = (h1, Ok l) /\ trackedOf h1 l = false /\
               bp_topo RedSum (fun _ g => g) h1 l = (h1, [], Ok tt) /\
               sgd_update h1 3%Z (Some 21) None = (h1, Err).
Proof.
  split; [vm_compute; reflexivity|]. split; [vm_compute; auto|]. split; [vm_compute; auto|].
  split; [vm_compute; reflexivity|]. split; [vm_compute; reflexivity|].
  eexists (fst (forward_loss 0%Z 1%Z KRelu KMse (fst nr) 21 22 2 3)), 39. vm_compute. auto.
Qed.

(* the same through the theorem *)
Example ex_noreset_thm x2 t2 h1 l :
  forward_loss 0%Z 1%Z KRelu KMse (fst nr) 21 22 x2 t2 = (h1, Ok l) ->
  train_iter RedSum 0%Z 1%Z 3%Z KRelu KMse (fst nr) 21 22 x2 t2 = (h1, Err).
Proof.
  assert (E : train_iter_noreset RedSum 0%Z 1%Z 3%Z KRelu KMse g0 0 1 2 3 = (fst nr, Ok (21, 22))) by (vm_compute; reflexivity).
  destruct (noreset_next_errors RedSum 0%Z 1%Z 3%Z KRelu KMse g0 0 1 2 3 _ _ _ E) as (_ & _ & H).
  intros EF. apply (H x2 t2 h1 l EF).
Qed.

End TrainExamples.

Print Assumptions sgd_update_spec.
Print Assumptions sgd_update_nograd.
Print Assumptions reset_fresh.
Print Assumptions spent_forward_untracked.
Print Assumptions train_iter_spent.
Print Assumptions missing_reset_errors.
Print Assumptions noreset_next_errors.
Print Assumptions iter_no_leak.
Print Assumptions train_trajectory.
Print Assumptions bp_sinv.
Print Assumptions forward_loss_sinv.
Print Assumptions iter_shapes.
Print Assumptions train_trajectory_shapes.
Print Assumptions TrainExamples.ex_iter_thm.
Print Assumptions TrainExamples.ex_train.
