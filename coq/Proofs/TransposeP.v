(* TransposeP.v — transpose (shape_modifiers.go, transposeElemGenerator) swaps the last two
   dimensions (property C04).  The generator state is the TARGET multi-index, least significant
   digit first; it is advanced by a plain odometer over the reversed target dims and the
   source is read at the state with its first two digits swapped.  Hence element tidx of the
   result is element [transposeDims tidx] of the source.  Public method: Ok iff rank >= 2,
   Err otherwise, never Panic.  Arbitrary element type. *)
From Coq Require Import List Arith ZArith Bool Lia.
From Qeep Require Import Model.Scalar Model.Nd Model.Fill Model.Data Model.Valid Model.Api.
From Qeep Require Import Spec.ValidSpec Proofs.ValidP.
From Qeep Require Import Proofs.NdP Proofs.FillP Proofs.OdometerP Proofs.ReshapeP Proofs.BroadcastP.
Import ListNotations.

(* ---------- swap01 / transposeDims ---------- *)

Lemma swap01_length {X} (l : list X) : length (swap01 l) = length l.
Proof. destruct l as [|a [|b l]]; reflexivity. Qed.

Lemma swap01_invol {X} (l : list X) : swap01 (swap01 l) = l.
Proof. destruct l as [|a [|b l]]; reflexivity. Qed.

Lemma Forall2_swap01 {X Y} (R : X -> Y -> Prop) l r : Forall2 R l r -> Forall2 R (swap01 l) (swap01 r).
Proof.
  intros H. destruct H as [|a b l r Hab H]; [constructor|].
  destruct H as [|a' b' l r Hab' H]; cbn [swap01]; repeat constructor; assumption.
Qed.

Lemma Forall_swap01 {X} (P : X -> Prop) l : Forall P l -> Forall P (swap01 l).
Proof.
  intros H. destruct H as [|a l Ha H]; [constructor|].
  destruct H as [|a' l Ha' H]; cbn [swap01]; repeat constructor; assumption.
Qed.

Lemma rev_transposeDims ds : rev (transposeDims ds) = swap01 (rev ds).
Proof. unfold transposeDims. apply rev_involutive. Qed.

Lemma transposeDims_length ds : length (transposeDims ds) = length ds.
Proof. unfold transposeDims. rewrite rev_length, swap01_length, rev_length. reflexivity. Qed.

Lemma transposeDims_invol ds : transposeDims (transposeDims ds) = ds.
Proof. unfold transposeDims. rewrite rev_involutive, swap01_invol. apply rev_involutive. Qed.

(* the last two entries are exchanged *)
Lemma transposeDims_snoc2 p a b : transposeDims (p ++ [a; b]) = p ++ [b; a].
Proof.
  unfold transposeDims. rewrite rev_app_distr. cbn [rev app swap01].
  rewrite rev_involutive, <- app_assoc. reflexivity.
Qed.

(* below rank 2 nothing happens *)
Lemma transposeDims_small ds : length ds < 2 -> transposeDims ds = ds.
Proof. destruct ds as [|a [|b ds]]; cbn [length]; intros H; try reflexivity. lia. Qed.

Lemma transposeDims_pos ds : allpos ds -> allpos (transposeDims ds).
Proof. intros H. unfold transposeDims. apply Forall_rev, Forall_swap01, Forall_rev, H. Qed.

Lemma transposeDims_prodn ds : prodn (transposeDims ds) = prodn ds.
Proof.
  unfold transposeDims. rewrite prodn_rev. rewrite <- (prodn_rev ds).
  destruct (rev ds) as [|a [|b l]]; cbn [swap01]; try reflexivity. rewrite !prodn_cons. lia.
Qed.

Lemma validIdx_transposeDims ds idx : validIdx ds idx -> validIdx (transposeDims ds) (transposeDims idx).
Proof.
  intros H. unfold transposeDims. apply validIdx_rev. rewrite !rev_involutive.
  apply validIdx_rev in H. unfold validIdx in *. apply Forall2_swap01, H.
Qed.

Lemma validIdx_transposeDims' ds idx : validIdx (transposeDims ds) idx -> validIdx ds (transposeDims idx).
Proof. intros H. apply validIdx_transposeDims in H. rewrite transposeDims_invol in H. exact H. Qed.

Lemma ovalid_swap01 ds st : ovalid ds st -> ovalid (swap01 ds) (swap01 st).
Proof.
  intros H. apply ovalid_validIdx. apply ovalid_validIdx in H. unfold validIdx in *. apply Forall2_swap01, H.
Qed.

Lemma snoc2_of_rank {X} (l : list X) : 2 <= length l -> exists p a b, l = p ++ [a; b].
Proof. apply snoc2_cases. Qed.

Section TransposeP.
Variable A : Type.
Notation T := (tensor A).

(* ---------- the generator ---------- *)

Lemma trGen_ok ds (x : nd A) st : wfnd ds x -> ovalid (swap01 (rev ds)) st ->
  exists a, get x (rev (swap01 st)) = Some a /\
            trGen ds x st = Some (Sc a, incr (swap01 (rev ds)) st).
Proof.
  intros Hw Hv.
  assert (Hi : validIdx ds (rev (swap01 st))).
  { apply ovalid_rev_inv. apply ovalid_swap01 in Hv. rewrite swap01_invol in Hv. exact Hv. }
  destruct (dataAt_full ds x _ Hw Hi) as (a & Ea & Eg).
  exists a. split; [exact Eg|]. unfold trGen. rewrite Ea. reflexivity.
Qed.

(* the data-layer core, for every rank (below rank 2 it is a copy) *)
Lemma transpose_data ds (x : nd A) : wfnd ds x -> allpos ds ->
  exists d, initWith (transposeDims ds) (trGen ds x) (linInit ds) = Some d /\
            wfnd (transposeDims ds) d /\
            forall idx, validIdx (transposeDims ds) idx -> get d idx = get x (transposeDims idx).
Proof.
  intros Hw Hp. unfold linInit. rewrite <- (transposeDims_length ds).
  apply (initWith_odometer (transposeDims ds) (trGen ds x) (fun st => get x (rev (swap01 st)))).
  - rewrite rev_transposeDims. intros st Hst. apply trGen_ok; assumption.
  - apply transposeDims_pos, Hp.
Qed.

(* ---------- tensor level ---------- *)

(* general form: any rank, the index is mapped by the same function as the shape *)
Theorem transpose_get (t : T) : wf t ->
  exists r, transpose t = Some r /\ dims r = transposeDims (dims t) /\ wf r /\
    forall idx, validIdx (transposeDims (dims t)) idx ->
      get (data r) idx = get (data t) (transposeDims idx).
Proof.
  intros [Hw Hp]. destruct (transpose_data (dims t) (data t) Hw Hp) as (d & Ed & Hd & Hg).
  exists (mkT (transposeDims (dims t)) d). unfold transpose. rewrite Ed. cbn [obind dims data].
  split; [reflexivity|]. split; [reflexivity|]. split; [|exact Hg].
  split; [exact Hd|apply transposeDims_pos, Hp].
Qed.

(* main theorem: rank >= 2, dims = batch ++ [m; n] *)
Theorem transpose_spec (t : T) batch m n : wf t -> dims t = batch ++ [m; n] ->
  exists r, transpose t = Some r /\ dims r = batch ++ [n; m] /\ wf r /\
    forall b i j, validIdx (batch ++ [n; m]) (b ++ [j; i]) ->
      get (data r) (b ++ [j; i]) = get (data t) (b ++ [i; j]).
Proof.
  intros Ht E. destruct (transpose_get t Ht) as (r & Er & Hd & Hw & Hg).
  rewrite E, transposeDims_snoc2 in Hd, Hg.
  exists r. repeat (split; [assumption|]). intros b i j Hv.
  rewrite (Hg _ Hv), transposeDims_snoc2. reflexivity.
Qed.

(* the same with the elements named and the index constraints spelled out *)
Corollary transpose_elem (t : T) batch m n : wf t -> dims t = batch ++ [m; n] ->
  exists r, transpose t = Some r /\ dims r = batch ++ [n; m] /\ wf r /\
    forall b i j, validIdx batch b -> i < m -> j < n ->
      exists a, get (data t) (b ++ [i; j]) = Some a /\ get (data r) (b ++ [j; i]) = Some a.
Proof.
  intros Ht E. destruct (transpose_spec t batch m n Ht E) as (r & Er & Hd & Hw & Hg).
  exists r. repeat (split; [assumption|]). intros b i j Hb Hi Hj.
  assert (Hv : validIdx (batch ++ [m; n]) (b ++ [i; j])).
  { apply Forall2_app; [exact Hb|]. repeat constructor; assumption. }
  assert (Hv' : validIdx (batch ++ [n; m]) (b ++ [j; i])).
  { apply Forall2_app; [exact Hb|]. repeat constructor; assumption. }
  destruct Ht as [Hwt _]. rewrite E in Hwt.
  destruct (get_wf A _ _ _ Hwt Hv) as (a & Ea). exists a. split; [exact Ea|]. rewrite (Hg b i j Hv'). exact Ea.
Qed.

(* transposing twice is the identity *)
Theorem transpose_transpose (t : T) : wf t -> exists r, transpose t = Some r /\ transpose r = Some t.
Proof.
  intros Ht. destruct (transpose_get t Ht) as (r & Er & Hd & Hw & Hg).
  exists r. split; [exact Er|].
  destruct (transpose_get r Hw) as (r' & Er' & Hd' & Hw' & Hg'). rewrite Er'. f_equal.
  rewrite Hd, transposeDims_invol in Hd', Hg'.
  apply tensor_ext; [exact Hd'|exact (proj1 Hw')|exact (proj1 Ht)|]. rewrite Hd'. intros idx Hv.
  rewrite (Hg' idx Hv). rewrite Hg by (apply validIdx_transposeDims, Hv).
  rewrite transposeDims_invol. reflexivity.
Qed.

(* row-major view: the element sequence of the result, by position *)
Corollary transpose_flat (t : T) : wf t ->
  exists r, transpose t = Some r /\
    forall idx, validIdx (transposeDims (dims t)) idx ->
      nth_error (flat (data r)) (flatIdx (transposeDims (dims t)) idx) =
      nth_error (flat (data t)) (flatIdx (dims t) (transposeDims idx)).
Proof.
  intros Ht. destruct (transpose_get t Ht) as (r & Er & Hd & [Hw _] & Hg). exists r. split; [exact Er|].
  intros idx Hv. rewrite Hd in Hw.
  rewrite (flat_nth A _ _ _ Hw Hv), (flat_nth A _ _ _ (proj1 Ht) (validIdx_transposeDims' _ _ Hv)).
  apply Hg, Hv.
Qed.

(* ---------- API level ---------- *)

Lemma validateTransposeDims_rank (t : T) : validateTransposeDims (zdims t) = true <-> 2 <= length (dims t).
Proof.
  rewrite validateTransposeDims_spec. unfold transposePre, zdims. rewrite map_length. reflexivity.
Qed.

Theorem v_transpose_spec (t : T) : wf t ->
  (2 <= length (dims t) ->
     exists batch m n r, dims t = batch ++ [m; n] /\ v_transpose t = Ok r /\ dims r = batch ++ [n; m] /\ wf r /\
       forall b i j, validIdx (batch ++ [n; m]) (b ++ [j; i]) ->
         get (data r) (b ++ [j; i]) = get (data t) (b ++ [i; j])) /\
  (length (dims t) < 2 -> v_transpose t = Err).
Proof.
  intros Ht. unfold v_transpose, guard. split; intros H.
  - rewrite (proj2 (validateTransposeDims_rank t) H).
    destruct (snoc2_of_rank (dims t) H) as (batch & m & n & E).
    destruct (transpose_spec t batch m n Ht E) as (r & Er & Hr).
    exists batch, m, n, r. rewrite Er. split; [exact E|]. split; [reflexivity|exact Hr].
  - destruct (validateTransposeDims (zdims t)) eqn:V; [|reflexivity].
    apply validateTransposeDims_rank in V. lia.
Qed.

Corollary v_transpose_ok_iff (t : T) : wf t ->
  ((exists r, v_transpose t = Ok r) <-> 2 <= length (dims t)) /\ v_transpose t <> Panic.
Proof.
  intros Ht. destruct (v_transpose_spec t Ht) as [H1 H2].
  eapply (ok_iff_of_spec _ _ (fun _ => True)); [lia| |intros H; apply H2; lia].
  intros H. destruct (H1 H) as (batch & m & n & r & _ & Er & _). exists r. auto.
Qed.

Corollary v_transpose_transpose (t : T) : wf t -> 2 <= length (dims t) ->
  exists r, v_transpose t = Ok r /\ v_transpose r = Ok t.
Proof.
  intros Ht H. destruct (transpose_transpose t Ht) as (r & Er & Er').
  destruct (transpose_get t Ht) as (r0 & Er0 & Hd & _). assert (r0 = r) by congruence. subst r0.
  exists r. unfold v_transpose, guard.
  rewrite (proj2 (validateTransposeDims_rank t) H), Er.
  assert (H' : 2 <= length (dims r)) by (rewrite Hd, transposeDims_length; exact H).
  rewrite (proj2 (validateTransposeDims_rank r) H'), Er'. split; reflexivity.
Qed.

(* the plain case: a matrix *)
Corollary v_transpose_2d (t : T) m n : wf t -> dims t = [m; n] ->
  exists r, v_transpose t = Ok r /\ dims r = [n; m] /\ wf r /\
    forall i j, i < m -> j < n -> get (data r) [j; i] = get (data t) [i; j].
Proof.
  intros Ht E. destruct (transpose_spec t [] m n Ht E) as (r & Er & Hd & Hw & Hg).
  exists r. unfold v_transpose, guard.
  rewrite (proj2 (validateTransposeDims_rank t)) by (rewrite E; cbn; lia). rewrite Er.
  split; [reflexivity|]. split; [exact Hd|]. split; [exact Hw|].
  intros i j Hi Hj. apply (Hg [] i j). repeat constructor; assumption.
Qed.

End TransposeP.

(* ---------- examples ---------- *)
Definition tr23 : tensor nat := mkT [2; 3] (Vec [Vec [Sc 1; Sc 2; Sc 3]; Vec [Sc 4; Sc 5; Sc 6]]).
Definition tr223 : tensor nat :=
  mkT [2; 2; 3] (Vec [Vec [Vec [Sc 1; Sc 2; Sc 3]; Vec [Sc 4; Sc 5; Sc 6]];
                      Vec [Vec [Sc 7; Sc 8; Sc 9]; Vec [Sc 10; Sc 11; Sc 12]]]).
Definition tr3 : tensor nat := mkT [3] (Vec [Sc 1; Sc 2; Sc 3]).

Example tr23_wf : wf tr23.
Proof. split; [apply wfndb_spec; reflexivity|repeat constructor]. Qed.
Example tr223_wf : wf tr223 /\ dims tr223 = [2] ++ [2; 3].
Proof. split; [split; [apply wfndb_spec; reflexivity|repeat constructor]|reflexivity]. Qed.

Example transpose_ex :
  transpose tr23 = Some (mkT [3; 2] (Vec [Vec [Sc 1; Sc 4]; Vec [Sc 2; Sc 5]; Vec [Sc 3; Sc 6]])).
Proof. vm_compute. reflexivity. Qed.
Example transpose_batch_ex :
  transpose tr223 =
  Some (mkT [2; 3; 2] (Vec [Vec [Vec [Sc 1; Sc 4]; Vec [Sc 2; Sc 5]; Vec [Sc 3; Sc 6]];
                            Vec [Vec [Sc 7; Sc 10]; Vec [Sc 8; Sc 11]; Vec [Sc 9; Sc 12]]])).
Proof. vm_compute. reflexivity. Qed.
(* through the theorem: element [1; 2; 0] of the result is element [1; 0; 2] of the source *)
Example transpose_spec_ex : exists r, transpose tr223 = Some r /\ get (data r) ([1] ++ [2; 0]) = Some 9.
Proof.
  destruct (transpose_spec nat tr223 [2] 2 3 (proj1 tr223_wf) (proj2 tr223_wf)) as (r & Er & _ & _ & Hg).
  exists r. split; [exact Er|]. rewrite (Hg [1] 0 2) by (repeat constructor). reflexivity.
Qed.
(* the data layer below rank 2 copies; the public method refuses *)
Example transpose_rank1_ex : transpose tr3 = Some tr3 /\ v_transpose tr3 = Err /\ v_transpose (mkT [] (Sc 7)) = Err.
Proof. vm_compute. auto. Qed.
Example v_transpose_ex :
  v_transpose tr23 = Ok (mkT [3; 2] (Vec [Vec [Sc 1; Sc 4]; Vec [Sc 2; Sc 5]; Vec [Sc 3; Sc 6]])).
Proof. vm_compute. reflexivity. Qed.

Print Assumptions transpose_get.
Print Assumptions transpose_spec.
Print Assumptions transpose_elem.
Print Assumptions transpose_transpose.
Print Assumptions transpose_flat.
Print Assumptions v_transpose_spec.
Print Assumptions v_transpose_ok_iff.
Print Assumptions v_transpose_transpose.
Print Assumptions v_transpose_2d.
