(* ValidP.v — every validator of Model/Valid.v accepts exactly the documented precondition
   (Spec/ValidSpec.v), for ALL integer arguments; the constructors Full / Eye / TensorOf are total;
   the argument checks of the components. *)
From Coq Require Import List Arith ZArith Bool Lia ZifyBool.
From Qeep Require Import Model.Scalar Model.Nd Model.Fill Model.Data Model.Valid Model.Api
  Model.Grad Model.Components Proofs.NdP Proofs.FillP Spec.ValidSpec.
Import ListNotations.
Local Open Scope Z_scope.

Lemma Forall2_len {X Y} (P : X -> Y -> Prop) xs ys : Forall2 P xs ys -> length xs = length ys.
Proof. apply NdP.Forall2_len. Qed.

Lemma Forall2_rev_iff {X Y} (P : X -> Y -> Prop) xs ys : Forall2 P (rev xs) (rev ys) <-> Forall2 P xs ys.
Proof.
  split; [|apply Forall2_rev]. intros H. apply Forall2_rev in H. rewrite !rev_involutive in H. exact H.
Qed.

(* "the first list is matched pointwise against a prefix of the second" — the common shape of
   sliceRangesOk, srcFits, coversSrc, bcastOkRev *)
Fixpoint prefixb {X Y} (p : X -> Y -> bool) (xs : list X) (ys : list Y) : bool :=
  match xs, ys with
  | [], _ => true
  | x :: xs', y :: ys' => p x y && prefixb p xs' ys'
  | _ :: _, [] => false
  end.

Lemma prefixb_spec {X Y} (p : X -> Y -> bool) (P : X -> Y -> Prop) :
  (forall x y, p x y = true <-> P x y) ->
  forall xs ys, prefixb p xs ys = true <->
                (length xs <= length ys)%nat /\ Forall2 P xs (firstn (length xs) ys).
Proof.
  intros Hp. induction xs as [|x xs IH]; intros [|y ys]; cbn [prefixb length firstn].
  - split; [intros _; split; [lia|constructor]|reflexivity].
  - split; [intros _; split; [lia|constructor]|reflexivity].
  - split; [discriminate|intros [H _]; lia].
  - rewrite andb_true_iff, Hp, IH. split.
    + intros [H1 [H2 H3]]. split; [lia|constructor; assumption].
    + intros [H1 H2]. inversion H2 as [|? ? ? ? H3 H4]; subst. repeat split; [exact H3|lia|exact H4].
Qed.

Lemma rev_cons_inv {X} (l : list X) a r : rev l = a :: r -> l = rev r ++ [a].
Proof. intros H. rewrite <- (rev_involutive l), H. reflexivity. Qed.

Lemma snoc_cases {X} (l : list X) : l = [] \/ exists p a, l = p ++ [a].
Proof.
  destruct (rev l) as [|a r] eqn:E.
  - left. rewrite <- (rev_involutive l), E. reflexivity.
  - right. exists (rev r), a. apply rev_cons_inv, E.
Qed.

Lemma nth_error_app_len {X} (p s : list X) j : nth_error (p ++ s) (length p + j) = nth_error s j.
Proof. rewrite nth_error_app2 by lia. f_equal. lia. Qed.

Theorem validateInputDims_spec dims : validateInputDims dims = true <-> inputDimsPre dims.
Proof.
  unfold validateInputDims, inputDimsPre. induction dims as [|d r IH]; cbn [forallb].
  - split; [constructor|reflexivity].
  - rewrite andb_true_iff, IH. split.
    + intros [H1 H2]; constructor; [lia|exact H2].
    + intros H; inversion H as [|? ? H1 H2]; subst; split; [lia|exact H2].
Qed.

(* rejected exactly when some entry is <= 0 *)
Lemma validateInputDims_false dims : validateInputDims dims = false <-> Exists (fun d => d <= 0) dims.
Proof.
  unfold validateInputDims. induction dims as [|d r IH]; cbn [forallb].
  - split; [discriminate|intros H; inversion H].
  - destruct (Z.leb_spec d 0) as [Hd|Hd]; cbn [negb andb].
    + split; [intros _; left; exact Hd|reflexivity].
    + rewrite IH. split; [intros H; right; exact H|].
      intros H; inversion H as [? ? H1|? ? H1]; subst; [lia|exact H1].
Qed.

Example validateInputDims_acc : validateInputDims [2; 3; 1] = true. Proof. reflexivity. Qed.
Example validateInputDims_rej0 : validateInputDims [2; 0; 1] = false. Proof. reflexivity. Qed.
Example validateInputDims_rejn : validateInputDims [2; -3] = false. Proof. reflexivity. Qed.

Lemma atIndexOk_spec : forall index dims,
  atIndexOk index dims = true <-> Forall2 (fun i d => 0 <= i < d) index dims.
Proof.
  induction index as [|i r IH]; intros [|d ds]; cbn [atIndexOk].
  - split; [constructor|reflexivity].
  - split; [discriminate|intros H; inversion H].
  - split; [discriminate|intros H; inversion H].
  - rewrite !andb_true_iff, IH. split.
    + intros [[H1 H2] H3]. constructor; [lia|exact H3].
    + intros H; inversion H as [|? ? ? ? H1 H2]; subst. repeat split; try lia; exact H2.
Qed.

Theorem validateAtIndexAgainstDims_spec index dims :
  validateAtIndexAgainstDims index dims = true <-> atIndexPre index dims.
Proof.
  unfold validateAtIndexAgainstDims, atIndexPre. rewrite andb_true_iff, Nat.eqb_eq, atIndexOk_spec. tauto.
Qed.

Example validateAt_acc : validateAtIndexAgainstDims [1; 0] [2; 3] = true. Proof. reflexivity. Qed.
Example validateAt_rej_hi : validateAtIndexAgainstDims [2; 0] [2; 3] = false. Proof. reflexivity. Qed.
Example validateAt_rej_neg : validateAtIndexAgainstDims [1; -1] [2; 3] = false. Proof. reflexivity. Qed.
Example validateAt_rej_len : validateAtIndexAgainstDims [1] [2; 3] = false. Proof. reflexivity. Qed.

Definition rangeOkb (r : zrange) (d : Z) : bool :=
  let '(f, t) := r in
  if (f =? 0) && (t =? 0) then true
  else negb (f >=? t) && negb ((f <? 0) || (f >=? d) || (t <? 1) || (t >=? d + 1)).

Lemma rangeOkb_spec r d : rangeOkb r d = true <-> rangePre r d.
Proof.
  destruct r as [f t]. unfold rangeOkb, rangePre. cbn [fst snd].
  destruct ((f =? 0) && (t =? 0)) eqn:E; lia.
Qed.

Lemma sliceRangesOk_prefixb : forall index dims, sliceRangesOk index dims = prefixb rangeOkb index dims.
Proof.
  induction index as [|[f t] r IH]; intros [|d ds]; cbn [sliceRangesOk prefixb rangeOkb]; try reflexivity.
  rewrite IH. reflexivity.
Qed.

Theorem validateSliceIndexAgainstDims_spec index dims :
  validateSliceIndexAgainstDims index dims = true <-> sliceIndexPre index dims.
Proof.
  unfold validateSliceIndexAgainstDims, sliceIndexPre.
  rewrite andb_true_iff, Nat.leb_le, sliceRangesOk_prefixb, (prefixb_spec _ _ rangeOkb_spec). tauto.
Qed.

Example validateSlice_acc : validateSliceIndexAgainstDims [(0, 0); (1, 3)] [2; 3; 4] = true. Proof. reflexivity. Qed.
Example validateSlice_rej_empty : validateSliceIndexAgainstDims [(1, 1)] [2; 3] = false. Proof. reflexivity. Qed.
Example validateSlice_rej_hi : validateSliceIndexAgainstDims [(0, 3)] [2; 3] = false. Proof. reflexivity. Qed.
Example validateSlice_rej_neg : validateSliceIndexAgainstDims [(-1, 1)] [2; 3] = false. Proof. reflexivity. Qed.
Example validateSlice_rej_len : validateSliceIndexAgainstDims [(0, 0); (0, 0); (0, 0)] [2; 3] = false. Proof. reflexivity. Qed.

Definition fitsb (s d : Z) : bool := negb (s >? d).
Definition coverb (r : zrange) (s : Z) : bool :=
  let '(f, t) := r in if (f =? 0) && (t =? 0) then true else (t - f =? s).

Lemma fitsb_spec s d : fitsb s d = true <-> s <= d.
Proof. unfold fitsb. lia. Qed.

Lemma coverb_spec r s : coverb r s = true <-> coverPre r s.
Proof.
  destruct r as [f t]. unfold coverb, coverPre. cbn [fst snd].
  destruct ((f =? 0) && (t =? 0)) eqn:E; lia.
Qed.

Lemma srcFits_prefixb : forall src dst, srcFits src dst = prefixb fitsb src dst.
Proof.
  induction src as [|s r IH]; intros [|d ds]; cbn [srcFits prefixb]; try reflexivity.
  rewrite IH. reflexivity.
Qed.

Lemma coversSrc_prefixb : forall index src, coversSrc index src = prefixb coverb index src.
Proof.
  induction index as [|[f t] r IH]; intros [|s ss]; cbn [coversSrc prefixb coverb]; try reflexivity.
  rewrite IH. reflexivity.
Qed.

Theorem validatePatchIndexAgainstDims_spec index src dst :
  validatePatchIndexAgainstDims index src dst = true <-> patchIndexPre index src dst.
Proof.
  unfold validatePatchIndexAgainstDims, patchIndexPre.
  rewrite !andb_true_iff, Nat.eqb_eq, validateSliceIndexAgainstDims_spec,
    srcFits_prefixb, coversSrc_prefixb, (prefixb_spec _ _ fitsb_spec), (prefixb_spec _ _ coverb_spec).
  split.
  - intros [[[Hl [_ Hf]] Hs] [Hc1 Hc2]]. rewrite Hl, firstn_all in Hf. tauto.
  - intros (Hl & Hf & Hs & Hc1 & Hc2).
    split; [split; [split; [exact Hl|split; [lia|]]|exact Hs]|split; [exact Hc1|exact Hc2]].
    rewrite Hl, firstn_all. exact Hf.
Qed.

Example validatePatch_acc : validatePatchIndexAgainstDims [(1, 3); (0, 0)] [2; 3] [4; 3] = true. Proof. reflexivity. Qed.
Example validatePatch_rej_cover : validatePatchIndexAgainstDims [(1, 4)] [2; 3] [4; 3] = false. Proof. reflexivity. Qed.
Example validatePatch_rej_fit : validatePatchIndexAgainstDims [(0, 0)] [5; 3] [4; 3] = false. Proof. reflexivity. Qed.
Example validatePatch_rej_rank : validatePatchIndexAgainstDims [(0, 0)] [3] [4; 3] = false. Proof. reflexivity. Qed.

Lemma offAxis_spec dim : forall (ds base : list Z) (k : nat), length ds = length base ->
  forallb (fun p : Z * (Z * Z) => let '(j, (d, b)) := p in (j =? dim) || (d =? b))
          (combine (map Z.of_nat (seq k (length ds))) (combine ds base)) = true
  <-> forall j : nat, Z.of_nat (k + j) <> dim -> nth_error ds j = nth_error base j.
Proof.
  induction ds as [|a ds IH]; intros [|b base] k Hl; cbn [length] in Hl; try discriminate.
  - cbn. split; [intros _ j _; destruct j; reflexivity|reflexivity].
  - cbn [length seq map combine forallb]. rewrite andb_true_iff, (IH base (S k)) by congruence. split.
    + intros [H1 H2] j Hj. destruct j as [|j]; cbn [nth_error].
      * f_equal. replace (k + 0)%nat with k in Hj by lia. lia.
      * apply H2. lia.
    + intros H. split.
      * destruct (Z.eqb_spec (Z.of_nat k) dim) as [He|He]; [reflexivity|]. cbn [orb].
        specialize (H 0%nat). cbn [nth_error] in H. replace (k + 0)%nat with k in H by lia.
        specialize (H He). inversion H; subst. apply Z.eqb_refl.
      * intros j Hj. apply (H (S j)). lia.
Qed.

Lemma concatShape_spec base dim ds :
  negb (length ds =? 0)%nat && (length ds =? length base)%nat
  && ((0 <=? dim) && (dim <? zlen base))
  && forallb (fun p : Z * (Z * Z) => let '(j, (d, b)) := p in (j =? dim) || (d =? b))
             (combine (map Z.of_nat (seq 0 (length ds))) (combine ds base)) = true
  <-> concatShapePre base dim ds.
Proof.
  unfold concatShapePre, zlen. rewrite !andb_true_iff. split.
  - intros [[[H1 H2] H3] H4]. apply Nat.eqb_eq in H2. rewrite (offAxis_spec dim ds base 0 H2) in H4.
    repeat split; try lia. intros j Hj. apply H4. lia.
  - intros (H1 & H2 & H3 & H4). split; [split; [split|]|].
    + apply negb_true_iff, Nat.eqb_neq. lia.
    + apply Nat.eqb_eq. exact H1.
    + lia.
    + apply (offAxis_spec dim ds base 0 H1). intros j Hj. apply H4. lia.
Qed.

Lemma concatDimsOk_spec base dim : forall tsDims,
  concatDimsOk base dim tsDims = true <-> Forall (concatShapePre base dim) tsDims.
Proof.
  induction tsDims as [|ds rest IH]; cbn [concatDimsOk].
  - split; [constructor|reflexivity].
  - rewrite andb_true_iff, IH, concatShape_spec. split.
    + intros [H1 H2]; constructor; assumption.
    + intros H; inversion H; subst; split; assumption.
Qed.

Theorem validateConcat_spec base rest dim :
  validateConcatTensorsDimsAlongDim (base :: rest) dim = Some true <-> concatPre base rest dim.
Proof.
  unfold validateConcatTensorsDimsAlongDim, concatPre. rewrite <- concatDimsOk_spec.
  split; [intros H; inversion H; reflexivity|intros ->; reflexivity].
Qed.

Theorem validateConcat_none tsDims dim :
  validateConcatTensorsDimsAlongDim tsDims dim = None <-> tsDims = [].
Proof. destruct tsDims; cbn; split; intros H; try reflexivity; discriminate. Qed.

Example validateConcat_acc : validateConcatTensorsDimsAlongDim [[2; 3]; [2; 5]; [2; 1]] 1 = Some true. Proof. reflexivity. Qed.
Example validateConcat_rej_off : validateConcatTensorsDimsAlongDim [[2; 3]; [4; 5]] 1 = Some false. Proof. reflexivity. Qed.
Example validateConcat_rej_dim : validateConcatTensorsDimsAlongDim [[2; 3]; [2; 3]] 2 = Some false. Proof. reflexivity. Qed.
Example validateConcat_rej_neg : validateConcatTensorsDimsAlongDim [[2; 3]; [2; 3]] (-1) = Some false. Proof. reflexivity. Qed.
Example validateConcat_rej_rank : validateConcatTensorsDimsAlongDim [[2; 3]; [2]] 0 = Some false. Proof. reflexivity. Qed.
Example validateConcat_rej_scalar : validateConcatTensorsDimsAlongDim [[]; []] 0 = Some false. Proof. reflexivity. Qed.

Theorem validateBinaryFuncDimsMatch_spec : forall d1 d2,
  validateBinaryFuncDimsMatch d1 d2 = true <-> sameDimsPre d1 d2.
Proof.
  unfold validateBinaryFuncDimsMatch, sameDimsPre.
  induction d1 as [|a r IH]; intros [|b r2]; cbn [dimsEq].
  - split; reflexivity.
  - split; discriminate.
  - split; discriminate.
  - rewrite andb_true_iff, IH, Z.eqb_eq. split.
    + intros [-> ->]; reflexivity.
    + intros H; inversion H; subst; split; reflexivity.
Qed.

Lemma dotPre_iff d1 d2 : dotPre d1 d2 <-> dotPre' d1 d2.
Proof.
  unfold dotPre, dotPre'. split.
  - intros (H1 & H2 & H3).
    destruct (snoc_cases d1) as [->|(p1 & a & ->)]; [cbn in H1; lia|].
    destruct (snoc_cases d2) as [->|(p2 & b & ->)]; [cbn in H2; lia|].
    rewrite !app_length in H3. cbn [length] in H3.
    replace (length p1 + 1 - 1)%nat with (length p1 + 0)%nat in H3 by lia.
    replace (length p2 + 1 - 1)%nat with (length p2 + 0)%nat in H3 by lia.
    rewrite !nth_error_app_len in H3. cbn in H3. inversion H3; subst. exists p1, p2, b. split; reflexivity.
  - intros (p1 & p2 & a & -> & ->). rewrite !app_length. cbn [length]. repeat split; try lia.
    replace (length p1 + 1 - 1)%nat with (length p1 + 0)%nat by lia.
    replace (length p2 + 1 - 1)%nat with (length p2 + 0)%nat by lia.
    rewrite !nth_error_app_len. reflexivity.
Qed.

Lemma validateDotProductDims_spec' d1 d2 : validateDotProductDims d1 d2 = true <-> dotPre' d1 d2.
Proof.
  unfold validateDotProductDims, dotPre'. split.
  - destruct (rev d1) as [|a r1] eqn:E1; [discriminate|].
    destruct (rev d2) as [|b r2] eqn:E2; [discriminate|].
    intros H. apply Z.eqb_eq in H. subst b. exists (rev r1), (rev r2), a.
    split; apply rev_cons_inv; assumption.
  - intros (p1 & p2 & a & -> & ->). rewrite !rev_app_distr. cbn. apply Z.eqb_refl.
Qed.

Theorem validateDotProductDims_spec d1 d2 : validateDotProductDims d1 d2 = true <-> dotPre d1 d2.
Proof. rewrite dotPre_iff. apply validateDotProductDims_spec'. Qed.

Lemma snoc2_cases {X} (l : list X) : (2 <= length l)%nat -> exists p a b, l = p ++ [a; b].
Proof.
  intros H. destruct (snoc_cases l) as [->|(q & b & ->)]; [cbn in H; lia|].
  rewrite app_length in H. cbn [length] in H.
  destruct (snoc_cases q) as [->|(p & a & ->)]; [cbn in H; lia|].
  exists p, a, b. rewrite <- app_assoc. reflexivity.
Qed.

Lemma matMulPre_iff d1 d2 : matMulPre d1 d2 <-> matMulPre' d1 d2.
Proof.
  unfold matMulPre, matMulPre'. split.
  - intros (H1 & H2 & H3).
    destruct (snoc2_cases d1 H1) as (p1 & m & k & ->).
    destruct (snoc2_cases d2 H2) as (p2 & k' & n & ->).
    rewrite !app_length in H3. cbn [length] in H3.
    replace (length p1 + 2 - 1)%nat with (length p1 + 1)%nat in H3 by lia.
    replace (length p2 + 2 - 2)%nat with (length p2 + 0)%nat in H3 by lia.
    rewrite !nth_error_app_len in H3. cbn in H3. inversion H3; subst.
    exists p1, m, k', p2, n. split; reflexivity.
  - intros (p1 & m & k & p2 & n & -> & ->). rewrite !app_length. cbn [length]. repeat split; try lia.
    replace (length p1 + 2 - 1)%nat with (length p1 + 1)%nat by lia.
    replace (length p2 + 2 - 2)%nat with (length p2 + 0)%nat by lia.
    rewrite !nth_error_app_len. reflexivity.
Qed.

Lemma validateMatMulDims_spec' d1 d2 : validateMatMulDims d1 d2 = true <-> matMulPre' d1 d2.
Proof.
  unfold validateMatMulDims, matMulPre'. split.
  - destruct (rev d1) as [|a [|m r1]] eqn:E1; try discriminate.
    destruct (rev d2) as [|n [|b r2]] eqn:E2; try discriminate.
    intros H. apply Z.eqb_eq in H. subst b.
    exists (rev r1), m, a, (rev r2), n.
    apply rev_cons_inv in E1. apply rev_cons_inv in E2. cbn [rev] in E1, E2.
    rewrite <- app_assoc in E1, E2. split; assumption.
  - intros (p1 & m & k & p2 & n & -> & ->). rewrite !rev_app_distr. cbn. apply Z.eqb_refl.
Qed.

Theorem validateMatMulDims_spec d1 d2 : validateMatMulDims d1 d2 = true <-> matMulPre d1 d2.
Proof. rewrite matMulPre_iff. apply validateMatMulDims_spec'. Qed.

Example validateSame_acc : validateBinaryFuncDimsMatch [2; 3] [2; 3] = true. Proof. reflexivity. Qed.
Example validateSame_rej : validateBinaryFuncDimsMatch [2; 3] [2; 4] = false. Proof. reflexivity. Qed.
Example validateSame_rej_len : validateBinaryFuncDimsMatch [2; 3] [2] = false. Proof. reflexivity. Qed.
Example validateDot_acc : validateDotProductDims [5; 3] [3] = true. Proof. reflexivity. Qed.
Example validateDot_rej : validateDotProductDims [5; 3] [5] = false. Proof. reflexivity. Qed.
Example validateDot_rej_scalar : validateDotProductDims [] [3] = false. Proof. reflexivity. Qed.
Example validateMatMul_acc : validateMatMulDims [7; 2; 3] [3; 4] = true. Proof. reflexivity. Qed.
Example validateMatMul_rej : validateMatMulDims [2; 3] [4; 3] = false. Proof. reflexivity. Qed.
Example validateMatMul_rej_rank : validateMatMulDims [3] [3; 4] = false. Proof. reflexivity. Qed.

Theorem validateReducedDimAgainstDims_spec dim dims :
  validateReducedDimAgainstDims dim dims = true <-> axisPre dim dims.
Proof. unfold validateReducedDimAgainstDims, axisPre, zlen. lia. Qed.

Theorem validateFlattenDim_spec dim dims : validateFlattenDim dim dims = true <-> axisPre dim dims.
Proof. unfold validateFlattenDim, axisPre, zlen. lia. Qed.

Theorem validateUnSqueezeDim_spec dim dims : validateUnSqueezeDim dim dims = true <-> unSqueezePre dim dims.
Proof. unfold validateUnSqueezeDim, unSqueezePre, zlen. lia. Qed.

Theorem validateSqueezeDim_spec dim dims : validateSqueezeDim dim dims = true <-> squeezePre dim dims.
Proof.
  unfold validateSqueezeDim, squeezePre, zlen.
  destruct (nth_error dims (Z.to_nat dim)) as [d|].
  - split.
    + intros H. split; [lia|f_equal; lia].
    + intros [H1 H2]. inversion H2; subst. lia.
  - split; [intros H; lia|intros [_ H]; discriminate].
Qed.

Theorem validateTransposeDims_spec dims : validateTransposeDims dims = true <-> transposePre dims.
Proof. unfold validateTransposeDims, transposePre. apply Nat.leb_le. Qed.

Lemma fold_left_mul l : forall a, fold_left Z.mul l a = a * fold_right Z.mul 1 l.
Proof.
  induction l as [|x l IH]; intros a; cbn [fold_left fold_right]; [lia|].
  rewrite IH. apply eq_sym, Z.mul_assoc.
Qed.

Lemma dimsToNumElems_numElems l : dimsToNumElems l = numElems l.
Proof. unfold dimsToNumElems, numElems. rewrite fold_left_mul. lia. Qed.

Theorem validateReshape_spec src dst : validateReshape src dst = true <-> reshapePre src dst.
Proof. unfold validateReshape, reshapePre. rewrite !dimsToNumElems_numElems. apply Z.eqb_eq. Qed.

Definition bcastDimb (s d : Z) : bool := (s =? d) || (s =? 1).
Lemma bcastDimb_spec s d : bcastDimb s d = true <-> bcastDimPre s d.
Proof. unfold bcastDimb, bcastDimPre. lia. Qed.

Lemma bcastOkRev_prefixb : forall rs rd, bcastOkRev rs rd = prefixb bcastDimb rs rd.
Proof.
  induction rs as [|s r IH]; intros [|d ds]; cbn [bcastOkRev prefixb]; try reflexivity.
  rewrite IH. reflexivity.
Qed.

Lemma broadcastPre_iff src dst : broadcastPre src dst <-> broadcastPre' src dst.
Proof.
  unfold broadcastPre, broadcastPre'. rewrite firstn_rev, Forall2_rev_iff. tauto.
Qed.

Theorem validateBroadcast_spec' src dst : validateBroadcast src dst = true <-> broadcastPre' src dst.
Proof.
  unfold validateBroadcast, broadcastPre'.
  rewrite andb_true_iff, Nat.leb_le, bcastOkRev_prefixb, (prefixb_spec _ _ bcastDimb_spec), !rev_length. tauto.
Qed.

Theorem validateBroadcast_spec src dst : validateBroadcast src dst = true <-> broadcastPre src dst.
Proof. rewrite broadcastPre_iff. apply validateBroadcast_spec'. Qed.

Example validateReduced_acc : validateReducedDimAgainstDims 1 [2; 3] = true. Proof. reflexivity. Qed.
Example validateReduced_rej : validateReducedDimAgainstDims 2 [2; 3] = false. Proof. reflexivity. Qed.
Example validateReduced_rej_neg : validateReducedDimAgainstDims (-1) [2; 3] = false. Proof. reflexivity. Qed.
Example validateFlatten_acc : validateFlattenDim 0 [2; 3] = true. Proof. reflexivity. Qed.
Example validateFlatten_rej : validateFlattenDim 0 [] = false. Proof. reflexivity. Qed.
Example validateUnSqueeze_acc : validateUnSqueezeDim 2 [2; 3] = true. Proof. reflexivity. Qed.
Example validateUnSqueeze_rej : validateUnSqueezeDim 3 [2; 3] = false. Proof. reflexivity. Qed.
Example validateSqueeze_acc : validateSqueezeDim 1 [2; 1; 3] = true. Proof. reflexivity. Qed.
Example validateSqueeze_rej : validateSqueezeDim 0 [2; 1; 3] = false. Proof. reflexivity. Qed.
Example validateSqueeze_rej_hi : validateSqueezeDim 3 [2; 1; 3] = false. Proof. reflexivity. Qed.
Example validateTranspose_acc : validateTransposeDims [2; 3] = true. Proof. reflexivity. Qed.
Example validateTranspose_rej : validateTransposeDims [2] = false. Proof. reflexivity. Qed.
Example validateReshape_acc : validateReshape [2; 6] [3; 4] = true. Proof. reflexivity. Qed.
Example validateReshape_rej : validateReshape [2; 6] [3; 5] = false. Proof. reflexivity. Qed.
Example validateBroadcast_acc : validateBroadcast [3; 1] [2; 3; 4] = true. Proof. reflexivity. Qed.
Example validateBroadcast_rej : validateBroadcast [3; 2] [2; 3; 4] = false. Proof. reflexivity. Qed.
Example validateBroadcast_rej_len : validateBroadcast [1; 1; 1] [1; 1] = false. Proof. reflexivity. Qed.

Lemma natsOf_pos ds : Forall (fun d => 0 < d) ds -> Forall (fun d => (0 < d)%nat) (natsOf ds).
Proof.
  intros H. induction H as [|d r Hd Hr IH]; cbn [natsOf map]; constructor; [lia|exact IH].
Qed.

Lemma not_Exists_nonpos ds : ~ Exists (fun d => d <= 0) ds -> Forall (fun d => 0 < d) ds.
Proof.
  intros H. apply validateInputDims_spec. destruct (validateInputDims ds) eqn:E; [reflexivity|].
  exfalso. apply H, validateInputDims_false, E.
Qed.

(* position of (i,j) in an n x n matrix is on the diagonal pattern iff i = j *)
Lemma eye_arith (n i j : nat) : (i < n)%nat -> (j < n)%nat ->
  ((i * n + j) mod (n + 1) = 0 <-> i = j)%nat.
Proof.
  intros Hi Hj. destruct (le_lt_dec i j) as [Hle|Hlt].
  - replace (i * n + j)%nat with ((j - i) + i * (n + 1))%nat by nia.
    rewrite Nat.mod_add by lia. rewrite Nat.mod_small by lia. lia.
  - replace (i * n + j)%nat with ((n + 1 - (i - j)) + (i - 1) * (n + 1))%nat by nia.
    rewrite Nat.mod_add by lia. rewrite Nat.mod_small by lia. lia.
Qed.

Section Total.
Context {A : Type} {SA : Scalar A}.

Lemma constTensor_spec (v : A) ds : constTensor v ds = Some (mkT ds (tab ds (fun _ => v))).
Proof.
  unfold constTensor.
  rewrite (initWith_spec A unit (constGen v) (fun _ => Sc v) (fun s => s) (fun _ => True)
             (fun s _ => eq_refl) (fun s _ => I) ds tt I).
  cbn [obind]. rewrite (tabS_tab A unit (fun _ => Sc v) (fun s => s) (fun _ => v) (fun _ => eq_refl)).
  reflexivity.
Qed.

Definition eyeElem (i j : nat) : A := if (i =? j)%nat then s1 else s0.

Lemma eyeMatrix_spec (n : nat) :
  eyeMatrix n = Some (mkT [n; n] (tab [n; n]
     (fun idx => if (flatIdx [n; n] idx mod (n + 1) =? 0)%nat then s1 else s0))).
Proof.
  unfold eyeMatrix, eyeGen.
  rewrite (initWith_counter (fun s => if (s mod (n + 1) =? 0)%nat then s1 else s0)). reflexivity.
Qed.

(* Full: an error exactly when some extent is <= 0; otherwise a well-formed tensor of the requested
   shape holding v everywhere.  Never a panic. *)
Theorem v_full_total (ds : list Z) (v : A) :
  (v_full ds v = Err <-> Exists (fun d => d <= 0) ds) /\
  (~ Exists (fun d => d <= 0) ds ->
     exists t, v_full ds v = Ok t /\ wf t /\ dims t = natsOf ds /\
               forall idx, validIdx (dims t) idx -> get (data t) idx = Some v) /\
  v_full ds v <> Panic.
Proof.
  unfold v_full, guard. rewrite constTensor_spec. cbn [of_opt].
  destruct (validateInputDims ds) eqn:E.
  - split; [|split].
    + split; [discriminate|]. intros H. apply validateInputDims_false in H. congruence.
    + intros _. eexists; split; [reflexivity|]. cbn [dims data]. split; [split|split].
      * cbn [dims data]. apply wfnd_tab.
      * cbn [dims]. apply natsOf_pos, validateInputDims_spec, E.
      * reflexivity.
      * intros idx Hv. apply (get_tab A _ (fun _ => v)), Hv.
    + discriminate.
  - split; [|split].
    + split; [intros _; apply validateInputDims_false, E|reflexivity].
    + intros H. exfalso. apply H, validateInputDims_false, E.
    + discriminate.
Qed.

Corollary v_full_ok_iff (ds : list Z) (v : A) :
  (exists t, v_full ds v = Ok t) <-> inputDimsPre ds.
Proof.
  unfold v_full, guard. rewrite constTensor_spec, <- validateInputDims_spec. cbn [of_opt].
  destruct (validateInputDims ds); split.
  - reflexivity.
  - intros _. eexists; reflexivity.
  - intros (t & H); discriminate.
  - discriminate.
Qed.

(* Eye: an error exactly when n <= 0; otherwise the n x n identity. *)
Theorem v_eye_total (n : Z) :
  (v_eye n = Err <-> n <= 0) /\
  (0 < n ->
     exists t, v_eye n = Ok t /\ wf t /\ dims t = [Z.to_nat n; Z.to_nat n] /\
               forall i j, (i < Z.to_nat n)%nat -> (j < Z.to_nat n)%nat ->
                           get (data t) [i; j] = Some (eyeElem i j)) /\
  v_eye n <> Panic.
Proof.
  unfold v_eye, guard. rewrite eyeMatrix_spec. cbn [of_opt validateInputDims forallb].
  destruct (Z.leb_spec n 0) as [Hn|Hn]; cbn [negb andb].
  - split; [|split]; [split; [intros _; exact Hn|reflexivity]|lia|discriminate].
  - split; [|split]; [split; [discriminate|lia]| |discriminate].
    intros _. eexists; split; [reflexivity|]. cbn [dims data]. split; [split|split].
    + cbn [dims data]. apply wfnd_tab.
    + cbn [dims]. repeat constructor; lia.
    + reflexivity.
    + intros i j Hi Hj. rewrite (get_tab A) by (repeat constructor; assumption).
      f_equal. unfold eyeElem. cbn [flatIdx prodn fold_right].
      replace (i * (Z.to_nat n * 1) + (j * 1 + 0))%nat with (i * Z.to_nat n + j)%nat by lia.
      pose proof (eye_arith (Z.to_nat n) i j Hi Hj) as Ha.
      destruct (Nat.eqb_spec ((i * Z.to_nat n + j) mod (Z.to_nat n + 1)) 0) as [E1|E1];
        destruct (Nat.eqb_spec i j) as [E2|E2]; try reflexivity; exfalso; tauto.
Qed.

End Total.

Example v_full_acc : exists t, @v_full Z [2; 3] 7 = Ok t /\ get (data t) [1%nat; 2%nat] = Some 7.
Proof. eexists; split; reflexivity. Qed.
Example v_full_rej : @v_full Z [2; 0] 7 = Err. Proof. reflexivity. Qed.
Example v_full_rej_neg : @v_full Z [-2] 7 = Err. Proof. reflexivity. Qed.
Example v_eye_acc :
  exists t, @v_eye term _ 3 = Ok t /\ get (data t) [1%nat; 1%nat] = Some s1 /\ get (data t) [1%nat; 2%nat] = Some s0.
Proof. eexists; repeat split; reflexivity. Qed.
Example v_eye_rej : @v_eye term _ 0 = Err. Proof. reflexivity. Qed.
Example v_eye_rej_neg : @v_eye term _ (-4) = Err. Proof. reflexivity. Qed.

Section DataUnityP.
Variable A : Type.
Implicit Types (x y : nd A) (l : list (nd A)).

Lemma firstLens_shapeOf : forall x, firstLens x = shapeOf x.
Proof.
  apply nd_ind'.
  - intros a. reflexivity.
  - intros l Hl. destruct l as [|y r]; [reflexivity|]. cbn [firstLens shapeOf].
    inversion Hl as [|? ? Hy Hr]; subst. rewrite Hy. reflexivity.
Qed.

Lemma list_eqb_spec : forall a b : list nat, list_eqb a b = true <-> a = b.
Proof.
  unfold list_eqb. induction a as [|n a IH]; intros [|m b]; cbn [length combine forallb fst snd].
  - split; reflexivity.
  - split; discriminate.
  - split; discriminate.
  - specialize (IH b). rewrite andb_true_iff in IH. rewrite !andb_true_iff.
    change (S (length a) =? S (length b))%nat with (length a =? length b)%nat. split.
    + intros [H1 [H2 H3]]. apply Nat.eqb_eq in H2. subst m. f_equal. apply IH. split; assumption.
    + intros H; inversion H; subst. destruct IH as [_ IH]. destruct (IH eq_refl) as [H1 H2].
      repeat split; [exact H1|apply Nat.eqb_refl|exact H2].
Qed.

(* the shape every row is compared with *)
Definition headShape l : list nat := match l with [] => [] | y :: _ => firstLens y end.

Lemma dataUnity_Vec l :
  dataUnity (Vec l) =
  negb (length l =? 0)%nat && forallb (fun sub => dataUnity sub && list_eqb (firstLens sub) (headShape l)) l.
Proof.
  (* the inner loop of dataUnity is forallb, up to conversion *)
  reflexivity.
Qed.

Lemma shapeOf_wf : forall ds x, wfnd ds x -> Forall (fun d => (0 < d)%nat) ds -> shapeOf x = ds.
Proof.
  induction ds as [|d ds IH]; intros x Hw Hp.
  - apply (wfnd_nil A) in Hw as (a & ->). reflexivity.
  - apply (wfnd_cons A) in Hw as (l & -> & Hl & Hf). inversion Hp as [|? ? Hd Hps]; subst.
    destruct l as [|y r]; [cbn in Hd; lia|]. cbn [shapeOf]. f_equal.
    inversion Hf as [|? ? Hy Hr]; subst. apply IH; assumption.
Qed.

(* accepted data is rectangular with the shape read off the first elements, and has no empty level.
   No assumption on the nesting depth is needed: the validator itself enforces it. *)
Lemma dataUnity_sound : forall x, dataUnity x = true -> dataPre x.
Proof.
  unfold dataPre.
  apply (nd_ind' A (fun x => dataUnity x = true ->
                             wfnd (shapeOf x) x /\ Forall (fun d => (0 < d)%nat) (shapeOf x))).
  - intros a _. split; [exact I|constructor].
  - intros l IH. rewrite dataUnity_Vec, andb_true_iff, forallb_forall. intros [Hne Hall].
    destruct l as [|y r]; [cbn in Hne; discriminate|].
    rewrite Forall_forall in IH. cbn [shapeOf]. split.
    + cbn [wfnd]. split; [reflexivity|]. apply Forall_forall. intros sub Hsub.
      specialize (Hall sub Hsub). apply andb_true_iff in Hall as [Hd He].
      apply list_eqb_spec in He. cbn [headShape] in He. rewrite (firstLens_shapeOf sub), (firstLens_shapeOf y) in He.
      destruct (IH sub Hsub Hd) as [Hw _]. rewrite He in Hw. exact Hw.
    + constructor; [cbn [length]; lia|].
      specialize (Hall y (or_introl eq_refl)). apply andb_true_iff in Hall as [Hd _].
      apply (IH y (or_introl eq_refl) Hd).
Qed.

Lemma dataUnity_complete_gen : forall ds x,
  wfnd ds x -> Forall (fun d => (0 < d)%nat) ds -> dataUnity x = true.
Proof.
  induction ds as [|d ds IH]; intros x Hw Hp.
  - apply (wfnd_nil A) in Hw as (a & ->). reflexivity.
  - apply (wfnd_cons A) in Hw as (l & -> & Hl & Hf). inversion Hp as [|? ? Hd Hps]; subst.
    rewrite Forall_forall in Hf.
    rewrite dataUnity_Vec, andb_true_iff, forallb_forall. split.
    + apply negb_true_iff, Nat.eqb_neq. lia.
    + intros sub Hsub. apply andb_true_iff. split; [apply IH; [apply Hf, Hsub|exact Hps]|].
      apply list_eqb_spec. destruct l as [|y r]; [destruct Hsub|]. cbn [headShape].
      rewrite (firstLens_shapeOf sub), (firstLens_shapeOf y).
      rewrite (shapeOf_wf ds sub (Hf sub Hsub) Hps), (shapeOf_wf ds y (Hf y (or_introl eq_refl)) Hps).
      reflexivity.
Qed.

(* TensorOf's validator accepts exactly the rectangular data without an empty level *)
Theorem dataUnity_spec x : dataUnity x = true <-> dataPre x.
Proof.
  split; [apply dataUnity_sound|]. intros [Hw Hp]. exact (dataUnity_complete_gen _ x Hw Hp).
Qed.

(* uniform depth (what Go's static slice types guarantee) is implied by well-formedness, hence by
   acceptance; the statement restricted to uniform-depth data is a special case *)
Lemma wfnd_uniformDepth : forall ds x, wfnd ds x -> uniformDepth (length ds) x.
Proof.
  induction ds as [|d ds IH]; intros x Hw.
  - apply (wfnd_nil A) in Hw as (a & ->). exact I.
  - apply (wfnd_cons A) in Hw as (l & -> & _ & Hf). cbn [length uniformDepth].
    rewrite Forall_forall in *. intros y Hy. apply IH, Hf, Hy.
Qed.

Corollary dataUnity_uniformDepth x : dataUnity x = true -> uniformDepth (length (shapeOf x)) x.
Proof. intros H. apply wfnd_uniformDepth, (dataUnity_sound x H). Qed.

Corollary dataUnity_spec_uniform n x : uniformDepth n x -> (dataUnity x = true <-> dataPre x).
Proof. intros _. apply dataUnity_spec. Qed.

(* copying well-formed data along its own shape is the identity (and never panics) *)
Lemma copyData_wf : forall ds x, wfnd ds x -> copyData ds x = Some x.
Proof.
  induction ds as [|d ds IH]; intros x Hw.
  - apply (wfnd_nil A) in Hw as (a & ->). reflexivity.
  - apply (wfnd_cons A) in Hw as (l & -> & Hl & Hf). cbn [copyData asV obind].
    subst d. rewrite Nat.eqb_refl. rewrite Forall_forall in Hf.
    rewrite (mapM_all_some (copyData ds) (fun y => y) l) by (intros y Hy; apply IH, Hf, Hy).
    cbn [obind]. rewrite map_id. reflexivity.
Qed.

Theorem tensorOf_total x : dataUnity x = true ->
  exists t, initTensorFromData x = Some t /\ wf t /\ dims t = shapeOf x /\ data t = x /\
            flat (data t) = flat x.
Proof.
  intros H. apply dataUnity_sound in H as [Hw Hp]. exists (mkT (shapeOf x) x).
  unfold initTensorFromData. cbv zeta. rewrite (copyData_wf _ x Hw). cbn [obind].
  split; [reflexivity|]. split; [split; assumption|]. repeat split; reflexivity.
Qed.

Corollary tensorOf_total_uniform n x : dataUnity x = true -> uniformDepth n x ->
  exists t, initTensorFromData x = Some t /\ wf t /\ dims t = shapeOf x /\ flat (data t) = flat x.
Proof.
  intros H _. destruct (tensorOf_total x H) as (t & H1 & H2 & H3 & _ & H5). exists t. tauto.
Qed.

(* the public call: an error exactly when the precondition fails, never a panic *)
Theorem v_tensorOf_total x :
  (v_tensorOf x = Err <-> ~ dataPre x) /\
  (dataPre x -> exists t, v_tensorOf x = Ok t /\ wf t /\ dims t = shapeOf x /\ data t = x) /\
  v_tensorOf x <> Panic.
Proof.
  unfold v_tensorOf, guard. rewrite <- dataUnity_spec. destruct (dataUnity x) eqn:E.
  - destruct (tensorOf_total x E) as (t & -> & Hwf & Hd & Hx & _). cbn [of_opt].
    split; [|split].
    + split; [discriminate|intros H; exfalso; apply H; reflexivity].
    + intros _. exists t. tauto.
    + discriminate.
  - split; [|split].
    + split; [intros _; discriminate|reflexivity].
    + discriminate.
    + discriminate.
Qed.

End DataUnityP.

Example dataUnity_acc : dataUnity (Vec [Vec [Sc 1; Sc 2; Sc 3]; Vec [Sc 4; Sc 5; Sc 6]]) = true. Proof. reflexivity. Qed.
Example dataUnity_rej_ragged : dataUnity (Vec [Vec [Sc 1; Sc 2]; Vec [Sc 4]]) = false. Proof. reflexivity. Qed.
Example dataUnity_rej_empty : dataUnity (Vec [Vec ([] : list (nd Z)); Vec []]) = false. Proof. reflexivity. Qed.
(* the case fix F6 is about: equal lengths at level 2, different lengths at level 3 *)
Example dataUnity_rej_inner :
  dataUnity (Vec [Vec [Vec [Sc 1; Sc 2]]; Vec [Vec [Sc 3]]]) = false. Proof. reflexivity. Qed.
(* mixed depth is rejected as well *)
Example dataUnity_rej_depth : dataUnity (Vec [Sc 1; Vec [Sc 2]]) = false. Proof. reflexivity. Qed.
Example v_tensorOf_acc :
  v_tensorOf (Vec [Vec [Sc 1; Sc 2]; Vec [Sc 3; Sc 4]])
  = Ok (mkT [2; 2]%nat (Vec [Vec [Sc 1; Sc 2]; Vec [Sc 3; Sc 4]])). Proof. reflexivity. Qed.
Example v_tensorOf_rej : v_tensorOf (Vec [Vec [Sc 1; Sc 2]; Vec [Sc 3]]) = Err. Proof. reflexivity. Qed.

Theorem oneInput_spec xs x : oneInput xs = Some x <-> oneInputPre xs x.
Proof.
  unfold oneInput, oneInputPre.
  destruct xs as [|[y|] [|z r]]; split; intros H; try discriminate; inversion H; reflexivity.
Qed.

Example oneInput_acc : oneInput [Some 3%nat] = Some 3%nat. Proof. reflexivity. Qed.
Example oneInput_rej_nil : oneInput [None] = None. Proof. reflexivity. Qed.
Example oneInput_rej_none : oneInput [] = None. Proof. reflexivity. Qed.
Example oneInput_rej_two : oneInput [Some 3%nat; Some 4%nat] = None. Proof. reflexivity. Qed.

Section LossArgs.
Context {A : Type}.

Lemma rank1_inv (h : @heap A) (p : nat) : rankOf h p = 1%nat ->
  exists v a, valOf h p = Some v /\ dims v = [a] /\ dim0Of h p = a.
Proof.
  unfold rankOf, dim0Of. destruct (valOf h p) as [v|]; [|discriminate].
  destruct (dims v) as [|a [|b r]] eqn:Ed; cbn [length]; intros H; try discriminate.
  exists v, a. repeat split. exact Ed.
Qed.

Theorem lossArgs1_spec (h : @heap A) (yp yt : targ) (p t : nat) :
  lossArgs1 h yp yt = Some (p, t) <-> lossArgs1Pre h yp yt p t.
Proof.
  unfold lossArgs1, lossArgs1Pre. split.
  - destruct yp as [p'|]; [|discriminate]. destruct yt as [t'|]; [|discriminate].
    destruct ((rankOf h p' =? 1)%nat && (rankOf h t' =? 1)%nat && (dim0Of h p' =? dim0Of h t')%nat) eqn:E;
      [|discriminate].
    intros H; inversion H; subst p' t'.
    apply andb_true_iff in E as [E E3]. apply andb_true_iff in E as [E1 E2].
    apply Nat.eqb_eq in E1, E2, E3.
    destruct (rank1_inv h p E1) as (vp & a & Hvp & Hdp & Hap).
    destruct (rank1_inv h t E2) as (vt & b & Hvt & Hdt & Hbt).
    repeat split. exists vp, vt, a. repeat split; try assumption. congruence.
  - intros (-> & -> & vp & vt & n & Hvp & Hvt & Hdp & Hdt).
    unfold rankOf, dim0Of. rewrite Hvp, Hvt, Hdp, Hdt. cbn [length nth].
    rewrite !Nat.eqb_refl. reflexivity.
Qed.

End LossArgs.

(* dec_lt compares  m1 * 10^e1  with  m2 * 10^e2 *)
Theorem dec_lt_spec (a b : dec) : dec_lt a b = true <-> decLt a b.
Proof.
  unfold dec_lt, dec_cmp, decLt. cbv zeta.
  set (X := fst a * 10 ^ (snd a - Z.min (snd a) (snd b))).
  set (Y := fst b * 10 ^ (snd b - Z.min (snd a) (snd b))).
  destruct (X ?= Y) eqn:E; split; intros H; try discriminate; try reflexivity.
  - apply Z.compare_lt_iff in H. congruence.
  - apply Z.compare_lt_iff. exact E.
  - apply Z.compare_lt_iff in H. congruence.
Qed.

(* ... and the choice of the common scale does not matter: any exponent below both will do *)
Theorem dec_lt_scale (a b : dec) (e : Z) : e <= snd a -> e <= snd b ->
  (dec_lt a b = true <-> fst a * 10 ^ (snd a - e) < fst b * 10 ^ (snd b - e)).
Proof.
  intros Ha Hb. rewrite dec_lt_spec. unfold decLt. cbv zeta.
  set (m := Z.min (snd a) (snd b)).
  assert (Hm : e <= m) by (unfold m; lia).
  assert (Hma : m <= snd a) by (unfold m; lia).
  assert (Hmb : m <= snd b) by (unfold m; lia).
  replace (snd a - e) with ((snd a - m) + (m - e)) by lia.
  replace (snd b - e) with ((snd b - m) + (m - e)) by lia.
  rewrite !Z.pow_add_r by lia. rewrite !Z.mul_assoc.
  assert (Hp : 0 < 10 ^ (m - e)) by (apply Z.pow_pos_nonneg; lia).
  apply Z.mul_lt_mono_pos_r. exact Hp.
Qed.

Theorem dec_pos_spec (a : dec) : dec_pos a = true <-> 0 < fst a.
Proof. unfold dec_pos. lia. Qed.

Theorem init_valid_spec (dUniL dUniU dNorS : dec) (s : initSpec) :
  init_valid dUniL dUniU dNorS s = true <-> initPre dUniL dUniU dNorS s.
Proof.
  destruct s as [v | [[l u]|] | [[m sd]|] | [f|] | [f|] | [[fi fo]|] | [[fi fo]|]];
    cbn [init_valid initPre];
    try apply dec_lt_spec; try apply dec_pos_spec; try lia;
    try (split; [discriminate|intros []]).
Qed.

Example dec_lt_acc : dec_lt (-5, -2) (5, -2) = true. Proof. reflexivity. Qed.       (* -0.05 < 0.05 *)
Example dec_lt_acc_scale : dec_lt (15, -1) (2, 0) = true. Proof. reflexivity. Qed.   (* 1.5 < 2 *)
Example dec_lt_rej_eq : dec_lt (10, -1) (1, 0) = false. Proof. reflexivity. Qed.     (* 1.0 < 1 fails *)
Example dec_lt_rej : dec_lt (3, 1) (299, -1) = false. Proof. reflexivity. Qed.       (* 30 < 29.9 fails *)
Example init_valid_acc : init_valid (-5, -2) (5, -2) (5, -2) (IUniform (Some ((0, 0), (1, 0)))) = true.
Proof. reflexivity. Qed.
Example init_valid_rej : init_valid (-5, -2) (5, -2) (5, -2) (IUniform (Some ((1, 0), (1, 0)))) = false.
Proof. reflexivity. Qed.
Example init_valid_rej_nil : init_valid (-5, -2) (5, -2) (5, -2) (IHeUniform None) = false.
Proof. reflexivity. Qed.
Example init_valid_rej_fan : init_valid (-5, -2) (5, -2) (5, -2) (IXavierNormal (Some (3, 0))) = false.
Proof. reflexivity. Qed.
Example init_valid_acc_fan : init_valid (-5, -2) (5, -2) (5, -2) (IXavierNormal (Some (3, 2))) = true.
Proof. reflexivity. Qed.
Example init_valid_rej_sd : init_valid (-5, -2) (5, -2) (5, -2) (INormal (Some ((0, 0), (0, 0)))) = false.
Proof. reflexivity. Qed.

Print Assumptions validateInputDims_spec.
Print Assumptions validateAtIndexAgainstDims_spec.
Print Assumptions validateSliceIndexAgainstDims_spec.
Print Assumptions validatePatchIndexAgainstDims_spec.
Print Assumptions validateConcat_spec.
Print Assumptions validateConcat_none.
Print Assumptions validateBinaryFuncDimsMatch_spec.
Print Assumptions validateDotProductDims_spec.
Print Assumptions validateDotProductDims_spec'.
Print Assumptions validateMatMulDims_spec.
Print Assumptions validateMatMulDims_spec'.
Print Assumptions validateReducedDimAgainstDims_spec.
Print Assumptions validateFlattenDim_spec.
Print Assumptions validateUnSqueezeDim_spec.
Print Assumptions validateSqueezeDim_spec.
Print Assumptions validateTransposeDims_spec.
Print Assumptions validateReshape_spec.
Print Assumptions validateBroadcast_spec.
Print Assumptions validateBroadcast_spec'.
Print Assumptions firstLens_shapeOf.
Print Assumptions dataUnity_spec.
Print Assumptions tensorOf_total.
Print Assumptions v_tensorOf_total.
Print Assumptions eye_arith.
Print Assumptions v_full_total.
Print Assumptions v_eye_total.
Print Assumptions oneInput_spec.
Print Assumptions lossArgs1_spec.
Print Assumptions dec_lt_spec.
Print Assumptions dec_lt_scale.
Print Assumptions init_valid_spec.
