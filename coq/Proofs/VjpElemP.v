(* VjpElemP.v — the backward rules of the ELEMENT-WISE operations are vector-Jacobian products
   (property C02), for the real-number instance [R_scalar thr draw].
   Every rule gets (a) an evaluation lemma [..._eval]: under well-formedness and equal shapes only
   (no differentiability guard) [eval_rule] is [Ok], the result has the operand's shape and the
   stated element formula ("never fails"), and (b) a theorem [vjp_...]: under the guard of
   differentiability the result is the VJP  g_i = Σ_j gy_j ∂F_j/∂x_i  of the forward map F.
   (a) is a [yields] statement written out; (b) follows from it and the fact about assignments that an
   element-wise map has a diagonal Jacobian ([vjp_pointwise_idx]), through [yields_vjp] where the
   theorem has a single VJP conclusion (Mul, Add/Sub and the natural-number Pow state two and open
   the evaluation lemma by hand). *)
From Coq Require Import List Arith ZArith Bool Lia Reals Lra.
From Coquelicot Require Import Coquelicot.
From Qeep Require Import Model.Scalar Model.Nd Model.Fill Model.Data Model.Valid Model.Api Model.Grad.
From Qeep Require Import Proofs.NdP Proofs.ElemP Proofs.BroadcastP Proofs.ArithP.
From Qeep Require Import Spec.RScalar Spec.ScalarDeriv Spec.VjpSpec.
Import ListNotations.
Local Open Scope R_scope.

Lemma idx_eqb_refl i : idx_eqb i i = true.
Proof. apply idx_eqb_eq. reflexivity. Qed.

(* one-variable derivative along the coordinate line through x i *)
Lemma is_derive_shift (f : R -> R) (a d : R) :
  is_derive f a d -> is_derive (fun t => f (a + t)) 0 d.
Proof.
  intros H.
  assert (H0 : is_derive f (a + 0) d) by (rewrite Rplus_0_r; exact H).
  pose proof (is_derive_comp f (fun t => a + t) 0 d 1 H0) as Hc.
  assert (Hs : is_derive (fun t : R => a + t) 0 1) by (auto_derive; [exact I|ring]).
  specialize (Hc Hs). unfold scal in Hc; cbn in Hc. unfold mult in Hc; cbn in Hc.
  rewrite Rmult_1_l in Hc. exact Hc.
Qed.

(* F a idx = f idx (a idx): output j depends on input j only.  [f] may depend on the position
   (binary operations with the other operand held fixed). *)
Lemma vjp_pointwise_idx ds (f : list nat -> R -> R) (f' x gy g : assignment) :
  (forall idx, validIdx ds idx -> is_derive (f idx) (x idx) (f' idx)) ->
  (forall idx, validIdx ds idx -> g idx = gy idx * f' idx) ->
  is_vjp ds ds (fun a idx => f idx (a idx)) x gy g.
Proof.
  intros Hd Hg i Hi.
  exists (fun j => if idx_eqb j i then f' i else 0). split.
  - intros j Hj. unfold is_partial, perturb. destruct (idx_eqb j i) eqn:E.
    + apply idx_eqb_eq in E. subst j. apply is_derive_shift. apply Hd. exact Hi.
    + apply (is_derive_const (f j (x j)) 0).
  - rewrite (Hg i Hi).
    rewrite (sumIdx_ext ds _ (fun j => if idx_eqb j i then gy j * f' i else 0)).
    + rewrite (sumIdx_single ds i (fun j => gy j * f' i) Hi). reflexivity.
    + intros j _. destruct (idx_eqb j i); [reflexivity|ring].
Qed.

Lemma vjp_pointwise ds (f : R -> R) (f' x gy g : assignment) :
  (forall idx, validIdx ds idx -> is_derive f (x idx) (f' idx)) ->
  (forall idx, validIdx ds idx -> g idx = gy idx * f' idx) ->
  is_vjp ds ds (fun a idx => f (a idx)) x gy g.
Proof. intros Hd Hg. apply (vjp_pointwise_idx ds (fun _ => f) f'); assumption. Qed.

(* two-operand version: F a b idx = f (a idx) (b idx), with respect to EACH operand *)
Lemma vjp_pointwise2_l ds (f : R -> R -> R) (f' x b gy g : assignment) :
  (forall idx, validIdx ds idx -> is_derive (fun v => f v (b idx)) (x idx) (f' idx)) ->
  (forall idx, validIdx ds idx -> g idx = gy idx * f' idx) ->
  is_vjp ds ds (fun a idx => f (a idx) (b idx)) x gy g.
Proof. intros Hd Hg. apply (vjp_pointwise_idx ds (fun idx v => f v (b idx)) f'); assumption. Qed.

Lemma vjp_pointwise2_r ds (f : R -> R -> R) (f' a x gy g : assignment) :
  (forall idx, validIdx ds idx -> is_derive (fun v => f (a idx) v) (x idx) (f' idx)) ->
  (forall idx, validIdx ds idx -> g idx = gy idx * f' idx) ->
  is_vjp ds ds (fun b idx => f (a idx) (b idx)) x gy g.
Proof. intros Hd Hg. apply (vjp_pointwise_idx ds (fun idx v => f (a idx) v) f'); assumption. Qed.

(* scalar facts about the real instance: [Rpow], decimal literals *)

Lemma Int_part_IZR z : Int_part (IZR z) = z.
Proof.
  unfold Int_part. rewrite <- (tech_up (IZR z) (z + 1)).
  - lia.
  - apply IZR_lt. lia.
  - rewrite plus_IZR. lra.
Qed.

Lemma Rpow_IZR x z : Rpow x (IZR z) = powerRZ x z.
Proof.
  unfold Rpow. rewrite Int_part_IZR.
  destruct (Req_EM_T (IZR z) (IZR z)) as [_|N]; [reflexivity|contradiction N; reflexivity].
Qed.

(* natural-number exponents: the integer power, at every base including 0 *)
Lemma Rpow_INR x n : Rpow x (INR n) = x ^ n.
Proof. rewrite INR_IZR_INZ, Rpow_IZR. symmetry. apply pow_powerRZ. Qed.

Lemma Rpow_0 x : Rpow x 0 = 1.
Proof. rewrite (Rpow_IZR x 0). reflexivity. Qed.

Lemma Rpow_2 x : Rpow x 2 = x * x.
Proof. rewrite (Rpow_IZR x 2). change (powerRZ x 2) with (x ^ 2). ring. Qed.

Lemma Rpow_m2 x : Rpow x (-2) = / x ^ 2.
Proof. rewrite (Rpow_IZR x (-2)). change (powerRZ x (-2)) with (/ x ^ 2). reflexivity. Qed.

Lemma INR_pred n : (1 <= n)%nat -> INR n - 1 = INR (pred n).
Proof. intros H. destruct n as [|n]; [lia|]. rewrite S_INR. cbn [pred]. ring. Qed.

(* positive base: the real power, whatever the exponent *)
Lemma Rpow_pos x a : 0 < x -> Rpow x a = Rpower x a.
Proof.
  intros H. unfold Rpow. destruct (Req_EM_T a (IZR (Int_part a))) as [E|_]; [|reflexivity].
  rewrite powerRZ_Rpower by exact H. rewrite <- E. reflexivity.
Qed.

Lemma dec2R_0 : dec2R 0 0 = 0.        Proof. unfold dec2R; cbn; ring. Qed.
Lemma dec2R_1 : dec2R 1 0 = 1.        Proof. unfold dec2R; cbn; ring. Qed.
Lemma dec2R_m1 : dec2R (-1) 0 = -1.   Proof. unfold dec2R; cbn; ring. Qed.
Lemma dec2R_2 : dec2R 2 0 = 2.        Proof. unfold dec2R; cbn; ring. Qed.
Lemma dec2R_m2 : dec2R (-2) 0 = -2.   Proof. unfold dec2R; cbn; ring. Qed.
Lemma dec2R_half : dec2R 5 (-1) = / 2.
Proof. unfold dec2R. change (powerRZ 10 (-1)) with (/ 10 ^ 1). field. Qed.

(* A selection [sel] (element-wise max or min) with [win a b] = "a is strictly selected": it
   returns the winner and, in its first argument, is locally the identity where that argument
   wins and locally constant where it loses. *)
Definition picks (sel : R -> R -> R) (win : R -> R -> Prop) : Prop := forall a b,
  (win a b -> sel a b = a /\ is_derive (fun v => sel v b) a 1) /\
  (win b a -> sel a b = b /\ is_derive (fun v => sel v b) a 0) /\
  (a <> b -> win a b \/ win b a).

Lemma picks_max : picks Rmax (fun a b => b < a).
Proof.
  intros a b. split; [|split].
  - intros H. split; [apply Rmax_left; lra|].
    apply (is_derive_near _ (fun v => v) a 1 (a - b)); [lra| |auto_derive; [exact I|ring]].
    intros v Hv. apply Rabs_def2 in Hv. rewrite Rmax_left; lra.
  - intros H. split; [apply Rmax_right; lra|].
    apply (is_derive_near _ (fun _ => b) a 0 (b - a)); [lra| |auto_derive; [exact I|ring]].
    intros v Hv. apply Rabs_def2 in Hv. rewrite Rmax_right; lra.
  - intros N. destruct (Rdichotomy a b N); [right|left]; assumption.
Qed.

Lemma picks_min : picks Rmin (fun a b => a < b).
Proof.
  intros a b. split; [|split].
  - intros H. split; [apply Rmin_left; lra|].
    apply (is_derive_near _ (fun v => v) a 1 (b - a)); [lra| |auto_derive; [exact I|ring]].
    intros v Hv. apply Rabs_def2 in Hv. rewrite Rmin_left; lra.
  - intros H. split; [apply Rmin_right; lra|].
    apply (is_derive_near _ (fun _ => b) a 0 (a - b)); [lra| |auto_derive; [exact I|ring]].
    intros v Hv. apply Rabs_def2 in Hv. rewrite Rmin_right; lra.
  - intros N. exact (Rdichotomy a b N).
Qed.

Lemma picks_flip sel win : (forall a b, sel a b = sel b a) -> picks sel win -> picks (fun a b => sel b a) win.
Proof.
  intros C P a b. destruct (P a b) as (P1 & P2 & P3). split; [|split; [|exact P3]]; intros W.
  - destruct (P1 W) as [E D]. split; [rewrite C; exact E|].
    apply (is_derive_ext (fun v => sel v b)); [intros v; apply C|exact D].
  - destruct (P2 W) as [E D]. split; [rewrite C; exact E|].
    apply (is_derive_ext (fun v => sel v b)); [intros v; apply C|exact D].
Qed.

(* the model's power at a positive base: a * x^(a-1), whatever the exponent *)
Lemma d_Rpow_pos x a : 0 < x -> is_derive (fun v => Rpow v a) x (a * Rpower x (a - 1)).
Proof.
  intros H. apply (is_derive_near _ (fun v => Rpower v a) x _ x H); [|apply d_Rpower; exact H].
  intros v Hv. apply Rabs_def2 in Hv. symmetry. apply Rpow_pos. lra.
Qed.

(* natural exponents at every base *)
Lemma d_Rpow_nat x n : is_derive (fun v => Rpow v (INR n)) x (INR n * x ^ pred n).
Proof.
  apply (is_derive_ext (fun v => v ^ n)); [intros v; symmetry; apply Rpow_INR|apply d_pow_nat].
Qed.

(* exponent 0: constant 1, also at base 0 *)
Lemma d_Rpow_0 x : is_derive (fun v => Rpow v 0) x 0.
Proof.
  apply (is_derive_ext (fun _ => 1)); [intros v; symmetry; apply Rpow_0|].
  apply (is_derive_const 1 x).
Qed.

(* the value-level API on reals, read element-wise *)

Section Readers.
Variables (thr : R) (draw : bool -> nat -> R).
Local Hint Extern 0 (Scalar R) => exact (R_scalar thr draw) : typeclass_instances.
Notation T := (tensor R).

Lemma uF_scale a v : unaryF (UScale a) v = a * v.  Proof. reflexivity. Qed.
Lemma uF_pow a v : unaryF (UPow a) v = Rpow v a.    Proof. reflexivity. Qed.
Lemma uF_exp v : unaryF UExpo v = exp v.            Proof. reflexivity. Qed.
Lemma uF_ln v : unaryF ULn v = ln v.                Proof. reflexivity. Qed.
Lemma uF_sin v : unaryF USine v = sin v.            Proof. reflexivity. Qed.
Lemma uF_cos v : unaryF UCosine v = cos v.          Proof. reflexivity. Qed.
Lemma uF_tan v : unaryF UTang v = tan v.            Proof. reflexivity. Qed.
Lemma uF_sinh v : unaryF USinH v = sinh v.          Proof. reflexivity. Qed.
Lemma uF_cosh v : unaryF UCosH v = cosh v.          Proof. reflexivity. Qed.
Lemma uF_tanh v : unaryF UTanH v = tanh v.          Proof. reflexivity. Qed.
Lemma bF_add a b : binaryF BiAdd a b = a + b.       Proof. reflexivity. Qed.
Lemma bF_sub a b : binaryF BiSub a b = a - b.       Proof. reflexivity. Qed.
Lemma bF_mul a b : binaryF BiMul a b = a * b.       Proof. reflexivity. Qed.
Lemma bF_div a b : binaryF BiDiv a b = a / b.       Proof. reflexivity. Qed.
Lemma bF_max a b : binaryF BiElMax a b = Rmax a b.  Proof. reflexivity. Qed.
Lemma bF_min a b : binaryF BiElMin a b = Rmin a b.  Proof. reflexivity. Qed.
Lemma cst_R m e : cst m e = dec2R m e.              Proof. reflexivity. Qed.
Lemma ssub_R a b : ssub a b = a - b.                Proof. reflexivity. Qed.
Lemma sconst_R m e : sconst m e = dec2R m e.        Proof. reflexivity. Qed.

Lemma elt_get (t : T) idx v : get (data t) idx = Some v -> elt t idx = v.
Proof. intros E. unfold elt. rewrite E. reflexivity. Qed.

Lemma un_elt (u : unary) (t : T) : wf t ->
  exists r, v_unary u t = Ok r /\ dims r = dims t /\ wf r /\
    forall idx, validIdx (dims t) idx -> elt r idx = unaryF u (elt t idx).
Proof.
  intros Hw. destruct (v_unary_spec u t Hw) as (r & Er & Hd & Hwr & Hg).
  exists r. split; [exact Er|]. split; [exact Hd|]. split; [exact Hwr|].
  intros idx Hv. destruct (get_wf R _ _ _ (proj1 Hw) Hv) as (x & Ex).
  unfold elt. rewrite (Hg idx Hv), Ex. reflexivity.
Qed.

Lemma ar_elt (b : binary) (t u : T) : wf t -> wf u -> dims t = dims u ->
  exists r, v_arith b t u = Ok r /\ dims r = dims t /\ wf r /\
    forall idx, validIdx (dims t) idx -> elt r idx = binaryF b (elt t idx) (elt u idx).
Proof.
  intros Ht Hu E. destruct (v_arith_same_dims b t u Ht Hu E) as (_ & _ & r & Er & Hd & Hwr & Hg).
  exists r. split; [exact Er|]. split; [exact Hd|]. split; [exact Hwr|].
  intros idx Hv. destruct (Hg idx Hv) as (x & y & Ex & Ey & Ez).
  rewrite (elt_get _ _ _ Ex), (elt_get _ _ _ Ey), (elt_get _ _ _ Ez). reflexivity.
Qed.

Lemma same_elt (b : binary) (t u : T) : wf t -> wf u -> dims t = dims u ->
  exists r, v_same b t u = Ok r /\ dims r = dims t /\ wf r /\
    forall idx, validIdx (dims t) idx -> elt r idx = binaryF b (elt t idx) (elt u idx).
Proof.
  intros Ht Hu E. destruct (v_same_spec b t u Ht Hu) as [H _].
  destruct (H E) as (r & Er & Hd & Hwr & Hg).
  exists r. split; [exact Er|]. split; [exact Hd|]. split; [exact Hwr|].
  intros idx Hv. destruct (get_wf R _ _ _ (proj1 Ht) Hv) as (x & Ex).
  pose proof Hv as Hv'. rewrite E in Hv'. destruct (get_wf R _ _ _ (proj1 Hu) Hv') as (y & Ey).
  unfold elt. rewrite (Hg idx Hv), Ex, Ey. reflexivity.
Qed.

(* the same three on operands that hold given assignments at a given shape *)
Lemma un_y (u : unary) (t : T) ds f : repr t ds f -> yields (v_unary u t) ds (fun i => unaryF u (f i)).
Proof.
  intros (Hd & Hw & Hf). subst ds. apply (yields_ext _ _ (fun i => unaryF u (elt t i))).
  - intros i Hi. rewrite (Hf i Hi). reflexivity.
  - exact (un_elt u t Hw).
Qed.

Lemma ar_y (b : binary) (t u : T) ds f g : repr t ds f -> repr u ds g ->
  yields (v_arith b t u) ds (fun i => binaryF b (f i) (g i)).
Proof.
  intros (Hd & Hw & Hf) (Hd' & Hw' & Hg). subst ds. apply (yields_ext _ _ (fun i => binaryF b (elt t i) (elt u i))).
  - intros i Hi. rewrite (Hf i Hi), (Hg i Hi). reflexivity.
  - exact (ar_elt b t u Hw Hw' (eq_sym Hd')).
Qed.

Lemma same_y (b : binary) (t u : T) ds f g : repr t ds f -> repr u ds g ->
  yields (v_same b t u) ds (fun i => binaryF b (f i) (g i)).
Proof.
  intros (Hd & Hw & Hf) (Hd' & Hw' & Hg). subst ds. apply (yields_ext _ _ (fun i => binaryF b (elt t i) (elt u i))).
  - intros i Hi. rewrite (Hf i Hi), (Hg i Hi). reflexivity.
  - exact (same_elt b t u Hw Hw' (eq_sym Hd')).
Qed.
End Readers.

(* open a rule on the heap *)
Ltac open_rule :=
  unfold eval_rule, gy_of, val_of;
  repeat match goal with H : valOf _ _ = Some _ |- _ => rewrite H end;
  repeat match goal with H : gradOf _ _ = Some _ |- _ => rewrite H end;
  cbn [of_opt res_bind].

(* Running a rule body on operands given by [repr] hypotheses: [call] meets one value-level
   call by the lemma that reads it element-wise; binds are taken apart by [yields_bind], the
   intermediate tensor entering the context with its [repr] fact.  What is left to the proof is
   the comparison of the accumulated formula with the stated one ([yields_ext]). *)
Ltac elem_call := lazymatch goal with
  | |- yields (v_unary _ _) _ _ => eapply un_y
  | |- yields (v_arith _ _ _) _ _ => eapply ar_y
  | |- yields (v_same _ _ _) _ _ => eapply same_y
  end; eassumption.
Ltac run_with call := repeat first [call | eapply yields_bind; [call|intros ? ?]].
Ltac run_rule := run_with elem_call.

Section VjpElem.
Variables (thr : R) (draw : bool -> nat -> R).
Local Hint Extern 0 (Scalar R) => exact (R_scalar thr draw) : typeclass_instances.
Notation T := (tensor R).
Notation cstR := (@cst R (R_scalar thr draw)).

Implicit Types (rd : bred) (h : @heap R) (xv yv gy av bv ov : T).

Definition eqt (a b : R) : R := if Rle_dec (Rabs (a - b)) thr then 1 else 0.
Lemma bF_eq a b : binaryF BiEq a b = eqt a b.       Proof. reflexivity. Qed.

(* unary math rules: gradient = gy * f'(x) *)

Lemma rsin_eval rd h y x xv gy :
  valOf h x = Some xv -> gradOf h y = Some gy -> wf xv -> wf gy -> dims gy = dims xv ->
  exists g, eval_rule rd h (RSin y x) = Ok g /\ dims g = dims xv /\ wf g /\
    forall idx, validIdx (dims xv) idx -> elt g idx = elt gy idx * cos (elt xv idx).
Proof.
  intros Hx Hg Wx Wg Ed. open_rule.
  pose proof (repr_self xv Wx) as Rx. pose proof (repr_at gy _ Wg Ed) as Rg. run_rule.
Qed.

Theorem vjp_sin rd h y x xv gy :
  valOf h x = Some xv -> gradOf h y = Some gy -> wf xv -> wf gy -> dims gy = dims xv ->
  exists g, eval_rule rd h (RSin y x) = Ok g /\ dims g = dims xv /\ wf g /\
    is_vjp (dims xv) (dims xv) (fun a idx => sin (a idx)) (elt xv) (elt gy) (elt g).
Proof.
  intros Hx Hg Wx Wg Ed. eapply yields_vjp; [exact (rsin_eval rd h y x xv gy Hx Hg Wx Wg Ed)|].
  apply (vjp_pointwise _ sin (fun idx => cos (elt xv idx))); [intros idx _; apply d_sin|reflexivity].
Qed.

Lemma rcos_eval rd h y x xv gy :
  valOf h x = Some xv -> gradOf h y = Some gy -> wf xv -> wf gy -> dims gy = dims xv ->
  exists g, eval_rule rd h (RCos y x) = Ok g /\ dims g = dims xv /\ wf g /\
    forall idx, validIdx (dims xv) idx -> elt g idx = elt gy idx * - sin (elt xv idx).
Proof.
  intros Hx Hg Wx Wg Ed. open_rule.
  pose proof (repr_self xv Wx) as Rx. pose proof (repr_at gy _ Wg Ed) as Rg.
  eapply yields_ext; [|run_rule].
  intros i _. cbn beta. rewrite bF_mul, uF_scale, uF_sin, cst_R, dec2R_m1. ring.
Qed.

Theorem vjp_cos rd h y x xv gy :
  valOf h x = Some xv -> gradOf h y = Some gy -> wf xv -> wf gy -> dims gy = dims xv ->
  exists g, eval_rule rd h (RCos y x) = Ok g /\ dims g = dims xv /\ wf g /\
    is_vjp (dims xv) (dims xv) (fun a idx => cos (a idx)) (elt xv) (elt gy) (elt g).
Proof.
  intros Hx Hg Wx Wg Ed. eapply yields_vjp; [exact (rcos_eval rd h y x xv gy Hx Hg Wx Wg Ed)|].
  apply (vjp_pointwise _ cos (fun idx => - sin (elt xv idx))); [intros idx _; apply d_cos|reflexivity].
Qed.

Lemma rtan_eval rd h y x xv gy :
  valOf h x = Some xv -> gradOf h y = Some gy -> wf xv -> wf gy -> dims gy = dims xv ->
  exists g, eval_rule rd h (RTan y x) = Ok g /\ dims g = dims xv /\ wf g /\
    forall idx, validIdx (dims xv) idx -> elt g idx = elt gy idx * / (cos (elt xv idx)) ^ 2.
Proof.
  intros Hx Hg Wx Wg Ed. open_rule.
  pose proof (repr_self xv Wx) as Rx. pose proof (repr_at gy _ Wg Ed) as Rg.
  eapply yields_ext; [|run_rule].
  intros i _. cbn beta. rewrite bF_mul, uF_pow, uF_cos, cst_R, dec2R_m2, Rpow_m2. reflexivity.
Qed.

Theorem vjp_tan rd h y x xv gy :
  valOf h x = Some xv -> gradOf h y = Some gy -> wf xv -> wf gy -> dims gy = dims xv ->
  (forall idx, validIdx (dims xv) idx -> cos (elt xv idx) <> 0) ->
  exists g, eval_rule rd h (RTan y x) = Ok g /\ dims g = dims xv /\ wf g /\
    is_vjp (dims xv) (dims xv) (fun a idx => tan (a idx)) (elt xv) (elt gy) (elt g).
Proof.
  intros Hx Hg Wx Wg Ed Hc. eapply yields_vjp; [exact (rtan_eval rd h y x xv gy Hx Hg Wx Wg Ed)|].
  apply (vjp_pointwise _ tan (fun idx => / (cos (elt xv idx)) ^ 2)); [|reflexivity].
  intros idx Hv. apply d_tan, Hc, Hv.
Qed.

Lemma rsinh_eval rd h y x xv gy :
  valOf h x = Some xv -> gradOf h y = Some gy -> wf xv -> wf gy -> dims gy = dims xv ->
  exists g, eval_rule rd h (RSinh y x) = Ok g /\ dims g = dims xv /\ wf g /\
    forall idx, validIdx (dims xv) idx -> elt g idx = elt gy idx * cosh (elt xv idx).
Proof.
  intros Hx Hg Wx Wg Ed. open_rule.
  pose proof (repr_self xv Wx) as Rx. pose proof (repr_at gy _ Wg Ed) as Rg. run_rule.
Qed.

Theorem vjp_sinh rd h y x xv gy :
  valOf h x = Some xv -> gradOf h y = Some gy -> wf xv -> wf gy -> dims gy = dims xv ->
  exists g, eval_rule rd h (RSinh y x) = Ok g /\ dims g = dims xv /\ wf g /\
    is_vjp (dims xv) (dims xv) (fun a idx => sinh (a idx)) (elt xv) (elt gy) (elt g).
Proof.
  intros Hx Hg Wx Wg Ed. eapply yields_vjp; [exact (rsinh_eval rd h y x xv gy Hx Hg Wx Wg Ed)|].
  apply (vjp_pointwise _ sinh (fun idx => cosh (elt xv idx))); [intros idx _; apply d_sinh|reflexivity].
Qed.

Lemma rcosh_eval rd h y x xv gy :
  valOf h x = Some xv -> gradOf h y = Some gy -> wf xv -> wf gy -> dims gy = dims xv ->
  exists g, eval_rule rd h (RCosh y x) = Ok g /\ dims g = dims xv /\ wf g /\
    forall idx, validIdx (dims xv) idx -> elt g idx = elt gy idx * sinh (elt xv idx).
Proof.
  intros Hx Hg Wx Wg Ed. open_rule.
  pose proof (repr_self xv Wx) as Rx. pose proof (repr_at gy _ Wg Ed) as Rg. run_rule.
Qed.

Theorem vjp_cosh rd h y x xv gy :
  valOf h x = Some xv -> gradOf h y = Some gy -> wf xv -> wf gy -> dims gy = dims xv ->
  exists g, eval_rule rd h (RCosh y x) = Ok g /\ dims g = dims xv /\ wf g /\
    is_vjp (dims xv) (dims xv) (fun a idx => cosh (a idx)) (elt xv) (elt gy) (elt g).
Proof.
  intros Hx Hg Wx Wg Ed. eapply yields_vjp; [exact (rcosh_eval rd h y x xv gy Hx Hg Wx Wg Ed)|].
  apply (vjp_pointwise _ cosh (fun idx => sinh (elt xv idx))); [intros idx _; apply d_cosh|reflexivity].
Qed.

Lemma rtanh_eval rd h y x xv gy :
  valOf h x = Some xv -> gradOf h y = Some gy -> wf xv -> wf gy -> dims gy = dims xv ->
  exists g, eval_rule rd h (RTanh y x) = Ok g /\ dims g = dims xv /\ wf g /\
    forall idx, validIdx (dims xv) idx -> elt g idx = elt gy idx * / (cosh (elt xv idx)) ^ 2.
Proof.
  intros Hx Hg Wx Wg Ed. open_rule.
  pose proof (repr_self xv Wx) as Rx. pose proof (repr_at gy _ Wg Ed) as Rg.
  eapply yields_ext; [|run_rule].
  intros i _. cbn beta. rewrite bF_mul, uF_pow, uF_cosh, cst_R, dec2R_m2, Rpow_m2. reflexivity.
Qed.

Theorem vjp_tanh rd h y x xv gy :
  valOf h x = Some xv -> gradOf h y = Some gy -> wf xv -> wf gy -> dims gy = dims xv ->
  exists g, eval_rule rd h (RTanh y x) = Ok g /\ dims g = dims xv /\ wf g /\
    is_vjp (dims xv) (dims xv) (fun a idx => tanh (a idx)) (elt xv) (elt gy) (elt g).
Proof.
  intros Hx Hg Wx Wg Ed. eapply yields_vjp; [exact (rtanh_eval rd h y x xv gy Hx Hg Wx Wg Ed)|].
  apply (vjp_pointwise _ tanh (fun idx => / (cosh (elt xv idx)) ^ 2)); [intros idx _; apply d_tanh|reflexivity].
Qed.

(* Mul: gy * (other operand) *)
Lemma rmul_eval rd h y o ov gy :
  valOf h o = Some ov -> gradOf h y = Some gy -> wf ov -> wf gy -> dims gy = dims ov ->
  exists g, eval_rule rd h (RMul y o) = Ok g /\ dims g = dims ov /\ wf g /\
    forall idx, validIdx (dims ov) idx -> elt g idx = elt gy idx * elt ov idx.
Proof.
  intros Ho Hg Wo Wg Ed. open_rule.
  exact (ar_y thr draw BiMul gy ov _ _ _ (repr_at gy _ Wg Ed) (repr_self ov Wo)).
Qed.

Theorem vjp_mul rd h y o xv ov gy :
  valOf h o = Some ov -> gradOf h y = Some gy -> wf ov -> wf gy -> dims gy = dims xv -> dims ov = dims xv ->
  exists g, eval_rule rd h (RMul y o) = Ok g /\ dims g = dims xv /\ wf g /\
    is_vjp (dims xv) (dims xv) (fun a idx => a idx * elt ov idx) (elt xv) (elt gy) (elt g) /\  (* first operand *)
    is_vjp (dims xv) (dims xv) (fun b idx => elt ov idx * b idx) (elt xv) (elt gy) (elt g).    (* second operand *)
Proof.
  intros Ho Hg Wo Wg Ed Edo. rewrite <- Edo in *.
  destruct (rmul_eval rd h y o ov gy Ho Hg Wo Wg Ed) as (g & E & D & W & G).
  exists g. split; [exact E|]. split; [exact D|]. split; [exact W|]. split.
  - apply (vjp_pointwise2_l _ Rmult (elt ov)); [intros idx _; apply d_mul_l|exact G].
  - apply (vjp_pointwise2_r _ Rmult (elt ov)); [intros idx _; apply d_mul_r|exact G].
Qed.

(* Div, numerator: gy / b *)
Lemma rdiva_eval rd h y b bv gy :
  valOf h b = Some bv -> gradOf h y = Some gy -> wf bv -> wf gy -> dims gy = dims bv ->
  exists g, eval_rule rd h (RDivA y b) = Ok g /\ dims g = dims bv /\ wf g /\
    forall idx, validIdx (dims bv) idx -> elt g idx = elt gy idx * / elt bv idx.
Proof.
  intros Hb Hg Wb Wg Ed. open_rule.
  exact (ar_y thr draw BiDiv gy bv _ _ _ (repr_at gy _ Wg Ed) (repr_self bv Wb)).
Qed.

Theorem vjp_div_a rd h y b xv bv gy :
  valOf h b = Some bv -> gradOf h y = Some gy -> wf bv -> wf gy -> dims gy = dims xv -> dims bv = dims xv ->
  (forall idx, validIdx (dims xv) idx -> elt bv idx <> 0) ->
  exists g, eval_rule rd h (RDivA y b) = Ok g /\ dims g = dims xv /\ wf g /\
    is_vjp (dims xv) (dims xv) (fun a idx => a idx / elt bv idx) (elt xv) (elt gy) (elt g).
Proof.
  intros Hb Hg Wb Wg Ed Edb Hnz. rewrite <- Edb in *.
  eapply yields_vjp; [exact (rdiva_eval rd h y b bv gy Hb Hg Wb Wg Ed)|].
  apply (vjp_pointwise2_l _ Rdiv (fun idx => / elt bv idx)); [|reflexivity].
  intros idx Hv. apply d_div_l, Hnz, Hv.
Qed.

(* Div, denominator: gy * ((-1 * a) / b^2) *)
Lemma rdivb_eval rd h y a b av bv gy :
  valOf h a = Some av -> valOf h b = Some bv -> gradOf h y = Some gy -> wf av -> wf bv -> wf gy ->
  dims gy = dims bv -> dims av = dims bv ->
  exists g, eval_rule rd h (RDivB y a b) = Ok g /\ dims g = dims bv /\ wf g /\
    forall idx, validIdx (dims bv) idx -> elt g idx = elt gy idx * (- elt av idx / (elt bv idx) ^ 2).
Proof.
  intros Ha Hb Hg Wa Wb Wg Ed Eda. open_rule.
  pose proof (repr_self bv Wb) as Rb. pose proof (repr_at gy _ Wg Ed) as Rg. pose proof (repr_at av _ Wa Eda) as Ra.
  eapply yields_ext; [|run_rule].
  intros i _. cbn beta.
  rewrite bF_mul, bF_div, uF_scale, uF_pow, (cst_R _ _ (-1) 0), (cst_R _ _ 2 0), dec2R_m1, dec2R_2, Rpow_2.
  unfold Rdiv. f_equal. replace (elt bv i ^ 2) with (elt bv i * elt bv i) by ring. ring.
Qed.

Theorem vjp_div_b rd h y a b av bv gy :
  valOf h a = Some av -> valOf h b = Some bv -> gradOf h y = Some gy -> wf av -> wf bv -> wf gy ->
  dims gy = dims bv -> dims av = dims bv ->
  (forall idx, validIdx (dims bv) idx -> elt bv idx <> 0) ->
  exists g, eval_rule rd h (RDivB y a b) = Ok g /\ dims g = dims bv /\ wf g /\
    is_vjp (dims bv) (dims bv) (fun b' idx => elt av idx / b' idx) (elt bv) (elt gy) (elt g).
Proof.
  intros Ha Hb Hg Wa Wb Wg Ed Eda Hnz.
  eapply yields_vjp; [exact (rdivb_eval rd h y a b av bv gy Ha Hb Hg Wa Wb Wg Ed Eda)|].
  apply (vjp_pointwise2_r _ Rdiv (fun idx => - elt av idx / (elt bv idx) ^ 2)); [|reflexivity].
  intros idx Hv. apply d_div_r, Hnz, Hv.
Qed.

(* Log: gy / x, the computation of RDivA *)
Lemma rlog_eval rd h y x xv gy :
  valOf h x = Some xv -> gradOf h y = Some gy -> wf xv -> wf gy -> dims gy = dims xv ->
  exists g, eval_rule rd h (RLog y x) = Ok g /\ dims g = dims xv /\ wf g /\
    forall idx, validIdx (dims xv) idx -> elt g idx = elt gy idx * / elt xv idx.
Proof. exact (rdiva_eval rd h y x xv gy). Qed.

Theorem vjp_log rd h y x xv gy :
  valOf h x = Some xv -> gradOf h y = Some gy -> wf xv -> wf gy -> dims gy = dims xv ->
  (forall idx, validIdx (dims xv) idx -> 0 < elt xv idx) ->
  exists g, eval_rule rd h (RLog y x) = Ok g /\ dims g = dims xv /\ wf g /\
    is_vjp (dims xv) (dims xv) (fun a idx => ln (a idx)) (elt xv) (elt gy) (elt g).
Proof.
  intros Hx Hg Wx Wg Ed Hp. eapply yields_vjp; [exact (rlog_eval rd h y x xv gy Hx Hg Wx Wg Ed)|].
  apply (vjp_pointwise _ ln (fun idx => / elt xv idx)); [|reflexivity].
  intros idx Hv. apply d_ln, Hp, Hv.
Qed.

(* Exp: the rule multiplies by the OUTPUT value y = exp x *)
Lemma rexp_eval rd h y yv gy :
  valOf h y = Some yv -> gradOf h y = Some gy -> wf yv -> wf gy -> dims gy = dims yv ->
  exists g, eval_rule rd h (RExp y) = Ok g /\ dims g = dims yv /\ wf g /\
    forall idx, validIdx (dims yv) idx -> elt g idx = elt gy idx * elt yv idx.
Proof.
  intros Hy Hg Wy Wg Ed. open_rule.
  exact (ar_y thr draw BiMul gy yv _ _ _ (repr_at gy _ Wg Ed) (repr_self yv Wy)).
Qed.

Theorem vjp_exp rd h y xv yv gy :
  valOf h y = Some yv -> gradOf h y = Some gy -> wf yv -> wf gy -> dims gy = dims xv -> dims yv = dims xv ->
  (forall idx, validIdx (dims xv) idx -> elt yv idx = exp (elt xv idx)) ->
  exists g, eval_rule rd h (RExp y) = Ok g /\ dims g = dims xv /\ wf g /\
    is_vjp (dims xv) (dims xv) (fun a idx => exp (a idx)) (elt xv) (elt gy) (elt g).
Proof.
  intros Hy Hg Wy Wg Ed Edy Hyv. rewrite <- Edy in *.
  eapply yields_vjp; [exact (rexp_eval rd h y yv gy Hy Hg Wy Wg Ed)|].
  apply (vjp_pointwise _ exp (fun idx => exp (elt xv idx))); [intros idx _; apply d_exp|].
  intros idx Hv. rewrite (Hyv idx Hv). reflexivity.
Qed.

(* Scale(a): a * gy.  Linear: differentiable at every operand value [xv]. *)
Lemma rscale_eval rd h y a gy :
  gradOf h y = Some gy -> wf gy ->
  exists g, eval_rule rd h (RScale y a) = Ok g /\ dims g = dims gy /\ wf g /\
    forall idx, validIdx (dims gy) idx -> elt g idx = elt gy idx * a.
Proof.
  intros Hg Wg. open_rule. pose proof (repr_self gy Wg) as Rg.
  eapply yields_ext; [|run_rule]. intros i _. cbn beta. rewrite uF_scale. ring.
Qed.

Theorem vjp_scale rd h y a xv gy :
  gradOf h y = Some gy -> wf gy -> dims gy = dims xv ->
  exists g, eval_rule rd h (RScale y a) = Ok g /\ dims g = dims xv /\ wf g /\
    is_vjp (dims xv) (dims xv) (fun a' idx => a * a' idx) (elt xv) (elt gy) (elt g).
Proof.
  intros Hg Wg Ed. rewrite <- Ed. eapply yields_vjp; [exact (rscale_eval rd h y a gy Hg Wg)|].
  apply (vjp_pointwise _ (fun v => a * v) (fun _ => a)); [intros idx _; apply d_scale|reflexivity].
Qed.

(* Id: Add (both operands) and Sub (first operand): the gradient is gy itself *)
Lemma rid_eval rd h y gy : gradOf h y = Some gy -> eval_rule rd h (RId y) = Ok gy.
Proof. intros Hg. open_rule. reflexivity. Qed.

Theorem vjp_id rd h y xv gy (o : assignment) :
  gradOf h y = Some gy -> wf gy -> dims gy = dims xv ->
  exists g, eval_rule rd h (RId y) = Ok g /\ dims g = dims xv /\ wf g /\
    is_vjp (dims xv) (dims xv) (fun a idx => a idx + o idx) (elt xv) (elt gy) (elt g) /\   (* Add, first operand *)
    is_vjp (dims xv) (dims xv) (fun b idx => o idx + b idx) (elt xv) (elt gy) (elt g) /\   (* Add, second operand *)
    is_vjp (dims xv) (dims xv) (fun a idx => a idx - o idx) (elt xv) (elt gy) (elt g).     (* Sub, first operand *)
Proof.
  intros Hg Wg Ed. exists gy. split; [apply rid_eval; exact Hg|]. split; [exact Ed|]. split; [exact Wg|].
  split; [|split].
  - apply (vjp_pointwise2_l (dims xv) Rplus (fun _ => 1)); [intros idx _; apply d_add_l|intros idx _; ring].
  - apply (vjp_pointwise2_r (dims xv) Rplus (fun _ => 1)); [intros idx _; apply d_add_r|intros idx _; ring].
  - apply (vjp_pointwise2_l (dims xv) Rminus (fun _ => 1)); [intros idx _; apply d_sub_l|intros idx _; ring].
Qed.

(* Neg: Sub, second operand *)
Lemma rneg_eval rd h y gy :
  gradOf h y = Some gy -> wf gy ->
  exists g, eval_rule rd h (RNeg y) = Ok g /\ dims g = dims gy /\ wf g /\
    forall idx, validIdx (dims gy) idx -> elt g idx = elt gy idx * -1.
Proof.
  intros Hg Wg. open_rule. pose proof (repr_self gy Wg) as Rg.
  eapply yields_ext; [|run_rule]. intros i _. cbn beta. rewrite uF_scale, cst_R, dec2R_m1. ring.
Qed.

Theorem vjp_neg rd h y xv gy (o : assignment) :
  gradOf h y = Some gy -> wf gy -> dims gy = dims xv ->
  exists g, eval_rule rd h (RNeg y) = Ok g /\ dims g = dims xv /\ wf g /\
    is_vjp (dims xv) (dims xv) (fun b idx => o idx - b idx) (elt xv) (elt gy) (elt g).
Proof.
  intros Hg Wg Ed. rewrite <- Ed. eapply yields_vjp; [exact (rneg_eval rd h y gy Hg Wg)|].
  apply (vjp_pointwise2_r _ Rminus (fun _ => -1)); [intros idx _; apply d_sub_r|reflexivity].
Qed.

(* Pow, exponent 0 (decided on the literal): the rule returns toZeros gy *)
Lemma rpow_eval_zero rd h y x a xv gy :
  valOf h x = Some xv -> gradOf h y = Some gy -> wf gy -> dims gy = dims xv ->
  exists g, eval_rule rd h (RPow y x a true) = Ok g /\ dims g = dims xv /\ wf g /\
    forall idx, validIdx (dims xv) idx -> elt g idx = 0.
Proof.
  intros Hx Hg Wg Ed. open_rule. unfold toZeros. pose proof (repr_at gy _ Wg Ed) as Rg.
  eapply yields_ext; [|run_rule]. intros i _. cbn beta. rewrite uF_scale, sconst_R, dec2R_0. ring.
Qed.

(* x^0 = 1 is differentiable everywhere, including x = 0, with derivative 0 *)
Theorem vjp_pow_zero rd h y x xv gy :
  valOf h x = Some xv -> gradOf h y = Some gy -> wf gy -> dims gy = dims xv ->
  exists g, eval_rule rd h (RPow y x 0 true) = Ok g /\ dims g = dims xv /\ wf g /\
    is_vjp (dims xv) (dims xv) (fun a' idx => Rpow (a' idx) 0) (elt xv) (elt gy) (elt g).
Proof.
  intros Hx Hg Wg Ed. eapply yields_vjp; [exact (rpow_eval_zero rd h y x 0 xv gy Hx Hg Wg Ed)|].
  apply (vjp_pointwise _ (fun v => Rpow v 0) (fun _ => 0)); [intros idx _; apply d_Rpow_0|intros idx _; ring].
Qed.

(* Pow, exponent not the literal 0:  gy * (a * x^(a-1)) *)
Lemma rpow_eval rd h y x a xv gy :
  valOf h x = Some xv -> gradOf h y = Some gy -> wf xv -> wf gy -> dims gy = dims xv ->
  exists g, eval_rule rd h (RPow y x a false) = Ok g /\ dims g = dims xv /\ wf g /\
    forall idx, validIdx (dims xv) idx -> elt g idx = elt gy idx * (a * Rpow (elt xv idx) (a - 1)).
Proof.
  intros Hx Hg Wx Wg Ed. open_rule.
  pose proof (repr_self xv Wx) as Rx. pose proof (repr_at gy _ Wg Ed) as Rg.
  eapply yields_ext; [|run_rule].
  intros i _. cbn beta. rewrite bF_mul, uF_scale, uF_pow, ssub_R, cst_R, dec2R_1. reflexivity.
Qed.

(* natural exponent n >= 1: x^n at EVERY x (including 0), derivative n * x^(n-1) *)
Theorem vjp_pow_nat rd h y x n xv gy :
  valOf h x = Some xv -> gradOf h y = Some gy -> wf xv -> wf gy -> dims gy = dims xv -> (1 <= n)%nat ->
  exists g, eval_rule rd h (RPow y x (INR n) false) = Ok g /\ dims g = dims xv /\ wf g /\
    is_vjp (dims xv) (dims xv) (fun a' idx => Rpow (a' idx) (INR n)) (elt xv) (elt gy) (elt g) /\
    is_vjp (dims xv) (dims xv) (fun a' idx => a' idx ^ n) (elt xv) (elt gy) (elt g).
Proof.
  intros Hx Hg Wx Wg Ed Hn.
  destruct (rpow_eval rd h y x (INR n) xv gy Hx Hg Wx Wg Ed) as (g & E & Dg & W & G).
  exists g. split; [exact E|]. split; [exact Dg|]. split; [exact W|].
  assert (V : is_vjp (dims xv) (dims xv) (fun a' idx => Rpow (a' idx) (INR n)) (elt xv) (elt gy) (elt g)).
  { apply (vjp_pointwise (dims xv) (fun v => Rpow v (INR n)) (fun idx => INR n * elt xv idx ^ pred n)).
    - intros idx _. apply d_Rpow_nat.
    - intros idx Hv. rewrite (G idx Hv), (INR_pred n Hn), Rpow_INR. reflexivity. }
  split; [exact V|].
  apply (is_vjp_ext_valid _ _ (fun a' idx => Rpow (a' idx) (INR n))); [|exact V].
  intros a' j _. apply Rpow_INR.
Qed.

(* arbitrary real exponent, every element positive *)
Theorem vjp_pow_pos rd h y x a xv gy :
  valOf h x = Some xv -> gradOf h y = Some gy -> wf xv -> wf gy -> dims gy = dims xv ->
  (forall idx, validIdx (dims xv) idx -> 0 < elt xv idx) ->
  exists g, eval_rule rd h (RPow y x a false) = Ok g /\ dims g = dims xv /\ wf g /\
    is_vjp (dims xv) (dims xv) (fun a' idx => Rpow (a' idx) a) (elt xv) (elt gy) (elt g).
Proof.
  intros Hx Hg Wx Wg Ed Hp. eapply yields_vjp; [exact (rpow_eval rd h y x a xv gy Hx Hg Wx Wg Ed)|].
  apply (vjp_pointwise _ (fun v => Rpow v a) (fun idx => a * Rpower (elt xv idx) (a - 1))).
  - intros idx Hv. apply d_Rpow_pos, Hp, Hv.
  - intros idx Hv. rewrite (Rpow_pos _ _ (Hp idx Hv)). reflexivity.
Qed.

Lemma eqt_near a b : Rabs (a - b) <= thr -> eqt a b = 1.
Proof. intros H. unfold eqt. destruct (Rle_dec (Rabs (a - b)) thr) as [_|N]; [reflexivity|contradiction]. Qed.
Lemma eqt_far a b : thr < Rabs (a - b) -> eqt a b = 0.
Proof. intros H. unfold eqt. destruct (Rle_dec (Rabs (a - b)) thr) as [L|_]; [lra|reflexivity]. Qed.
Lemma eqt_same a : 0 <= thr -> eqt a a = 1.
Proof. intros H. apply eqt_near. replace (a - a) with 0 by ring. rewrite Rabs_R0. exact H. Qed.

(* formula level: gy * ([y = a] - 0.5 * [a = b]) with the threshold equality *)
Lemma relsel_eval rd h y a b yv av bv gy :
  valOf h y = Some yv -> valOf h a = Some av -> valOf h b = Some bv -> gradOf h y = Some gy ->
  wf yv -> wf av -> wf bv -> wf gy -> dims yv = dims av -> dims bv = dims av -> dims gy = dims av ->
  exists g, eval_rule rd h (RElSel y a b) = Ok g /\ dims g = dims av /\ wf g /\
    forall idx, validIdx (dims av) idx ->
      elt g idx = elt gy idx * (eqt (elt yv idx) (elt av idx) - / 2 * eqt (elt av idx) (elt bv idx)).
Proof.
  intros Hy Ha Hb Hg Wy Wa Wb Wg Edy Edb Edg. open_rule.
  pose proof (repr_self av Wa) as Ra. pose proof (repr_at gy _ Wg Edg) as Rg.
  pose proof (repr_at yv _ Wy Edy) as Ry. pose proof (repr_at bv _ Wb Edb) as Rb.
  eapply yields_ext; [|run_rule].
  intros i _. cbn beta. rewrite bF_mul, bF_sub, uF_scale, !bF_eq, cst_R, dec2R_half. reflexivity.
Qed.

(* within the threshold (in particular at an exact tie) each operand receives half of gy *)
Theorem elsel_tie_formula rd h y a b yv av bv gy :
  valOf h y = Some yv -> valOf h a = Some av -> valOf h b = Some bv -> gradOf h y = Some gy ->
  wf yv -> wf av -> wf bv -> wf gy -> dims yv = dims av -> dims bv = dims av -> dims gy = dims av ->
  0 <= thr ->
  exists g, eval_rule rd h (RElSel y a b) = Ok g /\ dims g = dims av /\ wf g /\
    (forall idx, validIdx (dims av) idx -> elt av idx = elt bv idx ->
       elt yv idx = Rmax (elt av idx) (elt bv idx) \/ elt yv idx = Rmin (elt av idx) (elt bv idx) ->
       elt g idx = elt gy idx * / 2) /\
    (forall idx, validIdx (dims av) idx -> Rabs (elt av idx - elt bv idx) <= thr ->
       elt yv idx = elt av idx \/ elt yv idx = elt bv idx ->
       elt g idx = elt gy idx * / 2).
Proof.
  intros Hy Ha Hb Hg Wy Wa Wb Wg Edy Edb Edg Ht.
  destruct (relsel_eval rd h y a b yv av bv gy Hy Ha Hb Hg Wy Wa Wb Wg Edy Edb Edg) as (g & E & Dg & W & G).
  exists g. split; [exact E|]. split; [exact Dg|]. split; [exact W|].
  assert (Near : forall idx, validIdx (dims av) idx -> Rabs (elt av idx - elt bv idx) <= thr ->
       elt yv idx = elt av idx \/ elt yv idx = elt bv idx -> elt g idx = elt gy idx * / 2).
  { intros idx Hv Hn Hyv. rewrite (G idx Hv), (eqt_near _ _ Hn).
    assert (E1 : eqt (elt yv idx) (elt av idx) = 1).
    { destruct Hyv as [-> | ->]; [apply eqt_same; exact Ht|]. apply eqt_near. rewrite Rabs_minus_sym. exact Hn. }
    rewrite E1. field. }
  split; [|exact Near].
  intros idx Hv Eab Hyv. apply (Near idx Hv).
  - rewrite Eab. replace (elt bv idx - elt bv idx) with 0 by ring. rewrite Rabs_R0. exact Ht.
  - left. rewrite <- Eab in Hyv. unfold Rmax, Rmin in Hyv.
    destruct (Rle_dec (elt av idx) (elt av idx)); destruct Hyv; assumption.
Qed.

(* analytic, away from the threshold, for any selection: where [a] wins, y = a and the factor is
   [y = a] - 0 = 1; where it loses, y = b is far from a and the factor is 0 *)
Lemma elsel_vjp sel win ds (a b y gy : assignment) : picks sel win -> 0 <= thr ->
  (forall i, validIdx ds i -> y i = sel (a i) (b i)) ->
  (forall i, validIdx ds i -> thr < Rabs (a i - b i)) ->
  is_vjp ds ds (fun a' i => sel (a' i) (b i)) a gy (fun i => gy i * (eqt (y i) (a i) - / 2 * eqt (a i) (b i))).
Proof.
  intros P Ht Hy Hfar.
  assert (H : forall i, validIdx ds i ->
            exists d, is_derive (fun v => sel v (b i)) (a i) d /\ eqt (y i) (a i) - / 2 * eqt (a i) (b i) = d).
  { intros i Hi. specialize (Hfar i Hi). destruct (P (a i) (b i)) as (P1 & P2 & P3).
    rewrite (Hy i Hi), (eqt_far _ _ Hfar).
    destruct P3 as [W|W].
    - intros Eab. rewrite Eab in Hfar. replace (b i - b i) with 0 in Hfar by ring. rewrite Rabs_R0 in Hfar. lra.
    - destruct (P1 W) as [E D]. exists 1. split; [exact D|]. rewrite E, (eqt_same _ Ht). ring.
    - destruct (P2 W) as [E D]. exists 0. split; [exact D|].
      rewrite E, eqt_far by (rewrite Rabs_minus_sym; exact Hfar). ring. }
  apply (vjp_pointwise2_l ds sel (fun i => eqt (y i) (a i) - / 2 * eqt (a i) (b i))); [|reflexivity].
  intros i Hi. destruct (H i Hi) as (d & D & ->). exact D.
Qed.

Theorem vjp_elmax rd h y a b yv av bv gy :
  valOf h y = Some yv -> valOf h a = Some av -> valOf h b = Some bv -> gradOf h y = Some gy ->
  wf yv -> wf av -> wf bv -> wf gy -> dims yv = dims av -> dims bv = dims av -> dims gy = dims av ->
  (forall idx, validIdx (dims av) idx -> elt yv idx = Rmax (elt av idx) (elt bv idx)) ->
  0 <= thr ->
  (forall idx, validIdx (dims av) idx -> thr < Rabs (elt av idx - elt bv idx)) ->
  exists g, eval_rule rd h (RElSel y a b) = Ok g /\ dims g = dims av /\ wf g /\
    is_vjp (dims av) (dims av) (fun a' idx => Rmax (a' idx) (elt bv idx)) (elt av) (elt gy) (elt g).
Proof.
  intros Hy Ha Hb Hg Wy Wa Wb Wg Edy Edb Edg Hyv Ht Hfar.
  exact (yields_vjp _ _ _ _ _ _ _ (relsel_eval rd h y a b yv av bv gy Hy Ha Hb Hg Wy Wa Wb Wg Edy Edb Edg)
           (elsel_vjp _ _ _ _ _ _ _ picks_max Ht Hyv Hfar)).
Qed.

Theorem vjp_elmin rd h y a b yv av bv gy :
  valOf h y = Some yv -> valOf h a = Some av -> valOf h b = Some bv -> gradOf h y = Some gy ->
  wf yv -> wf av -> wf bv -> wf gy -> dims yv = dims av -> dims bv = dims av -> dims gy = dims av ->
  (forall idx, validIdx (dims av) idx -> elt yv idx = Rmin (elt av idx) (elt bv idx)) ->
  0 <= thr ->
  (forall idx, validIdx (dims av) idx -> thr < Rabs (elt av idx - elt bv idx)) ->
  exists g, eval_rule rd h (RElSel y a b) = Ok g /\ dims g = dims av /\ wf g /\
    is_vjp (dims av) (dims av) (fun a' idx => Rmin (a' idx) (elt bv idx)) (elt av) (elt gy) (elt g).
Proof.
  intros Hy Ha Hb Hg Wy Wa Wb Wg Edy Edb Edg Hyv Ht Hfar.
  exact (yields_vjp _ _ _ _ _ _ _ (relsel_eval rd h y a b yv av bv gy Hy Ha Hb Hg Wy Wa Wb Wg Edy Edb Edg)
           (elsel_vjp _ _ _ _ _ _ _ picks_min Ht Hyv Hfar)).
Qed.

(* the same rule serves the SECOND operand of ElMax(b, a) / ElMin(b, a): [h_elsel] records the edge
   (u, RElSel y u x) for  y = ElMax(x, u) *)
Corollary vjp_elmax_r rd h y a b yv av bv gy :
  valOf h y = Some yv -> valOf h a = Some av -> valOf h b = Some bv -> gradOf h y = Some gy ->
  wf yv -> wf av -> wf bv -> wf gy -> dims yv = dims av -> dims bv = dims av -> dims gy = dims av ->
  (forall idx, validIdx (dims av) idx -> elt yv idx = Rmax (elt bv idx) (elt av idx)) ->
  0 <= thr ->
  (forall idx, validIdx (dims av) idx -> thr < Rabs (elt av idx - elt bv idx)) ->
  exists g, eval_rule rd h (RElSel y a b) = Ok g /\ dims g = dims av /\ wf g /\
    is_vjp (dims av) (dims av) (fun a' idx => Rmax (elt bv idx) (a' idx)) (elt av) (elt gy) (elt g).
Proof.
  intros Hy Ha Hb Hg Wy Wa Wb Wg Edy Edb Edg Hyv Ht Hfar.
  exact (yields_vjp _ _ _ _ _ _ _ (relsel_eval rd h y a b yv av bv gy Hy Ha Hb Hg Wy Wa Wb Wg Edy Edb Edg)
           (elsel_vjp _ _ _ _ _ _ _ (picks_flip _ _ Rmax_comm picks_max) Ht Hyv Hfar)).
Qed.

Corollary vjp_elmin_r rd h y a b yv av bv gy :
  valOf h y = Some yv -> valOf h a = Some av -> valOf h b = Some bv -> gradOf h y = Some gy ->
  wf yv -> wf av -> wf bv -> wf gy -> dims yv = dims av -> dims bv = dims av -> dims gy = dims av ->
  (forall idx, validIdx (dims av) idx -> elt yv idx = Rmin (elt bv idx) (elt av idx)) ->
  0 <= thr ->
  (forall idx, validIdx (dims av) idx -> thr < Rabs (elt av idx - elt bv idx)) ->
  exists g, eval_rule rd h (RElSel y a b) = Ok g /\ dims g = dims av /\ wf g /\
    is_vjp (dims av) (dims av) (fun a' idx => Rmin (elt bv idx) (a' idx)) (elt av) (elt gy) (elt g).
Proof.
  intros Hy Ha Hb Hg Wy Wa Wb Wg Edy Edb Edg Hyv Ht Hfar.
  exact (yields_vjp _ _ _ _ _ _ _ (relsel_eval rd h y a b yv av bv gy Hy Ha Hb Hg Wy Wa Wb Wg Edy Edb Edg)
           (elsel_vjp _ _ _ _ _ _ _ (picks_flip _ _ Rmin_comm picks_min) Ht Hyv Hfar)).
Qed.

(* FINDING (library behaviour, not a model defect): the tie test uses the THRESHOLD equality, so at a
   near tie 0 < |a - b| <= thr — where ElMax is differentiable, with partial derivative 1 in the larger
   operand — the rule still hands each operand gy/2.  The VJP statement is false there. *)
Lemma elt_sc v : elt (mkT [] (Sc v)) [] = v.
Proof. reflexivity. Qed.

Theorem vjp_elmax_near_tie_refuted rd : 0 < thr ->
  exists (h : @heap R) y a b yv av bv gy g,
    valOf h y = Some yv /\ valOf h a = Some av /\ valOf h b = Some bv /\ gradOf h y = Some gy /\
    wf yv /\ wf av /\ wf bv /\ wf gy /\ dims yv = dims av /\ dims bv = dims av /\ dims gy = dims av /\
    (forall idx, validIdx (dims av) idx -> elt yv idx = Rmax (elt av idx) (elt bv idx)) /\
    (forall idx, validIdx (dims av) idx -> elt bv idx < elt av idx) /\   (* no tie: differentiable here *)
    eval_rule rd h (RElSel y a b) = Ok g /\
    ~ is_vjp (dims av) (dims av) (fun a' idx => Rmax (a' idx) (elt bv idx)) (elt av) (elt gy) (elt g).
Proof.
  intros Ht.
  pose (av := mkT [] (Sc thr) : T). pose (bv := mkT [] (Sc 0) : T).
  pose (yv := mkT [] (Sc (Rmax thr 0)) : T). pose (gy := mkT [] (Sc 1) : T).
  pose (h := [mkNode av true false None [] None; mkNode bv true false None [] None;
              mkNode yv true false (Some gy) [(0%nat, RElSel 2 0 1); (1%nat, RElSel 2 1 0)] None] : @heap R).
  assert (Wsc : forall v, wf (mkT [] (Sc v) : T)) by (intros v; split; cbn; [exact I|constructor]).
  assert (Hy : valOf h 2 = Some yv) by reflexivity.
  assert (Ha : valOf h 0 = Some av) by reflexivity.
  assert (Hb : valOf h 1 = Some bv) by reflexivity.
  assert (Hg : gradOf h 2 = Some gy) by reflexivity.
  assert (Hle : 0 <= thr) by lra.
  destruct (elsel_tie_formula rd h 2 0 1 yv av bv gy Hy Ha Hb Hg (Wsc _) (Wsc _) (Wsc _) (Wsc _)
              eq_refl eq_refl eq_refl Hle) as (g & E & Dg & W & _ & Near).
  assert (Vnil : validIdx (dims av) []) by constructor.
  assert (Gnil : elt g [] = / 2).
  { rewrite (Near [] Vnil).
    - unfold gy. rewrite elt_sc. ring.
    - unfold av, bv. rewrite !elt_sc. rewrite Rabs_right; lra.
    - left. unfold yv, av. rewrite !elt_sc. apply Rmax_left. lra. }
  exists h, 2%nat, 0%nat, 1%nat, yv, av, bv, gy, g.
  repeat (split; [first [reflexivity | apply Wsc | assumption]|]).
  split; [intros idx Hv; apply validIdx_nil in Hv; subst idx; reflexivity|].
  split; [intros idx Hv; apply validIdx_nil in Hv; subst idx; unfold av, bv; rewrite !elt_sc; exact Ht|].
  split; [exact E|].
  intros V.
  assert (V1 : is_vjp (dims av) (dims av) (fun a' idx => Rmax (a' idx) (elt bv idx)) (elt av) (elt gy) (fun i => elt gy i * 1)).
  { apply (vjp_pointwise2_l _ Rmax (fun _ => 1)); [|reflexivity].
    intros idx Hv. apply validIdx_nil in Hv. subst idx. apply (proj1 (picks_max _ _)).
    unfold av, bv. rewrite !elt_sc. exact Ht. }
  pose proof (is_vjp_unique _ _ _ _ _ _ _ V V1 [] Vnil) as E'. rewrite Gnil in E'. unfold gy in E'. rewrite elt_sc in E'. lra.
Qed.

End VjpElem.

Module VjpElemExamples.
Section Ex.
Variables (thr : R) (draw : bool -> nat -> R).
Local Hint Extern 0 (Scalar R) => exact (R_scalar thr draw) : typeclass_instances.

Definition xv : tensor R := mkT [2%nat] (Vec [Sc 1; Sc 2]).
Definition gy : tensor R := mkT [2%nat] (Vec [Sc 3; Sc 4]).
Definition yv : tensor R := mkT [2%nat] (Vec [Sc (sin 1); Sc (sin 2)]).
Definition lv : tensor R := mkT [2%nat] (Vec [Sc (ln 1); Sc (ln 2)]).

Lemma wf_vec2 (a b : R) : wf (mkT [2%nat] (Vec [Sc a; Sc b])).
Proof. split; cbn; repeat constructor. Qed.

Lemma valid2 idx : validIdx [2%nat] idx -> idx = [0%nat] \/ idx = [1%nat].
Proof.
  intros Hv. apply validIdx_cons in Hv as (i & r & -> & Hi & Hr). apply validIdx_nil in Hr; subst r.
  destruct i as [|[|i]]; [left; reflexivity|right; reflexivity|lia].
Qed.

(* the heap the tracked call  y := Sin(x)  builds on a tracked leaf, with y's gradient set to gy *)
Definition h0 : @heap R := fst (leaf [] xv true None).
Example h_math_sin : h_math h0 FSin 0 None =
  ([mkNode xv true false None [] None; mkNode yv true false None [(0%nat, RSin 1 0)] None], Ok 1%nat).
Proof. reflexivity. Qed.

Definition hS : @heap R :=
  [mkNode xv true false None [] None; mkNode yv true false (Some gy) [(0%nat, RSin 1 0)] None].

Example sin_ex rd : exists g, eval_rule rd hS (RSin 1 0) = Ok g /\ dims g = [2%nat] /\ wf g /\
  elt g [1%nat] = 4 * cos 2 /\
  is_vjp [2%nat] [2%nat] (fun a idx => sin (a idx)) (elt xv) (elt gy) (elt g).
Proof.
  destruct (rsin_eval thr draw rd hS 1 0 xv gy eq_refl eq_refl (wf_vec2 _ _) (wf_vec2 _ _) eq_refl)
    as (g & E & D & W & G).
  destruct (vjp_sin thr draw rd hS 1 0 xv gy eq_refl eq_refl (wf_vec2 _ _) (wf_vec2 _ _) eq_refl)
    as (g' & E' & _ & _ & V).
  assert (g' = g) by congruence. subst g'.
  exists g. split; [exact E|]. split; [exact D|]. split; [exact W|]. split; [|exact V].
  rewrite G by (repeat constructor). reflexivity.
Qed.

(* a guarded rule: Log on positive elements *)
Definition hL : @heap R :=
  [mkNode xv true false None [] None; mkNode lv true false (Some gy) [(0%nat, RLog 1 0)] None].
Example log_guard : forall idx, validIdx (dims xv) idx -> 0 < elt xv idx.
Proof. intros idx Hv. destruct (valid2 idx Hv) as [-> | ->]; unfold elt; cbn; lra. Qed.
Example log_ex rd : exists g, eval_rule rd hL (RLog 1 0) = Ok g /\ dims g = [2%nat] /\ wf g /\
  is_vjp [2%nat] [2%nat] (fun a idx => ln (a idx)) (elt xv) (elt gy) (elt g).
Proof.
  exact (vjp_log thr draw rd hL 1 0 xv gy eq_refl eq_refl (wf_vec2 _ _) (wf_vec2 _ _) eq_refl log_guard).
Qed.

(* Pow with exponent 2 at a tensor containing 0: x = [0; 2], gradient gy * 2x = [0; 16] *)
Definition zv : tensor R := mkT [2%nat] (Vec [Sc 0; Sc 2]).
Definition pv : tensor R := mkT [2%nat] (Vec [Sc (Rpow 0 2); Sc (Rpow 2 2)]).
Definition hP : @heap R :=
  [mkNode zv true false None [] None; mkNode pv true false (Some gy) [(0%nat, RPow 1 0 (INR 2) false)] None].
Example pow_ex rd : exists g, eval_rule rd hP (RPow 1 0 (INR 2) false) = Ok g /\ dims g = [2%nat] /\ wf g /\
  elt g [0%nat] = 0 /\ elt g [1%nat] = 16 /\
  is_vjp [2%nat] [2%nat] (fun a idx => a idx ^ 2) (elt zv) (elt gy) (elt g).
Proof.
  destruct (rpow_eval thr draw rd hP 1 0 (INR 2) zv gy eq_refl eq_refl (wf_vec2 _ _) (wf_vec2 _ _) eq_refl)
    as (g & E & D & W & G).
  destruct (vjp_pow_nat thr draw rd hP 1 0 2 zv gy eq_refl eq_refl (wf_vec2 _ _) (wf_vec2 _ _) eq_refl
              ltac:(lia)) as (g' & E' & _ & _ & _ & V).
  assert (g' = g) by congruence. subst g'.
  exists g. split; [exact E|]. split; [exact D|]. split; [exact W|].
  assert (P : forall v, Rpow v (INR 2 - 1) = v) by (intros v; rewrite (INR_pred 2) by lia; rewrite Rpow_INR; cbn; ring).
  split; [|split; [|exact V]].
  - rewrite G by (repeat constructor). rewrite P. unfold elt; cbn. ring.
  - rewrite G by (repeat constructor). rewrite P. unfold elt; cbn. ring.
Qed.
End Ex.

(* ElMax with the threshold 0: a = [1; 5], b = [2; 3], y = max = [2; 5]; gradient of a is [0; 4] *)
Section ExMax.
Variable draw : bool -> nat -> R.
Definition av : tensor R := mkT [2%nat] (Vec [Sc 1; Sc 5]).
Definition bv : tensor R := mkT [2%nat] (Vec [Sc 2; Sc 3]).
Definition mv : tensor R := mkT [2%nat] (Vec [Sc (Rmax 1 2); Sc (Rmax 5 3)]).
Definition hM : @heap R :=
  [mkNode av true false None [] None; mkNode bv true false None [] None;
   mkNode mv true false (Some gy) [(0%nat, RElSel 2 0 1); (1%nat, RElSel 2 1 0)] None].
Example elmax_ex rd : exists g, eval_rule (SA:=R_scalar 0 draw) rd hM (RElSel 2 0 1) = Ok g /\ dims g = [2%nat] /\ wf g /\
  is_vjp [2%nat] [2%nat] (fun a' idx => Rmax (a' idx) (elt bv idx)) (elt av) (elt gy) (elt g).
Proof.
  apply (vjp_elmax 0 draw rd hM 2 0 1 mv av bv gy eq_refl eq_refl eq_refl eq_refl
           (wf_vec2 _ _) (wf_vec2 _ _) (wf_vec2 _ _) (wf_vec2 _ _) eq_refl eq_refl eq_refl).
  - intros idx Hv. destruct (valid2 idx Hv) as [-> | ->]; reflexivity.
  - lra.
  - intros idx Hv. destruct (valid2 idx Hv) as [-> | ->]; unfold elt; cbn; unfold Rabs; destruct (Rcase_abs _); lra.
Qed.
End ExMax.
End VjpElemExamples.

Print Assumptions vjp_pointwise_idx.
Print Assumptions vjp_pointwise.
Print Assumptions vjp_pointwise2_l.
Print Assumptions vjp_pointwise2_r.
Print Assumptions vjp_scale.
Print Assumptions vjp_exp.
Print Assumptions vjp_log.
Print Assumptions vjp_sin.
Print Assumptions vjp_cos.
Print Assumptions vjp_tan.
Print Assumptions vjp_sinh.
Print Assumptions vjp_cosh.
Print Assumptions vjp_tanh.
Print Assumptions vjp_pow_zero.
Print Assumptions vjp_pow_nat.
Print Assumptions vjp_pow_pos.
Print Assumptions vjp_id.
Print Assumptions vjp_neg.
Print Assumptions vjp_mul.
Print Assumptions vjp_div_a.
Print Assumptions vjp_div_b.
Print Assumptions relsel_eval.
Print Assumptions elsel_tie_formula.
Print Assumptions vjp_elmax.
Print Assumptions vjp_elmin.
Print Assumptions vjp_elmax_r.
Print Assumptions vjp_elmin_r.
Print Assumptions vjp_elmax_near_tie_refuted.
