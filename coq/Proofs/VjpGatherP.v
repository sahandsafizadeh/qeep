(* VjpGatherP.v — the backward rules of the "gather" operations are vector-Jacobian products
   (properties C02 and C07).  Every output element of a gather operation is a copy of one
   operand element, y_j = x_{sigma(j)} (Slice, Reshape/UnSqueeze/Squeeze/Flatten, Transpose,
   Broadcast, Concat per operand) or of one of two operands (Patch).  For such an operation the
   vector-Jacobian product is  g_i = Σ_{j : sigma(j) = i} gy_j.
   Instance: the reals, [R_scalar thr draw] for arbitrary thr, draw.
   In order: the fact about assignments, vjp_gather(_opt)(_inv); vjp_reshape; vjp_slice; Broadcast:
   bcastBack_char, vjp_broadcast_sum, broadcast_avg_char, broadcast_avg_refuted (known finding D2);
   vjp_concat, vjp_patch_src/_tgt, vjp_transpose; the same under "the forward call returned Ok" (…_fwd),
   and vjp_concat_edge for the index gradtrack.Concat installs; examples.
   The theorems about a rule (vjp_reshape, vjp_slice, ... and their _fwd forms) also conclude that the
   rule evaluates to Ok (never Err, never Panic). *)
From Coq Require Import List Arith ZArith Bool Lia ZifyBool Reals Lra.
From Coquelicot Require Import Coquelicot.
From Qeep Require Import Model.Scalar Model.Nd Model.Fill Model.Data Model.Valid Model.Api Model.Grad.
From Qeep Require Import Spec.RScalar Spec.VjpSpec.
From Qeep Require Import Proofs.NdP Proofs.ElemP Proofs.SliceP Proofs.OdometerP Proofs.ReshapeP
  Proofs.BroadcastP Proofs.ReduceP Proofs.TransposeP.
Import ListNotations.
Local Open Scope R_scope.

Lemma sumIdx_zero ds : sumIdx ds (fun _ => 0) = 0.
Proof. unfold sumIdx. apply sum_zero. Qed.

Lemma idx_eqb_refl a : idx_eqb a a = true.
Proof. apply idx_eqb_eq. reflexivity. Qed.

Lemma idx_eqb_neq a b : a <> b -> idx_eqb a b = false.
Proof. intros H. destruct (idx_eqb a b) eqn:E; [|reflexivity]. apply idx_eqb_eq in E. contradiction. Qed.

(* an output element is a copy of the operand element [sigma j], or does not depend on the
   operand at all ([sigma j = None]: a constant [c j], e.g. an element of another operand) *)
Definition gatherF (sigma : list nat -> option (list nat)) (c : assignment) : assignment -> assignment :=
  fun a j => match sigma j with Some k => a k | None => c j end.

Definition hits (sigma : list nat -> option (list nat)) (j i : list nat) : bool :=
  match sigma j with Some k => idx_eqb k i | None => false end.

Lemma gather_partial sigma c x i j :
  is_partial (gatherF sigma c) x i j (if hits sigma j i then 1 else 0).
Proof.
  unfold is_partial, gatherF, hits, perturb. destruct (sigma j) as [k|].
  - destruct (idx_eqb k i).
    + auto_derive; [exact I|ring].
    + auto_derive; [exact I|ring].
  - auto_derive; [exact I|ring].
Qed.

Theorem vjp_gather_opt dsx dsy sigma c (x gy g : assignment) :
  (forall i, validIdx dsx i -> g i = sumIdx dsy (fun j => if hits sigma j i then gy j else 0)) ->
  is_vjp dsx dsy (gatherF sigma c) x gy g.
Proof.
  intros H i Hi. exists (fun j => if hits sigma j i then 1 else 0). split.
  - intros j _. apply gather_partial.
  - rewrite (H i Hi). apply sumIdx_ext. intros j _. destruct (hits sigma j i); ring.
Qed.

(* the converse: the partial derivatives are unique, so a vector-Jacobian product of a gather
   operation IS the sum of the upstream gradient over the copies *)
Theorem vjp_gather_opt_inv dsx dsy sigma c (x gy g : assignment) :
  is_vjp dsx dsy (gatherF sigma c) x gy g ->
  forall i, validIdx dsx i -> g i = sumIdx dsy (fun j => if hits sigma j i then gy j else 0).
Proof.
  intros H. apply (is_vjp_unique _ _ _ _ _ _ _ H). apply vjp_gather_opt. reflexivity.
Qed.

(* total version: y_j = x_{sigma j} *)
Theorem vjp_gather dsx dsy (sigma : list nat -> list nat) (x gy g : assignment) :
  (forall i, validIdx dsx i -> g i = sumIdx dsy (fun j => if idx_eqb (sigma j) i then gy j else 0)) ->
  is_vjp dsx dsy (fun a j => a (sigma j)) x gy g.
Proof.
  intros H. apply (vjp_gather_opt dsx dsy (fun j => Some (sigma j)) (fun _ => 0)). exact H.
Qed.

Theorem vjp_gather_inv dsx dsy (sigma : list nat -> list nat) (x gy g : assignment) :
  is_vjp dsx dsy (fun a j => a (sigma j)) x gy g ->
  forall i, validIdx dsx i -> g i = sumIdx dsy (fun j => if idx_eqb (sigma j) i then gy j else 0).
Proof.
  intros H. apply (vjp_gather_opt_inv dsx dsy (fun j => Some (sigma j)) (fun _ => 0) x). exact H.
Qed.

(* the sum over the copies when there is exactly one copy / no copy *)
Lemma sum_hits_one dsy (hit : list nat -> bool) (gy : assignment) j0 :
  validIdx dsy j0 -> hit j0 = true -> (forall j, validIdx dsy j -> hit j = true -> j = j0) ->
  sumIdx dsy (fun j => if hit j then gy j else 0) = gy j0.
Proof.
  intros Hv H0 Hu. rewrite <- (sumIdx_single dsy j0 gy Hv). apply sumIdx_ext. intros j Hj.
  destruct (hit j) eqn:E.
  - rewrite (Hu j Hj E), idx_eqb_refl. reflexivity.
  - destruct (idx_eqb j j0) eqn:E'; [|reflexivity]. apply idx_eqb_eq in E'. subst j. congruence.
Qed.

Lemma sum_hits_none dsy (hit : list nat -> bool) (gy : assignment) :
  (forall j, validIdx dsy j -> hit j = false) ->
  sumIdx dsy (fun j => if hit j then gy j else 0) = 0.
Proof.
  intros H. transitivity (sumIdx dsy (fun _ => 0)); [|apply sumIdx_zero].
  apply sumIdx_ext. intros j Hj. rewrite (H j Hj). reflexivity.
Qed.

(* a gather whose index map has a partial inverse [tau]: every operand element is copied at most
   once, and receives the upstream gradient of its copy *)
Lemma vjp_gather_pinv dsx dsy sigma c (tau : list nat -> option (list nat)) (x gy g : assignment) :
  (forall i j, validIdx dsx i -> tau i = Some j -> validIdx dsy j /\ sigma j = Some i) ->
  (forall i j, validIdx dsx i -> validIdx dsy j -> sigma j = Some i -> tau i = Some j) ->
  (forall i, validIdx dsx i -> g i = match tau i with Some j => gy j | None => 0 end) ->
  is_vjp dsx dsy (gatherF sigma c) x gy g.
Proof.
  intros H1 H2 Hg. apply vjp_gather_opt. intros i Hi. rewrite (Hg i Hi). symmetry.
  destruct (tau i) as [j0|] eqn:Et.
  - destruct (H1 i j0 Hi Et) as [Hv Hs]. apply (sum_hits_one dsy (fun j => hits sigma j i) gy j0 Hv).
    + unfold hits. rewrite Hs. apply idx_eqb_refl.
    + intros j Hj E. unfold hits in E. destruct (sigma j) as [k|] eqn:Es; [|discriminate].
      apply idx_eqb_eq in E. subst k. pose proof (H2 i j Hi Hj Es) as E2. congruence.
  - apply sum_hits_none. intros j Hj. unfold hits. destruct (sigma j) as [k|] eqn:Es; [|reflexivity].
    apply idx_eqb_neq. intros ->. pose proof (H2 i j Hi Hj Es). congruence.
Qed.

Corollary vjp_gather_inj dsx dsy (sigma : list nat -> list nat) (x gy g : assignment) :
  (forall j j', validIdx dsy j -> validIdx dsy j' -> sigma j = sigma j' -> j = j') ->
  (forall j, validIdx dsy j -> g (sigma j) = gy j) ->
  (forall i, validIdx dsx i -> (forall j, validIdx dsy j -> sigma j <> i) -> g i = 0) ->
  (forall i, validIdx dsx i -> (exists j, validIdx dsy j /\ sigma j = i) \/ (forall j, validIdx dsy j -> sigma j <> i)) ->
  is_vjp dsx dsy (fun a j => a (sigma j)) x gy g.
Proof.
  intros Hinj Hhit Hmiss Hdec. apply vjp_gather. intros i Hi.
  destruct (Hdec i Hi) as [(j0 & Hj0 & E)|Hn].
  - rewrite (sum_hits_one dsy (fun j => idx_eqb (sigma j) i) gy j0 Hj0).
    + rewrite <- E. apply Hhit, Hj0.
    + apply idx_eqb_eq, E.
    + intros j Hj Ej. apply idx_eqb_eq in Ej. apply Hinj; [exact Hj|exact Hj0|congruence].
  - rewrite sum_hits_none; [apply Hmiss; assumption|].
    intros j Hj. apply idx_eqb_neq, Hn, Hj.
Qed.

Section Inst.
Variables (thr : R) (draw : bool -> nat -> R).
Local Instance RS : Scalar R := R_scalar thr draw.

Lemma smul_R a b : smul a b = a * b.  Proof. reflexivity. Qed.
Lemma sadd_R a b : sadd a b = a + b.  Proof. reflexivity. Qed.
Lemma sdiv_R a b : sdiv a b = a / b.  Proof. reflexivity. Qed.
Lemma s0_R : s0 = 0.                  Proof. reflexivity. Qed.
Lemma sofnat_R n : sofnat n = INR n.  Proof. reflexivity. Qed.
Lemma szero_R : sconst 0 0 = 0.
Proof. cbn. unfold dec2R. cbn. ring. Qed.

Lemma elt_get (t : tensor R) idx : wf t -> validIdx (dims t) idx -> get (data t) idx = Some (elt t idx).
Proof.
  intros [Hw _] Hv. unfold elt. destruct (get_wf R _ _ _ Hw Hv) as (a & ->). reflexivity.
Qed.

Lemma heap_gy (h : heap) y (gy : tensor R) : gradOf h y = Some gy -> gy_of h y = Ok gy.
Proof. intros E. unfold gy_of. rewrite E. reflexivity. Qed.
Lemma heap_val (h : heap) x (xv : tensor R) : valOf h x = Some xv -> val_of h x = Ok xv.
Proof. intros E. unfold val_of. rewrite E. reflexivity. Qed.

(* toZeros: never fails, same shape, every element 0 * x_i = 0 *)
Lemma toZeros_spec (t : tensor R) : wf t ->
  exists z, toZeros t = Ok z /\ repr z (dims t) (fun _ => 0).
Proof.
  intros Hw. unfold toZeros. destruct (v_unary_spec (UScale (sconst 0 0)) t Hw) as (z & Ez & Hd & Hwz & Hg).
  exists z. split; [exact Ez|]. split; [exact Hd|]. split; [exact Hwz|].
  intros i Hi. unfold elt. rewrite (Hg i Hi), (elt_get t i Hw Hi). cbn [option_map unaryF].
  rewrite smul_R, szero_R. ring.
Qed.

(* Reshape / UnSqueeze / Squeeze / Flatten: gy.Reshape(x.Shape()) *)

Lemma unflatIdx_flatIdx ds i : validIdx ds i -> unflatIdx ds (flatIdx ds i) = i.
Proof.
  intros Hv. pose proof (OdometerP.validIdx_pos ds i Hv) as Hp.
  apply (flatIdx_inj ds); [apply unflatIdx_valid, Hp|exact Hv|].
  apply flatIdx_unflatIdx; [exact Hp|apply flatIdx_lt, Hv].
Qed.

(* a reshaped tensor, element by element *)
Lemma reshaped_elt (t r : tensor R) shape : wf t -> reshaped R t r shape -> prodn shape = prodn (dims t) ->
  forall i, validIdx shape i -> elt r i = elt t (unflatIdx (dims t) (flatIdx shape i)).
Proof.
  intros Hwt (Hd & Hwr & Hf) Hn i Hi. unfold elt.
  destruct Hwr as [Hwr _]. rewrite Hd in Hwr. destruct Hwt as [Hwt Hpt].
  pose proof (flatIdx_lt shape i Hi) as Hk. rewrite Hn in Hk.
  rewrite <- (flat_nth R shape (data r) i Hwr Hi), Hf.
  rewrite <- (flat_nth R (dims t) (data t) _ Hwt (unflatIdx_valid (dims t) _ Hpt)).
  rewrite flatIdx_unflatIdx by assumption. reflexivity.
Qed.

Theorem vjp_reshape (rd : bred) (h : heap) (y x : nat) (xv gy : tensor R) :
  valOf h x = Some xv -> gradOf h y = Some gy -> wf xv -> wf gy ->
  prodn (dims gy) = prodn (dims xv) ->
  exists g, eval_rule rd h (RReshape y x) = Ok g /\ dims g = dims xv /\ wf g /\
    (forall i, validIdx (dims xv) i -> elt g i = elt gy (unflatIdx (dims gy) (flatIdx (dims xv) i))) /\
    is_vjp (dims xv) (dims gy) (fun a j => a (unflatIdx (dims xv) (flatIdx (dims gy) j)))
           (elt xv) (elt gy) (elt g).
Proof.
  intros Ex Ey Hwx Hwg Hn. cbn [eval_rule]. rewrite (heap_gy h y gy Ey), (heap_val h x xv Ex). cbn [res_bind].
  destruct (v_reshape_spec R gy (zdims xv) Hwg) as [H1 _].
  destruct H1 as (g & Eg & Hr).
  { apply validateReshape_iff. exists (dims xv). split; [reflexivity|]. split; [exact (proj2 Hwx)|]. lia. }
  unfold zdims in Hr at 1. rewrite natsOf_of_nat in Hr.
  exists g. split; [exact Eg|]. destruct Hr as (Hd & Hwr & Hf). split; [exact Hd|]. split; [exact Hwr|].
  assert (Hel : forall i, validIdx (dims xv) i -> elt g i = elt gy (unflatIdx (dims gy) (flatIdx (dims xv) i))).
  { apply (reshaped_elt gy g (dims xv) Hwg); [split; [exact Hd|split; [exact Hwr|exact Hf]]|lia]. }
  split; [exact Hel|].
  apply vjp_gather. intros i Hi. rewrite (Hel i Hi).
  pose proof (flatIdx_lt _ _ Hi) as Hk. rewrite <- Hn in Hk.
  set (j0 := unflatIdx (dims gy) (flatIdx (dims xv) i)).
  assert (Hj0 : validIdx (dims gy) j0) by (apply unflatIdx_valid, Hwg).
  assert (Ej0 : flatIdx (dims gy) j0 = flatIdx (dims xv) i) by (apply flatIdx_unflatIdx; [apply Hwg|exact Hk]).
  symmetry. apply (sum_hits_one (dims gy) (fun j => idx_eqb (unflatIdx (dims xv) (flatIdx (dims gy) j)) i) (elt gy) j0 Hj0).
  - apply idx_eqb_eq. rewrite Ej0. apply unflatIdx_flatIdx, Hi.
  - intros j Hj E. apply idx_eqb_eq in E.
    apply (flatIdx_inj (dims gy)); [exact Hj|exact Hj0|]. rewrite Ej0, <- E.
    symmetry. apply flatIdx_unflatIdx; [apply Hwx|]. rewrite <- Hn. apply flatIdx_lt, Hj.
Qed.

(* Slice: toZeros(x).Patch(index, gy) *)

(* completing an index against the shape of the slice it produces gives the same ranges: an
   omitted range means "the whole dimension" for the Slice and for the Patch of the back edge *)
Lemma completeIndex_sizes index : forall ds,
  completeIndex index (sizes (completeIndex index ds)) = completeIndex index ds.
Proof.
  intros ds. revert index. induction ds as [|d ds IH]; intros [|[f t] index]; cbn [completeIndex sizes map]; try reflexivity.
  - fold (sizes (completeIndex [] ds)). rewrite IH. cbn [fst snd]. rewrite Nat.sub_0_r. reflexivity.
  - fold (sizes (completeIndex index ds)). rewrite IH.
    destruct ((f =? 0) && (t =? 0))%nat eqn:E; cbn [fst snd]; rewrite ?E, ?Nat.sub_0_r; reflexivity.
Qed.

(* the Patch validator accepts the Slice index against the slice's own shape *)
Lemma zslice_patch_ok : forall ds index, zsliceOk index ds ->
  Forall2 le (sizes (completeIndex (rangesOf index) ds)) ds /\
  zpatchOk index (sizes (completeIndex (rangesOf index) ds)) ds.
Proof.
  induction ds as [|d ds IH]; intros [|[f t] index] H; cbn [rangesOf map completeIndex sizes fst snd].
  - split; [constructor|exact I].
  - cbn in H. contradiction.
  - destruct (IH [] I) as [IH1 _]. split; [|exact I]. constructor; [lia|exact IH1].
  - cbn [zsliceOk] in H. destruct H as [H0 H]. destruct (IH index H) as [IH1 IH2].
    fold (rangesOf index). fold (sizes (completeIndex (rangesOf index) ds)).
    destruct ((Z.to_nat f =? 0) && (Z.to_nat t =? 0))%nat eqn:E; cbn [fst snd zpatchOk].
    + split; [constructor; [lia|exact IH1]|]. split; [|exact IH2]. lia.
    + split; [constructor; [lia|exact IH1]|]. split; [|exact IH2]. lia.
Qed.

Lemma inBlock_unshift : forall ci dus dts, region ci dus dts -> forall i, validIdx dts i ->
  inBlock ci dus i = true -> validIdx dus (unshift i ci) /\ shift (unshift i ci) ci = i.
Proof.
  induction ci as [|[f t] ci IH]; intros [|du dus] [|dt dts] H i Hv Hb; cbn in H; try contradiction.
  - apply validIdx_nil in Hv. subst i. split; [constructor|reflexivity].
  - destruct H as [[H1 H2] H]. apply validIdx_cons in Hv as (k & r & -> & Hk & Hr).
    cbn [inBlock] in Hb. apply andb_true_iff in Hb as [Hb Hb3]. apply andb_true_iff in Hb as [Hb1 Hb2].
    apply Nat.leb_le in Hb1. apply Nat.ltb_lt in Hb2.
    destruct (IH dus dts H r Hr Hb3) as [Ha Hc]. rewrite unshift_cons, shift_cons, Hc. split.
    + constructor; [lia|exact Ha].
    + f_equal. lia.
Qed.

Theorem vjp_slice (rd : bred) (h : heap) (y x : nat) (index : list zrange) (xv gy : tensor R) :
  valOf h x = Some xv -> gradOf h y = Some gy -> wf xv ->
  validateSliceIndexAgainstDims index (zdims xv) = true ->
  wf gy -> dims gy = sizes (completeIndex (rangesOf index) (dims xv)) ->
  exists g, eval_rule rd h (RSliceX y x index) = Ok g /\ dims g = dims xv /\ wf g /\
    (forall i, validIdx (dims xv) i ->
       elt g i = if inBlock (completeIndex (rangesOf index) (dims xv)) (dims gy) i
                 then elt gy (unshift i (completeIndex (rangesOf index) (dims xv))) else 0) /\
    is_vjp (dims xv) (dims gy)
           (fun a j => a (shift j (completeIndex (rangesOf index) (dims xv))))
           (elt xv) (elt gy) (elt g).
Proof.
  intros Ex Ey Hwx V Hwg Hdg. cbn [eval_rule]. rewrite (heap_gy h y gy Ey), (heap_val h x xv Ex). cbn [res_bind].
  destruct (toZeros_spec xv Hwx) as (z & Ez & Hdz & Hwz & Hz). rewrite Ez. cbn [res_bind].
  unfold zdims in V. apply validateSlice_iff in V.
  destruct (zslice_patch_ok (dims xv) index V) as [HF Hzp].
  set (ci := completeIndex (rangesOf index) (dims xv)) in *.
  rewrite <- Hdg in HF, Hzp.
  destruct (v_patch_spec z gy index Hwz Hwg) as [H1 _].
  destruct H1 as (g & Eg & Hd & Hwr & Hg).
  { unfold zdims. rewrite Hdz. apply validatePatch_iff. split; assumption. }
  assert (Eci : completeIndex (rangesOf index) (dims gy) = ci).
  { rewrite Hdg. apply completeIndex_sizes. }
  rewrite Eci, Hdz in Hg. rewrite Hdz in Hd.
  assert (Hreg : region ci (dims gy) (dims xv)).
  { rewrite <- Eci. apply completeIndex_region; [exact HF|]. apply zpatchOk_nat, Hzp. }
  exists g. split; [exact Eg|]. split; [exact Hd|]. split; [exact Hwr|].
  assert (Hel : forall i, validIdx (dims xv) i ->
            elt g i = if inBlock ci (dims gy) i then elt gy (unshift i ci) else 0).
  { intros i Hi. unfold elt at 1. rewrite (Hg i Hi). destruct (inBlock ci (dims gy) i) eqn:Eb.
    - reflexivity.
    - exact (Hz i Hi). }
  split; [exact Hel|].
  apply (vjp_gather_pinv _ _ (fun j => Some (shift j ci)) (fun _ => 0)
           (fun i => if inBlock ci (dims gy) i then Some (unshift i ci) else None)).
  - intros i j Hi E. destruct (inBlock ci (dims gy) i) eqn:Eb; inversion E; subst.
    destruct (inBlock_unshift ci (dims gy) (dims xv) Hreg i Hi Eb) as [Hv Hs]. rewrite Hs. auto.
  - intros i j _ Hj E. inversion E; subst.
    destruct (region_shift ci (dims gy) (dims xv) Hreg j Hj) as (_ & Hb & Hu). rewrite Hb, Hu. reflexivity.
  - intros i Hi. rewrite (Hel i Hi). destruct (inBlock ci (dims gy) i); reflexivity.
Qed.

Definition lsum {X} (l : list X) (h : X -> R) : R := fold_right Rplus 0 (map h l).
Definition sumN (n : nat) (h : nat -> R) : R := lsum (seq 0 n) h.

Lemma lsum_ext_in {X} (l : list X) f g : (forall x, In x l -> f x = g x) -> lsum l f = lsum l g.
Proof. apply sum_ext_in. Qed.

Lemma lsum_zero {X} (l : list X) : lsum l (fun _ => 0) = 0.
Proof. apply sum_zero. Qed.

Lemma lsum_plus {X} (l : list X) f g : lsum l (fun x => f x + g x) = lsum l f + lsum l g.
Proof. apply sum_plus. Qed.

Lemma lsum_app {X} (l1 l2 : list X) f : lsum (l1 ++ l2) f = lsum l1 f + lsum l2 f.
Proof. apply sum_app. Qed.

Lemma lsum_map {X Y} (u : X -> Y) (l : list X) f : lsum (map u l) f = lsum l (fun x => f (u x)).
Proof. unfold lsum. rewrite map_map. reflexivity. Qed.

Lemma lsum_swap {X Y} (l1 : list X) (l2 : list Y) (hh : X -> Y -> R) :
  lsum l1 (fun x => lsum l2 (fun y => hh x y)) = lsum l2 (fun y => lsum l1 (fun x => hh x y)).
Proof.
  induction l1 as [|a l1 IH].
  - cbn. symmetry. apply lsum_zero.
  - change (lsum (a :: l1) (fun x => lsum l2 (fun y => hh x y)))
      with (lsum l2 (fun y => hh a y) + lsum l1 (fun x => lsum l2 (fun y => hh x y))).
    rewrite IH, <- lsum_plus. apply lsum_ext_in. intros y _. reflexivity.
Qed.

Lemma lsum_single_nat (l : list nat) a (c : nat -> R) : NoDup l -> In a l ->
  lsum l (fun k => if (k =? a)%nat then c k else 0) = c a.
Proof. apply (sum_single Nat.eqb Nat.eqb_eq). Qed.

Lemma sumN_single n a (c : nat -> R) : (a < n)%nat -> sumN n (fun k => if (k =? a)%nat then c k else 0) = c a.
Proof. intros H. apply lsum_single_nat; [apply seq_NoDup|apply in_seq; lia]. Qed.

Lemma sumN_ext n f g : (forall k, (k < n)%nat -> f k = g k) -> sumN n f = sumN n g.
Proof. intros H. apply lsum_ext_in. intros k Hk. apply in_seq in Hk. apply H. lia. Qed.

Lemma sumIdx_swap ds1 ds2 (hh : list nat -> list nat -> R) :
  sumIdx ds1 (fun i => sumIdx ds2 (fun j => hh i j)) = sumIdx ds2 (fun j => sumIdx ds1 (fun i => hh i j)).
Proof. apply (lsum_swap (allIdx ds1) (allIdx ds2)). Qed.

Lemma sumIdx_cons d ds (f : assignment) :
  sumIdx (d :: ds) f = sumN d (fun k => sumIdx ds (fun r => f (k :: r))).
Proof.
  unfold sumIdx, sumN. cbn [allIdx]. fold (lsum (flat_map (fun i => map (cons i) (allIdx ds)) (seq 0 d)) f).
  generalize (seq 0 d) as l. induction l as [|a l IH]; [reflexivity|].
  cbn [flat_map]. rewrite lsum_app, IH, lsum_map. reflexivity.
Qed.

Lemma fold_left_Rplus l : forall a, fold_left Rplus l a = a + lsum l (fun x => x).
Proof.
  unfold lsum. induction l as [|b l IH]; intros a; cbn [fold_left map fold_right]; [ring|].
  rewrite IH. ring.
Qed.

Lemma idx_eqb_sym a b : idx_eqb a b = idx_eqb b a.
Proof.
  destruct (idx_eqb b a) eqn:E.
  - apply idx_eqb_eq in E. subst. apply idx_eqb_refl.
  - apply idx_eqb_neq. intros ->. rewrite idx_eqb_refl in E. discriminate.
Qed.

Lemma bool_eq_iff (a b : bool) : (a = true <-> b = true) -> a = b.
Proof. destruct a, b; intros [H1 H2]; try reflexivity; [symmetry; apply H1; reflexivity|apply H2; reflexivity]. Qed.

Lemma idx_eqb_cons a l b m : idx_eqb (a :: l) (b :: m) = (a =? b)%nat && idx_eqb l m.
Proof.
  apply bool_eq_iff. rewrite andb_true_iff, Nat.eqb_eq, !idx_eqb_eq. split.
  - intros H. inversion H. auto.
  - intros [-> ->]. reflexivity.
Qed.

(* the pushforward of an assignment along an index map *)
Definition push (ds : list nat) (p : list nat -> list nat) (g : assignment) : assignment :=
  fun i => sumIdx ds (fun j => if idx_eqb (p j) i then g j else 0).

Lemma push_ext ds p p' g g' i :
  (forall j, validIdx ds j -> p j = p' j) -> (forall j, validIdx ds j -> g j = g' j) ->
  push ds p g i = push ds p' g' i.
Proof. intros Hp Hg. apply sumIdx_ext. intros j Hj. rewrite (Hp j Hj), (Hg j Hj). reflexivity. Qed.

Lemma push_scal ds p c g i : push ds p (fun j => c * g j) i = c * push ds p g i.
Proof.
  unfold push. rewrite <- sumIdx_scal. apply sumIdx_ext. intros j _. destruct (idx_eqb (p j) i); ring.
Qed.

Lemma push_id ds g i : validIdx ds i -> push ds (fun j => j) g i = g i.
Proof. intros H. apply sumIdx_single, H. Qed.

Lemma push_comp ds ds' p1 p2 g i : (forall j, validIdx ds j -> validIdx ds' (p1 j)) ->
  push ds' p2 (push ds p1 g) i = push ds (fun j => p2 (p1 j)) g i.
Proof.
  intros Hv. unfold push.
  transitivity (sumIdx ds' (fun j' => sumIdx ds (fun j =>
                  if idx_eqb (p2 j') i then (if idx_eqb (p1 j) j' then g j else 0) else 0))).
  { apply sumIdx_ext. intros j' _. destruct (idx_eqb (p2 j') i); [reflexivity|]. symmetry. apply sumIdx_zero. }
  rewrite sumIdx_swap. apply sumIdx_ext. intros j Hj.
  rewrite <- (sumIdx_single ds' (p1 j) (fun j' => if idx_eqb (p2 j') i then g j else 0) (Hv j Hj)).
  apply sumIdx_ext. intros j' _. rewrite (idx_eqb_sym (p1 j) j').
  destruct (idx_eqb (p2 j') i); destruct (idx_eqb j' (p1 j)); reflexivity.
Qed.

Lemma validIdx_del dim : forall ds j, validIdx ds j -> validIdx (del dim ds) (del dim j).
Proof.
  induction dim as [|dim IH]; intros ds j H; destruct H as [|k d j ds Hk H].
  - constructor.
  - rewrite !del_0. exact H.
  - constructor.
  - rewrite !del_S. constructor; [exact Hk|apply IH, H].
Qed.

Lemma validIdx_ins dim : forall ds i k, (dim < length ds)%nat -> validIdx (del dim ds) i -> (k < nth dim ds 0%nat)%nat ->
  validIdx ds (ins dim k i).
Proof.
  induction dim as [|dim IH]; intros [|d ds] i k Hl Hv Hk; cbn [length] in Hl; try lia.
  - rewrite del_0 in Hv. rewrite ins_0. constructor; [exact Hk|exact Hv].
  - rewrite del_S in Hv. apply validIdx_cons in Hv as (a & r & -> & Ha & Hr). rewrite ins_S.
    constructor; [exact Ha|]. apply IH; [lia|exact Hr|exact Hk].
Qed.

Lemma del_app_exact {X} (a : list X) v q n : length a = n -> del n (a ++ v :: q) = a ++ q.
Proof. intros <-. induction a as [|x a IH]; [reflexivity|]. cbn [app length]. rewrite del_S, IH. reflexivity. Qed.

Lemma ins_app_exact {X} (a : list X) v q n : length a = n -> ins n v (a ++ q) = a ++ v :: q.
Proof. intros <-. induction a as [|x a IH]; [apply ins_0|]. cbn [app length]. rewrite ins_S, IH. reflexivity. Qed.

Lemma validIdx_mid_inv pre n post idx : validIdx (pre ++ n :: post) idx ->
  exists i1 x i2, idx = i1 ++ x :: i2 /\ validIdx pre i1 /\ (x < n)%nat /\ validIdx post i2.
Proof.
  intros Hv. unfold validIdx in Hv. apply Forall2_app_inv_r in Hv as (i1 & i2' & Hi1 & Hi2' & ->).
  inversion Hi2' as [|x ? i2 ? Hx Hi2]; subst. exists i1, x, i2. auto.
Qed.

Lemma validIdx_mid pre n post i1 x i2 : validIdx pre i1 -> (x < n)%nat -> validIdx post i2 ->
  validIdx (pre ++ n :: post) (i1 ++ x :: i2).
Proof. intros H1 Hx H2. apply Forall2_app; [exact H1|constructor; assumption]. Qed.

(* the sum over the positions that collapse onto i' when component [dim] is deleted *)
Lemma sum_del dim : forall ds (f : assignment) i', (dim < length ds)%nat -> validIdx (del dim ds) i' ->
  push ds (del dim) f i' = sumN (nth dim ds 0%nat) (fun k => f (ins dim k i')).
Proof.
  unfold push. induction dim as [|dim IH]; intros [|d ds] f i' Hl Hv; cbn [length] in Hl; try lia.
  - rewrite del_0 in Hv. rewrite sumIdx_cons. cbn [nth]. apply sumN_ext. intros k _.
    rewrite ins_0. rewrite <- (sumIdx_single ds i' (fun r => f (k :: r)) Hv).
    apply sumIdx_ext. intros r _. rewrite del_0. reflexivity.
  - rewrite del_S in Hv. apply validIdx_cons in Hv as (a & i'' & -> & Ha & Hr).
    rewrite sumIdx_cons. cbn [nth].
    transitivity (sumN d (fun k => if (k =? a)%nat
                    then sumIdx ds (fun r => if idx_eqb (del dim r) i'' then f (k :: r) else 0) else 0)).
    { apply sumN_ext. intros k _. destruct (k =? a)%nat eqn:E.
      - apply sumIdx_ext. intros r _. rewrite del_S, idx_eqb_cons, E. reflexivity.
      - transitivity (sumIdx ds (fun _ => 0)); [|apply sumIdx_zero].
        apply sumIdx_ext. intros r _. rewrite del_S, idx_eqb_cons, E. reflexivity. }
    rewrite (sumN_single d a _ Ha). rewrite (IH ds (fun r => f (a :: r)) i'' ltac:(lia) Hr).
    apply sumN_ext. intros k _. rewrite ins_S. reflexivity.
Qed.

(* the factor a reduction over a dimension of size d contributes: SumAlong none, AvgAlong 1/d *)
Definition rdc (rd : bred) (d : nat) : R := match rd with RedSum => 1 | RedAvg => / INR d end.
Fixpoint rdcs (rd : bred) (l : list nat) : R :=
  match l with [] => 1 | d :: l' => rdc rd d * rdcs rd l' end.

Lemma map_Some_inj {X} (l1 l2 : list X) : map Some l1 = map Some l2 -> l1 = l2.
Proof.
  revert l2. induction l1 as [|a l1 IH]; intros [|b l2] H; cbn in H; try discriminate; [reflexivity|].
  inversion H. f_equal. apply IH. assumption.
Qed.

(* a reduction along [dim], element-wise: the list reducer applied to the fibre *)
Lemma reduceAlong_repr (r : reducer) (t : tensor R) ds f dim : repr t ds f -> (dim < length ds)%nat ->
  yields (v_reduceAlong r t (Z.of_nat dim)) (del dim ds)
         (fun j => redL r (map (fun k => f (ins dim k j)) (seq 0 (nth dim ds 0%nat)))).
Proof.
  intros (Hd & Hw & Hf) Hl. subst ds.
  pose proof (v_reduceAlong_elems r t (Z.of_nat dim) Hw ltac:(lia)) as H. cbv zeta in H.
  rewrite Nat2Z.id in H. destruct H as (y & Ey & Hdy & Hwy & Hel).
  exists y. split; [exact Ey|]. split; [exact Hdy|]. split; [exact Hwy|].
  intros j Hj. destruct (Hel j Hj) as (fibre & Hfib & Hget). unfold elt at 1. rewrite Hget. f_equal.
  apply map_Some_inj. rewrite Hfib, map_map. apply map_ext_in. intros k Hk. apply in_seq in Hk.
  assert (Hv : validIdx (dims t) (ins dim k j)) by (apply validIdx_ins; [exact Hl|exact Hj|lia]).
  change (firstn dim j ++ k :: skipn dim j) with (ins dim k j).
  rewrite (elt_get t _ Hw Hv), (Hf _ Hv). reflexivity.
Qed.

Lemma redAlong_repr rd (t : tensor R) ds f dim : repr t ds f -> (dim < length ds)%nat ->
  exists r, redAlong rd t (Z.of_nat dim) = Ok r /\
    repr r (del dim ds) (fun i' => rdc rd (nth dim ds 0%nat) * sumN (nth dim ds 0%nat) (fun k => f (ins dim k i'))).
Proof.
  intros Ht Hl. unfold redAlong. eapply yields_ext; [|exact (reduceAlong_repr _ t ds f dim Ht Hl)].
  intros i' _. cbn beta. set (d0 := nth dim ds 0%nat).
  assert (Esum : fold_left Rplus (map (fun k => f (ins dim k i')) (seq 0 d0)) 0 = sumN d0 (fun k => f (ins dim k i'))).
  { rewrite fold_left_Rplus. unfold sumN. rewrite lsum_map. ring. }
  destruct rd; unfold rdc; cbn [redL].
  - unfold sumL. change (@fold_left R R sadd) with (fold_left Rplus). change (@s0 R RS) with 0. rewrite Esum. ring.
  - unfold meanL, sumL. change (@fold_left R R sadd) with (fold_left Rplus). change (@s0 R RS) with 0.
    rewrite Esum, sdiv_R, sofnat_R, map_length, seq_length. unfold Rdiv. ring.
Qed.

Lemma flatIdx_ins1 dim : forall ds j, (dim <= length ds)%nat -> validIdx (ins dim 1%nat ds) j ->
  flatIdx (ins dim 1%nat ds) j = flatIdx ds (del dim j) /\ validIdx ds (del dim j).
Proof.
  induction dim as [|dim IH]; intros ds j Hl Hv.
  - rewrite ins_0 in Hv. apply validIdx_cons in Hv as (k & r & -> & Hk & Hr).
    rewrite ins_0, del_0. split; [|exact Hr]. cbn [flatIdx]. assert (k = 0%nat) by lia. subst k. reflexivity.
  - destruct ds as [|d ds]; [cbn in Hl; lia|]. rewrite ins_S in Hv |- *.
    apply validIdx_cons in Hv as (k & r & -> & Hk & Hr). rewrite del_S.
    destruct (IH ds r ltac:(cbn in Hl; lia) Hr) as [E Hv']. split; [|constructor; assumption].
    cbn [flatIdx]. rewrite E. f_equal. f_equal.
    change (ins dim 1%nat ds) with (unsqueezeDims dim ds). apply unsqueezeDims_prodn.
Qed.

Lemma unsqueeze_repr (t : tensor R) ds f dim : repr t ds f -> (dim <= length ds)%nat ->
  exists r, v_unsqueeze t (Z.of_nat dim) = Ok r /\ repr r (ins dim 1%nat ds) (fun j => f (del dim j)).
Proof.
  intros (Hd & Hw & Hf) Hl. subst ds.
  destruct (v_unsqueeze_spec R t (Z.of_nat dim) Hw) as [H1 _].
  destruct H1 as (r & Er & Hr).
  { apply validateUnSqueezeDim_iff. lia. }
  rewrite Nat2Z.id in Hr. change (unsqueezeDims dim (dims t)) with (ins dim 1%nat (dims t)) in Hr.
  exists r. split; [exact Er|]. split; [apply Hr|]. split; [apply Hr|].
  intros j Hj. destruct (flatIdx_ins1 dim (dims t) j Hl Hj) as [E Hv].
  rewrite (reshaped_elt t r (ins dim 1%nat (dims t)) Hw Hr (unsqueezeDims_prodn dim (dims t)) j Hj).
  rewrite E, unflatIdx_flatIdx by exact Hv. apply Hf, Hv.
Qed.

(* phase 1: the leading extra dimensions are summed away one at a time *)

Lemma bcLead_repr rd : forall lead rest (t : tensor R) f, repr t (lead ++ rest) f ->
  exists r, bcLead rd (length lead) t = Ok r /\
    repr r rest (fun i => rdcs rd lead * push (lead ++ rest) (skipn (length lead)) f i).
Proof.
  induction lead as [|d lead IH]; intros rest t f Ht.
  - exists t. split; [reflexivity|]. destruct Ht as (Hd & Hw & Hf). split; [exact Hd|]. split; [exact Hw|].
    intros i Hi. cbn [app length rdcs]. rewrite (Hf i Hi).
    rewrite (push_ext rest (skipn 0) (fun j => j) f f i) by reflexivity. rewrite push_id by exact Hi. ring.
  - cbn [length bcLead].
    destruct (redAlong_repr rd t ((d :: lead) ++ rest) f 0 Ht ltac:(cbn; lia)) as (r1 & E1 & H1).
    change (Z.of_nat 0) with 0%Z in E1. rewrite E1. cbn [res_bind].
    cbn [app nth] in H1. rewrite del_0 in H1.
    destruct (IH rest r1 _ H1) as (r & Er & Hd & Hw & Hf). exists r. split; [exact Er|].
    split; [exact Hd|]. split; [exact Hw|]. intros i Hi. rewrite (Hf i Hi). cbn [rdcs app].
    set (ds := d :: lead ++ rest).
    rewrite (push_ext (lead ++ rest) (skipn (length lead)) (skipn (length lead)) _
               (fun i' => rdc rd d * push ds (del 0) f i') i); [|reflexivity|].
    2:{ intros i' Hi'. rewrite (sum_del 0 ds f i'); [reflexivity|cbn; lia|exact Hi']. }
    rewrite push_scal.
    rewrite (push_comp ds (lead ++ rest) (del 0) (skipn (length lead)) f i).
    2:{ intros j Hj. apply (validIdx_del 0 ds j Hj). }
    rewrite (push_ext ds (fun j => skipn (length lead) (del 0 j)) (skipn (S (length lead))) f f i); [ring| |reflexivity].
    intros j Hj. apply validIdx_cons in Hj as (k & q & -> & _ & _). rewrite del_0. reflexivity.
Qed.

(* phase 2: every aligned position where the operand had size 1 and the result
   a larger size is summed away and re-inserted as a dimension of size 1 *)

Definition proj (src q : list nat) : list nat :=
  map (fun p => if (fst p =? 1)%nat then 0%nat else snd p) (combine src q).
Definition pj (n : nat) (src j : list nat) : list nat := firstn n j ++ proj src (skipn n j).

(* the sizes of the dimensions that get reduced *)
Fixpoint redDims (src dst : list nat) : list nat :=
  match src, dst with
  | s :: src', d :: dst' => (if (s =? d)%nat then [] else [d]) ++ redDims src' dst'
  | _, _ => []
  end.

Lemma pj_app n src a q : length a = n -> pj n src (a ++ q) = a ++ proj src q.
Proof.
  intros <-. unfold pj. induction a as [|x a IH]; [reflexivity|].
  cbn [length app firstn skipn]. f_equal. exact IH.
Qed.

Lemma pj_S n src a k q : length a = n -> pj (S n) src (a ++ k :: q) = a ++ k :: proj src q.
Proof.
  intros La. change (a ++ k :: q) with (a ++ [k] ++ q). rewrite app_assoc.
  rewrite pj_app by (rewrite app_length; cbn; lia). rewrite <- app_assoc. reflexivity.
Qed.

Lemma pj_c n s src a k q : length a = n ->
  pj n (s :: src) (a ++ k :: q) = a ++ (if (s =? 1)%nat then 0%nat else k) :: proj src q.
Proof. intros La. rewrite pj_app by exact La. reflexivity. Qed.

(* an index of a shape with size 1 at position [dim] has 0 there *)
Lemma ins1_zero dim : forall (ds j : list nat), (dim <= length ds)%nat -> validIdx (ins dim 1%nat ds) j ->
  ins dim 0%nat (del dim j) = j.
Proof.
  induction dim as [|dim IH]; intros ds j Hl Hv.
  - rewrite ins_0 in Hv. apply validIdx_cons in Hv as (k & r & -> & Hk & Hr). rewrite del_0, ins_0. f_equal. lia.
  - destruct ds as [|d ds]; [cbn in Hl; lia|]. rewrite ins_S in Hv.
    apply validIdx_cons in Hv as (k & r & -> & Hk & Hr). rewrite del_S, ins_S. f_equal.
    apply (IH ds); [cbn in Hl; lia|exact Hr].
Qed.

(* SumAlong(n) then UnSqueeze(n): component n is summed away and re-inserted as 0 *)
Lemma red_unsq_repr rd (t : tensor R) ds f n : repr t ds f -> (n < length ds)%nat ->
  yields (dor g1 <- redAlong rd t (Z.of_nat n); v_unsqueeze g1 (Z.of_nat n)) (ins n 1%nat (del n ds))
         (fun j => rdc rd (nth n ds 0%nat) * push ds (fun m => ins n 0%nat (del n m)) f j).
Proof.
  intros Ht Hl. destruct (redAlong_repr rd t ds f n Ht Hl) as (r1 & E1 & H1).
  assert (Ld : (n <= length (del n ds))%nat) by (rewrite del_length by exact Hl; lia).
  destruct (unsqueeze_repr r1 (del n ds) _ n H1 Ld) as (r2 & E2 & H2).
  exists r2. rewrite E1. split; [exact E2|]. revert H2. apply repr_ext. intros j Hj. f_equal.
  destruct (flatIdx_ins1 n (del n ds) j Ld Hj) as [_ Hdj].
  rewrite <- (sum_del n ds f (del n j) Hl Hdj). apply sumIdx_ext. intros m Hm.
  replace (idx_eqb (ins n 0%nat (del n m)) j) with (idx_eqb (del n m) (del n j)); [reflexivity|].
  apply bool_eq_iff. rewrite !idx_eqb_eq. split.
  - intros ->. apply (ins1_zero n (del n ds)); assumption.
  - intros <-. symmetry. apply del_ins. rewrite (validIdx_length _ _ (validIdx_del n ds m Hm)). exact Ld.
Qed.

Lemma bcDims_repr rd : forall src dst, Forall2 (fun s d => s = d \/ s = 1%nat) src dst ->
  forall pre (t : tensor R) f, repr t (pre ++ dst) f ->
  exists r, bcDims rd (length pre) src dst t = Ok r /\
    repr r (pre ++ src) (fun i => rdcs rd (redDims src dst) * push (pre ++ dst) (pj (length pre) src) f i).
Proof.
  intros src dst HF. induction HF as [|s d src dst Hsd HF IH]; intros pre t f Ht.
  - exists t. split; [reflexivity|]. revert Ht. apply repr_ext. intros i Hi. cbn [redDims rdcs].
    rewrite (push_ext (pre ++ []) (pj (length pre) []) (fun j => j) f f i); [rewrite push_id by exact Hi; ring| |reflexivity].
    intros j Hj. rewrite <- (app_nil_r j) at 1. rewrite pj_app; [unfold proj; cbn [combine map]; apply app_nil_r|].
    rewrite (validIdx_length _ _ Hj), app_nil_r. reflexivity.
  - cbn [bcDims redDims]. set (n := length pre) in *.
    assert (Ln : length (pre ++ [s]) = S n) by (rewrite app_length; cbn; lia).
    assert (Ea : forall l : list nat, (pre ++ [s]) ++ l = pre ++ s :: l) by (intros l; rewrite <- app_assoc; reflexivity).
    (* the step at position n yields  c * push (pre ++ d :: dst) p f  for an index map p that only
       touches component n; the remaining positions are the induction hypothesis *)
    enough (Hstep : exists c p,
              (forall a k q, length a = n -> (k < d)%nat -> p (a ++ k :: q) = a ++ (if (s =? 1)%nat then 0%nat else k) :: q) /\
              c * rdcs rd (redDims src dst) = rdcs rd ((if (s =? d)%nat then [] else [d]) ++ redDims src dst) /\
              yields (if (s =? d)%nat then Ok t else dor g1 <- redAlong rd t (Z.of_nat n); v_unsqueeze g1 (Z.of_nat n))
                     (pre ++ s :: dst) (fun j => c * push (pre ++ d :: dst) p f j)).
    { destruct Hstep as (c & p & Hp & Hc & Hy). eapply yields_bind; [exact Hy|]. intros g Hg.
      rewrite <- Ea in Hg. specialize (IH (pre ++ [s]) g _ Hg). rewrite Ln, !Ea in IH.
      revert IH. apply yields_ext. intros i Hi. rewrite <- Hc, push_scal.
      rewrite (push_comp (pre ++ d :: dst) (pre ++ s :: dst) p (pj (S n) src) f i).
      2:{ intros m Hm. apply validIdx_mid_inv in Hm as (a & k & q & -> & Ha & Hk & Hq).
          rewrite (Hp a k q (validIdx_length _ _ Ha) Hk). apply validIdx_mid; [exact Ha| |exact Hq].
          destruct (Nat.eqb_spec s 1); destruct Hsd; lia. }
      rewrite (push_ext _ (fun m => pj (S n) src (p m)) (pj n (s :: src)) f f i); [ring| |reflexivity].
      intros m Hm. apply validIdx_mid_inv in Hm as (a & k & q & -> & Ha & Hk & _).
      pose proof (validIdx_length _ _ Ha) as La. fold n in La.
      rewrite (Hp a k q La Hk), (pj_S n src a _ q La), (pj_c n s src a k q La). reflexivity. }
    destruct (Nat.eqb_spec s d) as [->|Nsd].
    + (* the dimension is untouched *)
      exists 1, (fun m => m). split; [|split; [cbn [app]; ring|]].
      * intros a k q _ Hk. destruct (Nat.eqb_spec d 1) as [->|_]; [|reflexivity]. do 2 f_equal. lia.
      * exists t. split; [reflexivity|]. revert Ht. apply repr_ext. intros j Hj. rewrite push_id by exact Hj. ring.
    + (* size 1 in the operand, d > 1 in the result: SumAlong(n) then UnSqueeze(n) *)
      destruct Hsd as [Hsd | ->]; [contradiction|].
      assert (Ld : (n < length (pre ++ d :: dst))%nat) by (rewrite app_length; cbn; lia).
      pose proof (red_unsq_repr rd t _ f n Ht Ld) as Hy.
      replace (nth n (pre ++ d :: dst) 0%nat) with d in Hy by (symmetry; apply nth_middle).
      rewrite (del_app_exact pre d dst n eq_refl), (ins_app_exact pre 1%nat dst n eq_refl) in Hy.
      exists (rdc rd d), (fun m => ins n 0%nat (del n m)). split; [|split; [cbn [app rdcs]; ring|exact Hy]].
      intros a k q La _. cbn [Nat.eqb]. rewrite (del_app_exact a k q n La). apply ins_app_exact, La.
Qed.

Lemma validIdx_skipn n : forall ds j, validIdx ds j -> validIdx (skipn n ds) (skipn n j).
Proof.
  induction n as [|n IH]; intros ds j H; [exact H|].
  destruct H as [|k d j ds Hk H]; cbn [skipn]; [constructor|apply IH, H].
Qed.

(* the accumulated factor: 1 for SumAlong; for AvgAlong the inverse of the product of the reduced sizes *)
Definition bfac (rd : bred) (src shape : list nat) : R :=
  rdcs rd (firstn (length shape - length src) shape) *
  rdcs rd (redDims src (skipn (length shape - length src) shape)).

Theorem bcastBack_char rd (gy : tensor R) src shape : wf gy -> dims gy = shape -> bcompat src shape ->
  exists g, bcastBack rd gy src shape = Ok g /\ dims g = src /\ wf g /\
    forall i, validIdx src i ->
      elt g i = bfac rd src shape *
                sumIdx shape (fun j => if idx_eqb (bproj src shape j) i then elt gy j else 0).
Proof.
  intros Hw Hd [Hl HF]. unfold bcastBack, bfac. set (L := (length shape - length src)%nat) in *.
  assert (LL : length (firstn L shape) = L) by (apply firstn_length_le; lia).
  assert (Hr : repr gy (firstn L shape ++ skipn L shape) (elt gy)).
  { rewrite firstn_skipn, <- Hd. apply repr_self, Hw. }
  destruct (bcLead_repr rd (firstn L shape) (skipn L shape) gy (elt gy) Hr) as (g1 & E1 & H1).
  rewrite LL in E1, H1. rewrite E1. cbn [res_bind]. rewrite firstn_skipn in H1.
  destruct (bcDims_repr rd src (skipn L shape) HF [] g1 _ H1) as (g & Eg & Hdg & Hwg & Hg).
  cbn [length app] in Eg, Hdg, Hg. exists g. split; [exact Eg|]. split; [exact Hdg|]. split; [exact Hwg|].
  intros i Hi. rewrite (Hg i Hi), push_scal.
  rewrite (push_comp shape (skipn L shape) (skipn L) (pj 0 src) (elt gy) i) by (intros j Hj; apply validIdx_skipn, Hj).
  unfold push, pj, bproj, proj. cbn [firstn skipn app]. fold L. ring.
Qed.

Lemma rdcs_sum l : rdcs RedSum l = 1.
Proof. induction l as [|d l IH]; cbn [rdcs rdc]; [reflexivity|rewrite IH; ring]. Qed.

Lemma rdcs_avg l : rdcs RedAvg l = / INR (prodn l).
Proof.
  induction l as [|d l IH]; cbn [rdcs rdc].
  - change (prodn []) with 1%nat. change (INR 1) with 1. rewrite Rinv_1. reflexivity.
  - rewrite IH, prodn_cons, mult_INR, Rinv_mult. reflexivity.
Qed.

Lemma redDims_prodn src dst : Forall2 (fun s d => s = d \/ s = 1%nat) src dst ->
  (prodn (redDims src dst) * prodn src = prodn dst)%nat.
Proof.
  induction 1 as [|s d src dst Hsd HF IH]; [reflexivity|]. cbn [redDims].
  destruct (Nat.eqb_spec s d) as [->|Hne]; cbn [app]; rewrite !prodn_cons.
  - rewrite <- IH. lia.
  - destruct Hsd as [Hsd|Hsd]; [contradiction|]. subst s. rewrite <- IH. lia.
Qed.

Lemma bfac_sum src shape : bfac RedSum src shape = 1.
Proof. unfold bfac. rewrite !rdcs_sum. ring. Qed.

(* the expansion factor: how many positions of the result every operand element was copied to *)
Lemma bfac_avg src shape : bcompat src shape -> allpos shape ->
  bfac RedAvg src shape = / INR (prodn shape / prodn src).
Proof.
  intros [Hl HF] Hp. unfold bfac. set (L := (length shape - length src)%nat) in *.
  rewrite !rdcs_avg, <- Rinv_mult, <- mult_INR. f_equal. f_equal.
  pose proof (redDims_prodn src (skipn L shape) HF) as E.
  pose proof (prodn_split L shape) as E2.
  assert (Hpos : (0 < prodn (skipn L shape))%nat) by (apply prodn_pos, (allpos_split L shape Hp)).
  assert (Hs : prodn src <> 0%nat) by (intros Z; rewrite Z in E; lia).
  rewrite E2, <- E, Nat.mul_assoc. symmetry. apply Nat.div_mul, Hs.
Qed.

(* C07: with SumAlong the Broadcast back edge is the vector-Jacobian product: every operand
   element receives the sum of the upstream gradient over all positions it was copied to.
   Covers new leading dimensions, expanded size-1 dimensions, both, and neither (shape = dims xv). *)
Theorem vjp_broadcast_sum (h : heap) (y x : nat) (xv yv gy : tensor R) :
  valOf h x = Some xv -> valOf h y = Some yv -> gradOf h y = Some gy ->
  wf gy -> dims gy = dims yv -> bcompat (dims xv) (dims yv) ->
  exists g, eval_rule RedSum h (RBroadcast y x) = Ok g /\ dims g = dims xv /\ wf g /\
    (forall i, validIdx (dims xv) i ->
       elt g i = sumIdx (dims yv) (fun j => if idx_eqb (bproj (dims xv) (dims yv) j) i then elt gy j else 0)) /\
    is_vjp (dims xv) (dims yv) (fun a j => a (bproj (dims xv) (dims yv) j)) (elt xv) (elt gy) (elt g).
Proof.
  intros Ex Eyv Ey Hwg Hdg Hc. cbn [eval_rule].
  rewrite (heap_gy h y gy Ey), (heap_val h x xv Ex), (heap_val h y yv Eyv). cbn [res_bind].
  destruct (bcastBack_char RedSum gy (dims xv) (dims yv) Hwg Hdg Hc) as (g & Eg & Hd & Hw & Hel).
  exists g. split; [exact Eg|]. split; [exact Hd|]. split; [exact Hw|].
  assert (Hel' : forall i, validIdx (dims xv) i ->
     elt g i = sumIdx (dims yv) (fun j => if idx_eqb (bproj (dims xv) (dims yv) j) i then elt gy j else 0)).
  { intros i Hi. rewrite (Hel i Hi), bfac_sum. ring. }
  split; [exact Hel'|]. apply vjp_gather. exact Hel'.
Qed.

(* known finding D2: the pinned library reduces with AvgAlong; the result is the same sum divided by
   the expansion factor *)
Theorem broadcast_avg_char (h : heap) (y x : nat) (xv yv gy : tensor R) :
  valOf h x = Some xv -> valOf h y = Some yv -> gradOf h y = Some gy ->
  wf gy -> dims gy = dims yv -> bcompat (dims xv) (dims yv) ->
  exists g, eval_rule RedAvg h (RBroadcast y x) = Ok g /\ dims g = dims xv /\ wf g /\
    forall i, validIdx (dims xv) i ->
      elt g i = sumIdx (dims yv) (fun j => if idx_eqb (bproj (dims xv) (dims yv) j) i then elt gy j else 0)
                / INR (prodn (dims yv) / prodn (dims xv)).
Proof.
  intros Ex Eyv Ey Hwg Hdg Hc. cbn [eval_rule].
  rewrite (heap_gy h y gy Ey), (heap_val h x xv Ex), (heap_val h y yv Eyv). cbn [res_bind].
  destruct (bcastBack_char RedAvg gy (dims xv) (dims yv) Hwg Hdg Hc) as (g & Eg & Hd & Hw & Hel).
  exists g. split; [exact Eg|]. split; [exact Hd|]. split; [exact Hw|].
  intros i Hi. rewrite (Hel i Hi), bfac_avg; [unfold Rdiv; ring|exact Hc|].
  rewrite <- Hdg. exact (proj2 Hwg).
Qed.

(* hence the averaged gradient is a vector-Jacobian product only if it agrees with the sum *)
Corollary broadcast_avg_vjp_only_if (h : heap) (y x : nat) (xv yv gy ga : tensor R) :
  valOf h x = Some xv -> valOf h y = Some yv -> gradOf h y = Some gy ->
  wf gy -> dims gy = dims yv -> bcompat (dims xv) (dims yv) ->
  eval_rule RedAvg h (RBroadcast y x) = Ok ga ->
  is_vjp (dims xv) (dims yv) (fun a j => a (bproj (dims xv) (dims yv) j)) (elt xv) (elt gy) (elt ga) ->
  forall i, validIdx (dims xv) i ->
    let S := sumIdx (dims yv) (fun j => if idx_eqb (bproj (dims xv) (dims yv) j) i then elt gy j else 0) in
    S = S / INR (prodn (dims yv) / prodn (dims xv)).
Proof.
  intros Ex Eyv Ey Hwg Hdg Hc Ea Hv i Hi S.
  destruct (broadcast_avg_char h y x xv yv gy Ex Eyv Ey Hwg Hdg Hc) as (g & Eg & _ & _ & Hel).
  assert (g = ga) by congruence. subst g.
  subst S. rewrite <- (Hel i Hi). symmetry. apply (vjp_gather_inv _ _ _ _ _ _ Hv i Hi).
Qed.

(* a concrete refutation of the averaged rule (known finding D2):
   operand of shape [2] broadcast to [3;2], upstream gradient all ones: the vector-Jacobian
   product is [3;3] (what SumAlong gives); the pinned AvgAlong gives [1;1] *)
Definition bx0 : tensor R := ofFun [2%nat] (fun _ => 0).
Definition by0 : tensor R := ofFun [3%nat; 2%nat] (fun _ => 0).
Definition bg0 : tensor R := ofFun [3%nat; 2%nat] (fun _ => 1).
Definition bh0 : heap :=
  [mkNode bx0 true false None [] None;
   mkNode by0 true false (Some bg0) [(0%nat, RBroadcast 1 0)] None].

Lemma lsum_bool {X} (l : list X) (hb : X -> bool) (c : R) :
  lsum l (fun j => if hb j then c else 0) = lsum (map hb l) (fun b : bool => if b then c else 0).
Proof. symmetry. apply lsum_map. Qed.

Lemma bsum0 (k : nat) : (k < 2)%nat ->
  sumIdx [3%nat; 2%nat] (fun j => if idx_eqb (bproj [2%nat] [3%nat; 2%nat] j) [k] then elt bg0 j else 0) = 3.
Proof.
  intros Hk.
  transitivity (sumIdx [3%nat; 2%nat] (fun j => if idx_eqb (bproj [2%nat] [3%nat; 2%nat] j) [k] then 1 else 0)).
  { apply sumIdx_ext. intros j Hj. unfold bg0. rewrite (elt_ofFun _ _ _ Hj). reflexivity. }
  change (lsum (allIdx [3%nat; 2%nat]) (fun j => if idx_eqb (bproj [2%nat] [3%nat; 2%nat] j) [k] then 1 else 0) = 3).
  rewrite (lsum_bool (allIdx [3%nat; 2%nat]) (fun j => idx_eqb (bproj [2%nat] [3%nat; 2%nat] j) [k]) 1).
  destruct k as [|[|k]]; [| |lia].
  - replace (map (fun j => idx_eqb (bproj [2%nat] [3%nat; 2%nat] j) [0%nat]) (allIdx [3%nat; 2%nat]))
      with [true; false; true; false; true; false] by (vm_compute; reflexivity).
    unfold lsum. cbn [map fold_right]. ring.
  - replace (map (fun j => idx_eqb (bproj [2%nat] [3%nat; 2%nat] j) [1%nat]) (allIdx [3%nat; 2%nat]))
      with [false; true; false; true; false; true] by (vm_compute; reflexivity).
    unfold lsum. cbn [map fold_right]. ring.
Qed.

Theorem broadcast_avg_refuted :
  exists gs ga,
    eval_rule RedSum bh0 (RBroadcast 1 0) = Ok gs /\ eval_rule RedAvg bh0 (RBroadcast 1 0) = Ok ga /\
    elt gs [0%nat] = 3 /\ elt gs [1%nat] = 3 /\ elt ga [0%nat] = 1 /\ elt ga [1%nat] = 1 /\
    is_vjp [2%nat] [3%nat; 2%nat] (fun a j => a (bproj [2%nat] [3%nat; 2%nat] j)) (elt bx0) (elt bg0) (elt gs) /\
    ~ is_vjp [2%nat] [3%nat; 2%nat] (fun a j => a (bproj [2%nat] [3%nat; 2%nat] j)) (elt bx0) (elt bg0) (elt ga).
Proof.
  assert (Hwg : wf bg0) by (apply ofFun_wf; repeat constructor).
  assert (Hc : bcompat (dims bx0) (dims by0)).
  { split; [cbn; lia|]. cbn. repeat constructor. }
  destruct (vjp_broadcast_sum bh0 1 0 bx0 by0 bg0 eq_refl eq_refl eq_refl Hwg eq_refl Hc) as (gs & Es & _ & _ & Hs & Hvs).
  destruct (broadcast_avg_char bh0 1 0 bx0 by0 bg0 eq_refl eq_refl eq_refl Hwg eq_refl Hc) as (ga & Ea & _ & _ & Ha).
  change (dims bx0) with [2%nat] in *. change (dims by0) with [3%nat; 2%nat] in *.
  assert (V0 : validIdx [2%nat] [0%nat]) by (repeat constructor).
  assert (V1 : validIdx [2%nat] [1%nat]) by (repeat constructor).
  assert (E3 : INR (prodn [3%nat; 2%nat] / prodn [2%nat]) = 3).
  { replace (prodn [3%nat; 2%nat] / prodn [2%nat])%nat with 3%nat by (vm_compute; reflexivity). simpl. lra. }
  assert (A0 : elt ga [0%nat] = 1) by (rewrite (Ha _ V0), bsum0, E3 by lia; lra).
  assert (A1 : elt ga [1%nat] = 1) by (rewrite (Ha _ V1), bsum0, E3 by lia; lra).
  exists gs, ga. split; [exact Es|]. split; [exact Ea|].
  split; [rewrite (Hs _ V0); apply bsum0; lia|]. split; [rewrite (Hs _ V1); apply bsum0; lia|].
  split; [exact A0|]. split; [exact A1|]. split; [exact Hvs|].
  intros Hv. pose proof (vjp_gather_inv _ _ _ _ _ _ Hv [0%nat] V0) as E. rewrite bsum0 in E by lia. lra.
Qed.

(* the general theorem at work on both phases: operand [2;1] broadcast to [4;2;3] *)
Definition bx1 : tensor R := ofFun [2%nat; 1%nat] (fun _ => 0).
Definition by1 : tensor R := ofFun [4%nat; 2%nat; 3%nat] (fun _ => 0).
Definition bg1 : tensor R := ofFun [4%nat; 2%nat; 3%nat] (fun j => INR (flatIdx [4%nat; 2%nat; 3%nat] j)).
Definition bh1 : heap :=
  [mkNode bx1 true false None [] None;
   mkNode by1 true false (Some bg1) [(0%nat, RBroadcast 1 0)] None].
Example vjp_broadcast_ex :
  wf bg1 /\ bcompat (dims bx1) (dims by1) /\
  exists g, eval_rule RedSum bh1 (RBroadcast 1 0) = Ok g /\ dims g = [2%nat; 1%nat] /\
    is_vjp [2%nat; 1%nat] [4%nat; 2%nat; 3%nat] (fun a j => a (bproj [2%nat; 1%nat] [4%nat; 2%nat; 3%nat] j))
           (elt bx1) (elt bg1) (elt g).
Proof.
  assert (Hwg : wf bg1) by (apply ofFun_wf; repeat constructor).
  assert (Hc : bcompat (dims bx1) (dims by1)).
  { split; [cbn; lia|]. cbn. constructor; [left; reflexivity|]. constructor; [right; reflexivity|constructor]. }
  split; [exact Hwg|]. split; [exact Hc|].
  destruct (vjp_broadcast_sum bh1 1 0 bx1 by1 bg1 eq_refl eq_refl eq_refl Hwg eq_refl Hc) as (g & Eg & Hd & _ & _ & Hv).
  exists g. split; [exact Eg|]. split; [exact Hd|exact Hv].
Qed.

Lemma region_of_ok : forall ci ds, Forall2 (fun r d => (fst r < snd r)%nat /\ (snd r <= d)%nat) ci ds ->
  region ci (sizes ci) ds.
Proof.
  induction 1 as [|r d ci ds Hr HF IH]; cbn [sizes map region]; [exact I|].
  split; [lia|exact IH].
Qed.

(* a slice of the upstream gradient is the vector-Jacobian product for an operand that was
   block-copied into the result: y_j = a_{j - From} inside the block, independent of a outside *)
Definition blockSigma (ci : list range) (dus : list nat) : list nat -> option (list nat) :=
  fun j => if inBlock ci dus j then Some (unshift j ci) else None.

Lemma vjp_slice_of_gy (gy : tensor R) (index : list zrange) (c x : assignment) :
  wf gy -> validateSliceIndexAgainstDims index (zdims gy) = true ->
  exists g, v_slice gy index = Ok g /\
    dims g = sizes (completeIndex (rangesOf index) (dims gy)) /\ wf g /\
    (forall i, validIdx (dims g) i -> elt g i = elt gy (shift i (completeIndex (rangesOf index) (dims gy)))) /\
    is_vjp (dims g) (dims gy)
           (gatherF (blockSigma (completeIndex (rangesOf index) (dims gy)) (dims g)) c) x (elt gy) (elt g).
Proof.
  intros Hwg V. destruct (v_slice_spec gy index Hwg) as [H1 _]. destruct (H1 V) as (g & Eg & Hd & Hw & Hg).
  exists g. split; [exact Eg|]. split; [exact Hd|]. split; [exact Hw|].
  set (ci := completeIndex (rangesOf index) (dims gy)) in *.
  assert (Hel : forall i, validIdx (dims g) i -> elt g i = elt gy (shift i ci)).
  { intros i Hi. unfold elt. rewrite (Hg i Hi). reflexivity. }
  split; [exact Hel|].
  assert (Hreg : region ci (dims g) (dims gy)).
  { rewrite Hd. apply region_of_ok. apply completeIndex_ok; [|exact (proj2 Hwg)].
    unfold zdims in V. apply validateSlice_iff in V. apply zsliceOk_nat, V. }
  apply (vjp_gather_pinv _ _ _ _ (fun i => Some (shift i ci))).
  - intros i j Hi E. inversion E; subst. destruct (region_shift ci _ _ Hreg i Hi) as (Hv & Hb & Hu).
    unfold blockSigma. rewrite Hb, Hu. auto.
  - intros i j _ Hj E. unfold blockSigma in E. destruct (inBlock ci (dims g) j) eqn:Eb; inversion E; subst.
    destruct (inBlock_unshift ci _ _ Hreg j Hj Eb) as [_ Hs]. rewrite Hs. reflexivity.
  - exact Hel.
Qed.

(* Concat, per operand: y.Gradient().Slice(index) *)
Theorem vjp_concat (rd : bred) (h : heap) (y : nat) (index : list zrange) (gy : tensor R) (c x : assignment) :
  gradOf h y = Some gy -> wf gy -> validateSliceIndexAgainstDims index (zdims gy) = true ->
  exists g, eval_rule rd h (RConcat y index) = Ok g /\
    dims g = sizes (completeIndex (rangesOf index) (dims gy)) /\ wf g /\
    (forall i, validIdx (dims g) i -> elt g i = elt gy (shift i (completeIndex (rangesOf index) (dims gy)))) /\
    is_vjp (dims g) (dims gy)
           (gatherF (blockSigma (completeIndex (rangesOf index) (dims gy)) (dims g)) c) x (elt gy) (elt g).
Proof.
  intros Ey Hwg V. cbn [eval_rule]. rewrite (heap_gy h y gy Ey). cbn [res_bind].
  apply vjp_slice_of_gy; assumption.
Qed.

Lemma patchedRegion_spec : forall dus dts, Forall2 le dus dts -> allpos dus ->
  forall index, zpatchOk index dus dts ->
    zsliceOk (patchedRegion index (map Z.of_nat dus)) dts /\
    completeIndex (rangesOf (patchedRegion index (map Z.of_nat dus))) dts = completeIndex (rangesOf index) dus.
Proof.
  intros dus dts HF. induction HF as [|du dt dus dts Hle HF IH]; intros Hp index Hz.
  - cbn. split; [exact I|reflexivity].
  - inversion Hp as [|? ? Hdu Hp']; subst. destruct index as [|[f t] index]; cbn [map patchedRegion].
    + destruct (IH Hp' [] I) as [I1 I2]. cbn [zsliceOk rangesOf map fst snd completeIndex] in *.
      split; [split; [lia|exact I1]|]. rewrite Nat2Z.id.
      replace ((Z.to_nat 0 =? 0)%nat && (du =? 0)%nat) with false by (symmetry; apply andb_false_iff; right; apply Nat.eqb_neq; lia).
      f_equal. exact I2.
    + cbn [zpatchOk] in Hz. destruct Hz as [H0 Hz]. destruct (IH Hp' index Hz) as [I1 I2].
      destruct ((f =? 0)%Z && (t =? 0)%Z) eqn:E; cbn [zsliceOk rangesOf map fst snd completeIndex] in *.
      * split; [split; [lia|exact I1]|]. rewrite Nat2Z.id.
        replace ((Z.to_nat 0 =? 0)%nat && (du =? 0)%nat) with false by (symmetry; apply andb_false_iff; right; apply Nat.eqb_neq; lia).
        replace ((Z.to_nat f =? 0)%nat && (Z.to_nat t =? 0)%nat) with true by (symmetry; apply andb_true_iff; split; apply Nat.eqb_eq; lia).
        f_equal. exact I2.
      * split; [split; [lia|exact I1]|].
        replace ((Z.to_nat f =? 0)%nat && (Z.to_nat t =? 0)%nat) with false by (symmetry; apply andb_false_iff; right; apply Nat.eqb_neq; lia).
        f_equal. exact I2.
Qed.

(* Patch, source operand (the repaired rule F3): the explicit region the source occupied *)
Theorem vjp_patch_src (rd : bred) (h : heap) (y p : nat) (index : list zrange) (xv pv gy : tensor R) :
  valOf h p = Some pv -> gradOf h y = Some gy -> wf pv -> wf gy -> dims gy = dims xv ->
  validatePatchIndexAgainstDims index (zdims pv) (zdims xv) = true ->
  exists g, eval_rule rd h (RPatchP y p index) = Ok g /\ dims g = dims pv /\ wf g /\
    (forall i, validIdx (dims pv) i -> elt g i = elt gy (shift i (completeIndex (rangesOf index) (dims pv)))) /\
    is_vjp (dims pv) (dims gy)
           (gatherF (blockSigma (completeIndex (rangesOf index) (dims pv)) (dims pv)) (elt xv))
           (elt pv) (elt gy) (elt g).
Proof.
  intros Ep Ey Hwp Hwg Hdg V. cbn [eval_rule]. rewrite (heap_gy h y gy Ey), (heap_val h p pv Ep). cbn [res_bind].
  unfold zdims in V. apply validatePatch_iff in V as [HF Hz].
  destruct (patchedRegion_spec (dims pv) (dims xv) HF (proj2 Hwp) index Hz) as [Hs Hci].
  rewrite <- Hdg in Hs, Hci, HF, Hz.
  destruct (vjp_slice_of_gy gy (patchedRegion index (zdims pv)) (elt xv) (elt pv) Hwg) as (g & Eg & Hd & Hw & Hel & Hv).
  { unfold zdims. apply validateSlice_iff. exact Hs. }
  unfold zdims in Hd, Hel, Hv at 1. rewrite Hci in Hd, Hel, Hv.
  assert (Hreg : region (completeIndex (rangesOf index) (dims pv)) (dims pv) (dims gy)).
  { apply completeIndex_region; [exact HF|]. apply zpatchOk_nat, Hz. }
  rewrite (region_sizes _ _ _ Hreg) in Hd. rewrite Hd in Hel, Hv.
  exists g. split; [exact Eg|]. split; [exact Hd|]. split; [exact Hw|]. split; [exact Hel|exact Hv].
Qed.

(* Patch, target operand: the upstream gradient with the patched block zeroed *)
Theorem vjp_patch_tgt (rd : bred) (h : heap) (y p : nat) (index : list zrange) (xv pv gy : tensor R) :
  valOf h p = Some pv -> gradOf h y = Some gy -> wf pv -> wf gy -> dims gy = dims xv ->
  validatePatchIndexAgainstDims index (zdims pv) (zdims xv) = true ->
  exists g, eval_rule rd h (RPatchX y p index) = Ok g /\ dims g = dims xv /\ wf g /\
    (forall i, validIdx (dims xv) i ->
       elt g i = if inBlock (completeIndex (rangesOf index) (dims pv)) (dims pv) i then 0 else elt gy i) /\
    is_vjp (dims xv) (dims gy)
           (gatherF (fun j => if inBlock (completeIndex (rangesOf index) (dims pv)) (dims pv) j then None else Some j)
                    (fun j => elt pv (unshift j (completeIndex (rangesOf index) (dims pv)))))
           (elt xv) (elt gy) (elt g).
Proof.
  intros Ep Ey Hwp Hwg Hdg V. cbn [eval_rule]. rewrite (heap_gy h y gy Ey), (heap_val h p pv Ep). cbn [res_bind].
  destruct (toZeros_spec pv Hwp) as (z & Ez & Hdz & Hwz & Hz0). rewrite Ez. cbn [res_bind].
  destruct (v_patch_spec gy z index Hwg Hwz) as [H1 _]. destruct H1 as (g & Eg & Hd & Hw & Hg).
  { unfold zdims. rewrite Hdz, Hdg. exact V. }
  rewrite Hdz in Hg. set (ci := completeIndex (rangesOf index) (dims pv)) in *.
  unfold zdims in V. apply validatePatch_iff in V as [HF Hzp].
  assert (Hreg : region ci (dims pv) (dims xv)).
  { apply completeIndex_region; [exact HF|]. apply zpatchOk_nat, Hzp. }
  exists g. split; [exact Eg|]. split; [congruence|]. split; [exact Hw|].
  assert (Hel : forall i, validIdx (dims xv) i -> elt g i = if inBlock ci (dims pv) i then 0 else elt gy i).
  { intros i Hi. unfold elt at 1. rewrite Hg by (rewrite Hdg; exact Hi).
    destruct (inBlock ci (dims pv) i) eqn:Eb; [|reflexivity].
    destruct (inBlock_unshift ci (dims pv) (dims xv) Hreg i Hi Eb) as [Hv _]. exact (Hz0 _ Hv). }
  split; [exact Hel|]. rewrite Hdg.
  apply (vjp_gather_pinv _ _ _ _ (fun i => if inBlock ci (dims pv) i then None else Some i)).
  - intros i j Hi E. destruct (inBlock ci (dims pv) i) eqn:Eb; inversion E; subst. rewrite Eb. auto.
  - intros i j _ _ E. destruct (inBlock ci (dims pv) j) eqn:Eb; inversion E; subst. rewrite Eb. reflexivity.
  - intros i Hi. rewrite (Hel i Hi). destruct (inBlock ci (dims pv) i); reflexivity.
Qed.

(* Transpose: y.Gradient().Transpose() *)
Theorem vjp_transpose (rd : bred) (h : heap) (y : nat) (xv gy : tensor R) :
  gradOf h y = Some gy -> wf gy -> (2 <= length (dims xv))%nat -> dims gy = transposeDims (dims xv) ->
  exists g, eval_rule rd h (RTranspose y) = Ok g /\ dims g = dims xv /\ wf g /\
    (forall i, validIdx (dims xv) i -> elt g i = elt gy (transposeDims i)) /\
    is_vjp (dims xv) (dims gy) (fun a j => a (transposeDims j)) (elt xv) (elt gy) (elt g).
Proof.
  intros Ey Hwg Hrank Hdg. cbn [eval_rule]. rewrite (heap_gy h y gy Ey). cbn [res_bind].
  unfold v_transpose, guard.
  assert (Hr : (2 <= length (dims gy))%nat) by (rewrite Hdg, transposeDims_length; exact Hrank).
  rewrite (proj2 (validateTransposeDims_rank R gy) Hr).
  destruct (transpose_get R gy Hwg) as (g & Eg & Hd & Hw & Hg). rewrite Eg. cbn [of_opt].
  rewrite Hdg, transposeDims_invol in Hd, Hg.
  exists g. split; [reflexivity|]. split; [exact Hd|]. split; [exact Hw|].
  assert (Hel : forall i, validIdx (dims xv) i -> elt g i = elt gy (transposeDims i)).
  { intros i Hi. unfold elt. rewrite (Hg i Hi). reflexivity. }
  split; [exact Hel|].
  apply (vjp_gather_pinv _ _ (fun j => Some (transposeDims j)) (fun _ => 0) (fun i => Some (transposeDims i))).
  - intros i j Hi E. inversion E; subst. rewrite Hdg, transposeDims_invol.
    split; [apply validIdx_transposeDims, Hi|reflexivity].
  - intros i j _ _ E. inversion E; subst. rewrite transposeDims_invol. reflexivity.
  - exact Hel.
Qed.

(* The same theorems under the forward call's precondition (the forward call returned Ok; the
   upstream gradient has the shape of the forward result).  Each also states that the forward
   result is the gather the VJP is taken of. *)

(* the forward specifications have the shape "validator accepts -> Ok with P, rejects -> Err":
   from an Ok result, the validator accepted and P holds of it *)
Lemma spec_ok_inv {X} (V : bool) (c : res X) (P : X -> Prop) y :
  (V = true -> exists r, c = Ok r /\ P r) /\ (V = false -> c = Err) -> c = Ok y -> V = true /\ P y.
Proof.
  intros [H1 H2] E. destruct V; [|rewrite (H2 eq_refl) in E; discriminate].
  destruct (H1 eq_refl) as (r & Er & Hr). split; [reflexivity|]. congruence.
Qed.

Theorem vjp_slice_fwd (rd : bred) (h : heap) (y x : nat) (index : list zrange) (xv yv gy : tensor R) :
  valOf h x = Some xv -> gradOf h y = Some gy -> wf xv -> v_slice xv index = Ok yv ->
  wf gy -> dims gy = dims yv ->
  let ci := completeIndex (rangesOf index) (dims xv) in
  (forall j, validIdx (dims yv) j -> elt yv j = elt xv (shift j ci)) /\
  exists g, eval_rule rd h (RSliceX y x index) = Ok g /\ dims g = dims xv /\ wf g /\
    is_vjp (dims xv) (dims yv) (fun a j => a (shift j ci)) (elt xv) (elt gy) (elt g).
Proof.
  intros Ex Ey Hwx Ev Hwg Hdg ci.
  destruct (spec_ok_inv _ _ _ _ (v_slice_spec xv index Hwx) Ev) as (V & Hd & _ & Hg). split.
  - intros j Hj. unfold elt. rewrite (Hg j Hj). reflexivity.
  - destruct (vjp_slice rd h y x index xv gy Ex Ey Hwx V Hwg ltac:(congruence)) as (g & Eg & Hdg' & Hw & _ & Hv).
    rewrite Hdg in Hv. exists g. split; [exact Eg|]. split; [assumption|]. split; [exact Hw|exact Hv].
Qed.

Lemma reshaped_prodn (xv yv : tensor R) shape : wf xv -> reshaped R xv yv shape -> prodn (dims yv) = prodn (dims xv).
Proof.
  intros [Hwx _] (_ & [Hwy _] & Hf).
  rewrite <- (flat_length R _ _ Hwy), <- (flat_length R _ _ Hwx), Hf. reflexivity.
Qed.

(* Reshape, UnSqueeze, Squeeze and Flatten all install the rule RReshape *)
Definition reshapeCall (xv yv : tensor R) : Prop :=
  (exists shape, v_reshape xv shape = Ok yv) \/ (exists dim, v_unsqueeze xv dim = Ok yv) \/
  (exists dim, v_squeeze xv dim = Ok yv) \/ (exists dim, v_flatten xv dim = Ok yv).

Lemma reshapeCall_reshaped (xv yv : tensor R) : wf xv -> reshapeCall xv yv -> exists shape, reshaped R xv yv shape.
Proof.
  intros Hwx [(shape & E)|[(dim & E)|[(dim & E)|(dim & E)]]]; eexists.
  - exact (proj2 (spec_ok_inv _ _ _ _ (v_reshape_spec R xv shape Hwx) E)).
  - exact (proj2 (spec_ok_inv _ _ _ _ (v_unsqueeze_spec R xv dim Hwx) E)).
  - exact (proj2 (spec_ok_inv _ _ _ _ (v_squeeze_spec R xv dim Hwx) E)).
  - exact (proj2 (spec_ok_inv _ _ _ _ (v_flatten_spec R xv dim Hwx) E)).
Qed.

Theorem vjp_reshape_fwd (rd : bred) (h : heap) (y x : nat) (xv yv gy : tensor R) :
  valOf h x = Some xv -> gradOf h y = Some gy -> wf xv -> reshapeCall xv yv ->
  wf gy -> dims gy = dims yv ->
  (forall j, validIdx (dims yv) j -> elt yv j = elt xv (unflatIdx (dims xv) (flatIdx (dims yv) j))) /\
  exists g, eval_rule rd h (RReshape y x) = Ok g /\ dims g = dims xv /\ wf g /\
    is_vjp (dims xv) (dims yv) (fun a j => a (unflatIdx (dims xv) (flatIdx (dims yv) j)))
           (elt xv) (elt gy) (elt g).
Proof.
  intros Ex Ey Hwx Hcall Hwg Hdg. destruct (reshapeCall_reshaped xv yv Hwx Hcall) as (shape & Hr).
  pose proof (reshaped_prodn xv yv shape Hwx Hr) as Hn. split.
  - destruct Hr as (Hd & Hwy & Hf). rewrite Hd in *.
    apply (reshaped_elt xv yv shape Hwx); [split; [exact Hd|split; assumption]|exact Hn].
  - destruct (vjp_reshape rd h y x xv gy Ex Ey Hwx Hwg ltac:(congruence)) as (g & Eg & Hd & Hw & _ & Hv).
    rewrite Hdg in Hv. exists g. split; [exact Eg|]. split; [assumption|]. split; [exact Hw|exact Hv].
Qed.

Theorem vjp_broadcast_fwd (h : heap) (y x : nat) (shape : list Z) (xv yv gy : tensor R) :
  valOf h x = Some xv -> valOf h y = Some yv -> gradOf h y = Some gy -> wf xv ->
  v_broadcast xv shape = Ok yv -> wf gy -> dims gy = dims yv ->
  (forall j, validIdx (dims yv) j -> elt yv j = elt xv (bproj (dims xv) (dims yv) j)) /\
  (exists g, eval_rule RedSum h (RBroadcast y x) = Ok g /\ dims g = dims xv /\ wf g /\
     is_vjp (dims xv) (dims yv) (fun a j => a (bproj (dims xv) (dims yv) j)) (elt xv) (elt gy) (elt g)) /\
  (exists g, eval_rule RedAvg h (RBroadcast y x) = Ok g /\ dims g = dims xv /\ wf g /\
     forall i, validIdx (dims xv) i ->
       elt g i = sumIdx (dims yv) (fun j => if idx_eqb (bproj (dims xv) (dims yv) j) i then elt gy j else 0)
                 / INR (prodn (dims yv) / prodn (dims xv))).
Proof.
  intros Ex Eyv Ey Hwx Ev Hwg Hdg.
  destruct (spec_ok_inv _ _ _ _ (v_broadcast_spec R xv shape Hwx) Ev) as (V & Hd & Hwy & Hg).
  apply validateBroadcast_shape_iff in V as (ns & -> & _ & Hc). rewrite natsOf_of_nat in Hd, Hg. subst ns.
  split; [|split].
  - intros j Hj. unfold elt. rewrite (Hg j Hj). reflexivity.
  - destruct (vjp_broadcast_sum h y x xv yv gy Ex Eyv Ey Hwg Hdg Hc) as (g & Eg & Hd & Hw & _ & Hv).
    exists g. split; [exact Eg|]. split; [exact Hd|]. split; [exact Hw|exact Hv].
  - apply (broadcast_avg_char h y x xv yv gy Ex Eyv Ey Hwg Hdg Hc).
Qed.

Theorem vjp_patch_fwd (rd : bred) (h : heap) (y p : nat) (index : list zrange) (xv pv yv gy : tensor R) :
  valOf h p = Some pv -> gradOf h y = Some gy -> wf xv -> wf pv -> v_patch xv index pv = Ok yv ->
  wf gy -> dims gy = dims yv ->
  let ci := completeIndex (rangesOf index) (dims pv) in
  dims yv = dims xv /\
  (forall j, validIdx (dims yv) j ->
     elt yv j = if inBlock ci (dims pv) j then elt pv (unshift j ci) else elt xv j) /\
  (exists g, eval_rule rd h (RPatchX y p index) = Ok g /\ dims g = dims xv /\ wf g /\
     is_vjp (dims xv) (dims yv)
            (gatherF (fun j => if inBlock ci (dims pv) j then None else Some j) (fun j => elt pv (unshift j ci)))
            (elt xv) (elt gy) (elt g)) /\
  (exists g, eval_rule rd h (RPatchP y p index) = Ok g /\ dims g = dims pv /\ wf g /\
     is_vjp (dims pv) (dims yv) (gatherF (blockSigma ci (dims pv)) (elt xv)) (elt pv) (elt gy) (elt g)).
Proof.
  intros Ep Ey Hwx Hwp Ev Hwg Hdg ci.
  destruct (spec_ok_inv _ _ _ _ (v_patch_spec xv pv index Hwx Hwp) Ev) as (V & Hd & _ & Hg).
  rewrite Hd in Hdg. split; [exact Hd|]. split; [|split].
  - intros j Hj. rewrite Hd in Hj. unfold elt. rewrite (Hg j Hj). fold ci. destruct (inBlock ci (dims pv) j); reflexivity.
  - destruct (vjp_patch_tgt rd h y p index xv pv gy Ep Ey Hwp Hwg Hdg V) as (g & Eg & Hdg' & Hw & _ & Hv).
    rewrite Hdg in Hv. rewrite Hd. exists g. split; [exact Eg|]. split; [exact Hdg'|]. split; [exact Hw|exact Hv].
  - destruct (vjp_patch_src rd h y p index xv pv gy Ep Ey Hwp Hwg Hdg V) as (g & Eg & Hdg' & Hw & _ & Hv).
    rewrite Hdg in Hv. rewrite Hd. exists g. split; [exact Eg|]. split; [exact Hdg'|]. split; [exact Hw|exact Hv].
Qed.

Theorem vjp_transpose_fwd (rd : bred) (h : heap) (y : nat) (xv yv gy : tensor R) :
  gradOf h y = Some gy -> wf xv -> v_transpose xv = Ok yv -> wf gy -> dims gy = dims yv ->
  (forall j, validIdx (dims yv) j -> elt yv j = elt xv (transposeDims j)) /\
  exists g, eval_rule rd h (RTranspose y) = Ok g /\ dims g = dims xv /\ wf g /\
    is_vjp (dims xv) (dims yv) (fun a j => a (transposeDims j)) (elt xv) (elt gy) (elt g).
Proof.
  intros Ey Hwx Ev Hwg Hdg. unfold v_transpose, guard in Ev.
  destruct (validateTransposeDims (zdims xv)) eqn:V; [|discriminate].
  apply validateTransposeDims_rank in V.
  destruct (transpose_get R xv Hwx) as (r & Er & Hd & _ & Hg). rewrite Er in Ev. cbn [of_opt] in Ev.
  assert (r = yv) by congruence. subst r. split.
  - intros j Hj. rewrite Hd in Hj. unfold elt. rewrite (Hg j Hj). reflexivity.
  - destruct (vjp_transpose rd h y xv gy Ey Hwg V ltac:(congruence)) as (g & Eg & Hdg' & Hw & _ & Hv).
    rewrite Hdg in Hv. exists g. split; [exact Eg|]. split; [assumption|]. split; [exact Hw|exact Hv].
Qed.

(* Concat: the index gradtrack.Concat installs on the edge of the operand that occupies
   [base, base + n) along dimension [length pre] validates against the result's shape, and the
   slice has the operand's shape *)
Definition catIndex (dim : nat) (base sz : Z) (s len : nat) : list zrange :=
  map (fun i => if (i =? dim)%nat then (base, (base + sz)%Z) else (0, 0)%Z) (seq s len).

Lemma concatEdges_index (y dim : nat) (x : nat) (xv : tensor R) rest (base : Z) :
  concatEdges y dim ((x, xv) :: rest) base =
  (x, RConcat y (catIndex dim base (Z.of_nat (nth dim (dims xv) 0%nat)) 0 (length (dims xv))))
    :: concatEdges y dim rest (base + Z.of_nat (nth dim (dims xv) 0%nat))%Z.
Proof. reflexivity. Qed.

Lemma catIndex_post dim base sz : forall post s, (dim < s)%nat ->
  zsliceOk (catIndex dim base sz s (length post)) post /\
  completeIndex (rangesOf (catIndex dim base sz s (length post))) post = map (fun d => (0%nat, d)) post.
Proof.
  unfold catIndex. induction post as [|d post IH]; intros s Hs; cbn [length seq map]; [split; [exact I|reflexivity]|].
  destruct (Nat.eqb_spec s dim) as [E|_]; [lia|]. destruct (IH (S s) ltac:(lia)) as [I1 I2].
  cbn [zsliceOk rangesOf map fst snd completeIndex]. split; [split; [left; split; reflexivity|exact I1]|].
  cbn. f_equal. exact I2.
Qed.

Lemma catIndex_pre post n base total : (0 < n)%nat -> (base + n <= total)%nat -> forall pre s,
  let index := catIndex (s + length pre) (Z.of_nat base) (Z.of_nat n) s (length (pre ++ n :: post)) in
  zsliceOk index (pre ++ total :: post) /\
  completeIndex (rangesOf index) (pre ++ total :: post)
  = map (fun d => (0%nat, d)) pre ++ (base, (base + n)%nat) :: map (fun d => (0%nat, d)) post.
Proof.
  intros Hn Hb. induction pre as [|a pre IH]; intros s; cbn zeta.
  - cbn [app length]. rewrite Nat.add_0_r. unfold catIndex. cbn [seq map]. rewrite Nat.eqb_refl.
    destruct (catIndex_post s (Z.of_nat base) (Z.of_nat n) post (S s) ltac:(lia)) as [I1 I2].
    unfold catIndex in I1, I2. cbn [zsliceOk rangesOf map fst snd completeIndex]. split; [split; [right; lia|exact I1]|].
    replace ((Z.to_nat (Z.of_nat base) =? 0)%nat && (Z.to_nat (Z.of_nat base + Z.of_nat n) =? 0)%nat) with false
      by (symmetry; apply andb_false_iff; right; apply Nat.eqb_neq; lia).
    unfold rangesOf in I2. rewrite I2. rewrite <- Nat2Z.inj_add, !Nat2Z.id. reflexivity.
  - cbn [app length]. unfold catIndex. cbn [seq map].
    destruct (Nat.eqb_spec s (s + S (length pre))) as [E|_]; [lia|].
    specialize (IH (S s)). cbn zeta in IH. replace (S s + length pre)%nat with (s + S (length pre))%nat in IH by lia.
    destruct IH as [I1 I2]. unfold catIndex in I1, I2.
    cbn [zsliceOk rangesOf map fst snd completeIndex]. split; [split; [left; split; reflexivity|exact I1]|].
    cbn. f_equal. exact I2.
Qed.

Theorem vjp_concat_edge (rd : bred) (h : heap) (y : nat) (gy : tensor R) pre post (n base total : nat)
        (c x : assignment) :
  gradOf h y = Some gy -> wf gy -> dims gy = pre ++ total :: post -> (0 < n)%nat -> (base + n <= total)%nat ->
  let index := catIndex (length pre) (Z.of_nat base) (Z.of_nat n) 0 (length (pre ++ n :: post)) in
  let ci := map (fun d => (0%nat, d)) pre ++ (base, (base + n)%nat) :: map (fun d => (0%nat, d)) post in
  exists g, eval_rule rd h (RConcat y index) = Ok g /\ dims g = pre ++ n :: post /\ wf g /\
    (forall i, validIdx (pre ++ n :: post) i -> elt g i = elt gy (shift i ci)) /\
    is_vjp (pre ++ n :: post) (dims gy) (gatherF (blockSigma ci (pre ++ n :: post)) c) x (elt gy) (elt g).
Proof.
  intros Ey Hwg Hdg Hn Hb index ci.
  destruct (catIndex_pre post n base total Hn Hb pre 0) as [Hz Hci]. cbn zeta in Hz, Hci. cbn [Nat.add] in Hz, Hci.
  fold index in Hz, Hci. fold ci in Hci.
  destruct (vjp_concat rd h y index gy c x Ey Hwg) as (g & Eg & Hd & Hw & Hel & Hv).
  { unfold zdims. rewrite Hdg. apply validateSlice_iff, Hz. }
  rewrite Hdg, Hci in Hd, Hel, Hv.
  assert (Es : sizes ci = pre ++ n :: post).
  { pose proof (sizes_nil_index pre) as P1. pose proof (sizes_nil_index post) as P2.
    unfold ci. unfold sizes in P1, P2 |- *. rewrite map_app. cbn [map]. rewrite P1, P2. cbn [fst snd].
    f_equal. f_equal. lia. }
  rewrite Es in Hd. rewrite Hd in Hel, Hv. rewrite <- Hdg in Hv.
  exists g. split; [exact Eg|]. split; [exact Hd|]. split; [exact Hw|]. split; [exact Hel|exact Hv].
Qed.

Definition val2 (j : list nat) : R := INR (flatIdx [9%nat; 9%nat; 9%nat] j).
Definition mkLeaf (v : tensor R) : node := mkNode v true false None [] None.
Definition mkRes (v g : tensor R) (es : list (nat * rule)) : node := mkNode v true false (Some g) es None.

Lemma wf_ofFun_ex ds (f : assignment) : allpos ds -> wf (ofFun ds f).
Proof. apply ofFun_wf. Qed.

(* Reshape [2;3] -> [3;2] *)
Example vjp_reshape_ex :
  let xv := ofFun [2%nat; 3%nat] val2 in let gy := ofFun [3%nat; 2%nat] val2 in
  let h := [mkLeaf xv; mkRes (ofFun [3%nat; 2%nat] val2) gy [(0%nat, RReshape 1 0)]] in
  exists g, eval_rule RedSum h (RReshape 1 0) = Ok g /\ dims g = [2%nat; 3%nat] /\
            elt g [1%nat; 0%nat] = val2 [1%nat; 1%nat] /\
            is_vjp [2%nat; 3%nat] [3%nat; 2%nat]
                   (fun a j => a (unflatIdx [2%nat; 3%nat] (flatIdx [3%nat; 2%nat] j))) (elt xv) (elt gy) (elt g).
Proof.
  intros xv gy h.
  assert (Hwx : wf xv) by (apply wf_ofFun_ex; repeat constructor).
  assert (Hwg : wf gy) by (apply wf_ofFun_ex; repeat constructor).
  destruct (vjp_reshape RedSum h 1 0 xv gy eq_refl eq_refl Hwx Hwg eq_refl) as (g & Eg & Hd & _ & Hel & Hv).
  exists g. split; [exact Eg|]. split; [exact Hd|]. split; [|exact Hv].
  rewrite (Hel [1%nat; 0%nat]) by (repeat constructor).
  replace (unflatIdx (dims gy) (flatIdx (dims xv) [1%nat; 0%nat])) with [1%nat; 1%nat] by (vm_compute; reflexivity).
  apply elt_ofFun. repeat constructor.
Qed.

(* Slice of [3;4] at rows 1..3 (second range omitted = whole dimension) *)
Example vjp_slice_ex :
  let xv := ofFun [3%nat; 4%nat] val2 in let gy := ofFun [2%nat; 4%nat] val2 in
  let h := [mkLeaf xv; mkRes gy gy [(0%nat, RSliceX 1 0 [(1, 3)%Z])]] in
  exists g, eval_rule RedSum h (RSliceX 1 0 [(1, 3)%Z]) = Ok g /\ dims g = [3%nat; 4%nat] /\
            elt g [0%nat; 2%nat] = 0 /\ elt g [2%nat; 3%nat] = val2 [1%nat; 3%nat] /\
            is_vjp [3%nat; 4%nat] [2%nat; 4%nat]
                   (fun a j => a (shift j [(1, 3); (0, 4)]%nat)) (elt xv) (elt gy) (elt g).
Proof.
  intros xv gy h.
  assert (Hwx : wf xv) by (apply wf_ofFun_ex; repeat constructor).
  assert (Hwg : wf gy) by (apply wf_ofFun_ex; repeat constructor).
  destruct (vjp_slice RedSum h 1 0 [(1, 3)%Z] xv gy eq_refl eq_refl Hwx eq_refl Hwg eq_refl)
    as (g & Eg & Hd & _ & Hel & Hv).
  exists g. split; [exact Eg|]. split; [exact Hd|].
  split; [rewrite (Hel [0%nat; 2%nat]) by (repeat constructor); reflexivity|].
  split; [|exact Hv].
  rewrite (Hel [2%nat; 3%nat]) by (repeat constructor).
  replace (inBlock (completeIndex (rangesOf [(1, 3)%Z]) (dims xv)) (dims gy) [2%nat; 3%nat]) with true by (vm_compute; reflexivity).
  replace (unshift [2%nat; 3%nat] (completeIndex (rangesOf [(1, 3)%Z]) (dims xv))) with [1%nat; 3%nat] by (vm_compute; reflexivity).
  apply elt_ofFun. repeat constructor.
Qed.

(* Patch of a [2;2] source into a [3;4] target at rows 1..3, columns 2..4 *)
Example vjp_patch_ex :
  let xv := ofFun [3%nat; 4%nat] val2 in let pv := ofFun [2%nat; 2%nat] val2 in let gy := ofFun [3%nat; 4%nat] val2 in
  let index := [(1, 3); (2, 4)]%Z in
  let h := [mkLeaf xv; mkLeaf pv; mkRes xv gy [(0%nat, RPatchX 2 1 index); (1%nat, RPatchP 2 1 index)]] in
  (exists g, eval_rule RedSum h (RPatchX 2 1 index) = Ok g /\ dims g = [3%nat; 4%nat] /\
             elt g [1%nat; 2%nat] = 0 /\ elt g [0%nat; 2%nat] = val2 [0%nat; 2%nat]) /\
  (exists g, eval_rule RedSum h (RPatchP 2 1 index) = Ok g /\ dims g = [2%nat; 2%nat] /\
             elt g [1%nat; 0%nat] = val2 [2%nat; 2%nat]).
Proof.
  intros xv pv gy index h.
  assert (Hwp : wf pv) by (apply wf_ofFun_ex; repeat constructor).
  assert (Hwg : wf gy) by (apply wf_ofFun_ex; repeat constructor).
  split.
  - destruct (vjp_patch_tgt RedSum h 2 1 index xv pv gy eq_refl eq_refl Hwp Hwg eq_refl eq_refl)
      as (g & Eg & Hd & _ & Hel & _).
    exists g. split; [exact Eg|]. split; [exact Hd|]. split.
    + rewrite (Hel [1%nat; 2%nat]) by (repeat constructor). reflexivity.
    + rewrite (Hel [0%nat; 2%nat]) by (repeat constructor).
      replace (inBlock (completeIndex (rangesOf index) (dims pv)) (dims pv) [0%nat; 2%nat]) with false by (vm_compute; reflexivity).
      apply elt_ofFun. repeat constructor.
  - destruct (vjp_patch_src RedSum h 2 1 index xv pv gy eq_refl eq_refl Hwp Hwg eq_refl eq_refl)
      as (g & Eg & Hd & _ & Hel & _).
    exists g. split; [exact Eg|]. split; [exact Hd|].
    rewrite (Hel [1%nat; 0%nat]) by (repeat constructor).
    replace (shift [1%nat; 0%nat] (completeIndex (rangesOf index) (dims pv))) with [2%nat; 2%nat] by (vm_compute; reflexivity).
    apply elt_ofFun. repeat constructor.
Qed.

(* Transpose of [2;3] *)
Example vjp_transpose_ex :
  let xv := ofFun [2%nat; 3%nat] val2 in let gy := ofFun [3%nat; 2%nat] val2 in
  let h := [mkLeaf xv; mkRes gy gy [(0%nat, RTranspose 1)]] in
  exists g, eval_rule RedSum h (RTranspose 1) = Ok g /\ dims g = [2%nat; 3%nat] /\
            elt g [1%nat; 2%nat] = val2 [2%nat; 1%nat].
Proof.
  intros xv gy h.
  assert (Hwg : wf gy) by (apply wf_ofFun_ex; repeat constructor).
  assert (Hrk : (2 <= length (dims xv))%nat) by (cbn; lia).
  destruct (vjp_transpose RedSum h 1 xv gy eq_refl Hwg Hrk eq_refl) as (g & Eg & Hd & _ & Hel & _).
  exists g. split; [exact Eg|]. split; [exact Hd|].
  rewrite (Hel [1%nat; 2%nat]) by (repeat constructor).
  change (transposeDims [1%nat; 2%nat]) with [2%nat; 1%nat]. apply elt_ofFun. repeat constructor.
Qed.

(* Concat of [2;1;2], [2;2;2], [2;1;2] along dimension 1: the edge of the middle operand *)
Example vjp_concat_ex :
  let gy := ofFun [2%nat; 4%nat; 2%nat] val2 in
  let index := [(0, 0); (1, 3); (0, 0)]%Z in
  let h := [mkRes gy gy []] in
  exists g, eval_rule RedSum h (RConcat 0 index) = Ok g /\ dims g = [2%nat; 2%nat; 2%nat] /\
            elt g [1%nat; 0%nat; 1%nat] = val2 [1%nat; 1%nat; 1%nat].
Proof.
  intros gy index h.
  assert (Hwg : wf gy) by (apply wf_ofFun_ex; repeat constructor).
  destruct (vjp_concat RedSum h 0 index gy (fun _ => 0) (fun _ => 0) eq_refl Hwg eq_refl) as (g & Eg & Hd & _ & Hel & _).
  exists g. split; [exact Eg|]. split; [exact Hd|].
  rewrite (Hel [1%nat; 0%nat; 1%nat]) by (rewrite Hd; repeat constructor).
  replace (shift [1%nat; 0%nat; 1%nat] (completeIndex (rangesOf index) (dims gy))) with [1%nat; 1%nat; 1%nat] by (vm_compute; reflexivity).
  apply elt_ofFun. repeat constructor.
Qed.

End Inst.

Print Assumptions vjp_gather.
Print Assumptions vjp_gather_inv.
Print Assumptions vjp_reshape.
Print Assumptions vjp_slice.
Print Assumptions bcastBack_char.
Print Assumptions vjp_broadcast_sum.
Print Assumptions broadcast_avg_char.
Print Assumptions broadcast_avg_refuted.
Print Assumptions vjp_patch_src.
Print Assumptions vjp_patch_tgt.
Print Assumptions vjp_concat.
Print Assumptions vjp_transpose.
Print Assumptions vjp_concat_edge.
Print Assumptions vjp_broadcast_fwd.
Print Assumptions vjp_patch_fwd.
