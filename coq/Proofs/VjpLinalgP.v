(* VjpLinalgP.v — the backward rules of the LINEAR-ALGEBRA operations are vector-Jacobian products
   (property C02), for the real-number instance [R_scalar thr draw]:
     MatMul (both operands), Dot (both operands), Concat (per operand, in the vocabulary of
     prefix / suffix shapes; derived from [VjpGatherP.vjp_concat_edge]).
   Operands need no implicit expansion (equal batch shapes); expansion is a separate property.
   MatMul and Dot get (a) an evaluation lemma [..._eval]: under well-formedness and the shape
   equations only, [eval_rule] is [Ok], the result has the operand's shape and the stated element
   formula ("never fails"), and (b) a theorem [vjp_...]: the result is the VJP
   g_i = Σ_j gy_j ∂F_j/∂x_i  of the forward map F; [vjp_concat_operand] states both at once.
   Forward maps are quantified ([F] with its defining equation on valid indices); concrete
   instances [mmF], [dotF], [trF], [catF] are given, and [..._fwd] lemmas show that the model's
   forward operation computes them.  For Transpose only the forward map [trF] and the evaluation
   lemma [rtranspose_eval] are here; that the rule is a VJP is [VjpGatherP.vjp_transpose]. *)
From Coq Require Import List Arith ZArith Bool Lia Reals Lra.
From Coquelicot Require Import Coquelicot.
From Qeep Require Import Model.Scalar Model.Nd Model.Fill Model.Data Model.Valid Model.Api Model.Grad.
From Qeep Require Import Proofs.NdP Proofs.OdometerP Proofs.ElemP Proofs.ReshapeP Proofs.BroadcastP Proofs.ArithP
  Proofs.TransposeP Proofs.MatMulP Proofs.SliceP Proofs.ConcatP.
From Qeep Require Import Proofs.ReduceP Spec.RScalar Spec.VjpSpec Proofs.VjpElemP Proofs.VjpGatherP.
Import ListNotations.
Local Open Scope R_scope.

(* ================================================================================= *)
(* 0. generic: maps that are affine along every coordinate line                       *)
(* ================================================================================= *)

Lemma partial_affine (F : assignment -> assignment) x i j d :
  (forall t, F (perturb x i t) j = F x j + d * t) -> is_partial F x i j d.
Proof.
  intros H. unfold is_partial. apply (is_derive_ext (fun t => F x j + d * t)).
  - intros t. symmetry. apply H.
  - auto_derive; [exact I|ring].
Qed.

(* for every input position i a column D of the Jacobian, read off the coordinate line *)
Lemma vjp_affine dsx dsy (F : assignment -> assignment) (x gy g : assignment) :
  (forall i, validIdx dsx i ->
     exists D : assignment,
       (forall j t, validIdx dsy j -> F (perturb x i t) j = F x j + D j * t) /\
       g i = sumIdx dsy (fun j => gy j * D j)) ->
  is_vjp dsx dsy F x gy g.
Proof.
  intros H i Hi. destruct (H i Hi) as (D & HD & Hg). exists D. split; [|exact Hg].
  intros j Hj. apply partial_affine. intros t. apply HD. exact Hj.
Qed.

(* F a j = Σ_i c i j * a i + k j *)
Lemma linear_partial dsx (c : list nat -> list nat -> R) (k : assignment) x i j : validIdx dsx i ->
  is_partial (fun a j => sumIdx dsx (fun i => c i j * a i) + k j) x i j (c i j).
Proof.
  intros Hi. apply partial_affine. intros t.
  rewrite (sumIdx_ext dsx _ (fun i' => c i' j * x i' + (if idx_eqb i' i then c i' j * t else 0))).
  - rewrite sumIdx_plus, (sumIdx_single dsx i (fun i' => c i' j * t) Hi). ring.
  - intros i' _. rewrite perturb_delta. destruct (idx_eqb i' i); ring.
Qed.

Theorem vjp_linear dsx dsy (c : list nat -> list nat -> R) (k : assignment) (x gy g : assignment) :
  (forall i, validIdx dsx i -> g i = sumIdx dsy (fun j => gy j * c i j)) ->
  is_vjp dsx dsy (fun a j => sumIdx dsx (fun i => c i j * a i) + k j) x gy g.
Proof.
  intros Hg i Hi. exists (fun j => c i j). split.
  - intros j _. apply linear_partial. exact Hi.
  - apply Hg. exact Hi.
Qed.

(* ================================================================================= *)
(* finite sums                                                                        *)
(* ================================================================================= *)

Definition sumN (n : nat) (f : nat -> R) : R := fold_right Rplus 0 (map f (seq 0 n)).

Lemma sumN_ext n f g : (forall p, (p < n)%nat -> f p = g p) -> sumN n f = sumN n g.
Proof. intros H. apply sum_ext_in. intros p Hp. apply in_seq in Hp. apply H. lia. Qed.

Lemma sumN_plus n f g : sumN n (fun p => f p + g p) = sumN n f + sumN n g.
Proof. apply sum_plus. Qed.

Lemma sumN_zero n f : (forall p, (p < n)%nat -> f p = 0) -> sumN n f = 0.
Proof. intros H. rewrite (sumN_ext n f (fun _ => 0) H). apply sum_zero. Qed.

Lemma sumN_scal n c f : sumN n (fun p => c * f p) = c * sumN n f.
Proof. apply sum_scal. Qed.

Lemma sumN_single n a f : (a < n)%nat -> sumN n (fun p => if (p =? a)%nat then f p else 0) = f a.
Proof. intros H. apply (sum_single Nat.eqb Nat.eqb_eq); [apply seq_NoDup|apply in_seq; lia]. Qed.

(* the model's left fold is the finite sum *)
Lemma fold_left_sumL {X} (h : X -> R) (l : list X) : forall a,
  fold_left (fun s p => s + h p) l a = a + fold_right Rplus 0 (map h l).
Proof. induction l as [|x l IH]; intros a; cbn [fold_left map fold_right]; [ring|rewrite IH; ring]. Qed.

Lemma fold_left_sumN n (h : nat -> R) : fold_left (fun s p => s + h p) (seq 0 n) 0 = sumN n h.
Proof. rewrite fold_left_sumL. unfold sumN. ring. Qed.

(* sums over multi-indices, one dimension at a time *)
Lemma sumIdx_nil f : sumIdx [] f = f [].
Proof. unfold sumIdx. cbn. ring. Qed.

Lemma sumIdx_cons d ds f : sumIdx (d :: ds) f = sumN d (fun i => sumIdx ds (fun r => f (i :: r))).
Proof. exact (VjpGatherP.sumIdx_cons d ds f). Qed.

Lemma sumIdx_1 n f : sumIdx [n] f = sumN n (fun p => f [p]).
Proof. rewrite sumIdx_cons. apply sumN_ext. intros p _. apply sumIdx_nil. Qed.

Lemma sumIdx_app ds1 : forall ds2 f,
  sumIdx (ds1 ++ ds2) f = sumIdx ds1 (fun u => sumIdx ds2 (fun v => f (u ++ v))).
Proof.
  induction ds1 as [|d ds1 IH]; intros ds2 f; cbn [app].
  - rewrite sumIdx_nil. reflexivity.
  - rewrite !sumIdx_cons. apply sumN_ext. intros i _. rewrite IH. reflexivity.
Qed.

Lemma sumIdx_zero ds f : (forall j, validIdx ds j -> f j = 0) -> sumIdx ds f = 0.
Proof. intros H. rewrite (sumIdx_ext ds f (fun _ => 0) H). apply sum_zero. Qed.

(* ---------- index bookkeeping ---------- *)

Lemma idx_eqb_iff a b a' b' : (a = b <-> a' = b') -> idx_eqb a b = idx_eqb a' b'.
Proof.
  intros H. destruct (idx_eqb a b) eqn:E1, (idx_eqb a' b') eqn:E2; try reflexivity.
  - apply idx_eqb_eq in E1. apply H in E1. apply idx_eqb_eq in E1. congruence.
  - apply idx_eqb_eq in E2. apply H in E2. apply idx_eqb_eq in E2. congruence.
Qed.

Lemma app_inj_len {X} (a b c d : list X) : length a = length c -> a ++ b = c ++ d -> a = c /\ b = d.
Proof.
  revert c. induction a as [|x a IH]; intros [|y c] Hl E; cbn in Hl; try discriminate; cbn in E.
  - auto.
  - injection E as -> E'. destruct (IH c ltac:(lia) E') as [-> ->]. auto.
Qed.

(* a valid index of  batch ++ [m; k]  is  b ++ [i; j] *)
Lemma validIdx_snoc2_inv batch m k idx : validIdx (batch ++ [m; k]) idx ->
  exists b i j, idx = b ++ [i; j] /\ validIdx batch b /\ (i < m)%nat /\ (j < k)%nat.
Proof.
  revert idx. induction batch as [|d batch IH]; intros idx Hv; cbn [app] in Hv.
  - apply validIdx_cons in Hv as (i & r & -> & Hi & Hv). apply validIdx_cons in Hv as (j & r' & -> & Hj & Hv).
    apply validIdx_nil in Hv. subst r'. exists [], i, j. repeat split; try assumption. constructor.
  - apply validIdx_cons in Hv as (a & r & -> & Ha & Hv). destruct (IH r Hv) as (b & i & j & -> & Hb & Hi & Hj).
    exists (a :: b), i, j. repeat split; try assumption. constructor; assumption.
Qed.

Lemma validIdx_snoc1_inv batch n idx : validIdx (batch ++ [n]) idx ->
  exists b p, idx = b ++ [p] /\ validIdx batch b /\ (p < n)%nat.
Proof.
  revert idx. induction batch as [|d batch IH]; intros idx Hv; cbn [app] in Hv.
  - apply validIdx_cons in Hv as (i & r & -> & Hi & Hv). apply validIdx_nil in Hv. subst r.
    exists [], i. repeat split; try assumption. constructor.
  - apply validIdx_cons in Hv as (a & r & -> & Ha & Hv). destruct (IH r Hv) as (b & p & -> & Hb & Hp).
    exists (a :: b), p. repeat split; try assumption. constructor; assumption.
Qed.

Lemma validIdx_snoc2 batch m k b i j : validIdx batch b -> (i < m)%nat -> (j < k)%nat ->
  validIdx (batch ++ [m; k]) (b ++ [i; j]).
Proof. intros Hb Hi Hj. apply validIdx_app; [exact Hb|apply validIdx2; auto]. Qed.

Lemma validIdx_snoc1 batch n b p : validIdx batch b -> (p < n)%nat -> validIdx (batch ++ [n]) (b ++ [p]).
Proof. intros Hb Hp. apply validIdx_app; [exact Hb|apply validIdx1; auto]. Qed.

(* ================================================================================= *)
(* the instance                                                                       *)
(* ================================================================================= *)
Section VjpLinalg.
Variables (thr : R) (draw : bool -> nat -> R).
Local Hint Extern 0 (Scalar R) => exact (R_scalar thr draw) : typeclass_instances.
Notation T := (tensor R).
Notation RS := (R_scalar thr draw).

Implicit Types (rd : bred) (h : @heap R) (xv yv gy av bv ov : T).

Lemma melt_elt (t : T) idx : @MatMulP.elt R RS (data t) idx = elt t idx.
Proof. reflexivity. Qed.

Lemma fold_dot_sumN n (f g : nat -> R) :
  fold_left (fun s p => @sadd R RS s (@smul R RS (f p) (g p))) (seq 0 n) (@s0 R RS) = sumN n (fun p => f p * g p).
Proof. exact (fold_left_sumN n (fun p => f p * g p)). Qed.

(* ---------- value-level calls, read element by element over R ---------- *)

(* Transpose *)
Lemma tr_elt (t : T) batch m n : wf t -> dims t = batch ++ [m; n] ->
  exists r, v_transpose t = Ok r /\ dims r = batch ++ [n; m] /\ wf r /\
    forall b i j, validIdx batch b -> (i < m)%nat -> (j < n)%nat -> elt r (b ++ [j; i]) = elt t (b ++ [i; j]).
Proof.
  intros Ht E. destruct (transpose_spec R t batch m n Ht E) as (r & Er & Hd & Hw & Hg).
  exists r. unfold v_transpose, guard.
  rewrite (proj2 (validateTransposeDims_rank R t)) by (rewrite E, app_length; cbn; lia). rewrite Er.
  split; [reflexivity|]. split; [exact Hd|]. split; [exact Hw|].
  intros b i j Hb Hi Hj. unfold elt. rewrite (Hg b i j) by (apply validIdx_snoc2; assumption). reflexivity.
Qed.

(* MatMul with equal batch shapes *)
Lemma mm_elt (t u : T) batch m n k : wf t -> wf u -> dims t = batch ++ [m; n] -> dims u = batch ++ [n; k] ->
  exists r, v_matmul t u = Ok r /\ dims r = batch ++ [m; k] /\ wf r /\
    forall b i j, validIdx batch b -> (i < m)%nat -> (j < k)%nat ->
      elt r (b ++ [i; j]) = sumN n (fun p => elt t (b ++ [i; p]) * elt u (b ++ [p; j])).
Proof.
  intros Ht Hu E1 E2. destruct (v_matmul_spec t u Ht Hu) as (H & _).
  pose proof (H batch batch m n k E1 E2 (bcompat2_refl _)) as H'. cbv zeta in H'.
  rewrite targetBroadcastDims_id in H'. destruct H' as (r & Er & Hd & Hw & Hg).
  exists r. split; [exact Er|]. split; [exact Hd|]. split; [exact Hw|].
  intros b i j Hb Hi Hj. apply VjpElemP.elt_get. rewrite (Hg b i j) by (apply validIdx_snoc2; assumption).
  rewrite (bproj_id batch b Hb). f_equal. apply fold_dot_sumN.
Qed.

(* ================================================================================= *)
(* 1. MatMul                                                                          *)
(* ================================================================================= *)

(* the forward map on assignments: element (b, i, j) is Σ_p a(b,i,p) * b(b,p,j); [L] = batch rank *)
Definition mmF (L n : nat) (a b : assignment) : assignment :=
  fun idx => sumN n (fun p => a (firstn L idx ++ [nth L idx 0%nat; p]) * b (firstn L idx ++ [p; nth (S L) idx 0%nat])).

Lemma nth_app_len {X} (l r : list X) d : nth (length l) (l ++ r) d = nth 0 r d.
Proof. rewrite app_nth2 by lia. rewrite Nat.sub_diag. reflexivity. Qed.
Lemma nth_app_Slen {X} (l r : list X) d : nth (S (length l)) (l ++ r) d = nth 1 r d.
Proof. rewrite app_nth2 by lia. replace (S (length l) - length l)%nat with 1%nat by lia. reflexivity. Qed.

Lemma mmF_app a b bi i j n :
  mmF (length bi) n a b (bi ++ [i; j]) = sumN n (fun p => a (bi ++ [i; p]) * b (bi ++ [p; j])).
Proof. unfold mmF. rewrite firstn_length_app, nth_app_len, nth_app_Slen. reflexivity. Qed.

(* the model's MatMul computes [mmF] *)
Lemma matmul_fwd av bv batch m n k : wf av -> wf bv -> dims av = batch ++ [m; n] -> dims bv = batch ++ [n; k] ->
  exists r, v_matmul av bv = Ok r /\ dims r = batch ++ [m; k] /\ wf r /\
    forall idx, validIdx (batch ++ [m; k]) idx -> elt r idx = mmF (length batch) n (elt av) (elt bv) idx.
Proof.
  intros Wa Wb Ea Eb. destruct (mm_elt av bv batch m n k Wa Wb Ea Eb) as (r & Er & Hd & Hw & Hg).
  exists r. split; [exact Er|]. split; [exact Hd|]. split; [exact Hw|].
  intros idx Hv. apply validIdx_snoc2_inv in Hv as (b & i & j & -> & Hb & Hi & Hj).
  rewrite (Hg b i j Hb Hi Hj). rewrite <- (validIdx_length _ _ Hb). symmetry. apply mmF_app.
Qed.

(* ---------- first operand: gy.MatMul(b^T) ---------- *)
Lemma rmatmula_eval rd h y b bv gy batch m n k :
  valOf h b = Some bv -> gradOf h y = Some gy -> wf bv -> wf gy ->
  dims bv = batch ++ [n; k] -> dims gy = batch ++ [m; k] ->
  exists g, eval_rule rd h (RMatMulA y b) = Ok g /\ dims g = batch ++ [m; n] /\ wf g /\
    forall bi i p, validIdx batch bi -> (i < m)%nat -> (p < n)%nat ->
      elt g (bi ++ [i; p]) = sumN k (fun j => elt gy (bi ++ [i; j]) * elt bv (bi ++ [p; j])).
Proof.
  intros Hb Hg Wb Wg Eb Eg. open_rule.
  destruct (tr_elt bv batch n k Wb Eb) as (bt & Ebt & Dbt & Wbt & Gbt). rewrite Ebt. cbn [res_bind].
  destruct (mm_elt gy bt batch m k n Wg Wbt Eg Dbt) as (g & Egg & Dg & Wg' & Gg).
  exists g. split; [exact Egg|]. split; [exact Dg|]. split; [exact Wg'|].
  intros bi i p Hbi Hi Hp. rewrite (Gg bi i p Hbi Hi Hp). apply sumN_ext. intros j Hj.
  rewrite (Gbt bi p j Hbi Hp Hj). reflexivity.
Qed.

Theorem vjp_matmul_a rd h y b av bv gy batch m n k (F : assignment -> assignment) :
  valOf h b = Some bv -> gradOf h y = Some gy -> wf bv -> wf gy ->
  dims av = batch ++ [m; n] -> dims bv = batch ++ [n; k] -> dims gy = batch ++ [m; k] ->
  (forall a' bi i j, validIdx batch bi -> (i < m)%nat -> (j < k)%nat ->
     F a' (bi ++ [i; j]) = sumN n (fun p => a' (bi ++ [i; p]) * elt bv (bi ++ [p; j]))) ->
  exists g, eval_rule rd h (RMatMulA y b) = Ok g /\ dims g = dims av /\ wf g /\
    is_vjp (dims av) (dims gy) F (elt av) (elt gy) (elt g).
Proof.
  intros Hb Hg Wb Wg Ea Eb Eg HF.
  destruct (rmatmula_eval rd h y b bv gy batch m n k Hb Hg Wb Wg Eb Eg) as (g & E & D & W & G).
  exists g. split; [exact E|]. split; [congruence|]. split; [exact W|].
  rewrite Ea, Eg. apply vjp_affine. intros i0 Hi0.
  apply validIdx_snoc2_inv in Hi0 as (b0 & i0' & p0 & -> & Hb0 & Hi0' & Hp0).
  set (L := length batch).
  assert (Lb0 : length b0 = L) by (apply validIdx_length; exact Hb0).
  (* column (b0, i0', p0) of the Jacobian: output (bi, i, j) has entry [bi = b0][i = i0'] * b(b0, p0, j) *)
  exists (fun jj => if idx_eqb (firstn (S L) jj) (b0 ++ [i0']) then elt bv (b0 ++ [p0; nth (S L) jj 0%nat]) else 0).
  split.
  - intros jj t Hjj. apply validIdx_snoc2_inv in Hjj as (bi & i & j & -> & Hbi & Hi & Hj).
    assert (Lbi : length bi = L) by (apply validIdx_length; exact Hbi).
    rewrite !(HF _ bi i j Hbi Hi Hj).
    replace (firstn (S L) (bi ++ [i; j])) with (bi ++ [i]).
    2:{ change (bi ++ [i; j]) with (bi ++ [i] ++ [j]). rewrite app_assoc.
        replace (S L) with (length (bi ++ [i])) by (rewrite app_length; cbn; lia).
        rewrite firstn_length_app. reflexivity. }
    replace (nth (S L) (bi ++ [i; j]) 0%nat) with j by (rewrite <- Lbi, nth_app_Slen; reflexivity).
    rewrite (sumN_ext n _ (fun p => elt av (bi ++ [i; p]) * elt bv (bi ++ [p; j]) +
                                    (if (p =? p0)%nat
                                     then (if idx_eqb (bi ++ [i]) (b0 ++ [i0']) then elt bv (b0 ++ [p; j]) else 0) * t
                                     else 0))).
    + rewrite sumN_plus, (sumN_single n p0 _ Hp0). reflexivity.
    + intros p _. rewrite perturb_delta.
      destruct (Nat.eqb_spec p p0) as [->|Np].
      * rewrite (idx_eqb_iff (bi ++ [i; p0]) (b0 ++ [i0'; p0]) (bi ++ [i]) (b0 ++ [i0'])).
        -- destruct (idx_eqb (bi ++ [i]) (b0 ++ [i0'])) eqn:Eq; [|ring].
           apply idx_eqb_eq in Eq. apply app_inj_len in Eq as [-> _]; [ring|congruence].
        -- split; intros Eq.
           ++ apply snoc2_inj in Eq as (-> & -> & _). reflexivity.
           ++ apply app_inj_len in Eq as [-> Eq']; [|congruence]. inversion Eq'. reflexivity.
      * rewrite idx_eqb_neq; [ring|]. intros Eq. apply snoc2_inj in Eq as (_ & _ & Eq). contradiction.
  - rewrite (G b0 i0' p0 Hb0 Hi0' Hp0).
    change (batch ++ [m; k]) with (batch ++ [m] ++ [k]). rewrite app_assoc, sumIdx_app.
    rewrite (sumIdx_ext (batch ++ [m]) _
               (fun u => if idx_eqb u (b0 ++ [i0'])
                         then sumN k (fun j => elt gy (u ++ [j]) * elt bv (b0 ++ [p0; j])) else 0)).
    + rewrite sumIdx_single by (apply validIdx_snoc1; assumption).
      apply sumN_ext. intros j _. rewrite <- app_assoc. reflexivity.
    + intros u Hu. rewrite sumIdx_1.
      assert (Lu : length u = S L) by (rewrite (validIdx_length _ _ Hu), app_length; cbn; lia).
      destruct (idx_eqb u (b0 ++ [i0'])) eqn:Eq.
      * apply sumN_ext. intros j _. rewrite <- Lu, firstn_length_app, Eq.
        rewrite app_nth2 by lia. rewrite Nat.sub_diag. reflexivity.
      * apply sumN_zero. intros j _. rewrite <- Lu, firstn_length_app, Eq. ring.
Qed.



(* ---------- second operand: a^T.MatMul(gy) ---------- *)
Lemma rmatmulb_eval rd h y a av gy batch m n k :
  valOf h a = Some av -> gradOf h y = Some gy -> wf av -> wf gy ->
  dims av = batch ++ [m; n] -> dims gy = batch ++ [m; k] ->
  exists g, eval_rule rd h (RMatMulB y a) = Ok g /\ dims g = batch ++ [n; k] /\ wf g /\
    forall bi p j, validIdx batch bi -> (p < n)%nat -> (j < k)%nat ->
      elt g (bi ++ [p; j]) = sumN m (fun i => elt av (bi ++ [i; p]) * elt gy (bi ++ [i; j])).
Proof.
  intros Ha Hg Wa Wg Ea Eg. open_rule.
  destruct (tr_elt av batch m n Wa Ea) as (at_ & Eat & Dat & Wat & Gat). rewrite Eat. cbn [res_bind].
  destruct (mm_elt at_ gy batch n m k Wat Wg Dat Eg) as (g & Egg & Dg & Wg' & Gg).
  exists g. split; [exact Egg|]. split; [exact Dg|]. split; [exact Wg'|].
  intros bi p j Hbi Hp Hj. rewrite (Gg bi p j Hbi Hp Hj). apply sumN_ext. intros i Hi.
  rewrite (Gat bi i p Hbi Hi Hp). reflexivity.
Qed.

Theorem vjp_matmul_b rd h y a av bv gy batch m n k (F : assignment -> assignment) :
  valOf h a = Some av -> gradOf h y = Some gy -> wf av -> wf gy ->
  dims av = batch ++ [m; n] -> dims bv = batch ++ [n; k] -> dims gy = batch ++ [m; k] ->
  (forall b' bi i j, validIdx batch bi -> (i < m)%nat -> (j < k)%nat ->
     F b' (bi ++ [i; j]) = sumN n (fun p => elt av (bi ++ [i; p]) * b' (bi ++ [p; j]))) ->
  exists g, eval_rule rd h (RMatMulB y a) = Ok g /\ dims g = dims bv /\ wf g /\
    is_vjp (dims bv) (dims gy) F (elt bv) (elt gy) (elt g).
Proof.
  intros Ha Hg Wa Wg Ea Eb Eg HF.
  destruct (rmatmulb_eval rd h y a av gy batch m n k Ha Hg Wa Wg Ea Eg) as (g & E & D & W & G).
  exists g. split; [exact E|]. split; [congruence|]. split; [exact W|].
  rewrite Eb, Eg. apply vjp_affine. intros i0 Hi0.
  apply validIdx_snoc2_inv in Hi0 as (b0 & p0 & j0 & -> & Hb0 & Hp0 & Hj0).
  set (L := length batch).
  assert (Lb0 : length b0 = L) by (apply validIdx_length; exact Hb0).
  (* column (b0, p0, j0): output (bi, i, j) has entry [bi = b0][j = j0] * a(b0, i, p0) *)
  exists (fun jj => if idx_eqb (firstn L jj) b0 && (nth (S L) jj 0 =? j0)%nat
                    then elt av (b0 ++ [nth L jj 0%nat; p0]) else 0).
  split.
  - intros jj t Hjj. apply validIdx_snoc2_inv in Hjj as (bi & i & j & -> & Hbi & Hi & Hj).
    assert (Lbi : length bi = L) by (apply validIdx_length; exact Hbi).
    rewrite !(HF _ bi i j Hbi Hi Hj).
    rewrite <- Lbi, firstn_length_app, nth_app_len, nth_app_Slen. cbn [nth].
    rewrite (sumN_ext n _ (fun p => elt av (bi ++ [i; p]) * elt bv (bi ++ [p; j]) +
                                    (if (p =? p0)%nat
                                     then (if idx_eqb bi b0 && (j =? j0)%nat then elt av (b0 ++ [i; p]) else 0) * t
                                     else 0))).
    + rewrite sumN_plus, (sumN_single n p0 _ Hp0). reflexivity.
    + intros p _. rewrite perturb_delta.
      destruct (Nat.eqb_spec p p0) as [->|Np].
      * destruct (idx_eqb bi b0) eqn:Eq; cbn [andb].
        -- apply idx_eqb_eq in Eq. subst bi. destruct (Nat.eqb_spec j j0) as [->|Nj].
           ++ rewrite idx_eqb_refl. ring.
           ++ rewrite idx_eqb_neq; [ring|]. intros Eq. apply snoc2_inj in Eq as (_ & _ & Eq). contradiction.
        -- rewrite idx_eqb_neq; [ring|]. intros Eq'. apply snoc2_inj in Eq' as (-> & _ & _).
           rewrite idx_eqb_refl in Eq. discriminate.
      * rewrite idx_eqb_neq; [ring|]. intros Eq. apply snoc2_inj in Eq as (_ & Eq & _). contradiction.
  - rewrite (G b0 p0 j0 Hb0 Hp0 Hj0). rewrite sumIdx_app.
    rewrite (sumIdx_ext batch _
               (fun u => if idx_eqb u b0
                         then sumN m (fun i => elt av (b0 ++ [i; p0]) * elt gy (u ++ [i; j0])) else 0)).
    + rewrite sumIdx_single by exact Hb0. reflexivity.
    + intros u Hu.
      assert (Lu : length u = L) by (apply validIdx_length; exact Hu).
      rewrite !sumIdx_cons. destruct (idx_eqb u b0) eqn:Eq.
      * apply sumN_ext. intros i _. rewrite sumIdx_cons.
        rewrite (sumN_ext k _ (fun j => if (j =? j0)%nat then elt gy (u ++ [i; j]) * elt av (b0 ++ [i; p0]) else 0)).
        -- rewrite (sumN_single k j0 _ Hj0). ring.
        -- intros j _. rewrite sumIdx_nil. rewrite <- Lu, firstn_length_app, nth_app_len, nth_app_Slen, Eq.
           cbn [nth andb]. destruct (j =? j0)%nat; ring.
      * apply sumN_zero. intros i _. rewrite sumIdx_cons. apply sumN_zero. intros j _. rewrite sumIdx_nil.
        rewrite <- Lu, firstn_length_app, Eq. cbn [andb]. ring.
Qed.

(* the plain case: matrices *)
Corollary vjp_matmul_a_2d rd h y b av bv gy m n k (F : assignment -> assignment) :
  valOf h b = Some bv -> gradOf h y = Some gy -> wf bv -> wf gy ->
  dims av = [m; n] -> dims bv = [n; k] -> dims gy = [m; k] ->
  (forall a' i j, (i < m)%nat -> (j < k)%nat -> F a' [i; j] = sumN n (fun p => a' [i; p] * elt bv [p; j])) ->
  exists g, eval_rule rd h (RMatMulA y b) = Ok g /\ dims g = [m; n] /\ wf g /\
    (forall i p, (i < m)%nat -> (p < n)%nat -> elt g [i; p] = sumN k (fun j => elt gy [i; j] * elt bv [p; j])) /\
    is_vjp [m; n] [m; k] F (elt av) (elt gy) (elt g).
Proof.
  intros Hb Hg Wb Wg Ea Eb Eg HF.
  destruct (rmatmula_eval rd h y b bv gy [] m n k Hb Hg Wb Wg Eb Eg) as (g & E & D & W & G).
  destruct (vjp_matmul_a rd h y b av bv gy [] m n k F Hb Hg Wb Wg Ea Eb Eg) as (g' & E' & _ & _ & V).
  { intros a' bi i j Hbi Hi Hj. apply validIdx_nil in Hbi. subst bi. apply HF; assumption. }
  assert (g' = g) by congruence. subst g'. rewrite Ea, Eg in V.
  exists g. split; [exact E|]. split; [exact D|]. split; [exact W|]. split; [|exact V].
  intros i p Hi Hp. apply (G [] i p); [constructor|exact Hi|exact Hp].
Qed.

Corollary vjp_matmul_b_2d rd h y a av bv gy m n k (F : assignment -> assignment) :
  valOf h a = Some av -> gradOf h y = Some gy -> wf av -> wf gy ->
  dims av = [m; n] -> dims bv = [n; k] -> dims gy = [m; k] ->
  (forall b' i j, (i < m)%nat -> (j < k)%nat -> F b' [i; j] = sumN n (fun p => elt av [i; p] * b' [p; j])) ->
  exists g, eval_rule rd h (RMatMulB y a) = Ok g /\ dims g = [n; k] /\ wf g /\
    (forall p j, (p < n)%nat -> (j < k)%nat -> elt g [p; j] = sumN m (fun i => elt av [i; p] * elt gy [i; j])) /\
    is_vjp [n; k] [m; k] F (elt bv) (elt gy) (elt g).
Proof.
  intros Ha Hg Wa Wg Ea Eb Eg HF.
  destruct (rmatmulb_eval rd h y a av gy [] m n k Ha Hg Wa Wg Ea Eg) as (g & E & D & W & G).
  destruct (vjp_matmul_b rd h y a av bv gy [] m n k F Ha Hg Wa Wg Ea Eb Eg) as (g' & E' & _ & _ & V).
  { intros b' bi i j Hbi Hi Hj. apply validIdx_nil in Hbi. subst bi. apply HF; assumption. }
  assert (g' = g) by congruence. subst g'. rewrite Eb, Eg in V.
  exists g. split; [exact E|]. split; [exact D|]. split; [exact W|]. split; [|exact V].
  intros p j Hp Hj. apply (G [] p j); [constructor|exact Hp|exact Hj].
Qed.

(* ================================================================================= *)
(* 3. Transpose: the forward map and the rule, element by element                     *)
(* ================================================================================= *)

Definition trF (a : assignment) : assignment := fun idx => a (transposeDims idx).

Lemma trF_app a b i j : trF a (b ++ [j; i]) = a (b ++ [i; j]).
Proof. unfold trF. rewrite transposeDims_snoc2. reflexivity. Qed.

Lemma transpose_fwd xv batch m n : wf xv -> dims xv = batch ++ [m; n] ->
  exists r, v_transpose xv = Ok r /\ dims r = batch ++ [n; m] /\ wf r /\
    forall idx, validIdx (batch ++ [n; m]) idx -> elt r idx = trF (elt xv) idx.
Proof.
  intros Wx Ex. destruct (tr_elt xv batch m n Wx Ex) as (r & Er & Hd & Hw & Hg).
  exists r. split; [exact Er|]. split; [exact Hd|]. split; [exact Hw|].
  intros idx Hv. apply validIdx_snoc2_inv in Hv as (b & j & i & -> & Hb & Hj & Hi).
  rewrite trF_app. apply Hg; assumption.
Qed.

Lemma rtranspose_eval rd h y gy batch m n :
  gradOf h y = Some gy -> wf gy -> dims gy = batch ++ [n; m] ->
  exists g, eval_rule rd h (RTranspose y) = Ok g /\ dims g = batch ++ [m; n] /\ wf g /\
    forall b i j, validIdx batch b -> (i < m)%nat -> (j < n)%nat -> elt g (b ++ [i; j]) = elt gy (b ++ [j; i]).
Proof.
  intros Hg Wg Eg. open_rule.
  destruct (tr_elt gy batch n m Wg Eg) as (g & Egg & Dg & Wg' & Gg).
  exists g. split; [exact Egg|]. split; [exact Dg|]. split; [exact Wg'|].
  intros b i j Hb Hi Hj. apply Gg; assumption.
Qed.

(* ================================================================================= *)
(* 2. Dot: gy.UnSqueeze(rank y).Mul(other operand)                                    *)
(* ================================================================================= *)

(* UnSqueeze at the end: element (b, 0) of the result is element b of the argument *)
Lemma unsq_elt (t : T) batch : wf t -> dims t = batch ->
  exists r, v_unsqueeze t (Z.of_nat (length batch)) = Ok r /\ dims r = batch ++ [1%nat] /\ wf r /\
    forall b, validIdx batch b -> elt r (b ++ [0%nat]) = elt t b.
Proof.
  intros Wt Et.
  destruct (unsqueeze_repr t batch (elt t) (length batch) (repr_at t _ Wt Et) (le_n _)) as (r & Er & Dr & Wr & Gr).
  assert (Ei : ins (length batch) 1%nat batch = batch ++ [1%nat]) by (unfold ins; rewrite firstn_all, skipn_all; reflexivity).
  rewrite Ei in Dr, Gr. exists r. split; [exact Er|]. split; [exact Dr|]. split; [exact Wr|].
  intros b Hb. rewrite Gr by (apply validIdx_snoc1; [exact Hb|lia]).
  rewrite <- (validIdx_length _ _ Hb), (del_app_exact b 0%nat [] _ eq_refl), app_nil_r. reflexivity.
Qed.

Lemma bproj_snoc1 batch n b p : validIdx batch b -> bproj (batch ++ [1%nat]) (batch ++ [n]) (b ++ [p]) = b ++ [0%nat].
Proof.
  intros Hb. pose proof (bproj_id batch b Hb) as Hid. unfold bproj in *.
  rewrite Nat.sub_diag in Hid. cbn [skipn] in Hid.
  rewrite !app_length. cbn [length]. rewrite Nat.sub_diag. cbn [skipn].
  rewrite combine_app_eq by (symmetry; apply validIdx_length; exact Hb).
  rewrite map_app, Hid. reflexivity.
Qed.

(* Mul of a [batch, 1] tensor with a [batch, n] tensor *)
Lemma mul_col_elt (c u : T) batch n : wf c -> wf u -> dims c = batch ++ [1%nat] -> dims u = batch ++ [n] ->
  exists r, v_arith BiMul c u = Ok r /\ dims r = batch ++ [n] /\ wf r /\
    forall b p, validIdx batch b -> (p < n)%nat -> elt r (b ++ [p]) = elt c (b ++ [0%nat]) * elt u (b ++ [p]).
Proof.
  intros Wc Wu Ec Eu.
  assert (Hn : (0 < n)%nat).
  { pose proof (proj2 Wu) as Hp. rewrite Eu in Hp. apply Forall_app in Hp as [_ Hp]. inversion Hp; assumption. }
  pose proof (v_arith_spec BiMul c u Wc Wu) as H. cbv zeta in H. destruct H as [H _].
  rewrite Ec, Eu, tbd_snoc, targetBroadcastDims_id in H.
  replace (Nat.max 1 n) with n in H by lia.
  destruct H as (r & Er & Hd & Wr & Hg).
  { unfold bcompat2. rewrite !rev_app_distr. cbn [rev app compat2R]. split; [auto|apply compat2R_refl]. }
  exists r. split; [exact Er|]. split; [exact Hd|]. split; [exact Wr|].
  intros b p Hb Hp.
  assert (Hv : validIdx (batch ++ [n]) (b ++ [p])) by (apply validIdx_snoc1; assumption).
  apply VjpElemP.elt_get. rewrite (Hg _ Hv), bproj_snoc1 by exact Hb. rewrite (bproj_id _ _ Hv).
  rewrite (VjpGatherP.elt_get c (b ++ [0%nat]) Wc) by (rewrite Ec; apply validIdx_snoc1; [exact Hb|lia]).
  rewrite (VjpGatherP.elt_get u (b ++ [p]) Wu) by (rewrite Eu; exact Hv). reflexivity.
Qed.

(* the forward map: element b is Σ_p a(b,p) * o(b,p) *)
Definition dotF (n : nat) (a o : assignment) : assignment :=
  fun b => sumN n (fun p => a (b ++ [p]) * o (b ++ [p])).

(* Dot with equal shapes *)
Lemma dot_fwd av ov batch n : wf av -> wf ov -> dims av = batch ++ [n] -> dims ov = batch ++ [n] ->
  exists r, v_dot av ov = Ok r /\ dims r = batch /\ wf r /\
    forall b, validIdx batch b -> elt r b = dotF n (elt av) (elt ov) b.
Proof.
  intros Wa Wo Ea Eo. pose proof (v_dot_spec av ov Wa Wo) as H. cbv zeta in H. destruct H as [H _].
  destruct (H batch batch n Ea Eo) as (r & Er & _ & _ & Hd & Wr & Hg).
  { rewrite Ea, Eo. apply bcompat2_refl. }
  rewrite targetBroadcastDims_id in Hd.
  exists r. split; [exact Er|]. split; [exact Hd|]. split; [exact Wr|].
  intros b Hb. apply VjpElemP.elt_get. rewrite Hg by (rewrite Hd; exact Hb). f_equal.
  rewrite Ea, Eo, targetBroadcastDims_id. unfold dotF. rewrite <- fold_dot_sumN.
  apply fold_left_ext_in. intros p s Hp. apply in_seq in Hp.
  rewrite bproj_id by (apply validIdx_snoc1; [exact Hb|lia]). reflexivity.
Qed.

Lemma rdot_eval rd h y o yv ov gy batch n :
  valOf h y = Some yv -> valOf h o = Some ov -> gradOf h y = Some gy -> wf ov -> wf gy ->
  dims yv = batch -> dims gy = batch -> dims ov = batch ++ [n] ->
  exists g, eval_rule rd h (RDot y o) = Ok g /\ dims g = batch ++ [n] /\ wf g /\
    forall b p, validIdx batch b -> (p < n)%nat -> elt g (b ++ [p]) = elt gy b * elt ov (b ++ [p]).
Proof.
  intros Hy Ho Hg Wo Wg Ey Eg Eo. open_rule.
  unfold zlen. rewrite Ey.
  destruct (unsq_elt gy batch Wg Eg) as (gyu & Eu & Du & Wu & Gu). rewrite Eu. cbn [res_bind].
  destruct (mul_col_elt gyu ov batch n Wu Wo Du Eo) as (g & Egg & Dg & Wg' & Gg).
  exists g. split; [exact Egg|]. split; [exact Dg|]. split; [exact Wg'|].
  intros b p Hb Hp. rewrite (Gg b p Hb Hp), (Gu b Hb). reflexivity.
Qed.

(* the same rule serves both operands ([h_dot] records (a1, RDot y a2) and (a2, RDot y a1)) *)
Theorem vjp_dot rd h y o yv xv ov gy batch n (F1 F2 : assignment -> assignment) :
  valOf h y = Some yv -> valOf h o = Some ov -> gradOf h y = Some gy -> wf ov -> wf gy ->
  dims yv = batch -> dims gy = batch -> dims xv = batch ++ [n] -> dims ov = batch ++ [n] ->
  (forall a' b, validIdx batch b -> F1 a' b = sumN n (fun p => a' (b ++ [p]) * elt ov (b ++ [p]))) ->
  (forall b' b, validIdx batch b -> F2 b' b = sumN n (fun p => elt ov (b ++ [p]) * b' (b ++ [p]))) ->
  exists g, eval_rule rd h (RDot y o) = Ok g /\ dims g = dims xv /\ wf g /\
    is_vjp (dims xv) (dims gy) F1 (elt xv) (elt gy) (elt g) /\     (* x is the first operand *)
    is_vjp (dims xv) (dims gy) F2 (elt xv) (elt gy) (elt g).       (* x is the second operand *)
Proof.
  intros Hy Ho Hg Wo Wg Ey Eg Ex Eo HF1 HF2.
  destruct (rdot_eval rd h y o yv ov gy batch n Hy Ho Hg Wo Wg Ey Eg Eo) as (g & E & D & W & G).
  exists g. split; [exact E|]. split; [congruence|]. split; [exact W|].
  assert (V1 : is_vjp (dims xv) (dims gy) F1 (elt xv) (elt gy) (elt g)).
  { rewrite Ex, Eg. apply vjp_affine. intros i0 Hi0.
    apply validIdx_snoc1_inv in Hi0 as (b0 & p0 & -> & Hb0 & Hp0).
    exists (fun j => if idx_eqb j b0 then elt ov (b0 ++ [p0]) else 0). split.
    - intros b t Hb. rewrite !(HF1 _ b Hb).
      rewrite (sumN_ext n _ (fun p => elt xv (b ++ [p]) * elt ov (b ++ [p]) +
                                      (if (p =? p0)%nat
                                       then (if idx_eqb b b0 then elt ov (b0 ++ [p]) else 0) * t else 0))).
      + rewrite sumN_plus, (sumN_single n p0 _ Hp0). reflexivity.
      + intros p _. rewrite perturb_delta. destruct (Nat.eqb_spec p p0) as [->|Np].
        * rewrite (idx_eqb_iff (b ++ [p0]) (b0 ++ [p0]) b b0).
          -- destruct (idx_eqb b b0) eqn:Eq; [|ring]. apply idx_eqb_eq in Eq. subst b. ring.
          -- split; [intros Eq; apply app_inj_tail in Eq as [-> _]; reflexivity|intros ->; reflexivity].
        * rewrite idx_eqb_neq; [ring|]. intros Eq. apply app_inj_tail in Eq as [_ Eq]. contradiction.
    - rewrite (G b0 p0 Hb0 Hp0).
      rewrite (sumIdx_ext batch _ (fun j => if idx_eqb j b0 then elt gy j * elt ov (b0 ++ [p0]) else 0)).
      + rewrite sumIdx_single by exact Hb0. reflexivity.
      + intros j _. destruct (idx_eqb j b0); ring. }
  split; [exact V1|].
  rewrite Eg in *. apply (is_vjp_ext_valid _ _ F1); [|exact V1].
  intros a' b Hb. rewrite (HF1 a' b Hb), (HF2 a' b Hb). apply sumN_ext. intros p _. ring.
Qed.

(* ================================================================================= *)
(* 4. Concat, per operand: y.Gradient().Slice(index)                                  *)
(* ================================================================================= *)

(* the index recorded by [concatEdges] for an operand of shape  pre ++ nj :: post  placed at
   offset [off] along dimension [length pre]: {0,0} everywhere except {off, off + nj} there *)
Definition catIndex (pre post : list nat) (off nj : nat) : list zrange :=
  repeat (0%Z, 0%Z) (length pre) ++ (Z.of_nat off, (Z.of_nat off + Z.of_nat nj)%Z) :: repeat (0%Z, 0%Z) (length post).

Lemma map_seq_const {X} (f : nat -> X) z n : forall s,
  (forall i, (s <= i < s + n)%nat -> f i = z) -> map f (seq s n) = repeat z n.
Proof.
  induction n as [|n IH]; intros s H; cbn [seq map repeat]; [reflexivity|].
  rewrite (H s) by lia. f_equal. apply IH. intros i Hi. apply H. lia.
Qed.

(* ... which is literally the list built in Grad.concatEdges *)
Lemma catIndex_edges pre post off nj :
  map (fun i => if (i =? length pre)%nat then (Z.of_nat off, (Z.of_nat off + Z.of_nat nj)%Z) else (0%Z, 0%Z))
      (seq 0 (length (pre ++ nj :: post)))
  = catIndex pre post off nj.
Proof.
  unfold catIndex. rewrite app_length. cbn [length]. rewrite seq_app, map_app. cbn [Nat.add seq map].
  rewrite Nat.eqb_refl. f_equal; [|f_equal].
  - apply map_seq_const. intros i Hi. destruct (Nat.eqb_spec i (length pre)); [lia|reflexivity].
  - apply map_seq_const. intros i Hi. destruct (Nat.eqb_spec i (length pre)); [lia|reflexivity].
Qed.

Lemma concatEdges_index y pre post nj (x : nat) (xv : T) rest off : dims xv = pre ++ nj :: post ->
  @concatEdges R y (length pre) ((x, xv) :: rest) (Z.of_nat off)
  = (x, RConcat y (catIndex pre post off nj)) :: @concatEdges R y (length pre) rest (Z.of_nat (off + nj)).
Proof.
  intros E. cbn [concatEdges]. rewrite E, nth_app_len. cbn [nth]. rewrite catIndex_edges, Nat2Z.inj_add. reflexivity.
Qed.

Lemma shift_mid pre post off nj i1 x i2 : validIdx pre i1 -> validIdx post i2 ->
  shift (i1 ++ x :: i2) (map (fun d => (0%nat, d)) pre ++ (off, (off + nj)%nat) :: map (fun d => (0%nat, d)) post)
  = i1 ++ (off + x)%nat :: i2.
Proof.
  intros H1 H2. unfold shift.
  rewrite combine_app_eq by (rewrite map_length; apply validIdx_length; exact H1).
  rewrite map_app.
  change (shift i1 (map (fun d => (0%nat, d)) pre) ++
          shift (x :: i2) ((off, (off + nj)%nat) :: map (fun d => (0%nat, d)) post) = i1 ++ (off + x)%nat :: i2).
  rewrite shift_cons, !shift_nil_index by assumption. f_equal. f_equal. lia.
Qed.

Lemma inBlock_mid pre post off nj i1 z i2 : validIdx pre i1 -> validIdx post i2 ->
  inBlock (map (fun d => (0%nat, d)) pre ++ (off, (off + nj)%nat) :: map (fun d => (0%nat, d)) post)
          (pre ++ nj :: post) (i1 ++ z :: i2) = ((off <=? z) && (z <? off + nj))%nat.
Proof.
  intros H1 H2. induction H1 as [|i d i1 pre Hi _ IH]; cbn [map app inBlock].
  - assert (E : forall ds i, validIdx ds i -> inBlock (map (fun d => (0%nat, d)) ds) ds i = true).
    { induction 1 as [|k d' i' ds' Hk _ IH']; [reflexivity|]. cbn [map inBlock]. rewrite IH'.
      destruct (Nat.ltb_spec k (0 + d')); [reflexivity|lia]. }
    rewrite (E post i2 H2). apply andb_true_r.
  - rewrite IH. destruct (Nat.ltb_spec i (0 + d)); [reflexivity|lia].
Qed.

Lemma unshift_mid pre post off nj i1 z i2 : validIdx pre i1 -> validIdx post i2 ->
  unshift (i1 ++ z :: i2) (map (fun d => (0%nat, d)) pre ++ (off, (off + nj)%nat) :: map (fun d => (0%nat, d)) post)
  = i1 ++ (z - off)%nat :: i2.
Proof.
  assert (E : forall ds i, validIdx ds i -> unshift i (map (fun d => (0%nat, d)) ds) = i).
  { induction 1 as [|k d' i' ds' Hk _ IH']; [reflexivity|]. cbn [map]. rewrite unshift_cons, IH'. f_equal. lia. }
  intros H1 H2. induction H1 as [|i d i1 pre Hi _ IH]; cbn [map app]; rewrite unshift_cons.
  - rewrite (E post i2 H2). reflexivity.
  - rewrite IH. f_equal. lia.
Qed.

(* ---------- the concrete forward map of Concat in one operand ---------- *)

(* [c] = the elements contributed by the other operands (any assignment: it is only read outside
   the operand's block), [a] = the operand placed at [off .. off + nj) along dimension [L] *)
Definition catF (L off nj : nat) (c a : assignment) : assignment :=
  fun idx => let z := nth L idx 0%nat in
    if ((off <=? z) && (z <? off + nj))%nat
    then a (firstn L idx ++ (z - off)%nat :: skipn (S L) idx) else c idx.

Lemma skipn_S_mid {X} (i1 : list X) z i2 : skipn (S (length i1)) (i1 ++ z :: i2) = i2.
Proof. induction i1 as [|a i1 IH]; [reflexivity|exact IH]. Qed.

Lemma catF_in off nj c a i1 x i2 : (x < nj)%nat ->
  catF (length i1) off nj c a (i1 ++ (off + x)%nat :: i2) = a (i1 ++ x :: i2).
Proof.
  intros Hx. unfold catF. rewrite nth_app_len. cbn [nth].
  replace ((off <=? off + x) && (off + x <? off + nj))%nat with true
    by (symmetry; apply andb_true_iff; split; [apply Nat.leb_le|apply Nat.ltb_lt]; lia).
  change (i1 ++ (off + x)%nat :: i2) with (i1 ++ [(off + x)%nat] ++ i2) at 1.
  rewrite firstn_length_app, skipn_S_mid. do 3 f_equal. lia.
Qed.

Lemma catF_out off nj c a i1 z i2 : (z < off \/ off + nj <= z)%nat ->
  catF (length i1) off nj c a (i1 ++ z :: i2) = c (i1 ++ z :: i2).
Proof.
  intros Hz. unfold catF. rewrite nth_app_len. cbn [nth].
  replace ((off <=? z) && (z <? off + nj))%nat with false; [reflexivity|].
  symmetry. apply andb_false_iff. destruct Hz as [Hz|Hz]; [left; apply Nat.leb_gt|right; apply Nat.ltb_ge]; lia.
Qed.

(* the rule recorded for operand j of a concatenation of operands of sizes [ns] along [length pre] *)
Corollary vjp_concat_operand rd h y xv gy pre post ns j (c : assignment) :
  gradOf h y = Some gy -> wf gy -> dims gy = pre ++ list_sum ns :: post ->
  (j < length ns)%nat -> dims xv = pre ++ nth j ns 0%nat :: post -> (0 < nth j ns 0)%nat ->
  let off := list_sum (firstn j ns) in let nj := nth j ns 0%nat in
  exists g, eval_rule rd h (RConcat y (catIndex pre post off nj)) = Ok g /\ dims g = dims xv /\ wf g /\
    (forall i1 x i2, validIdx pre i1 -> (x < nj)%nat -> validIdx post i2 ->
       elt g (i1 ++ x :: i2) = elt gy (i1 ++ (off + x)%nat :: i2)) /\
    is_vjp (dims xv) (dims gy) (catF (length pre) off nj c) (elt xv) (elt gy) (elt g).
Proof.
  intros Hg Wg Eg Hj Ex Hn. cbv zeta.
  pose proof (list_sum_firstn_le ns j Hj) as Hle.
  set (off := list_sum (firstn j ns)) in *. set (nj := nth j ns 0%nat) in *.
  destruct (vjp_concat_edge thr draw rd h y gy pre post nj off _ c (elt xv) Hg Wg Eg Hn Hle) as (g & E & D & W & G & V).
  cbv zeta in E, G, V. unfold VjpGatherP.catIndex in E. rewrite catIndex_edges in E.
  exists g. split; [exact E|]. split; [congruence|]. split; [exact W|]. split.
  - intros i1 x i2 H1 Hx H2. rewrite G by (apply validIdx_mid; assumption). rewrite shift_mid by assumption. reflexivity.
  - (* on valid output positions the block gather IS [catF] *)
    rewrite Ex. refine (is_vjp_ext_valid _ _ _ _ _ _ _ _ V). intros a jj Hjj. rewrite Eg in Hjj.
    apply validIdx_mid_inv in Hjj as (i1 & z & i2 & -> & H1 & _ & H2).
    unfold gatherF, blockSigma. rewrite inBlock_mid, unshift_mid by assumption. rewrite <- (validIdx_length _ _ H1).
    destruct (Nat.leb_spec off z) as [Lo|Lo]; [destruct (Nat.ltb_spec z (off + nj)) as [Hi|Hi]|]; cbn [andb].
    + rewrite <- (catF_in off nj c a i1 (z - off) i2) by lia. do 3 f_equal. lia.
    + symmetry. apply catF_out. lia.
    + symmetry. apply catF_out. lia.
Qed.

(* ---------- ... and the model's Concat computes it ---------- *)

Lemma Forall2_replace {X Y} (P : X -> Y -> Prop) l1 l2 : Forall2 P l1 l2 ->
  forall j x x', nth_error l1 j = Some x -> (forall y', P x y' -> P x' y') ->
  Forall2 P (firstn j l1 ++ x' :: skipn (S j) l1) l2.
Proof.
  induction 1 as [|a b l1 l2 Hab HF IH]; intros j x x' Hj Hx; [destruct j; discriminate|].
  destruct j as [|j]; cbn in Hj.
  - inversion Hj; subst. cbn. constructor; [apply Hx; exact Hab|exact HF].
  - cbn [firstn skipn app]. constructor; [exact Hab|]. apply (IH j x x' Hj Hx).
Qed.

Lemma nth_error_replace {X} (l : list X) : forall j x' k, (j < length l)%nat ->
  nth_error (firstn j l ++ x' :: skipn (S j) l) k = if (k =? j)%nat then Some x' else nth_error l k.
Proof.
  induction l as [|a l IH]; intros j x' k Hj; cbn in Hj; [lia|].
  destruct j as [|j]; destruct k as [|k]; cbn; try reflexivity. apply IH. lia.
Qed.

Lemma list_sum_firstn_mono ns : forall a b, (a <= b)%nat -> (list_sum (firstn a ns) <= list_sum (firstn b ns))%nat.
Proof.
  induction ns as [|n ns IH]; intros a b Hab; [rewrite !firstn_nil; lia|].
  destruct a as [|a]; destruct b as [|b]; cbn [firstn list_sum fold_right]; try lia.
  fold (list_sum (firstn a ns)). fold (list_sum (firstn b ns)). specialize (IH a b ltac:(lia)). lia.
Qed.

Theorem concat_fwd pre post (ts : list T) ns j t :
  ts <> [] -> Forall2 (fun t n => wf t /\ dims t = pre ++ n :: post) ts ns -> nth_error ts j = Some t ->
  exists r, concatD ts (length pre) = Some r /\ dims r = pre ++ list_sum ns :: post /\ wf r /\
    forall t', wf t' -> dims t' = dims t ->
      exists r', concatD (firstn j ts ++ t' :: skipn (S j) ts) (length pre) = Some r' /\ dims r' = dims r /\ wf r' /\
        forall idx, validIdx (dims r) idx ->
          elt r' idx = catF (length pre) (list_sum (firstn j ns)) (nth j ns 0%nat) (elt r) (elt t') idx.
Proof.
  intros Hne H Hj.
  destruct (concat_spec pre post ts ns Hne H) as (r & Er & _ & Dr & Wr & Gr).
  exists r. split; [exact Er|]. split; [exact Dr|]. split; [exact Wr|].
  intros t' Wt' Dt'.
  pose proof (Forall2_len _ _ _ H) as Hlen.
  assert (Hjl : (j < length ts)%nat) by (apply nth_error_Some; congruence).
  set (ts' := firstn j ts ++ t' :: skipn (S j) ts).
  assert (H' : Forall2 (fun t n => wf t /\ dims t = pre ++ n :: post) ts' ns).
  { apply (Forall2_replace _ ts ns H j t t' Hj). intros n [_ Dn]. split; [exact Wt'|congruence]. }
  assert (Hne' : ts' <> []) by (unfold ts'; destruct (firstn j ts); discriminate).
  destruct (concat_spec pre post ts' ns Hne' H') as (r' & Er' & _ & Dr' & Wr' & Gr').
  exists r'. split; [exact Er'|]. split; [congruence|]. split; [exact Wr'|].
  intros idx Hv. rewrite Dr in Hv. apply validIdx_mid_inv in Hv as (i1 & z & i2 & -> & H1 & Hz & H2).
  destruct (sum_split ns z Hz) as (j' & x' & Hj' & Hx' & ->).
  assert (Ej' : nth_error ts' j' = if (j' =? j)%nat then Some t' else nth_error ts j')
    by (apply nth_error_replace; exact Hjl).
  rewrite <- (validIdx_length _ _ H1).
  destruct (Nat.eqb_spec j' j) as [->|Nj].
  - rewrite catF_in by exact Hx'. unfold elt. rewrite (Gr' j t' i1 x' i2 Ej' H1 Hx' H2). reflexivity.
  - destruct (nth_error_lt_some ts j' ltac:(lia)) as (t'' & Et'').
    rewrite Et'' in Ej'. rewrite catF_out.
    + unfold elt. rewrite (Gr' j' t'' i1 x' i2 Ej' H1 Hx' H2), (Gr j' t'' i1 x' i2 Et'' H1 Hx' H2). reflexivity.
    + destruct (Nat.lt_ge_cases j' j) as [Hlt|Hge].
      * left. pose proof (list_sum_firstn_mono ns (S j') j ltac:(lia)) as Hm.
        rewrite (list_sum_firstn_S ns j' Hj') in Hm. lia.
      * right. pose proof (list_sum_firstn_mono ns (S j) j' ltac:(lia)) as Hm.
        rewrite (list_sum_firstn_S ns j ltac:(lia)) in Hm. lia.
Qed.


End VjpLinalg.

(* ================================================================================= *)
(* 5. examples: the hypotheses are satisfiable, the conclusions non-trivial           *)
(* ================================================================================= *)
Module VjpLinalgExamples.
Section Ex.
Variables (thr : R) (draw : bool -> nat -> R).
Local Hint Extern 0 (Scalar R) => exact (R_scalar thr draw) : typeclass_instances.

Definition exv (j : list nat) : R := INR (flatIdx [9%nat; 9%nat; 9%nat] j).
Definition mkLeaf (v : tensor R) : node := mkNode v true false None [] None.
Definition mkRes (v g : tensor R) (es : list (nat * rule)) : node := mkNode v true false (Some g) es None.

Lemma wf_of ds (f : assignment) : List.Forall (fun d => (0 < d)%nat) ds -> wf (ofFun ds f).
Proof. apply ofFun_wf. Qed.

(* ---- MatMul, batch [2]: a : [2;2;3], b : [2;3;2], y = a.b : [2;2;2] ---- *)
Definition ma : tensor R := ofFun [2%nat; 2%nat; 3%nat] exv.
Definition mb : tensor R := ofFun [2%nat; 3%nat; 2%nat] exv.
Definition my : tensor R := ofFun [2%nat; 2%nat; 2%nat] (mmF 1 3 (elt ma) (elt mb)).
Definition mg : tensor R := ofFun [2%nat; 2%nat; 2%nat] exv.
Definition hMM : @heap R :=
  [mkLeaf ma; mkLeaf mb; mkRes my mg [(0%nat, RMatMulA 2 1); (1%nat, RMatMulB 2 0)]].

(* the value stored for y is what the model's MatMul computes *)
Example matmul_fwd_ex : exists r, v_matmul ma mb = Ok r /\ dims r = [2%nat; 2%nat; 2%nat] /\
  forall idx, validIdx [2%nat; 2%nat; 2%nat] idx -> elt r idx = elt my idx.
Proof.
  destruct (matmul_fwd thr draw ma mb [2%nat] 2 3 2) as (r & Er & Dr & _ & Gr);
    try reflexivity; try (apply wf_of; repeat constructor).
  exists r. split; [exact Er|]. split; [exact Dr|]. intros idx Hv. rewrite (Gr idx Hv).
  symmetry. apply elt_ofFun. exact Hv.
Qed.

Example matmul_a_ex rd : exists g, eval_rule rd hMM (RMatMulA 2 1) = Ok g /\ dims g = [2%nat; 2%nat; 3%nat] /\ wf g /\
  elt g [1%nat; 0%nat; 2%nat] = exv [1%nat; 0%nat; 0%nat] * exv [1%nat; 2%nat; 0%nat]
                              + (exv [1%nat; 0%nat; 1%nat] * exv [1%nat; 2%nat; 1%nat] + 0) /\
  is_vjp [2%nat; 2%nat; 3%nat] [2%nat; 2%nat; 2%nat] (fun a' => mmF 1 3 a' (elt mb)) (elt ma) (elt mg) (elt g).
Proof.
  assert (Wb : wf mb) by (apply wf_of; repeat constructor).
  assert (Wg : wf mg) by (apply wf_of; repeat constructor).
  destruct (rmatmula_eval thr draw rd hMM 2 1 mb mg [2%nat] 2 3 2 eq_refl eq_refl Wb Wg eq_refl eq_refl)
    as (g & E & D & W & G).
  destruct (vjp_matmul_a thr draw rd hMM 2 1 ma mb mg [2%nat] 2 3 2 (fun a' => mmF 1 3 a' (elt mb))
              eq_refl eq_refl Wb Wg eq_refl eq_refl eq_refl) as (g' & E' & _ & _ & V).
  { intros a' bi i j Hbi _ _. apply validIdx_cons in Hbi as (b0 & r & -> & _ & Hr). apply validIdx_nil in Hr. subst r.
    apply (mmF_app a' (elt mb) [b0] i j 3). }
  assert (g' = g) by congruence. subst g'.
  exists g. split; [exact E|]. split; [exact D|]. split; [exact W|]. split; [|exact V].
  pose proof (G [1%nat] 0%nat 2%nat ltac:(repeat constructor) ltac:(lia) ltac:(lia)) as Gx. cbn [app] in Gx. rewrite Gx.
  unfold sumN. cbn [seq map fold_right app].
  unfold mg, mb. rewrite !elt_ofFun by (repeat constructor). reflexivity.
Qed.

Example matmul_b_ex rd : exists g, eval_rule rd hMM (RMatMulB 2 0) = Ok g /\ dims g = [2%nat; 3%nat; 2%nat] /\ wf g /\
  elt g [0%nat; 2%nat; 1%nat] = exv [0%nat; 0%nat; 2%nat] * exv [0%nat; 0%nat; 1%nat]
                              + (exv [0%nat; 1%nat; 2%nat] * exv [0%nat; 1%nat; 1%nat] + 0) /\
  is_vjp [2%nat; 3%nat; 2%nat] [2%nat; 2%nat; 2%nat] (fun b' => mmF 1 3 (elt ma) b') (elt mb) (elt mg) (elt g).
Proof.
  assert (Wa : wf ma) by (apply wf_of; repeat constructor).
  assert (Wg : wf mg) by (apply wf_of; repeat constructor).
  destruct (rmatmulb_eval thr draw rd hMM 2 0 ma mg [2%nat] 2 3 2 eq_refl eq_refl Wa Wg eq_refl eq_refl)
    as (g & E & D & W & G).
  destruct (vjp_matmul_b thr draw rd hMM 2 0 ma mb mg [2%nat] 2 3 2 (fun b' => mmF 1 3 (elt ma) b')
              eq_refl eq_refl Wa Wg eq_refl eq_refl eq_refl) as (g' & E' & _ & _ & V).
  { intros b' bi i j Hbi _ _. apply validIdx_cons in Hbi as (b0 & r & -> & _ & Hr). apply validIdx_nil in Hr. subst r.
    apply (mmF_app (elt ma) b' [b0] i j 3). }
  assert (g' = g) by congruence. subst g'.
  exists g. split; [exact E|]. split; [exact D|]. split; [exact W|]. split; [|exact V].
  pose proof (G [0%nat] 2%nat 1%nat ltac:(repeat constructor) ltac:(lia) ltac:(lia)) as Gx. cbn [app] in Gx. rewrite Gx.
  unfold sumN. cbn [seq map fold_right app].
  unfold mg, ma. rewrite !elt_ofFun by (repeat constructor). reflexivity.
Qed.

(* ---- MatMul of matrices ---- *)
Definition a2 : tensor R := ofFun [2%nat; 3%nat] exv.
Definition b2 : tensor R := ofFun [3%nat; 2%nat] exv.
Definition g2 : tensor R := ofFun [2%nat; 2%nat] exv.
Definition hMM2 : @heap R :=
  [mkLeaf a2; mkLeaf b2; mkRes g2 g2 [(0%nat, RMatMulA 2 1); (1%nat, RMatMulB 2 0)]].
Example matmul_2d_ex rd :
  (exists g, eval_rule rd hMM2 (RMatMulA 2 1) = Ok g /\ dims g = [2%nat; 3%nat] /\ wf g /\
     is_vjp [2%nat; 3%nat] [2%nat; 2%nat] (fun a' => mmF 0 3 a' (elt b2)) (elt a2) (elt g2) (elt g)) /\
  (exists g, eval_rule rd hMM2 (RMatMulB 2 0) = Ok g /\ dims g = [3%nat; 2%nat] /\ wf g /\
     is_vjp [3%nat; 2%nat] [2%nat; 2%nat] (fun b' => mmF 0 3 (elt a2) b') (elt b2) (elt g2) (elt g)).
Proof.
  assert (Wa : wf a2) by (apply wf_of; repeat constructor).
  assert (Wb : wf b2) by (apply wf_of; repeat constructor).
  assert (Wg : wf g2) by (apply wf_of; repeat constructor).
  split.
  - destruct (vjp_matmul_a_2d thr draw rd hMM2 2 1 a2 b2 g2 2 3 2 (fun a' => mmF 0 3 a' (elt b2))
                eq_refl eq_refl Wb Wg eq_refl eq_refl eq_refl) as (g & E & D & W & _ & V).
    { intros a' i j _ _. apply (mmF_app a' (elt b2) [] i j 3). }
    exists g. auto.
  - destruct (vjp_matmul_b_2d thr draw rd hMM2 2 0 a2 b2 g2 2 3 2 (fun b' => mmF 0 3 (elt a2) b')
                eq_refl eq_refl Wa Wg eq_refl eq_refl eq_refl) as (g & E & D & W & _ & V).
    { intros b' i j _ _. apply (mmF_app (elt a2) b' [] i j 3). }
    exists g. auto.
Qed.

(* ---- Transpose: x : [2;2;3], y : [2;3;2] ---- *)
Definition tx : tensor R := ofFun [2%nat; 2%nat; 3%nat] exv.
Definition tg : tensor R := ofFun [2%nat; 3%nat; 2%nat] exv.
Definition hT : @heap R := [mkLeaf tx; mkRes tg tg [(0%nat, RTranspose 1)]].
Example transpose_ex rd : exists g, eval_rule rd hT (RTranspose 1) = Ok g /\ dims g = [2%nat; 2%nat; 3%nat] /\ wf g /\
  elt g [1%nat; 0%nat; 2%nat] = exv [1%nat; 2%nat; 0%nat] /\
  is_vjp [2%nat; 2%nat; 3%nat] [2%nat; 3%nat; 2%nat] trF (elt tx) (elt tg) (elt g).
Proof.
  assert (Wg : wf tg) by (apply wf_of; repeat constructor).
  destruct (VjpGatherP.vjp_transpose thr draw rd hT 1 tx tg eq_refl Wg ltac:(cbn; lia) eq_refl) as (g & E & D & W & G & V).
  exists g. split; [exact E|]. split; [exact D|]. split; [exact W|]. split; [|exact V].
  rewrite G by (repeat constructor). change (transposeDims [1%nat; 0%nat; 2%nat]) with [1%nat; 2%nat; 0%nat].
  apply elt_ofFun. repeat constructor.
Qed.

(* ---- Dot, batch [2]: operands [2;3], y : [2] ---- *)
Definition dx : tensor R := ofFun [2%nat; 3%nat] exv.
Definition dov : tensor R := ofFun [2%nat; 3%nat] (fun j => exv j + 1).
Definition dy : tensor R := ofFun [2%nat] (dotF 3 (elt dx) (elt dov)).
Definition dg : tensor R := ofFun [2%nat] exv.
Definition hD : @heap R := [mkLeaf dx; mkLeaf dov; mkRes dy dg [(0%nat, RDot 2 1); (1%nat, RDot 2 0)]].
Example dot_ex rd : exists g, eval_rule rd hD (RDot 2 1) = Ok g /\ dims g = [2%nat; 3%nat] /\ wf g /\
  elt g [1%nat; 2%nat] = exv [1%nat] * (exv [1%nat; 2%nat] + 1) /\
  is_vjp [2%nat; 3%nat] [2%nat] (fun a' => dotF 3 a' (elt dov)) (elt dx) (elt dg) (elt g).
Proof.
  assert (Wo : wf dov) by (apply wf_of; repeat constructor).
  assert (Wg : wf dg) by (apply wf_of; repeat constructor).
  destruct (rdot_eval thr draw rd hD 2 1 dy dov dg [2%nat] 3 eq_refl eq_refl eq_refl Wo Wg eq_refl eq_refl eq_refl)
    as (g & E & D & W & G).
  destruct (vjp_dot thr draw rd hD 2 1 dy dx dov dg [2%nat] 3 (fun a' => dotF 3 a' (elt dov)) (fun b' => dotF 3 (elt dov) b')
              eq_refl eq_refl eq_refl Wo Wg eq_refl eq_refl eq_refl eq_refl) as (g' & E' & _ & _ & V & _).
  { intros a' b _. reflexivity. }
  { intros b' b _. reflexivity. }
  assert (g' = g) by congruence. subst g'.
  exists g. split; [exact E|]. split; [exact D|]. split; [exact W|]. split; [|exact V].
  pose proof (G [1%nat] 2%nat ltac:(repeat constructor) ltac:(lia)) as Gx. cbn [app] in Gx. rewrite Gx. unfold dg, dov.
  rewrite !elt_ofFun by (repeat constructor). reflexivity.
Qed.

(* Dot of two vectors: the result and its gradient have rank 0 (UnSqueeze at position 0) *)
Definition vx : tensor R := ofFun [3%nat] exv.
Definition vg : tensor R := ofFun [] (fun _ => 5).
Definition hD0 : @heap R := [mkLeaf vx; mkLeaf vx; mkRes vg vg [(0%nat, RDot 2 1); (1%nat, RDot 2 0)]].
Example dot_rank0_ex rd : exists g, eval_rule rd hD0 (RDot 2 1) = Ok g /\ dims g = [3%nat] /\ wf g /\
  elt g [2%nat] = 5 * exv [2%nat] /\
  is_vjp [3%nat] [] (fun a' => dotF 3 a' (elt vx)) (elt vx) (elt vg) (elt g).
Proof.
  assert (Wo : wf vx) by (apply wf_of; repeat constructor).
  assert (Wg : wf vg) by (apply wf_of; repeat constructor).
  destruct (rdot_eval thr draw rd hD0 2 1 vg vx vg [] 3 eq_refl eq_refl eq_refl Wo Wg eq_refl eq_refl eq_refl)
    as (g & E & D & W & G).
  destruct (vjp_dot thr draw rd hD0 2 1 vg vx vx vg [] 3 (fun a' => dotF 3 a' (elt vx)) (fun b' => dotF 3 (elt vx) b')
              eq_refl eq_refl eq_refl Wo Wg eq_refl eq_refl eq_refl eq_refl) as (g' & E' & _ & _ & V & _).
  { intros a' b _. reflexivity. }
  { intros b' b _. reflexivity. }
  assert (g' = g) by congruence. subst g'.
  exists g. split; [exact E|]. split; [exact D|]. split; [exact W|]. split; [|exact V].
  pose proof (G [] 2%nat ltac:(repeat constructor) ltac:(lia)) as Gx. cbn [app] in Gx. rewrite Gx. unfold vx.
  rewrite (elt_ofFun [3%nat]) by (repeat constructor). reflexivity.
Qed.

(* ---- Concat of [2;1;2], [2;2;2], [2;1;2] along dimension 1: the edge of the middle operand ---- *)
Definition c0 : tensor R := ofFun [2%nat; 1%nat; 2%nat] exv.
Definition c1 : tensor R := ofFun [2%nat; 2%nat; 2%nat] exv.
Definition cg : tensor R := ofFun [2%nat; 4%nat; 2%nat] exv.
Definition hC : @heap R :=
  [mkLeaf c0; mkLeaf c1; mkLeaf c0;
   mkRes cg cg (concatEdges 3 1 [(0%nat, c0); (1%nat, c1); (2%nat, c0)] 0%Z)].

(* the edges recorded by the tracked Concat carry exactly the indices of [catIndex] *)
Example concat_edges_ex :
  @concatEdges R 3 1 [(0%nat, c0); (1%nat, c1); (2%nat, c0)] 0%Z =
  [(0%nat, RConcat 3 (catIndex [2%nat] [2%nat] 0 1)); (1%nat, RConcat 3 (catIndex [2%nat] [2%nat] 1 2));
   (2%nat, RConcat 3 (catIndex [2%nat] [2%nat] 3 1))].
Proof. reflexivity. Qed.

Example concat_ex rd (c : assignment) :
  exists g, eval_rule rd hC (RConcat 3 (catIndex [2%nat] [2%nat] 1 2)) = Ok g /\ dims g = [2%nat; 2%nat; 2%nat] /\ wf g /\
  elt g [1%nat; 0%nat; 1%nat] = exv [1%nat; 1%nat; 1%nat] /\
  is_vjp [2%nat; 2%nat; 2%nat] [2%nat; 4%nat; 2%nat] (catF 1 1 2 c) (elt c1) (elt cg) (elt g).
Proof.
  assert (Wg : wf cg) by (apply wf_of; repeat constructor).
  pose proof (vjp_concat_operand thr draw rd hC 3 c1 cg [2%nat] [2%nat] [1%nat; 2%nat; 1%nat] 1 c
                eq_refl Wg eq_refl ltac:(cbn; lia) eq_refl ltac:(cbn; lia)) as H.
  cbv zeta in H. cbn [firstn list_sum fold_right nth Nat.add length] in H.
  destruct H as (g & E & D & W & G & V).
  exists g. split; [exact E|]. split; [exact D|]. split; [exact W|]. split; [|exact V].
  pose proof (G [1%nat] 0%nat [1%nat] ltac:(repeat constructor) ltac:(lia) ltac:(repeat constructor)) as Gx.
  cbn [app Nat.add] in Gx. rewrite Gx. apply elt_ofFun. repeat constructor.
Qed.

End Ex.
End VjpLinalgExamples.

Print Assumptions vjp_affine.
Print Assumptions vjp_linear.
Print Assumptions matmul_fwd.
Print Assumptions rmatmula_eval.
Print Assumptions vjp_matmul_a.
Print Assumptions rmatmulb_eval.
Print Assumptions vjp_matmul_b.
Print Assumptions vjp_matmul_a_2d.
Print Assumptions vjp_matmul_b_2d.
Print Assumptions transpose_fwd.
Print Assumptions rtranspose_eval.
Print Assumptions dot_fwd.
Print Assumptions rdot_eval.
Print Assumptions vjp_dot.
Print Assumptions vjp_concat_operand.
Print Assumptions concat_fwd.
