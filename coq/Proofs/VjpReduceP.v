(* VjpReduceP.v — the backward rules of the seven REDUCTIONS ALONG A DIMENSION are
   vector-Jacobian products (property C02), for the real-number instance [R_scalar thr draw].

   y = red_dim(x),  dims y = squeezeDims dim (dims x);  output element j depends on the fibre
   x[ins dim k j], k < n,  n := nth dim (dims x) 0.  The rule's dimension is [Z.of_nat dim] with
   [dim < length (dims x)]: exactly the Go ints the validator of the forward call accepts.

   A. index bookkeeping (del / ins of the reduced position, flatIdx, bproj, targetBroadcastDims).
   0. [reducerBroadcasted_get] (any scalar type) / [reducerBroadcasted_spec] (reals): UnSqueeze(dim)
      then Broadcast to x's shape copies the upstream gradient along the reduced dimension,
      gb i = gy (del dim i);  [arith_unsq_get]: t (op) UnSqueeze(u, dim) reads u at [del dim i].
   1. generic: [vjp_fibrewise] — a map that applies one function [phi] to every fibre has the block
      Jacobian  d y_j / d x_i = [del dim i = j] * d phi / d v_(nth dim i);  finite sums.
   2. formula level, no differentiability guard ("never fails" + exact element formula):
      [rsum_eval] [ravg_eval] [rvar_eval] [rstd_eval] [rext_eval];  [vjp_sumAlong] [vjp_avgAlong].
   3. one-variable analysis: [d_varN] [d_stdN] [d_extN] (local constancy at a strict extremum).
   4. analytic: [vjp_varAlong] [vjp_stdAlong] [vjp_extAlong] (maximum and minimum as
      [vjp_maxAlong_ord] [vjp_minAlong_ord]);  [forward_along], [forward_max_nonneg],
      [forward_min_nonpos]: the forward values are the maps F that are differentiated.
   5. examples. *)
From Coq Require Import List Arith ZArith Bool Lia Reals Lra.
From Coquelicot Require Import Coquelicot.
From Qeep Require Import Model.Scalar Model.Nd Model.Fill Model.Data Model.Valid Model.Api Model.Grad.
From Qeep Require Import Proofs.NdP Proofs.ElemP Proofs.OdometerP Proofs.ReshapeP Proofs.BroadcastP Proofs.ArithP.
From Qeep Require Import Proofs.ReduceP Proofs.ReduceRP.
From Qeep Require Import Spec.RScalar Spec.ScalarDeriv Spec.VjpSpec Proofs.VjpGatherP Proofs.VjpElemP.
Import ListNotations.
Local Open Scope nat_scope.

(* ================================================================================= *)
(* A. index bookkeeping: deleting / inserting the reduced position                    *)
(* ================================================================================= *)

Lemma vi_del dim : forall ds i, validIdx ds i -> validIdx (del dim ds) (del dim i).
Proof. exact (validIdx_del dim). Qed.

Lemma vi_ins dim : forall ds j k, dim < length ds -> validIdx (del dim ds) j -> k < nth dim ds 0 ->
  validIdx ds (ins dim k j).
Proof. exact (validIdx_ins dim). Qed.

Lemma vi_ins1 dim : forall ds j, dim <= length ds -> validIdx ds j -> validIdx (ins dim 1 ds) (ins dim 0 j).
Proof.
  induction dim as [|m IH]; intros ds j Hl Hv.
  - rewrite !ins_0. constructor; [lia|exact Hv].
  - destruct Hv as [|a d j ds Ha Hr]; cbn [length] in Hl; [lia|].
    rewrite !ins_S. constructor; [exact Ha|]. apply IH; [lia|exact Hr].
Qed.

Lemma vi_nth dim : forall ds i, validIdx ds i -> dim < length ds -> nth dim i 0 < nth dim ds 0.
Proof.
  induction dim as [|m IH]; intros ds i H Hl; destruct H as [|a d i ds Ha Hr]; cbn [length] in Hl; try lia.
  - exact Ha.
  - cbn [nth]. apply IH; [exact Hr|lia].
Qed.

Lemma prodn_ins1 dim ds : prodn (ins dim 1 ds) = prodn ds.
Proof. exact (unsqueezeDims_prodn dim ds). Qed.

(* the row-major position is unchanged by inserting a dimension of size 1 *)
Lemma flatIdx_ins10 dim : forall ds j, dim <= length ds -> validIdx ds j ->
  flatIdx (ins dim 1 ds) (ins dim 0 j) = flatIdx ds j.
Proof.
  induction dim as [|m IH]; intros ds j Hl Hv.
  - rewrite !ins_0. cbn [flatIdx]. lia.
  - destruct Hv as [|a d j ds Ha Hr]; cbn [length] in Hl; [lia|].
    rewrite !ins_S. cbn [flatIdx]. rewrite prodn_ins1, IH by (try lia; exact Hr). reflexivity.
Qed.

Definition bc1 (d sh : nat) : Prop := d = sh \/ d = 1.

Lemma Forall2_bc1_ins dim : forall ds, dim < length ds -> Forall2 bc1 (ins dim 1 (del dim ds)) ds.
Proof.
  assert (R : forall l, Forall2 bc1 l l) by (induction l as [|a l IHl]; constructor; [left; reflexivity|exact IHl]).
  induction dim as [|m IH]; intros [|d ds] Hl; cbn [length] in Hl; try lia.
  - rewrite del_0, ins_0. constructor; [right; reflexivity|apply R].
  - rewrite del_S, ins_S. constructor; [left; reflexivity|apply IH; lia].
Qed.

Lemma ins1_del_length {X} dim (v : X) (l : list X) : dim < length l -> length (ins dim v (del dim l)) = length l.
Proof. intros H. rewrite ins_length, del_length by exact H. lia. Qed.

Lemma bcompat_ins1 dim ds : dim < length ds -> bcompat (ins dim 1 (del dim ds)) ds.
Proof.
  intros H. unfold bcompat. rewrite ins1_del_length by exact H. split; [lia|].
  rewrite Nat.sub_diag. cbn [skipn]. apply (Forall2_bc1_ins dim ds H).
Qed.

(* the broadcasting projection onto that shape zeroes the component [dim] *)
Lemma bproj_ins1 dim ds i : dim < length ds -> validIdx ds i ->
  bproj (ins dim 1 (del dim ds)) ds i = ins dim 0 (del dim i).
Proof.
  intros Hl Hv. unfold bproj. rewrite ins1_del_length by exact Hl. rewrite Nat.sub_diag. cbn [skipn].
  revert ds i Hl Hv. induction dim as [|m IH]; intros ds i Hl Hv;
    destruct Hv as [|a d i ds Ha Hr]; cbn [length] in Hl; try lia.
  - rewrite !del_0, !ins_0. cbn [combine map fst snd Nat.eqb]. f_equal.
    pose proof (bproj_id ds i Hr) as E. unfold bproj in E. rewrite Nat.sub_diag in E. exact E.
  - rewrite !del_S, !ins_S. cbn [combine map fst snd]. f_equal; [|apply IH; [lia|exact Hr]].
    destruct (Nat.eqb_spec d 1) as [E|E]; lia.
Qed.

Lemma tbdRev_bc1 : forall src ds, Forall2 bc1 src ds -> allpos ds -> tbdRev ds src = ds.
Proof.
  induction 1 as [|d sh src ds Hd _ IH]; intros Hp; [reflexivity|].
  inversion Hp as [|? ? Hsh Hp']; subst. cbn [tbdRev]. rewrite IH by exact Hp'. f_equal.
  destruct Hd as [->| ->]; lia.
Qed.

Lemma tbd_ins1 dim ds : allpos ds -> dim < length ds -> targetBroadcastDims ds (ins dim 1 (del dim ds)) = ds.
Proof.
  intros Hp Hl. unfold targetBroadcastDims. rewrite tbdRev_bc1.
  - apply rev_involutive.
  - apply Forall2_rev', Forall2_bc1_ins, Hl.
  - apply Forall_rev, Hp.
Qed.

Lemma ins_eq_iff {X} dim (k d : X) (j i : list X) : dim < length i -> dim <= length j ->
  (ins dim k j = i <-> del dim i = j /\ nth dim i d = k).
Proof.
  intros Hi Hj. split.
  - intros <-. split; [apply del_ins, Hj|apply nth_ins, Hj].
  - intros [<- <-]. apply ins_del, Hi.
Qed.

(* ================================================================================= *)
(* 0. UnSqueeze(dim) + Broadcast to the operand's shape, for any scalar type           *)
(* ================================================================================= *)
Section RB.
Context {A : Type} {SA : Scalar A}.
Notation T := (tensor A).

Lemma unsq_bcast_get (u t : T) dim :
  wf u -> wf t -> dim < length (dims t) -> dims u = squeezeDims dim (dims t) ->
  exists o ub, v_unsqueeze u (Z.of_nat dim) = Ok o /\ v_broadcast o (zdims t) = Ok ub /\
    dims o = ins dim 1 (del dim (dims t)) /\ wf o /\ dims ub = dims t /\ wf ub /\
    forall i, validIdx (dims t) i -> get (data ub) i = get (data u) (del dim i).
Proof.
  intros Hu Ht Hl Hdu. rewrite squeezeDims_del in Hdu.
  assert (Hlu : length (dims u) = length (dims t) - 1) by (rewrite Hdu; apply del_length, Hl).
  assert (Hval : validateUnSqueezeDim (Z.of_nat dim) (zdims u) = true)
    by (apply validateUnSqueezeDim_iff; lia).
  destruct (v_unsqueeze_spec A u (Z.of_nat dim) Hu) as [H1 _].
  destruct (H1 Hval) as (o & Eo & Hdo & Hwo & Hfl). rewrite Nat2Z.id, Hdu in Hdo.
  change (unsqueezeDims dim (del dim (dims t))) with (ins dim 1 (del dim (dims t))) in Hdo.
  assert (Hvb : validateInputDims (zdims t) && validateBroadcast (zdims o) (zdims t) = true).
  { apply (validateBroadcast_shape_iff A o). exists (dims t). split; [reflexivity|].
    split; [exact (proj2 Ht)|]. rewrite Hdo. apply bcompat_ins1, Hl. }
  destruct (v_broadcast_spec A o (zdims t) Hwo) as [H2 _].
  destruct (H2 Hvb) as (ub & Eb & Hdb & Hwb & Hgb). unfold zdims in Hdb, Hgb. rewrite natsOf_of_nat in Hdb, Hgb.
  exists o, ub. repeat (split; [assumption|]).
  intros i Hv. rewrite (Hgb i Hv), Hdo, (bproj_ins1 dim (dims t) i Hl Hv).
  pose proof (vi_del dim _ _ Hv) as Hvd. rewrite <- Hdu in Hvd.
  assert (Hld : dim <= length (dims u)) by lia.
  pose proof (vi_ins1 dim _ _ Hld Hvd) as Hvo.
  destruct Hwo as [Hwo _]. rewrite Hdo, <- Hdu in Hwo.
  rewrite <- (flat_nth A _ _ _ Hwo Hvo), Hfl, (flatIdx_ins10 dim _ _ Hld Hvd).
  apply (flat_nth A _ _ _ (proj1 Hu) Hvd).
Qed.

(* key forward lemma for every reduction rule *)
Theorem reducerBroadcasted_get (gy xv : T) dim :
  wf gy -> wf xv -> dim < length (dims xv) -> dims gy = squeezeDims dim (dims xv) ->
  exists gb, reducerBroadcasted gy xv (Z.of_nat dim) = Ok gb /\ dims gb = dims xv /\ wf gb /\
    forall i, validIdx (dims xv) i -> get (data gb) i = get (data gy) (del dim i).
Proof.
  intros Hg Hx Hl Hd. destruct (unsq_bcast_get gy xv dim Hg Hx Hl Hd) as (o & gb & Eo & Eb & _ & _ & Hdb & Hwb & Hgb).
  exists gb. unfold reducerBroadcasted. rewrite Eo. cbn [res_bind]. rewrite Eb. auto.
Qed.

(* a binary arithmetic operation between t and the unsqueezed u: the implicit broadcasting
   reads u at the index with the reduced position deleted *)
Lemma arith_unsq_get (b : binary) (t u : T) dim :
  wf t -> wf u -> dim < length (dims t) -> dims u = squeezeDims dim (dims t) ->
  exists o r, v_unsqueeze u (Z.of_nat dim) = Ok o /\ v_arith b t o = Ok r /\ dims r = dims t /\ wf r /\
    forall i, validIdx (dims t) i ->
      exists a c, get (data t) i = Some a /\ get (data u) (del dim i) = Some c /\
                  get (data r) i = Some (binaryF b a c).
Proof.
  intros Ht Hu Hl Hd. destruct (unsq_bcast_get u t dim Hu Ht Hl Hd) as (o & ub & Eo & Eb & Hdo & Hwo & Hdb & Hwb & Hgb).
  pose proof (v_arith_eq_explicit b t o t ub Ht Hwo) as H. cbv zeta in H.
  rewrite Hdo, (tbd_ins1 dim (dims t) (proj2 Ht) Hl) in H.
  destruct (H (v_broadcast_id t Ht) Eb) as (_ & E & _).
  destruct (v_same_spec b t ub Ht Hwb) as [Hs _]. destruct (Hs (eq_sym Hdb)) as (r & Er & Hdr & Hwr & Hgr).
  exists o, r. split; [exact Eo|]. split; [rewrite E; exact Er|]. split; [exact Hdr|]. split; [exact Hwr|].
  intros i Hv. destruct (get_wf A _ _ _ (proj1 Ht) Hv) as (a & Ea).
  pose proof (vi_del dim _ _ Hv) as Hvd. rewrite <- squeezeDims_del, <- Hd in Hvd.
  destruct (get_wf A _ _ _ (proj1 Hu) Hvd) as (c & Ec).
  exists a, c. split; [exact Ea|]. split; [exact Ec|].
  rewrite (Hgr i Hv), Ea, (Hgb i Hv), Ec. reflexivity.
Qed.

End RB.

Local Open Scope R_scope.

(* ================================================================================= *)
(* 1. generic: a fibre-wise map has a block Jacobian                                  *)
(* ================================================================================= *)

(* the fibre of the assignment [a] through [j] along [dim], as a function of the position *)
Definition fib (a : assignment) (dim : nat) (j : list nat) : nat -> R := fun k => a (ins dim k j).
(* [c] with [t] added at position [k0] *)
Definition bump (c : nat -> R) (k0 : nat) (t : R) : nat -> R :=
  fun k => c k + (if (k =? k0)%nat then t else 0).

Lemma fib_perturb x i t dim j : (dim < length i)%nat -> (dim <= length j)%nat -> forall k,
  fib (perturb x i t) dim j k =
  if idx_eqb (del dim i) j then bump (fib x dim j) (nth dim i 0%nat) t k else fib x dim j k.
Proof.
  intros Hi Hj k. unfold fib, perturb, bump.
  pose proof (ins_eq_iff dim k 0%nat j i Hi Hj) as Hiff.
  destruct (idx_eqb (ins dim k j) i) eqn:E.
  - apply idx_eqb_eq in E. apply Hiff in E as [E1 E2].
    rewrite (proj2 (idx_eqb_eq _ _) E1). rewrite E2, Nat.eqb_refl. reflexivity.
  - destruct (idx_eqb (del dim i) j) eqn:E2; [|reflexivity].
    apply idx_eqb_eq in E2. destruct (Nat.eqb_spec k (nth dim i 0%nat)) as [E3|E3]; [|ring].
    exfalso. assert (E4 : ins dim k j = i) by (apply Hiff; split; [exact E2|symmetry; exact E3]).
    apply idx_eqb_eq in E4. congruence.
Qed.

(* F a j = phi (fibre of a through j): output j depends on fibre j only, and within it the
   partial derivative with respect to position k0 is the one-variable derivative of
   t |-> phi (fibre + t at k0).  The VJP collapses to one term. *)
Theorem vjp_fibrewise ds dim (phi : (nat -> R) -> R) (D : list nat -> nat -> R) (x gy g : assignment) :
  (dim < length ds)%nat ->
  (forall v w, (forall k, v k = w k) -> phi v = phi w) ->
  (forall j k0, validIdx (del dim ds) j -> (k0 < nth dim ds 0)%nat ->
     is_derive (fun t => phi (bump (fib x dim j) k0 t)) 0 (D j k0)) ->
  (forall i, validIdx ds i -> g i = gy (del dim i) * D (del dim i) (nth dim i 0%nat)) ->
  is_vjp ds (del dim ds) (fun a j => phi (fib a dim j)) x gy g.
Proof.
  intros Hl Hext Hd Hg i Hi.
  pose proof (validIdx_length _ _ Hi) as Li.
  pose proof (vi_del dim _ _ Hi) as Hj0.
  pose proof (vi_nth dim _ _ Hi Hl) as Hk0.
  set (j0 := del dim i) in *. set (k0 := nth dim i 0%nat) in *.
  exists (fun j => if idx_eqb j j0 then D j0 k0 else 0). split.
  - intros j Hj. pose proof (validIdx_length _ _ Hj) as Lj. rewrite del_length in Lj by exact Hl.
    unfold is_partial. destruct (idx_eqb j j0) eqn:E.
    + apply idx_eqb_eq in E. subst j.
      apply (is_derive_ext (fun t => phi (bump (fib x dim j0) k0 t))); [|apply Hd; assumption].
      intros t. apply Hext. intros k. rewrite fib_perturb by lia. fold j0 k0.
      rewrite idx_eqb_refl. reflexivity.
    + apply (is_derive_ext (fun _ => phi (fib x dim j))); [|apply (is_derive_const (phi (fib x dim j)) 0)].
      intros t. apply Hext. intros k. rewrite fib_perturb by lia. fold j0.
      destruct (idx_eqb j0 j) eqn:E2; [|reflexivity].
      apply idx_eqb_eq in E2. subst j. rewrite idx_eqb_refl in E. discriminate.
  - rewrite (Hg i Hi). fold j0 k0.
    rewrite (sumIdx_ext (del dim ds) _ (fun j => if idx_eqb j j0 then gy j * D j0 k0 else 0)).
    + rewrite (sumIdx_single (del dim ds) j0 (fun j => gy j * D j0 k0) Hj0). reflexivity.
    + intros j _. destruct (idx_eqb j j0); [reflexivity|ring].
Qed.

(* ---------- finite sums over a fibre ---------- *)
Lemma Rsum_ext_in {X} (l : list X) (f g : X -> R) :
  (forall x, In x l -> f x = g x) -> Rsum (map f l) = Rsum (map g l).
Proof. apply sum_ext_in. Qed.

Lemma Rsum_lin {X} (l : list X) p q (f g : X -> R) :
  Rsum (map (fun k => p * f k + q * g k) l) = p * Rsum (map f l) + q * Rsum (map g l).
Proof. unfold Rsum. induction l as [|a l IH]; cbn [map fold_right]; [ring|rewrite IH; ring]. Qed.

Lemma Rsum_const {X} (l : list X) q : Rsum (map (fun _ => q) l) = INR (length l) * q.
Proof.
  unfold Rsum. induction l as [|a l IH]; [cbn; ring|].
  cbn [map fold_right length]. rewrite IH, S_INR. ring.
Qed.

Lemma Rsum_single n k0 (h : nat -> R) : (k0 < n)%nat ->
  Rsum (map (fun k => if (k =? k0)%nat then h k else 0) (seq 0 n)) = h k0.
Proof. intros H. apply (sum_single Nat.eqb Nat.eqb_eq); [apply seq_NoDup|apply in_seq; lia]. Qed.

Lemma Rsum_bump c k0 t n : (k0 < n)%nat ->
  Rsum (map (bump c k0 t) (seq 0 n)) = Rsum (map c (seq 0 n)) + t.
Proof.
  intros H. unfold bump.
  rewrite (Rsum_ext_in _ _ (fun k => 1 * c k + 1 * (if (k =? k0)%nat then t else 0))) by (intros; ring).
  rewrite Rsum_lin, (Rsum_single n k0 (fun _ => t) H). ring.
Qed.

(* the one-variable derivatives of sum and mean in one position of the fibre *)
Definition sumN (n : nat) (v : nat -> R) : R := Rsum (map v (seq 0 n)).
Definition meanN (n : nat) (v : nat -> R) : R := sumN n v / INR n.

Lemma sumN_ext n v w : (forall k, v k = w k) -> sumN n v = sumN n w.
Proof. intros H. unfold sumN. f_equal. apply map_ext, H. Qed.

Lemma sumN_bump n c k0 t : (k0 < n)%nat -> sumN n (bump c k0 t) = sumN n c + t.
Proof. apply Rsum_bump. Qed.

Lemma d_sumN n c k0 : (k0 < n)%nat -> is_derive (fun t => sumN n (bump c k0 t)) 0 1.
Proof.
  intros H. apply (is_derive_ext (fun t => sumN n c + t)); [intros t; symmetry; apply sumN_bump, H|].
  auto_derive; [exact I|ring].
Qed.

Lemma d_meanN n c k0 : (k0 < n)%nat -> is_derive (fun t => meanN n (bump c k0 t)) 0 (/ INR n).
Proof.
  intros H. unfold meanN.
  assert (E : forall t, / INR n * (sumN n c + t) = sumN n (bump c k0 t) / INR n)
    by (intros t; rewrite sumN_bump by exact H; unfold Rdiv; ring).
  apply (is_derive_ext (fun t => / INR n * (sumN n c + t))).
  - exact E.
  - assert (Hd : is_derive (fun t => / INR n * (sumN n c + t)) 0 (/ INR n * 1))
      by (apply is_derive_scal; auto_derive; [exact I|ring]).
    rewrite Rmult_1_r in Hd. exact Hd.
Qed.

(* ================================================================================= *)
(* 2. the rules                                                                       *)
(* ================================================================================= *)
Section VjpReduce.
Variables (thr : R) (draw : bool -> nat -> R).
Local Hint Extern 0 (Scalar R) => exact (R_scalar thr draw) : typeclass_instances.
Notation T := (tensor R).
Notation cstR := (@cst R (R_scalar thr draw)).

Lemma elt_some (t : T) idx : wf t -> validIdx (dims t) idx -> get (data t) idx = Some (elt t idx).
Proof. intros [Hw _] Hv. destruct (get_wf R _ _ _ Hw Hv) as (a & E). unfold elt. rewrite E. reflexivity. Qed.

(* ---- 0. the key forward lemma at the level of real assignments ---- *)
Theorem reducerBroadcasted_spec (gy xv : T) dim :
  wf gy -> wf xv -> (dim < length (dims xv))%nat -> dims gy = squeezeDims dim (dims xv) ->
  exists gb, reducerBroadcasted gy xv (Z.of_nat dim) = Ok gb /\ dims gb = dims xv /\ wf gb /\
    forall i, validIdx (dims xv) i -> elt gb i = elt gy (del dim i).
Proof.
  intros Hg Hx Hl Hd. destruct (reducerBroadcasted_get gy xv dim Hg Hx Hl Hd) as (gb & E & Hdb & Hwb & Hgb).
  exists gb. repeat (split; [assumption|]). intros i Hv. unfold elt. rewrite (Hgb i Hv). reflexivity.
Qed.

Lemma arun_elt (b : binary) (t u : T) dim :
  wf t -> wf u -> (dim < length (dims t))%nat -> dims u = squeezeDims dim (dims t) ->
  exists o r, v_unsqueeze u (Z.of_nat dim) = Ok o /\ v_arith b t o = Ok r /\ dims r = dims t /\ wf r /\
    forall i, validIdx (dims t) i -> elt r i = binaryF b (elt t i) (elt u (del dim i)).
Proof.
  intros Ht Hu Hl Hd. destruct (arith_unsq_get b t u dim Ht Hu Hl Hd) as (o & r & Eo & Er & Hdr & Hwr & Hgr).
  exists o, r. repeat (split; [assumption|]). intros i Hv.
  destruct (Hgr i Hv) as (a & c & Ea & Ec & Eg). unfold elt. rewrite Ea, Ec, Eg. reflexivity.
Qed.

(* the forward operation, element-wise: the list reducer applied to the fibre *)
Lemma along_elt (r : reducer) (xv : T) dim : wf xv -> (dim < length (dims xv))%nat ->
  exists yv, v_reduceAlong r xv (Z.of_nat dim) = Ok yv /\ dims yv = squeezeDims dim (dims xv) /\ wf yv /\
    forall j, validIdx (squeezeDims dim (dims xv)) j ->
      elt yv j = redL r (map (fib (elt xv) dim j) (seq 0 (nth dim (dims xv) 0%nat))).
Proof.
  intros Hw Hl. rewrite squeezeDims_del. exact (reduceAlong_repr thr draw r xv _ _ dim (repr_self xv Hw) Hl).
Qed.

Lemma along_y (r : reducer) (xv : T) ds dim f : (dim < length ds)%nat -> repr xv ds f ->
  yields (v_reduceAlong r xv (Z.of_nat dim)) (del dim ds)
         (fun j => redL r (map (fib f dim j) (seq 0 (nth dim ds 0%nat)))).
Proof. intros Hl Hx. exact (reduceAlong_repr thr draw r xv ds f dim Hx Hl). Qed.

(* the reduction-specific calls on operands that hold given assignments: shapes [ds] (operand)
   and [del dim ds] (reduced) *)
Lemma rb_y (gy xv : T) ds dim f fx : (dim < length ds)%nat -> repr gy (del dim ds) f -> repr xv ds fx ->
  yields (reducerBroadcasted gy xv (Z.of_nat dim)) ds (fun i => f (del dim i)).
Proof.
  intros Hl (Hd & Hw & Hf) (Hdx & Hwx & _). subst ds.
  destruct (reducerBroadcasted_spec gy xv dim Hw Hwx Hl) as (gb & E & Db & Wb & Gb).
  { rewrite squeezeDims_del. exact Hd. }
  exists gb. split; [exact E|]. split; [exact Db|]. split; [exact Wb|].
  intros i Hi. rewrite (Gb i Hi). apply Hf. apply vi_del, Hi.
Qed.

(* t (op) UnSqueeze(u, dim), followed by the rest [k] of the rule body *)
Lemma arun_bind (b : binary) (t u : T) ds dim f g k ds' f' :
  (dim < length ds)%nat -> repr t ds f -> repr u (del dim ds) g ->
  (forall r, repr r ds (fun i => binaryF b (f i) (g (del dim i))) -> yields (k r) ds' f') ->
  yields (dor o <- v_unsqueeze u (Z.of_nat dim); dor r <- v_arith b t o; k r) ds' f'.
Proof.
  intros Hl (Hd & Hw & Hf) (Hd' & Hw' & Hg) Hk. subst ds.
  destruct (arun_elt b t u dim Hw Hw' Hl) as (o & r & Eo & Er & Dr & Wr & Gr).
  { rewrite squeezeDims_del. exact Hd'. }
  rewrite Eo. cbn [res_bind]. rewrite Er. cbn [res_bind]. apply Hk.
  split; [exact Dr|]. split; [exact Wr|].
  intros i Hi. rewrite (Gr i Hi), (Hf i Hi), Hg by (apply vi_del, Hi). reflexivity.
Qed.

Implicit Types (rd : bred) (h : @heap R) (xv yv gy : T).

Ltac red_call := first [elem_call | lazymatch goal with
  | |- yields (reducerBroadcasted _ _ _) _ _ => eapply rb_y
  | |- yields (v_reduceAlong _ _ _) _ _ => eapply along_y
  end; eassumption].
Ltac run_red := repeat first [red_call | eapply arun_bind; [eassumption..|intros ? ?] | eapply yields_bind; [red_call|intros ? ?]].

(* ---------- SumAlong: g i = gy (del dim i) ---------- *)
Lemma rsum_eval rd h y x dim xv gy :
  valOf h x = Some xv -> gradOf h y = Some gy -> wf xv -> wf gy ->
  (dim < length (dims xv))%nat -> dims gy = squeezeDims dim (dims xv) ->
  exists g, eval_rule rd h (RSumAlong y x (Z.of_nat dim)) = Ok g /\ dims g = dims xv /\ wf g /\
    forall i, validIdx (dims xv) i -> elt g i = elt gy (del dim i).
Proof.
  intros Hx Hg Wx Wg Hl Ed. open_rule. exact (reducerBroadcasted_spec gy xv dim Wg Wx Hl Ed).
Qed.

Theorem vjp_sumAlong rd h y x dim xv gy :
  valOf h x = Some xv -> gradOf h y = Some gy -> wf xv -> wf gy ->
  (dim < length (dims xv))%nat -> dims gy = squeezeDims dim (dims xv) ->
  exists g, eval_rule rd h (RSumAlong y x (Z.of_nat dim)) = Ok g /\ dims g = dims xv /\ wf g /\
    is_vjp (dims xv) (squeezeDims dim (dims xv))
      (fun a j => Rsum (map (fun k => a (ins dim k j)) (seq 0 (nth dim (dims xv) 0%nat))))
      (elt xv) (elt gy) (elt g).
Proof.
  intros Hx Hg Wx Wg Hl Ed. eapply yields_vjp; [exact (rsum_eval rd h y x dim xv gy Hx Hg Wx Wg Hl Ed)|].
  apply (vjp_fibrewise (dims xv) dim (sumN (nth dim (dims xv) 0%nat)) (fun _ _ => 1)).
  - exact Hl.
  - apply sumN_ext.
  - intros j k0 _ Hk. apply d_sumN, Hk.
  - intros i _. cbn beta. ring.
Qed.

(* ---------- AvgAlong / MeanAlong: g i = gy (del dim i) / n ---------- *)
Lemma ravg_eval rd h y x dim xv gy :
  valOf h x = Some xv -> gradOf h y = Some gy -> wf xv -> wf gy ->
  (dim < length (dims xv))%nat -> dims gy = squeezeDims dim (dims xv) ->
  exists g, eval_rule rd h (RAvgAlong y x (Z.of_nat dim)) = Ok g /\ dims g = dims xv /\ wf g /\
    forall i, validIdx (dims xv) i -> elt g i = 1 / INR (nth dim (dims xv) 0%nat) * elt gy (del dim i).
Proof.
  intros Hx Hg Wx Wg Hl Ed. open_rule. rewrite squeezeDims_del in Ed.
  pose proof (repr_self xv Wx) as Rx. pose proof (repr_at gy _ Wg Ed) as Rg.
  unfold dimAt. rewrite Nat2Z.id. eapply yields_ext; [|run_red].
  intros i _. cbn beta. rewrite uF_scale. cbn [sdiv sofnat R_scalar]. rewrite cst_R, dec2R_1. reflexivity.
Qed.

Theorem vjp_avgAlong rd h y x dim xv gy :
  valOf h x = Some xv -> gradOf h y = Some gy -> wf xv -> wf gy ->
  (dim < length (dims xv))%nat -> dims gy = squeezeDims dim (dims xv) ->
  exists g, eval_rule rd h (RAvgAlong y x (Z.of_nat dim)) = Ok g /\ dims g = dims xv /\ wf g /\
    is_vjp (dims xv) (squeezeDims dim (dims xv))
      (fun a j => Rsum (map (fun k => a (ins dim k j)) (seq 0 (nth dim (dims xv) 0%nat)))
                  / INR (nth dim (dims xv) 0%nat))
      (elt xv) (elt gy) (elt g).
Proof.
  intros Hx Hg Wx Wg Hl Ed. eapply yields_vjp; [exact (ravg_eval rd h y x dim xv gy Hx Hg Wx Wg Hl Ed)|].
  apply (vjp_fibrewise (dims xv) dim (meanN (nth dim (dims xv) 0%nat)) (fun _ _ => / INR (nth dim (dims xv) 0%nat))).
  - exact Hl.
  - intros v w Hvw. unfold meanN. rewrite (sumN_ext _ v w Hvw). reflexivity.
  - intros j k0 _ Hk. apply d_meanN, Hk.
  - intros i _. cbn beta. unfold Rdiv. ring.
Qed.

Local Notation nOf xv dim := (nth dim (dims xv) 0%nat).

Lemma meanL_fib n (a : assignment) dim j :
  meanL (map (fib a dim j) (seq 0 n)) = meanN n (fib a dim j).
Proof.
  rewrite (mean_is_arithmetic_mean thr draw). rewrite map_length, seq_length. reflexivity.
Qed.

(* ---------- VarAlong, formula level ---------- *)
Lemma rvar_eval rd h y x dim xv gy :
  valOf h x = Some xv -> gradOf h y = Some gy -> wf xv -> wf gy ->
  (dim < length (dims xv))%nat -> dims gy = squeezeDims dim (dims xv) ->
  exists g, eval_rule rd h (RVarAlong y x (Z.of_nat dim)) = Ok g /\ dims g = dims xv /\ wf g /\
    forall i, validIdx (dims xv) i ->
      elt g i = if (nOf xv dim =? 1)%nat then 0
                else elt gy (del dim i) *
                     (2 / INR (nOf xv dim - 1) * (elt xv i - meanN (nOf xv dim) (fib (elt xv) dim (del dim i)))).
Proof.
  intros Hx Hg Wx Wg Hl Ed. open_rule. rewrite squeezeDims_del in Ed.
  pose proof (repr_self xv Wx) as Rx. pose proof (repr_at gy _ Wg Ed) as Rg.
  eapply yields_bind; [red_call|intros gb Rgb].
  unfold dimAt. rewrite Nat2Z.id. cbv zeta. destruct (nOf xv dim =? 1)%nat.
  - unfold toZeros. eapply yields_ext; [|run_red]. intros i _. cbn beta. rewrite uF_scale, sconst_R, dec2R_0. ring.
  - eapply yields_ext; [|run_red]. intros i _. cbn beta. cbn [redL]. rewrite meanL_fib.
    rewrite bF_mul, uF_scale, bF_sub. cbn [sdiv sofnat R_scalar]. rewrite cst_R, dec2R_2. reflexivity.
Qed.

(* ---------- StdAlong, formula level ---------- *)
Lemma rstd_eval rd h y x dim xv yv gy :
  valOf h x = Some xv -> valOf h y = Some yv -> gradOf h y = Some gy -> wf xv -> wf yv -> wf gy ->
  (dim < length (dims xv))%nat ->
  dims yv = squeezeDims dim (dims xv) -> dims gy = squeezeDims dim (dims xv) ->
  exists g, eval_rule rd h (RStdAlong y x (Z.of_nat dim)) = Ok g /\ dims g = dims xv /\ wf g /\
    forall i, validIdx (dims xv) i ->
      elt g i = if (nOf xv dim =? 1)%nat then 0
                else elt gy (del dim i) *
                     (1 / INR (nOf xv dim - 1) *
                      ((elt xv i - meanN (nOf xv dim) (fib (elt xv) dim (del dim i))) / elt yv (del dim i))).
Proof.
  intros Hx Hy Hg Wx Wy Wg Hl Edy Ed. open_rule. rewrite squeezeDims_del in Edy, Ed.
  pose proof (repr_self xv Wx) as Rx. pose proof (repr_at gy _ Wg Ed) as Rg. pose proof (repr_at yv _ Wy Edy) as Ry.
  eapply yields_bind; [red_call|intros gb Rgb].
  unfold dimAt. rewrite Nat2Z.id. cbv zeta. destruct (nOf xv dim =? 1)%nat.
  - unfold toZeros. eapply yields_ext; [|run_red]. intros i _. cbn beta. rewrite uF_scale, sconst_R, dec2R_0. ring.
  - eapply yields_ext; [|run_red]. intros i _. cbn beta. cbn [redL]. rewrite meanL_fib.
    rewrite bF_mul, uF_scale, bF_div, bF_sub. cbn [sdiv sofnat R_scalar]. rewrite cst_R, dec2R_1. reflexivity.
Qed.

(* ---------- MaxAlong / MinAlong, formula level: threshold equality with the broadcast output ---------- *)
Lemma rext_eval rd h y x dim xv yv gy :
  valOf h x = Some xv -> valOf h y = Some yv -> gradOf h y = Some gy -> wf xv -> wf yv -> wf gy ->
  (dim < length (dims xv))%nat ->
  dims yv = squeezeDims dim (dims xv) -> dims gy = squeezeDims dim (dims xv) ->
  exists g, eval_rule rd h (RExtAlong y x (Z.of_nat dim)) = Ok g /\ dims g = dims xv /\ wf g /\
    forall i, validIdx (dims xv) i ->
      elt g i = elt gy (del dim i) * eqt thr (elt xv i) (elt yv (del dim i)).
Proof.
  intros Hx Hy Hg Wx Wy Wg Hl Edy Ed. open_rule. rewrite squeezeDims_del in Edy, Ed.
  pose proof (repr_self xv Wx) as Rx. pose proof (repr_at gy _ Wg Ed) as Rg. pose proof (repr_at yv _ Wy Edy) as Ry.
  eapply yields_ext; [|run_red].
  intros i _. cbn beta. rewrite bF_mul, bF_eq. reflexivity.
Qed.

End VjpReduce.

(* ================================================================================= *)
(* 3. one-variable analysis of variance, standard deviation, maximum / minimum         *)
(* ================================================================================= *)

(* unbiased sample variance of the first n values of v (0 for a single value, as the library) *)
Definition varN (n : nat) (v : nat -> R) : R :=
  if (1 <? n)%nat
  then Rsum (map (fun k => (v k - meanN n v) * (v k - meanN n v)) (seq 0 n)) / (INR n - 1)
  else 0.

Lemma meanN_ext n v w : (forall k, v k = w k) -> meanN n v = meanN n w.
Proof. intros H. unfold meanN. rewrite (sumN_ext n v w H). reflexivity. Qed.

Lemma varN_ext n v w : (forall k, v k = w k) -> varN n v = varN n w.
Proof.
  intros H. unfold varN. rewrite (meanN_ext n v w H). destruct (1 <? n)%nat; [|reflexivity].
  f_equal. apply Rsum_ext_in. intros k _. rewrite (H k). reflexivity.
Qed.

Lemma meanN_bump n c k0 t : (k0 < n)%nat -> meanN n (bump c k0 t) = meanN n c + t / INR n.
Proof. intros H. unfold meanN. rewrite sumN_bump by exact H. unfold Rdiv. ring. Qed.

(* the deviations from the mean sum to zero *)
Lemma sum_dev_zero n c : (0 < n)%nat -> Rsum (map (fun k => c k - meanN n c) (seq 0 n)) = 0.
Proof.
  intros H. rewrite (Rsum_ext_in _ _ (fun k => 1 * c k + (-1) * meanN n c)) by (intros; ring).
  rewrite (Rsum_lin (seq 0 n) 1 (-1) c (fun _ => meanN n c)), Rsum_const, seq_length.
  unfold meanN, sumN. field. apply not_0_INR. lia.
Qed.

Lemma INR_minus1 n : (1 <= n)%nat -> INR (n - 1) = INR n - 1.
Proof. intros H. rewrite minus_INR by exact H. reflexivity. Qed.

(* d var / d x_k0 = 2 (x_k0 - mean) / (n - 1) *)
Lemma d_varN n c k0 : (k0 < n)%nat ->
  is_derive (fun t => varN n (bump c k0 t)) 0
            (if (1 <? n)%nat then 2 * (c k0 - meanN n c) / (INR n - 1) else 0).
Proof.
  intros H. unfold varN. destruct (1 <? n)%nat eqn:E1; [|apply (is_derive_const 0 0)].
  apply Nat.ltb_lt in E1.
  assert (Hn : INR n <> 0) by (apply not_0_INR; lia).
  assert (Hn1 : INR n - 1 <> 0) by (rewrite <- INR_minus1 by lia; apply not_0_INR; lia).
  set (m0 := meanN n c).
  pose (a := fun k : nat => c k - m0).
  pose (b := fun k : nat => (if (k =? k0)%nat then 1 else 0) - / INR n).
  pose (S := fun t : R => Rsum (map (fun k => (a k + b k * t) * (a k + b k * t)) (seq 0 n))).
  assert (Eq : forall t, / (INR n - 1) * S t =
     Rsum (map (fun k => (bump c k0 t k - meanN n (bump c k0 t)) * (bump c k0 t k - meanN n (bump c k0 t))) (seq 0 n))
     / (INR n - 1)).
  { intros t. unfold S, Rdiv. rewrite Rmult_comm. f_equal. apply Rsum_ext_in. intros k _.
    rewrite meanN_bump by exact H. fold m0. unfold a, b, bump.
    destruct (k =? k0)%nat; field; exact Hn. }
  apply (is_derive_ext (fun t => / (INR n - 1) * S t)); [exact Eq|].
  assert (HS : is_derive S 0 (Rsum (map (fun k => 2 * a k * b k) (seq 0 n)))).
  { unfold S. apply (is_derive_sum (seq 0 n) (fun k t => (a k + b k * t) * (a k + b k * t)) (fun k => 2 * a k * b k) 0).
    intros k _. auto_derive; [exact I|ring]. }
  assert (Es : Rsum (map (fun k => 2 * a k * b k) (seq 0 n)) = 2 * a k0).
  { rewrite (Rsum_ext_in _ _ (fun k => 1 * (if (k =? k0)%nat then 2 * a k else 0) + (- 2 / INR n) * a k)).
    - rewrite (Rsum_lin (seq 0 n) 1 (- 2 / INR n) (fun k => if (k =? k0)%nat then 2 * a k else 0) a).
      rewrite (Rsum_single n k0 (fun k => 2 * a k) H). unfold a at 2. unfold m0. rewrite sum_dev_zero by lia. ring.
    - intros k _. unfold b. destruct (k =? k0)%nat; field; exact Hn. }
  rewrite Es in HS.
  replace (2 * (c k0 - m0) / (INR n - 1)) with (/ (INR n - 1) * (2 * a k0)) by (unfold a, Rdiv; ring).
  apply is_derive_scal. exact HS.
Qed.

(* d sqrt(var) / d x_k0 = (x_k0 - mean) / ((n - 1) sqrt(var)),  where var > 0 *)
Lemma d_stdN n c k0 : (k0 < n)%nat -> ((1 < n)%nat -> 0 < varN n c) ->
  is_derive (fun t => sqrt (varN n (bump c k0 t))) 0
            (if (1 <? n)%nat then (c k0 - meanN n c) / ((INR n - 1) * sqrt (varN n c)) else 0).
Proof.
  intros H Hpos. pose proof (d_varN n c k0 H) as Hv. destruct (1 <? n)%nat eqn:E1.
  - apply Nat.ltb_lt in E1. specialize (Hpos E1).
    assert (Hn1 : INR n - 1 <> 0) by (rewrite <- INR_minus1 by lia; apply not_0_INR; lia).
    assert (E0 : varN n (bump c k0 0) = varN n c)
      by (apply varN_ext; intros k; unfold bump; destruct (k =? k0)%nat; ring).
    assert (Hs : is_derive sqrt (varN n (bump c k0 0)) (/ (2 * sqrt (varN n c)))).
    { rewrite E0. auto_derive; [exact Hpos|field]. apply Rgt_not_eq, sqrt_lt_R0, Hpos. }
    pose proof (is_derive_comp sqrt (fun t => varN n (bump c k0 t)) 0 _ _ Hs Hv) as Hc.
    unfold scal in Hc; cbn in Hc. unfold mult in Hc; cbn in Hc.
    replace ((c k0 - meanN n c) / ((INR n - 1) * sqrt (varN n c)))
      with (2 * (c k0 - meanN n c) / (INR n - 1) * / (2 * sqrt (varN n c))); [exact Hc|].
    field. split; [apply Rgt_not_eq, sqrt_lt_R0, Hpos|exact Hn1].
  - apply (is_derive_ext (fun _ => sqrt 0)); [|apply (is_derive_const (sqrt 0) 0)].
    intros t. unfold varN. rewrite E1. reflexivity.
Qed.

(* ---- maximum / minimum, order-theoretically: sg = 1 maximum, sg = -1 minimum ---- *)
Definition is_ext (sg : R) (n : nat) (M : (nat -> R) -> R) : Prop :=
  forall v, (forall k, (k < n)%nat -> sg * v k <= sg * M v) /\ (exists k, (k < n)%nat /\ M v = v k).

Definition is_maxN (n : nat) (M : (nat -> R) -> R) : Prop :=
  forall v, (forall k, (k < n)%nat -> v k <= M v) /\ (exists k, (k < n)%nat /\ M v = v k).
Definition is_minN (n : nat) (M : (nat -> R) -> R) : Prop :=
  forall v, (forall k, (k < n)%nat -> M v <= v k) /\ (exists k, (k < n)%nat /\ M v = v k).

Lemma is_maxN_ext n M : is_maxN n M -> is_ext 1 n M.
Proof. intros H v. destruct (H v) as [U A]. split; [|exact A]. intros k Hk. specialize (U k Hk). lra. Qed.
Lemma is_minN_ext n M : is_minN n M -> is_ext (-1) n M.
Proof. intros H v. destruct (H v) as [U A]. split; [|exact A]. intros k Hk. specialize (U k Hk). lra. Qed.

Lemma ext_fun_ext sg n M v w : sg = 1 \/ sg = -1 -> is_ext sg n M -> (forall k, v k = w k) -> M v = M w.
Proof.
  intros Hs HM Hvw. destruct (HM v) as [Uv (kv & Hkv & Ev)]. destruct (HM w) as [Uw (kw & Hkw & Ew)].
  assert (A1 : sg * M v <= sg * M w) by (rewrite Ev, (Hvw kv); apply Uw, Hkv).
  assert (A2 : sg * M w <= sg * M v) by (rewrite Ew, <- (Hvw kw); apply Uv, Hkw).
  destruct Hs as [-> | ->]; lra.
Qed.

(* a strict extremum at ks is the value *)
Lemma ext_unique sg n M v ks : is_ext sg n M -> (ks < n)%nat ->
  (forall k, (k < n)%nat -> k <> ks -> sg * v k < sg * v ks) -> M v = v ks.
Proof.
  intros HM Hks Hst. destruct (HM v) as [U (k' & Hk' & E)].
  destruct (Nat.eq_dec k' ks) as [->|N]; [exact E|].
  exfalso. pose proof (U ks Hks) as H1. pose proof (Hst k' Hk' N) as H2. rewrite E in H1. lra.
Qed.

(* any upper (lower) bound that is attained is the value of M *)
Lemma ext_value_unique sg n M v m : sg = 1 \/ sg = -1 -> is_ext sg n M ->
  (forall k, (k < n)%nat -> sg * v k <= sg * m) -> (exists k, (k < n)%nat /\ m = v k) -> m = M v.
Proof.
  intros Hs HM U (k & Hk & E). destruct (HM v) as [U' (k' & Hk' & E')].
  pose proof (U k' Hk') as A1. pose proof (U' k Hk) as A2. rewrite <- E in A2. rewrite <- E' in A1.
  destruct Hs as [-> | ->]; lra.
Qed.

Lemma min_gap n : forall f : nat -> R, (forall k, (k < n)%nat -> 0 < f k) ->
  exists e, 0 < e /\ forall k, (k < n)%nat -> e <= f k.
Proof.
  induction n as [|n IH]; intros f Hf.
  - exists 1. split; [lra|]. intros k Hk. lia.
  - destruct (IH f) as (e & He & Hle); [intros k Hk; apply Hf; lia|].
    exists (Rmin e (f n)). split; [apply Rmin_glb_lt; [exact He|apply Hf; lia]|].
    intros k Hk. destruct (Nat.eq_dec k n) as [->|N]; [apply Rmin_r|].
    apply Rle_trans with e; [apply Rmin_l|apply Hle; lia].
Qed.

(* with a unique strict extremum at ks the extremum is, locally, the coordinate ks *)
Lemma d_extN sg n M c k0 ks : sg = 1 \/ sg = -1 -> is_ext sg n M -> (k0 < n)%nat -> (ks < n)%nat ->
  (forall k, (k < n)%nat -> k <> ks -> sg * c k < sg * c ks) ->
  is_derive (fun t => M (bump c k0 t)) 0 (if (k0 =? ks)%nat then 1 else 0).
Proof.
  intros Hs HM Hk0 Hks Hst.
  destruct (min_gap n (fun k => if (k =? ks)%nat then 1 else sg * c ks - sg * c k)) as (e & He & Hle).
  { intros k Hk. destruct (Nat.eqb_spec k ks) as [E|E]; [lra|]. specialize (Hst k Hk E). lra. }
  assert (Hgap : forall k, (k < n)%nat -> k <> ks -> e <= sg * c ks - sg * c k).
  { intros k Hk N. specialize (Hle k Hk). destruct (Nat.eqb_spec k ks) as [E|E]; [contradiction|exact Hle]. }
  assert (Hloc : forall t, Rabs t < e -> M (bump c k0 t) = bump c k0 t ks).
  { intros t Ht. apply Rabs_def2 in Ht. apply (ext_unique sg n M _ ks HM Hks).
    intros k Hk N. specialize (Hgap k Hk N). unfold bump.
    destruct (Nat.eqb_spec k k0) as [E1|E1]; destruct (Nat.eqb_spec ks k0) as [E2|E2];
      try (exfalso; congruence); destruct Hs as [-> | ->]; lra. }
  destruct (Nat.eqb_spec k0 ks) as [E|E].
  - subst k0. apply (is_derive_near _ (fun t => c ks + t) 0 _ e He); [|auto_derive; [exact I|ring]].
    intros t Ht. rewrite Rminus_0_r in Ht. rewrite (Hloc t Ht). unfold bump. rewrite Nat.eqb_refl. reflexivity.
  - apply (is_derive_near _ (fun _ => c ks) 0 _ e He); [|apply (is_derive_const (c ks) 0)].
    intros t Ht. rewrite Rminus_0_r in Ht. rewrite (Hloc t Ht). unfold bump.
    destruct (Nat.eqb_spec ks k0) as [E2|E2]; [congruence|symmetry; apply Rplus_0_r].
Qed.

(* concrete witnesses: the maximum / minimum of the first n values (n >= 1) *)
Fixpoint maxN (n : nat) (v : nat -> R) : R :=
  match n with
  | O => v 0%nat
  | S m => match m with O => v 0%nat | S _ => Rmax (maxN m v) (v m) end
  end.
Definition minN (n : nat) (v : nat -> R) : R := - maxN n (fun k => - v k).

Lemma maxN_is_max n : (1 <= n)%nat -> is_maxN n (maxN n).
Proof.
  intros Hn v. destruct n as [|m]; [lia|]. clear Hn. induction m as [|m IH].
  - cbn [maxN]. split; [intros k Hk; replace k with 0%nat by lia; lra|exists 0%nat; split; [lia|reflexivity]].
  - destruct IH as [U (ka & Hka & Ea)].
    change (maxN (S (S m)) v) with (Rmax (maxN (S m) v) (v (S m))). split.
    + intros k Hk. destruct (Nat.eq_dec k (S m)) as [->|N]; [apply Rmax_r|].
      apply Rle_trans with (maxN (S m) v); [apply U; lia|apply Rmax_l].
    + destruct (Rmax_case (maxN (S m) v) (v (S m)) (fun r => r = maxN (S m) v \/ r = v (S m))) as [E|E];
        [left; reflexivity|right; reflexivity| |].
      * exists ka. split; [lia|]. rewrite E. exact Ea.
      * exists (S m). split; [lia|exact E].
Qed.

Lemma minN_is_min n : (1 <= n)%nat -> is_minN n (minN n).
Proof.
  intros Hn v. destruct (maxN_is_max n Hn (fun k => - v k)) as [U (ka & Hka & Ea)]. unfold minN. split.
  - intros k Hk. specialize (U k Hk). lra.
  - exists ka. split; [exact Hka|]. rewrite Ea. ring.
Qed.

(* ================================================================================= *)
(* 4. the analytic theorems for Var / Std / Max / Min, and the forward relation        *)
(* ================================================================================= *)
Section VjpReduceA.
Variables (thr : R) (draw : bool -> nat -> R).
Local Hint Extern 0 (Scalar R) => exact (R_scalar thr draw) : typeclass_instances.
Notation T := (tensor R).
Local Notation nOf xv dim := (nth dim (dims xv) 0%nat).
Implicit Types (rd : bred) (h : @heap R) (xv yv gy : T).

Lemma nOf_pos xv dim : wf xv -> (dim < length (dims xv))%nat -> (0 < nOf xv dim)%nat.
Proof. intros [_ Hp] Hl. apply (proj1 (Forall_nth _ _) Hp). exact Hl. Qed.

Lemma fib_self (a : assignment) dim ds i : validIdx ds i -> (dim < length ds)%nat ->
  fib a dim (del dim i) (nth dim i 0%nat) = a i.
Proof.
  intros Hv Hl. unfold fib. rewrite ins_del; [reflexivity|]. rewrite (validIdx_length _ _ Hv). exact Hl.
Qed.

Lemma varL_fib n (a : assignment) dim j : varL (map (fib a dim j) (seq 0 n)) = varN n (fib a dim j).
Proof.
  rewrite (var_is_unbiased_sample_variance thr draw). rewrite map_length, seq_length. unfold varN.
  destruct (1 <? n)%nat; [|reflexivity]. rewrite (meanL_fib thr draw), map_map. reflexivity.
Qed.

(* the forward values of the five arithmetic reductions, as the maps F differentiated below *)
Theorem forward_along (r : reducer) xv dim : wf xv -> (dim < length (dims xv))%nat ->
  exists yv, v_reduceAlong r xv (Z.of_nat dim) = Ok yv /\ dims yv = squeezeDims dim (dims xv) /\ wf yv /\
    forall j, validIdx (squeezeDims dim (dims xv)) j ->
      match r with
      | RdSum => elt yv j = Rsum (map (fun k => elt xv (ins dim k j)) (seq 0 (nOf xv dim)))
      | RdAvg | RdMean => elt yv j = Rsum (map (fun k => elt xv (ins dim k j)) (seq 0 (nOf xv dim))) / INR (nOf xv dim)
      | RdVar => elt yv j = varN (nOf xv dim) (fun k => elt xv (ins dim k j))
      | RdStd => elt yv j = sqrt (varN (nOf xv dim) (fun k => elt xv (ins dim k j)))
      | RdMax => elt yv j = maxL (map (fun k => elt xv (ins dim k j)) (seq 0 (nOf xv dim)))
      | RdMin => elt yv j = minL (map (fun k => elt xv (ins dim k j)) (seq 0 (nOf xv dim)))
      end.
Proof.
  intros Wx Hl. destruct (along_elt thr draw r xv dim Wx Hl) as (yv & E & D & W & G).
  exists yv. repeat (split; [assumption|]). intros j Hv. specialize (G j Hv).
  destruct r; cbn [redL] in G; rewrite G.
  - apply (sum_is_sum thr draw).
  - reflexivity.
  - reflexivity.
  - apply (meanL_fib thr draw).
  - apply varL_fib.
  - unfold stdL. rewrite varL_fib. reflexivity.
  - apply (meanL_fib thr draw).
Qed.

(* ---------- VarAlong: analytic ---------- *)
Theorem vjp_varAlong rd h y x dim xv gy :
  valOf h x = Some xv -> gradOf h y = Some gy -> wf xv -> wf gy ->
  (dim < length (dims xv))%nat -> dims gy = squeezeDims dim (dims xv) ->
  exists g, eval_rule rd h (RVarAlong y x (Z.of_nat dim)) = Ok g /\ dims g = dims xv /\ wf g /\
    is_vjp (dims xv) (squeezeDims dim (dims xv))
      (fun a j => varN (nOf xv dim) (fun k => a (ins dim k j)))
      (elt xv) (elt gy) (elt g).
Proof.
  intros Hx Hg Wx Wg Hl Ed. eapply yields_vjp; [exact (rvar_eval thr draw rd h y x dim xv gy Hx Hg Wx Wg Hl Ed)|].
  pose proof (nOf_pos xv dim Wx Hl) as Hn.
  apply (vjp_fibrewise (dims xv) dim (varN (nOf xv dim))
           (fun j k0 => if (1 <? nOf xv dim)%nat
                        then 2 * (fib (elt xv) dim j k0 - meanN (nOf xv dim) (fib (elt xv) dim j)) / (INR (nOf xv dim) - 1)
                        else 0)).
  - exact Hl.
  - apply varN_ext.
  - intros j k0 _ Hk. apply d_varN, Hk.
  - intros i Hv. cbn beta. rewrite (fib_self _ dim _ i Hv Hl).
    destruct (Nat.eqb_spec (nOf xv dim) 1) as [E1|E1]; destruct (Nat.ltb_spec 1 (nOf xv dim)) as [E2|E2]; try lia.
    + ring.
    + rewrite INR_minus1 by lia. field. rewrite <- INR_minus1 by lia. apply not_0_INR. lia.
Qed.

(* ---------- StdAlong: analytic, where every fibre has positive variance ---------- *)
Theorem vjp_stdAlong rd h y x dim xv yv gy :
  valOf h x = Some xv -> valOf h y = Some yv -> gradOf h y = Some gy -> wf xv -> wf yv -> wf gy ->
  (dim < length (dims xv))%nat ->
  dims yv = squeezeDims dim (dims xv) -> dims gy = squeezeDims dim (dims xv) ->
  (* the forward relation (see [forward_along RdStd]) *)
  (forall j, validIdx (squeezeDims dim (dims xv)) j ->
     elt yv j = sqrt (varN (nOf xv dim) (fun k => elt xv (ins dim k j)))) ->
  (* guard of differentiability *)
  ((1 < nOf xv dim)%nat -> forall j, validIdx (squeezeDims dim (dims xv)) j ->
     0 < varN (nOf xv dim) (fun k => elt xv (ins dim k j))) ->
  exists g, eval_rule rd h (RStdAlong y x (Z.of_nat dim)) = Ok g /\ dims g = dims xv /\ wf g /\
    is_vjp (dims xv) (squeezeDims dim (dims xv))
      (fun a j => sqrt (varN (nOf xv dim) (fun k => a (ins dim k j))))
      (elt xv) (elt gy) (elt g).
Proof.
  intros Hx Hy Hg Wx Wy Wg Hl Edy Ed Hfwd Hpos.
  eapply yields_vjp; [exact (rstd_eval thr draw rd h y x dim xv yv gy Hx Hy Hg Wx Wy Wg Hl Edy Ed)|].
  pose proof (nOf_pos xv dim Wx Hl) as Hn.
  apply (vjp_fibrewise (dims xv) dim (fun v => sqrt (varN (nOf xv dim) v))
           (fun j k0 => if (1 <? nOf xv dim)%nat
                        then (fib (elt xv) dim j k0 - meanN (nOf xv dim) (fib (elt xv) dim j))
                             / ((INR (nOf xv dim) - 1) * sqrt (varN (nOf xv dim) (fib (elt xv) dim j)))
                        else 0)).
  - exact Hl.
  - intros v w Hvw. rewrite (varN_ext _ v w Hvw). reflexivity.
  - intros j k0 Hj Hk. apply d_stdN; [exact Hk|]. intros H1. apply (Hpos H1 j Hj).
  - intros i Hv. cbn beta. rewrite (fib_self _ dim _ i Hv Hl).
    pose proof (vi_del dim _ _ Hv) as Hvd.
    destruct (Nat.eqb_spec (nOf xv dim) 1) as [E1|E1]; destruct (Nat.ltb_spec 1 (nOf xv dim)) as [E2|E2]; try lia.
    + ring.
    + rewrite (Hfwd _ Hvd). specialize (Hpos E2 _ Hvd). fold (fib (elt xv) dim (del dim i)) in *.
      rewrite INR_minus1 by lia. field. split.
      * apply Rgt_not_eq, sqrt_lt_R0, Hpos.
      * rewrite <- INR_minus1 by lia. apply not_0_INR. lia.
Qed.

(* ---------- MaxAlong / MinAlong: analytic, at a unique extremum separated by more than thr ---------- *)
Theorem vjp_extAlong (sg : R) (M : (nat -> R) -> R) rd h y x dim xv yv gy :
  sg = 1 \/ sg = -1 -> is_ext sg (nOf xv dim) M ->
  valOf h x = Some xv -> valOf h y = Some yv -> gradOf h y = Some gy -> wf xv -> wf yv -> wf gy ->
  (dim < length (dims xv))%nat ->
  dims yv = squeezeDims dim (dims xv) -> dims gy = squeezeDims dim (dims xv) ->
  0 <= thr ->
  (forall j, validIdx (squeezeDims dim (dims xv)) j -> elt yv j = M (fun k => elt xv (ins dim k j))) ->
  (forall j, validIdx (squeezeDims dim (dims xv)) j ->
     exists ks, (ks < nOf xv dim)%nat /\
       forall k, (k < nOf xv dim)%nat -> k <> ks ->
         thr < sg * (elt xv (ins dim ks j) - elt xv (ins dim k j))) ->
  exists g, eval_rule rd h (RExtAlong y x (Z.of_nat dim)) = Ok g /\ dims g = dims xv /\ wf g /\
    is_vjp (dims xv) (squeezeDims dim (dims xv))
      (fun a j => M (fun k => a (ins dim k j)))
      (elt xv) (elt gy) (elt g).
Proof.
  intros Hs HM Hx Hy Hg Wx Wy Wg Hl Edy Ed Hthr Hfwd Hguard.
  eapply yields_vjp; [exact (rext_eval thr draw rd h y x dim xv yv gy Hx Hy Hg Wx Wy Wg Hl Edy Ed)|].
  apply (vjp_fibrewise (dims xv) dim M
           (fun j k0 => eqt thr (fib (elt xv) dim j k0) (M (fib (elt xv) dim j)))).
  - exact Hl.
  - intros v w Hvw. apply (ext_fun_ext sg (nOf xv dim) M v w Hs HM Hvw).
  - intros j k0 Hj Hk. destruct (Hguard j Hj) as (ks & Hks & Hgap).
    set (c := fib (elt xv) dim j).
    assert (Hst : forall k, (k < nOf xv dim)%nat -> k <> ks -> sg * c k < sg * c ks).
    { intros k Hk' N. specialize (Hgap k Hk' N). unfold c, fib. destruct Hs as [-> | ->]; lra. }
    rewrite (ext_unique sg (nOf xv dim) M c ks HM Hks Hst).
    replace (eqt thr (c k0) (c ks)) with (if (k0 =? ks)%nat then 1 else 0);
      [apply (d_extN sg (nOf xv dim) M c k0 ks Hs HM Hk Hks Hst)|].
    destruct (Nat.eqb_spec k0 ks) as [E1|E1].
    + subst k0. symmetry. apply eqt_same, Hthr.
    + symmetry. apply eqt_far. specialize (Hgap k0 Hk E1). change (thr < sg * (c ks - c k0)) in Hgap.
      pose proof (Rle_abs (c k0 - c ks)) as A1. pose proof (Rle_abs (c ks - c k0)) as A2.
      rewrite (Rabs_minus_sym (c ks) (c k0)) in A2. destruct Hs as [-> | ->]; lra.
  - intros i Hv. cbn beta. rewrite (fib_self _ dim _ i Hv Hl).
    rewrite (Hfwd _ (vi_del dim _ _ Hv)). reflexivity.
Qed.

(* maximum and minimum, with the forward relation given order-theoretically: the stored output
   is a bound of its fibre that is attained (the real instance has no -Inf / +Inf, see RScalar.v) *)
Corollary vjp_maxAlong_ord (M : (nat -> R) -> R) rd h y x dim xv yv gy :
  is_maxN (nOf xv dim) M ->
  valOf h x = Some xv -> valOf h y = Some yv -> gradOf h y = Some gy -> wf xv -> wf yv -> wf gy ->
  (dim < length (dims xv))%nat ->
  dims yv = squeezeDims dim (dims xv) -> dims gy = squeezeDims dim (dims xv) ->
  0 <= thr ->
  (forall j, validIdx (squeezeDims dim (dims xv)) j ->
     (forall k, (k < nOf xv dim)%nat -> elt xv (ins dim k j) <= elt yv j) /\
     (exists k, (k < nOf xv dim)%nat /\ elt yv j = elt xv (ins dim k j))) ->
  (forall j, validIdx (squeezeDims dim (dims xv)) j ->
     exists ks, (ks < nOf xv dim)%nat /\
       forall k, (k < nOf xv dim)%nat -> k <> ks -> thr < elt xv (ins dim ks j) - elt xv (ins dim k j)) ->
  exists g, eval_rule rd h (RExtAlong y x (Z.of_nat dim)) = Ok g /\ dims g = dims xv /\ wf g /\
    is_vjp (dims xv) (squeezeDims dim (dims xv)) (fun a j => M (fun k => a (ins dim k j)))
      (elt xv) (elt gy) (elt g).
Proof.
  intros HM Hx Hy Hg Wx Wy Wg Hl Edy Ed Hthr Hord Hguard.
  apply (vjp_extAlong 1 M rd h y x dim xv yv gy (or_introl eq_refl) (is_maxN_ext _ _ HM)
           Hx Hy Hg Wx Wy Wg Hl Edy Ed Hthr).
  - intros j Hj. destruct (Hord j Hj) as [U A].
    apply (ext_value_unique 1 (nOf xv dim) M _ _ (or_introl eq_refl) (is_maxN_ext _ _ HM)); [|exact A].
    intros k Hk. specialize (U k Hk). lra.
  - intros j Hj. destruct (Hguard j Hj) as (ks & Hks & Hgap). exists ks. split; [exact Hks|].
    intros k Hk N. specialize (Hgap k Hk N). lra.
Qed.

Corollary vjp_minAlong_ord (M : (nat -> R) -> R) rd h y x dim xv yv gy :
  is_minN (nOf xv dim) M ->
  valOf h x = Some xv -> valOf h y = Some yv -> gradOf h y = Some gy -> wf xv -> wf yv -> wf gy ->
  (dim < length (dims xv))%nat ->
  dims yv = squeezeDims dim (dims xv) -> dims gy = squeezeDims dim (dims xv) ->
  0 <= thr ->
  (forall j, validIdx (squeezeDims dim (dims xv)) j ->
     (forall k, (k < nOf xv dim)%nat -> elt yv j <= elt xv (ins dim k j)) /\
     (exists k, (k < nOf xv dim)%nat /\ elt yv j = elt xv (ins dim k j))) ->
  (forall j, validIdx (squeezeDims dim (dims xv)) j ->
     exists ks, (ks < nOf xv dim)%nat /\
       forall k, (k < nOf xv dim)%nat -> k <> ks -> thr < elt xv (ins dim k j) - elt xv (ins dim ks j)) ->
  exists g, eval_rule rd h (RExtAlong y x (Z.of_nat dim)) = Ok g /\ dims g = dims xv /\ wf g /\
    is_vjp (dims xv) (squeezeDims dim (dims xv)) (fun a j => M (fun k => a (ins dim k j)))
      (elt xv) (elt gy) (elt g).
Proof.
  intros HM Hx Hy Hg Wx Wy Wg Hl Edy Ed Hthr Hord Hguard.
  apply (vjp_extAlong (-1) M rd h y x dim xv yv gy (or_intror eq_refl) (is_minN_ext _ _ HM)
           Hx Hy Hg Wx Wy Wg Hl Edy Ed Hthr).
  - intros j Hj. destruct (Hord j Hj) as [U A].
    apply (ext_value_unique (-1) (nOf xv dim) M _ _ (or_intror eq_refl) (is_minN_ext _ _ HM)); [|exact A].
    intros k Hk. specialize (U k Hk). lra.
  - intros j Hj. destruct (Hguard j Hj) as (ks & Hks & Hgap). exists ks. split; [exact Hks|].
    intros k Hk N. specialize (Hgap k Hk N). lra.
Qed.

(* the model's own forward MaxAlong / MinAlong satisfy that relation on fibres containing an element
   on the right side of the placeholder 0 that stands for -Inf / +Inf in the real instance *)
Theorem forward_max_nonneg xv dim : wf xv -> (dim < length (dims xv))%nat ->
  exists yv, v_reduceAlong RdMax xv (Z.of_nat dim) = Ok yv /\ dims yv = squeezeDims dim (dims xv) /\ wf yv /\
    forall j, validIdx (squeezeDims dim (dims xv)) j ->
      (exists k, (k < nOf xv dim)%nat /\ 0 <= elt xv (ins dim k j)) ->
      (forall k, (k < nOf xv dim)%nat -> elt xv (ins dim k j) <= elt yv j) /\
      (exists k, (k < nOf xv dim)%nat /\ elt yv j = elt xv (ins dim k j)).
Proof.
  intros Wx Hl. destruct (along_elt thr draw RdMax xv dim Wx Hl) as (yv & E & D & W & G).
  exists yv. repeat (split; [assumption|]). intros j Hv (k1 & Hk1 & Hpos). rewrite (G j Hv). cbn [redL].
  set (xs := map (fib (elt xv) dim j) (seq 0 (nOf xv dim))).
  pose proof (max_fold_upper_bound_attained xs 0) as H. cbv zeta in H.
  change (fold_left (fun a b : R => if Rgt_dec a b then a else b) xs 0) with (maxL xs) in H.
  destruct H as (H0 & Hub & Hat).
  assert (Hin : forall k, (k < nOf xv dim)%nat -> In (elt xv (ins dim k j)) xs).
  { intros k Hk. unfold xs. apply in_map_iff. exists k. split; [reflexivity|apply in_seq; lia]. }
  split; [intros k Hk; apply Hub, Hin, Hk|].
  destruct Hat as [Hz|Hi].
  - exists k1. split; [exact Hk1|]. pose proof (Hub _ (Hin k1 Hk1)) as A. lra.
  - unfold xs in Hi. apply in_map_iff in Hi as (k & Ek & Hk). apply in_seq in Hk.
    exists k. split; [lia|]. symmetry. exact Ek.
Qed.

Theorem forward_min_nonpos xv dim : wf xv -> (dim < length (dims xv))%nat ->
  exists yv, v_reduceAlong RdMin xv (Z.of_nat dim) = Ok yv /\ dims yv = squeezeDims dim (dims xv) /\ wf yv /\
    forall j, validIdx (squeezeDims dim (dims xv)) j ->
      (exists k, (k < nOf xv dim)%nat /\ elt xv (ins dim k j) <= 0) ->
      (forall k, (k < nOf xv dim)%nat -> elt yv j <= elt xv (ins dim k j)) /\
      (exists k, (k < nOf xv dim)%nat /\ elt yv j = elt xv (ins dim k j)).
Proof.
  intros Wx Hl. destruct (along_elt thr draw RdMin xv dim Wx Hl) as (yv & E & D & W & G).
  exists yv. repeat (split; [assumption|]). intros j Hv (k1 & Hk1 & Hneg). rewrite (G j Hv). cbn [redL].
  set (xs := map (fib (elt xv) dim j) (seq 0 (nOf xv dim))).
  pose proof (min_fold_lower_bound_attained xs 0) as H. cbv zeta in H.
  change (fold_left (fun a b : R => if Rlt_dec a b then a else b) xs 0) with (minL xs) in H.
  destruct H as (H0 & Hlb & Hat).
  assert (Hin : forall k, (k < nOf xv dim)%nat -> In (elt xv (ins dim k j)) xs).
  { intros k Hk. unfold xs. apply in_map_iff. exists k. split; [reflexivity|apply in_seq; lia]. }
  split; [intros k Hk; apply Hlb, Hin, Hk|].
  destruct Hat as [Hz|Hi].
  - exists k1. split; [exact Hk1|]. pose proof (Hlb _ (Hin k1 Hk1)) as A. lra.
  - unfold xs in Hi. apply in_map_iff in Hi as (k & Ek & Hk). apply in_seq in Hk.
    exists k. split; [lia|]. symmetry. exact Ek.
Qed.

End VjpReduceA.

(* ================================================================================= *)
(* 5. examples: the hypotheses are satisfiable, the conclusions non-trivial           *)
(* ================================================================================= *)
Module VjpReduceExamples.
Section Ex.
Variables (thr : R) (draw : bool -> nat -> R).
Local Hint Extern 0 (Scalar R) => exact (R_scalar thr draw) : typeclass_instances.

(* x = [[1 2 3] [4 5 9]], reduced along dimension 1; upstream gradient gy = [10 20] *)
Definition xv : tensor R := mkT [2%nat; 3%nat] (Vec [Vec [Sc 1; Sc 2; Sc 3]; Vec [Sc 4; Sc 5; Sc 9]]).
Definition gy : tensor R := mkT [2%nat] (Vec [Sc 10; Sc 20]).

Lemma wf_xv : wf xv.  Proof. split; cbn; repeat constructor. Qed.
Lemma wf_v2 (a b : R) : wf (mkT [2%nat] (Vec [Sc a; Sc b])).  Proof. split; cbn; repeat constructor. Qed.
Lemma dim_ok : (1 < length (dims xv))%nat.  Proof. cbn. lia. Qed.

Lemma valid2 idx : validIdx [2%nat] idx -> idx = [0%nat] \/ idx = [1%nat].
Proof. exact (VjpElemExamples.valid2 idx). Qed.

(* the tracked call  y := SumAlong(x, 1)  on a tracked leaf builds the back edge RSumAlong 1 0 1 *)
Definition h0 : @heap R := fst (leaf [] xv true None).
Example h_sumAlong : exists yv,
  h_reduceAlong h0 RdSum 0 1%Z None =
    ([mkNode xv true false None [] None; mkNode yv true false None [(0%nat, RSumAlong 1 0 1%Z)] None], Ok 1%nat)
  /\ dims yv = [2%nat] /\ elt yv [1%nat] = 0 + 4 + 5 + 9.
Proof. eexists. split; [vm_compute; reflexivity|]. split; reflexivity. Qed.

Definition ySum : tensor R := mkT [2%nat] (Vec [Sc 6; Sc 18]).
Definition hS : @heap R :=
  [mkNode xv true false None [] None; mkNode ySum true false (Some gy) [(0%nat, RSumAlong 1 0 1%Z)] None].

Example sum_ex rd : exists g, eval_rule rd hS (RSumAlong 1 0 1%Z) = Ok g /\ dims g = [2%nat; 3%nat] /\ wf g /\
  elt g [0%nat; 2%nat] = 10 /\ elt g [1%nat; 0%nat] = 20 /\
  is_vjp [2%nat; 3%nat] [2%nat]
    (fun a j => Rsum (map (fun k => a (ins 1 k j)) (seq 0 3))) (elt xv) (elt gy) (elt g).
Proof.
  destruct (rsum_eval thr draw rd hS 1 0 1 xv gy eq_refl eq_refl wf_xv (wf_v2 _ _) dim_ok eq_refl)
    as (g & E & D & W & G).
  destruct (vjp_sumAlong thr draw rd hS 1 0 1 xv gy eq_refl eq_refl wf_xv (wf_v2 _ _) dim_ok eq_refl)
    as (g' & E' & _ & _ & V).
  assert (g' = g) by congruence. subst g'.
  exists g. split; [exact E|]. split; [exact D|]. split; [exact W|].
  split; [|split; [|exact V]]; rewrite G by (repeat constructor); reflexivity.
Qed.

(* VarAlong: the gradient at [1;2] is 20 * (2/2) * (9 - 6) = 60 *)
Definition yVar : tensor R := mkT [2%nat] (Vec [Sc 1; Sc 7]).
Definition hV : @heap R :=
  [mkNode xv true false None [] None; mkNode yVar true false (Some gy) [(0%nat, RVarAlong 1 0 1%Z)] None].

Example var_ex rd : exists g, eval_rule rd hV (RVarAlong 1 0 1%Z) = Ok g /\ dims g = [2%nat; 3%nat] /\ wf g /\
  elt g [1%nat; 2%nat] = 60 /\
  is_vjp [2%nat; 3%nat] [2%nat]
    (fun a j => varN 3 (fun k => a (ins 1 k j))) (elt xv) (elt gy) (elt g).
Proof.
  destruct (rvar_eval thr draw rd hV 1 0 1 xv gy eq_refl eq_refl wf_xv (wf_v2 _ _) dim_ok eq_refl)
    as (g & E & D & W & G).
  destruct (vjp_varAlong thr draw rd hV 1 0 1 xv gy eq_refl eq_refl wf_xv (wf_v2 _ _) dim_ok eq_refl)
    as (g' & E' & _ & _ & V).
  assert (g' = g) by congruence. subst g'.
  exists g. split; [exact E|]. split; [exact D|]. split; [exact W|]. split; [|exact V].
  rewrite G by (repeat constructor). unfold meanN, sumN, Rsum, fib, elt. cbn. field.
Qed.
End Ex.

(* MaxAlong with threshold 0: y = [3 9], unique maxima at position 2 of both fibres;
   the gradient is gy at the arg-max and 0 elsewhere *)
Section ExMax.
Variable draw : bool -> nat -> R.
Definition yMax : tensor R := mkT [2%nat] (Vec [Sc 3; Sc 9]).
Definition hM : @heap R :=
  [mkNode xv true false None [] None; mkNode yMax true false (Some gy) [(0%nat, RExtAlong 1 0 1%Z)] None].

Example max_ex rd : exists g, eval_rule (SA:=R_scalar 0 draw) rd hM (RExtAlong 1 0 1%Z) = Ok g /\
  dims g = [2%nat; 3%nat] /\ wf g /\
  is_vjp [2%nat; 3%nat] [2%nat] (fun a j => maxN 3 (fun k => a (ins 1 k j))) (elt xv) (elt gy) (elt g).
Proof.
  apply (vjp_extAlong 0 draw 1 (maxN 3) rd hM 1 0 1 xv yMax gy (or_introl eq_refl)
           (is_maxN_ext _ _ (maxN_is_max 3 ltac:(lia)))
           eq_refl eq_refl eq_refl wf_xv (wf_v2 _ _) (wf_v2 _ _) dim_ok eq_refl eq_refl (Rle_refl 0)).
  - intros j Hj. destruct (valid2 j Hj) as [-> | ->]; unfold elt, maxN; cbn;
      unfold Rmax; repeat destruct (Rle_dec _ _); lra.
  - intros j Hj. exists 2%nat. split; [cbn; lia|]. intros k Hk N. cbn in Hk.
    destruct (valid2 j Hj) as [-> | ->]; destruct k as [|[|[|k]]]; try lia; unfold elt; cbn; lra.
Qed.
End ExMax.
End VjpReduceExamples.

Print Assumptions reducerBroadcasted_get.
Print Assumptions arith_unsq_get.
Print Assumptions reducerBroadcasted_spec.
Print Assumptions vjp_fibrewise.
Print Assumptions forward_along.
Print Assumptions rsum_eval.
Print Assumptions vjp_sumAlong.
Print Assumptions ravg_eval.
Print Assumptions vjp_avgAlong.
Print Assumptions rvar_eval.
Print Assumptions vjp_varAlong.
Print Assumptions rstd_eval.
Print Assumptions vjp_stdAlong.
Print Assumptions rext_eval.
Print Assumptions vjp_extAlong.
Print Assumptions vjp_maxAlong_ord.
Print Assumptions vjp_minAlong_ord.
Print Assumptions forward_max_nonneg.
Print Assumptions forward_min_nonpos.
Print Assumptions maxN_is_max.
Print Assumptions minN_is_min.
