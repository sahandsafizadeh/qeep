(* ScalarDeriv.v — derivatives of the scalar functions behind the differentiable operations
   (Coquelicot [is_derive]).  The backward rules of gradients.go use them in this form, except
   [d_inv_pow], [d_sigm] and [d_relu_pos]/[d_relu_neg], which no rule uses: the library's Sigmoid
   and ReLU layers are composed from other tensor operations. *)
From Coq Require Import Reals Lra Lia ZArith.
From Coquelicot Require Import Coquelicot.
From Qeep Require Import Model.Scalar Spec.RScalar.
Open Scope R_scope.

Lemma cosh_pos x : 0 < cosh x.
Proof. unfold cosh. pose proof (exp_pos x). pose proof (exp_pos (- x)). lra. Qed.

Lemma cosh2_sinh2 x : cosh x * cosh x - sinh x * sinh x = 1.
Proof.
  unfold cosh, sinh. replace ((exp x + exp (- x)) / 2 * ((exp x + exp (- x)) / 2) -
    (exp x - exp (- x)) / 2 * ((exp x - exp (- x)) / 2)) with (exp x * exp (- x)) by field.
  rewrite <- exp_plus. replace (x + - x) with 0 by ring. apply exp_0.
Qed.

(* a function that agrees with [g] within distance [e] of [a] has the derivative of [g] at [a] *)
Lemma is_derive_near (f g : R -> R) a d e :
  0 < e -> (forall v, Rabs (v - a) < e -> g v = f v) -> is_derive g a d -> is_derive f a d.
Proof.
  intros He H Hg. apply (is_derive_ext_loc g); [|exact Hg].
  exists (mkposreal e He). intros v Hv. apply H. exact Hv.
Qed.

Lemma d_exp x : is_derive exp x (exp x).
Proof. auto_derive; [exact I|ring]. Qed.

Lemma d_ln x : 0 < x -> is_derive ln x (/ x).
Proof. intros H. auto_derive; [exact H|field; lra]. Qed.

Lemma d_sin x : is_derive sin x (cos x).
Proof. auto_derive; [exact I|ring]. Qed.

Lemma d_cos x : is_derive cos x (- sin x).
Proof. auto_derive; [exact I|ring]. Qed.

Lemma d_tan x : cos x <> 0 -> is_derive tan x (/ (cos x) ^ 2).
Proof.
  intros H. unfold tan. auto_derive; [exact H|].
  pose proof (sin2_cos2 x) as E. unfold Rsqr in E.
  replace (/ cos x ^ 2) with ((sin x * sin x + cos x * cos x) / (cos x * cos x)) by (rewrite E; field; exact H).
  field. exact H.
Qed.

Lemma d_sinh x : is_derive sinh x (cosh x).
Proof. unfold sinh, cosh. auto_derive; [exact I|field]. Qed.

Lemma d_cosh x : is_derive cosh x (sinh x).
Proof. unfold sinh, cosh. auto_derive; [exact I|field]. Qed.

Lemma d_tanh x : is_derive tanh x (/ (cosh x) ^ 2).
Proof.
  unfold tanh.
  assert (Hc : cosh x <> 0) by (pose proof (cosh_pos x); lra).
  replace (/ cosh x ^ 2) with ((cosh x * cosh x - sinh x * sinh x) / (cosh x ^ 2))
    by (rewrite cosh2_sinh2; field; exact Hc).
  apply (is_derive_div sinh cosh x (cosh x) (sinh x)); [apply d_sinh|apply d_cosh|exact Hc].
Qed.

(* x^a for x > 0, any real exponent: a * x^(a-1) *)
Lemma d_Rpower x a : 0 < x -> is_derive (fun x => Rpower x a) x (a * Rpower x (a - 1)).
Proof.
  intros H. unfold Rpower. auto_derive; [exact H|].
  replace ((a - 1) * ln x) with (a * ln x + - ln x) by ring.
  rewrite exp_plus, exp_Ropp, exp_ln by exact H. field. lra.
Qed.

(* natural-number exponents at every x (including 0): n * x^(n-1) *)
Lemma d_pow_nat x n : is_derive (fun x => x ^ n) x (INR n * x ^ (pred n)).
Proof. auto_derive; [exact I|ring]. Qed.

(* negative integer exponents away from 0 *)
Lemma d_inv_pow x n : x <> 0 -> is_derive (fun x => / x ^ n) x (- INR n * / x ^ (S n)).
Proof.
  intros H. auto_derive; [apply pow_nonzero; exact H|].
  destruct n as [|n].
  - cbn. field. exact H.
  - cbn [Init.Nat.pred]. rewrite <- !tech_pow_Rmult. field. split; [apply pow_nonzero; exact H|exact H].
Qed.

(* scale, and the binary arithmetic operations in each argument *)
Lemma d_scale a x : is_derive (fun x => a * x) x a.
Proof. auto_derive; [exact I|ring]. Qed.
Lemma d_add_l b x : is_derive (fun x => x + b) x 1.
Proof. auto_derive; [exact I|ring]. Qed.
Lemma d_add_r a x : is_derive (fun x => a + x) x 1.
Proof. auto_derive; [exact I|ring]. Qed.
Lemma d_sub_l b x : is_derive (fun x => x - b) x 1.
Proof. auto_derive; [exact I|ring]. Qed.
Lemma d_sub_r a x : is_derive (fun x => a - x) x (-1).
Proof. auto_derive; [exact I|ring]. Qed.
Lemma d_mul_l b x : is_derive (fun x => x * b) x b.
Proof. auto_derive; [exact I|ring]. Qed.
Lemma d_mul_r a x : is_derive (fun x => a * x) x a.
Proof. auto_derive; [exact I|ring]. Qed.
Lemma d_div_l b x : b <> 0 -> is_derive (fun x => x / b) x (/ b).
Proof. intros H. auto_derive; [exact I|field; exact H]. Qed.
Lemma d_div_r a x : x <> 0 -> is_derive (fun x => a / x) x (- a / x ^ 2).
Proof. intros H. auto_derive; [exact H|field; exact H]. Qed.

(* logistic function as Sigmoid computes it: (1 + e^(-x))^(-1) *)
Definition sigm (x : R) : R := / (1 + exp (- x)).
Lemma d_sigm x : is_derive sigm x (sigm x * (1 - sigm x)).
Proof.
  unfold sigm. pose proof (exp_pos (- x)) as He.
  auto_derive; [lra|]. field. lra.
Qed.

(* max(0,x) and min(0,x) away from 0 *)
Lemma d_relu_pos x : 0 < x -> is_derive (fun x => Rmax 0 x) x 1.
Proof.
  intros H. apply (is_derive_near _ (fun x => x) x 1 x H); [|auto_derive; [exact I|ring]].
  intros y Hy. apply Rabs_def2 in Hy. rewrite Rmax_right; lra.
Qed.
Lemma d_relu_neg x : x < 0 -> is_derive (fun x => Rmax 0 x) x 0.
Proof.
  intros H. apply (is_derive_near _ (fun _ => 0) x 0 (- x)); [lra| |auto_derive; [exact I|ring]].
  intros y Hy. apply Rabs_def2 in Hy. rewrite Rmax_left; lra.
Qed.
