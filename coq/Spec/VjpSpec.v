(* VjpSpec.v — what "the backward rule is the vector-Jacobian product" means (C02, C07).
   A tensor of reals of shape [ds] is read as the assignment  idx |-> element  (an index
   function); an operation is a map F between such assignments.  [is_partial F x i j d]:
   d is the partial derivative of output element j with respect to input element i at x
   (one-variable derivative along the i-th coordinate line, Coquelicot [is_derive]).
   [is_vjp dsx dsy F x gy g]: for every input position i,  g i = Σ_j gy j * ∂F_j/∂x_i (x). *)
From Coq Require Import List Arith Bool Lia Reals Lra FinFun.
From Coquelicot Require Import Coquelicot.
From Qeep Require Import Model.Nd Proofs.NdP.
Import ListNotations.
Local Open Scope nat_scope.

(* all valid multi-indices of a shape, in row-major order *)
Fixpoint allIdx (ds : list nat) : list (list nat) :=
  match ds with
  | [] => [[]]
  | d :: r => flat_map (fun i => map (cons i) (allIdx r)) (seq 0 d)
  end.

Lemma allIdx_spec ds : forall idx, In idx (allIdx ds) <-> validIdx ds idx.
Proof.
  induction ds as [|d ds IH]; intros idx; cbn.
  - rewrite validIdx_nil. split; [intros [H|[]]; auto|intros ->; left; reflexivity].
  - rewrite in_flat_map, validIdx_cons. split.
    + intros (i & Hi & Hm). apply in_seq in Hi. apply in_map_iff in Hm as (r & <- & Hr).
      exists i, r. split; [reflexivity|]. split; [lia|apply IH; exact Hr].
    + intros (i & r & -> & Hi & Hr). exists i. split; [apply in_seq; lia|].
      apply in_map. apply IH; exact Hr.
Qed.

Lemma NoDup_app_intro {T} (l1 l2 : list T) :
  NoDup l1 -> NoDup l2 -> (forall x, In x l1 -> In x l2 -> False) -> NoDup (l1 ++ l2).
Proof.
  induction l1 as [|a l1 IH]; intros H1 H2 Hd; cbn; [exact H2|].
  inversion H1 as [|? ? Hna H1']; subst. constructor.
  - intros Hin. apply in_app_or in Hin as [Hin|Hin]; [contradiction|]. apply (Hd a); [left; reflexivity|exact Hin].
  - apply IH; [exact H1'|exact H2|]. intros x Hx Hy. apply (Hd x); [right; exact Hx|exact Hy].
Qed.

Lemma allIdx_NoDup ds : NoDup (allIdx ds).
Proof.
  induction ds as [|d ds IH]; cbn; [constructor; [intros []|constructor]|].
  assert (H : forall n s, NoDup (flat_map (fun i => map (cons i) (allIdx ds)) (seq s n))).
  { induction n as [|n IHn]; intros s; cbn; [constructor|].
    apply NoDup_app_intro.
    - apply FinFun.Injective_map_NoDup; [intros a b E; congruence|exact IH].
    - apply IHn.
    - intros x Hx Hy. apply in_map_iff in Hx as (r & <- & _).
      apply in_flat_map in Hy as (j & Hj & Hm). apply in_seq in Hj.
      apply in_map_iff in Hm as (r' & E & _). inversion E. lia. }
  apply H.
Qed.

Local Open Scope R_scope.

Definition sumIdx (ds : list nat) (f : list nat -> R) : R := fold_right Rplus 0 (map f (allIdx ds)).

(* Every finite sum of the development unfolds to [fold_right Rplus 0 (map f l)]; its algebra
   is stated on that form. *)
Lemma sum_ext_in {X} (l : list X) (f g : X -> R) :
  (forall x, In x l -> f x = g x) -> fold_right Rplus 0 (map f l) = fold_right Rplus 0 (map g l).
Proof. intros H. f_equal. apply map_ext_in, H. Qed.

Lemma sum_zero {X} (l : list X) : fold_right Rplus 0 (map (fun _ => 0) l) = 0.
Proof. induction l as [|a l IH]; cbn; [reflexivity|rewrite IH; ring]. Qed.

Lemma sum_plus {X} (l : list X) (f g : X -> R) :
  fold_right Rplus 0 (map (fun x => f x + g x) l) = fold_right Rplus 0 (map f l) + fold_right Rplus 0 (map g l).
Proof. induction l as [|a l IH]; cbn; [ring|rewrite IH; ring]. Qed.

Lemma sum_scal {X} (l : list X) c (f : X -> R) :
  fold_right Rplus 0 (map (fun x => c * f x) l) = c * fold_right Rplus 0 (map f l).
Proof. induction l as [|a l IH]; cbn; [ring|rewrite IH; ring]. Qed.

Lemma sum_app {X} (l1 l2 : list X) (f : X -> R) :
  fold_right Rplus 0 (map f (l1 ++ l2)) = fold_right Rplus 0 (map f l1) + fold_right Rplus 0 (map f l2).
Proof. induction l1 as [|a l1 IH]; cbn; [ring|rewrite IH; ring]. Qed.

(* Σ_x [x = a] * f x = f a, for any decidable equality given as a boolean test *)
Lemma sum_single {X} (eqb : X -> X -> bool) (eqb_eq : forall x y, eqb x y = true <-> x = y)
      (l : list X) (a : X) (f : X -> R) :
  NoDup l -> In a l -> fold_right Rplus 0 (map (fun x => if eqb x a then f x else 0) l) = f a.
Proof.
  induction l as [|b l IH]; intros Hnd Hin; [destruct Hin|].
  inversion Hnd as [|? ? Hnb Hnd']; subst. cbn. destruct Hin as [->|Hin].
  - rewrite (proj2 (eqb_eq a a) eq_refl).
    rewrite (sum_ext_in l _ (fun _ => 0)); [rewrite sum_zero; ring|].
    intros x Hx. destruct (eqb x a) eqn:Ex; [|reflexivity]. apply eqb_eq in Ex; subst. contradiction.
  - destruct (eqb b a) eqn:Eb; [apply eqb_eq in Eb; subst; contradiction|].
    rewrite IH by assumption. ring.
Qed.

Lemma is_derive_sum {X} (l : list X) (f : X -> R -> R) (d : X -> R) t0 :
  (forall k, In k l -> is_derive (f k) t0 (d k)) ->
  is_derive (fun t => fold_right Rplus 0 (map (fun k => f k t) l)) t0 (fold_right Rplus 0 (map d l)).
Proof.
  induction l as [|a l IH]; intros H; cbn [map fold_right].
  - apply (is_derive_const 0 t0).
  - apply (is_derive_plus (f a) (fun t => fold_right Rplus 0 (map (fun k => f k t) l)) t0 (d a)).
    + apply H. left. reflexivity.
    + apply IH. intros k Hk. apply H. right. exact Hk.
Qed.

Lemma sumIdx_ext ds f g : (forall idx, validIdx ds idx -> f idx = g idx) -> sumIdx ds f = sumIdx ds g.
Proof. intros H. apply sum_ext_in. intros x Hx. apply H. apply allIdx_spec; exact Hx. Qed.

Lemma sumIdx_plus ds f g : sumIdx ds (fun i => f i + g i) = sumIdx ds f + sumIdx ds g.
Proof. apply sum_plus. Qed.

Lemma sumIdx_scal ds c f : sumIdx ds (fun i => c * f i) = c * sumIdx ds f.
Proof. apply sum_scal. Qed.

Definition idx_eqb (a b : list nat) : bool := if list_eq_dec Nat.eq_dec a b then true else false.
Lemma idx_eqb_eq a b : idx_eqb a b = true <-> a = b.
Proof. unfold idx_eqb. destruct (list_eq_dec Nat.eq_dec a b); split; congruence. Qed.

Lemma sumIdx_single ds i f : validIdx ds i -> sumIdx ds (fun j => if idx_eqb j i then f j else 0) = f i.
Proof. intros H. apply (sum_single idx_eqb idx_eqb_eq); [apply allIdx_NoDup|apply allIdx_spec; exact H]. Qed.

Definition assignment := list nat -> R.

Definition perturb (x : assignment) (i : list nat) (t : R) : assignment :=
  fun k => if idx_eqb k i then x k + t else x k.

Lemma perturb_0 x i : forall k, perturb x i 0 k = x k.
Proof. intros k. unfold perturb. destruct (idx_eqb k i); ring. Qed.

Definition is_partial (F : assignment -> assignment) (x : assignment) (i j : list nat) (d : R) : Prop :=
  is_derive (fun t => F (perturb x i t) j) 0 d.

Definition is_vjp (dsx dsy : list nat) (F : assignment -> assignment) (x gy g : assignment) : Prop :=
  forall i, validIdx dsx i ->
    exists D : assignment,
      (forall j, validIdx dsy j -> is_partial F x i j (D j)) /\
      g i = sumIdx dsy (fun j => gy j * D j).

Lemma perturb_delta x i t k : perturb x i t k = x k + (if idx_eqb k i then t else 0).
Proof. unfold perturb. destruct (idx_eqb k i); ring. Qed.

(* the forward map only matters on the valid output positions, the gradient on the valid input positions *)
Lemma is_vjp_ext_valid dsx dsy (F G : assignment -> assignment) x gy g :
  (forall a j, validIdx dsy j -> F a j = G a j) -> is_vjp dsx dsy F x gy g -> is_vjp dsx dsy G x gy g.
Proof.
  intros E H i Hi. destruct (H i Hi) as (D & HD & Hg). exists D. split; [|exact Hg].
  intros j Hj. unfold is_partial. apply (is_derive_ext (fun t => F (perturb x i t) j)).
  - intros t. apply E. exact Hj.
  - apply HD. exact Hj.
Qed.

Lemma is_vjp_ext_g dsx dsy F x gy (g g' : assignment) :
  (forall i, validIdx dsx i -> g' i = g i) -> is_vjp dsx dsy F x gy g -> is_vjp dsx dsy F x gy g'.
Proof.
  intros E H i Hi. destruct (H i Hi) as (D & HD & Hg). exists D. split; [exact HD|]. rewrite (E i Hi). exact Hg.
Qed.

(* partial derivatives are unique, so a map has at most one vector-Jacobian product *)
Lemma is_vjp_unique dsx dsy F x gy g g' :
  is_vjp dsx dsy F x gy g -> is_vjp dsx dsy F x gy g' -> forall i, validIdx dsx i -> g i = g' i.
Proof.
  intros H H' i Hi. destruct (H i Hi) as (D & HD & ->). destruct (H' i Hi) as (D' & HD' & ->).
  apply sumIdx_ext. intros j Hj. f_equal.
  rewrite <- (is_derive_unique _ _ _ (HD j Hj)), <- (is_derive_unique _ _ _ (HD' j Hj)). reflexivity.
Qed.

(* reading a tensor of reals as an assignment, and back *)
Definition elt (t : tensor R) : assignment := fun idx => match get (data t) idx with Some v => v | None => 0 end.
Definition ofFun (ds : list nat) (f : assignment) : tensor R := mkT ds (tab ds f).

Lemma elt_ofFun ds f idx : validIdx ds idx -> elt (ofFun ds f) idx = f idx.
Proof. intros H. unfold elt, ofFun; cbn. rewrite get_tab by exact H. reflexivity. Qed.

Lemma ofFun_wf ds f : List.Forall (fun d : nat => lt 0 d) ds -> wf (ofFun ds f).
Proof. intros H. split; [apply wfnd_tab|exact H]. Qed.

Lemma ofFun_elt (t : tensor R) : wfnd (dims t) (data t) -> ofFun (dims t) (elt t) = t.
Proof.
  intros H. destruct t as [ds x]; cbn in *. unfold ofFun, elt; cbn. f_equal.
  symmetry. apply (tab_get R ds 0). exact H.
Qed.

(* [repr t ds f]: the tensor [t] is well formed, has shape [ds] and holds the assignment [f];
   [yields c ds f]: the computation [c] succeeds with such a tensor.  The evaluation lemmas of the
   backward rules ([r..._eval]) are statements of this form, written out. *)
Definition repr (t : tensor R) (ds : list nat) (f : assignment) : Prop :=
  dims t = ds /\ wf t /\ forall i, validIdx ds i -> elt t i = f i.
Definition yields (c : res (tensor R)) (ds : list nat) (f : assignment) : Prop :=
  exists g, c = Ok g /\ repr g ds f.

Lemma repr_self (t : tensor R) : wf t -> repr t (dims t) (elt t).
Proof. intros H. split; [reflexivity|]. split; [exact H|]. reflexivity. Qed.

Lemma repr_at (t : tensor R) ds : wf t -> dims t = ds -> repr t ds (elt t).
Proof. intros H <-. apply repr_self, H. Qed.

Lemma repr_ext (t : tensor R) ds f f' : (forall i, validIdx ds i -> f i = f' i) -> repr t ds f -> repr t ds f'.
Proof. intros E (Hd & Hw & Hg). split; [exact Hd|]. split; [exact Hw|]. intros i Hi. rewrite (Hg i Hi). apply E, Hi. Qed.

Lemma yields_ext c ds f f' : (forall i, validIdx ds i -> f i = f' i) -> yields c ds f -> yields c ds f'.
Proof. intros E (g & Eg & Hr). exists g. split; [exact Eg|]. apply (repr_ext g ds f f' E Hr). Qed.

Lemma yields_bind c k ds f ds' f' :
  yields c ds f -> (forall t, repr t ds f -> yields (k t) ds' f') -> yields (res_bind c k) ds' f'.
Proof. intros (g & -> & Hr) Hk. apply Hk, Hr. Qed.

(* from "the rule computes the assignment G" and "G is the vector-Jacobian product" (a statement
   about assignments only) to the form in which the theorems about the rules are stated *)
Lemma yields_vjp c dsx dsy F x gy G :
  yields c dsx G -> is_vjp dsx dsy F x gy G ->
  exists g, c = Ok g /\ dims g = dsx /\ wf g /\ is_vjp dsx dsy F x gy (elt g).
Proof.
  intros (g & E & Hd & Hw & Hg) V. exists g. split; [exact E|]. split; [exact Hd|]. split; [exact Hw|].
  apply (is_vjp_ext_g _ _ _ _ _ G); assumption.
Qed.
